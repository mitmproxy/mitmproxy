(* Props/C21.v -- SOCKS5 handshakes are parsed exactly and relay subsequent data.
   Statements only; each is closed by [exact] of a theorem of Proofs/Socks5*.v, by a line or two instantiating
   more general lemmas proved there, or, for the concrete instances, by evaluating the model.
   [run c segs] is the model of Socks5Proxy fed Start and one DataReceived per element
   of segs; its result is (phase with the unparsed buffer, observables): bytes sent to
   the client, server address, OpenConnection issued, client closed, credentials shown
   to the socks5_auth hook, bytes handed to the child layer.
   c : cfg quantifies over proxyauth on/off, every hook verdict function, eager/lazy
   and the OpenConnection result. *)
From Coq Require Import List Bool Arith NArith.
From MV Require Import Base.Bytes Model.Socks5 Model.Socks5Sched Proofs.Socks5Seg Proofs.Socks5Exact Proofs.Socks5Main Proofs.Socks5Inv Proofs.Socks5Sched.
Import ListNotations.

(* 1. The outcome does not depend on the segmentation: every splitting of a byte
      stream (empty segments included) ends in exactly the state of the unsplit stream. *)
Theorem C21_segmentation : forall (c : cfg) (segs : list bytes),
  run c segs = run c [concat segs].
Proof. exact segmentation_independent. Qed.
Print Assumptions C21_segmentation.

Theorem C21_same_stream_same_outcome : forall (c : cfg) (segs1 segs2 : list bytes),
  concat segs1 = concat segs2 -> run c segs1 = run c segs2.
Proof. intros c segs1 segs2 H. rewrite (segmentation_independent c segs1), (segmentation_independent c segs2), H. reflexivity. Qed.
Print Assumptions C21_same_stream_same_outcome.

(* 2. Acceptance decodes exactly: after a completed negotiation (method reply pre, and
      the RFC 1929 exchange when proxyauth is on), a CONNECT request for an IPv4, IPv6
      or domain address a and port hi:lo, followed by any trailing bytes, however split,
      gives: destination (host_of a, hi*256+lo); reply pre ++ 05 00 00 01 00 00 00 00 00 00;
      not closed; the child receives exactly the trailing bytes (once, in order).
      If connection_strategy is eager and the connection fails: reply 05 04 .., closed,
      nothing for the child.  host_of: dotted decimal for IPv4, the 16 raw bytes for
      IPv6, decode(ascii, replace) of the name for domains. *)
Theorem C21_accept_exact : forall (c : cfg) (segs : list bytes) (neg pre : bytes) cr (a : addr)
    (hi lo : byte) (trailing : bytes),
  negotiated c neg pre cr -> addr_wf a ->
  concat segs = neg ++ enc_request a hi lo ++ trailing ->
  run c segs = accepted_state c pre cr a hi lo trailing.
Proof. exact accept_exact. Qed.
Print Assumptions C21_accept_exact.

(* 3. Converse: nothing else is accepted.  If the layer relays, or has chosen a
      destination at all, the stream is negotiation ++ CONNECT request ++ trailing. *)
Theorem C21_accepted_only_wellformed : forall (c : cfg) (segs : list bytes),
  reached (run c segs) ->
  exists neg pre cr a hi lo trailing,
    negotiated c neg pre cr /\ addr_wf a /\
    concat segs = neg ++ enc_request a hi lo ++ trailing /\
    run c segs = accepted_state c pre cr a hi lo trailing.
Proof. exact accepted_only_wellformed. Qed.
Print Assumptions C21_accepted_only_wellformed.

(* 4. Rejections: closed, no destination, nothing for the child, and the reply the
      code supplies (none for a foreign version; method FF; 01 01 for bad credentials;
      REP 07 for a bad VER/CMD/RSV; REP 08 for an unknown ATYP). *)
Theorem C21_reject_version : forall (c : cfg) (segs : list bytes) (v n : byte) (rest : bytes),
  concat segs = v :: n :: rest -> v <> x05 -> run c segs = rejected_state [] None.
Proof. intros c segs v n rest Hs Hv. rewrite run_stream, Hs, greet_reject_version by exact Hv. reflexivity. Qed.
Print Assumptions C21_reject_version.

Theorem C21_reject_methods : forall (c : cfg) (segs : list bytes) (methods rest : bytes),
  concat segs = enc_greeting methods ++ rest -> length methods <= 255 ->
  ~ In (required c) methods ->
  run c segs = rejected_state ([x05; xff] ++ REPLY_TAIL) None.
Proof. intros c segs methods rest Hs Hl Hin. rewrite run_stream, Hs, greet_reject_methods by assumption. reflexivity. Qed.
Print Assumptions C21_reject_methods.

Theorem C21_reject_auth : forall (c : cfg) (segs : list bytes) (methods : bytes) (ver : byte) (u p rest : bytes),
  proxyauth c = true -> length methods <= 255 -> In x02 methods ->
  length u <= 255 -> length p <= 255 -> authok c u p = false ->
  concat segs = enc_greeting methods ++ enc_auth ver u p ++ rest ->
  run c segs = rejected_state [x05; x02; x01; x01] (Some (u, p)).
Proof.
  intros c segs methods ver u p rest Hpa Hl Hin Hu Hp Hok Hs.
  rewrite run_stream, Hs, greet_auth_step by assumption. cbv zeta. rewrite Hok. reflexivity.
Qed.
Print Assumptions C21_reject_auth.

Theorem C21_reject_command : forall (c : cfg) (segs : list bytes) (neg pre : bytes) cr
    (b0 b1 b2 b3 b4 : byte) (rest : bytes),
  negotiated c neg pre cr -> [b0; b1; b2] <> [x05; x01; x00] ->
  concat segs = neg ++ b0 :: b1 :: b2 :: b3 :: b4 :: rest ->
  run c segs = rejected_state (pre ++ [x05; x07] ++ REPLY_TAIL) cr.
Proof.
  intros c segs neg pre cr b0 b1 b2 b3 b4 rest Hn Hh Hs.
  rewrite run_stream, Hs, (negotiated_greet _ _ _ _ _ Hn), connect_reject_header by exact Hh. reflexivity.
Qed.
Print Assumptions C21_reject_command.

Theorem C21_reject_atyp : forall (c : cfg) (segs : list bytes) (neg pre : bytes) cr (atyp b4 : byte) (rest : bytes),
  negotiated c neg pre cr -> atyp <> x01 -> atyp <> x03 -> atyp <> x04 ->
  concat segs = neg ++ x05 :: x01 :: x00 :: atyp :: b4 :: rest ->
  run c segs = rejected_state (pre ++ [x05; x08] ++ REPLY_TAIL) cr.
Proof.
  intros c segs neg pre cr atyp b4 rest Hn H1 H3 H4 Hs.
  rewrite run_stream, Hs, (negotiated_greet _ _ _ _ _ Hn), connect_reject_atyp by assumption. reflexivity.
Qed.
Print Assumptions C21_reject_atyp.

(* 5. For every input and segmentation: no exception path, nothing reaches the child
      and no destination exists while the handshake is incomplete, nothing reaches the
      child once closed. *)
Theorem C21_state_invariant : forall (c : cfg) (segs : list bytes), wf_state (run c segs).
Proof. exact run_wf. Qed.
Print Assumptions C21_state_invariant.

Theorem C21_never_crashes : forall (c : cfg) (segs : list bytes), fst (run c segs) <> Crashed.
Proof. intros c segs E. pose proof (run_wf c segs) as H. unfold wf_state in H. rewrite E in H. exact H. Qed.
Print Assumptions C21_never_crashes.

(* 6. Text forms.  IPv4: the dotted text determines the four bytes. *)
Theorem C21_ipv4_text_injective : forall a b c d a' b' c' d' : byte,
  dotted a b c d = dotted a' b' c' d' -> (a, b, c, d) = (a', b', c', d').
Proof. exact dotted_injective. Qed.
Print Assumptions C21_ipv4_text_injective.

(* Domain names.  The full statement -- the destination host is exactly the requested
   name -- is FALSE of the faithful model: a name with a byte >= 0x80 is accepted and
   connected to with U+FFFD substituted (finding domain-non-ascii-replaced). *)
Theorem C21_domain_exact_refuted :
  exists (segs : list bytes) (name : bytes) (hi lo : byte) (o : obs),
    length name <= 255 /\
    concat segs = enc_greeting [x00] ++ enc_request (ADom name) hi lo /\
    run cfg0 segs = (Relay, o) /\
    dest o <> Some (HText name, u16be hi lo).
Proof.
  exists [[x05; x01; x00; x05; x01]; [x00; x03; x01; x80; x00; x50]], [x80], x00, x50. eexists.
  split; [apply Nat.leb_le; reflexivity|]. split; [reflexivity|]. split; [vm_compute; reflexivity|discriminate].
Qed.
Print Assumptions C21_domain_exact_refuted.

Theorem C21_domain_collapse_refuted :
  exists (n1 n2 : bytes), n1 <> n2 /\
    run cfg0 [enc_greeting [x00] ++ enc_request (ADom n1) x00 x50]
    = run cfg0 [enc_greeting [x00] ++ enc_request (ADom n2) x00 x50].
Proof. exists [x80], [x81]. split; [discriminate | vm_compute; reflexivity]. Qed.
Print Assumptions C21_domain_collapse_refuted.

(* The guard all_ascii is exactly the complement of the finding. *)
Theorem C21_domain_exact_partial : forall (c : cfg) (segs : list bytes) (neg pre : bytes) cr
    (name : bytes) (hi lo : byte) (trailing : bytes),
  negotiated c neg pre cr -> length name <= 255 -> all_ascii name ->
  concat segs = neg ++ enc_request (ADom name) hi lo ++ trailing ->
  dest (snd (run c segs)) = Some (HText name, u16be hi lo).
Proof. exact domain_exact_partial. Qed.
Print Assumptions C21_domain_exact_partial.

(* 7. The hypotheses are satisfiable on a non-trivial instance: proxyauth on, eager,
      credentials u / pw, CONNECT a.b:443 split in five segments, trailing GET. *)
Theorem C21_nonvacuous :
  negotiated cfg_auth (enc_greeting [x00; x02] ++ enc_auth x01 [x75] [x70; x77])
             [x05; x02; x01; x00] (Some ([x75], [x70; x77]))
  /\ addr_wf (ADom [x61; x2e; x62])
  /\ run cfg_auth [[x05; x02; x00]; [x02; x01; x01; x75; x02; x70]; [x77; x05; x01; x00; x03; x03; x61; x2e];
                   [x62; x01; xbb; x47; x45]; [x54]]
     = (Relay, mkObs ([x05; x02; x01; x00] ++ REPLY_SUCCESS) (Some (HText [x61; x2e; x62], 443%N)) true false
                     (Some ([x75], [x70; x77])) [x47; x45; x54]).
Proof.
  split; [apply neg_auth; try (apply Nat.leb_le; reflexivity); cbn; auto|].
  split; [apply Nat.leb_le; reflexivity|vm_compute; reflexivity].
Qed.
Print Assumptions C21_nonvacuous.

(* 8. Schedules (layer.py Layer.handle_event / __continue): the socks5_auth hook and
      OpenConnection may complete late, after any number of further client segments were
      queued behind the pause.  run_sched c evs executes the pause / queue / replay
      machinery over the event list evs (client segments and completions in any order).
      As long as completions are only delivered for pending commands, the state obtained
      by answering what is still pending and replaying the queue (flush) -- and, once
      nothing is pending, the state itself -- is the state of the plain model on the
      unsplit stream.  So replies, close, destination and the bytes relayed to the child
      do not depend on when hooks complete. *)
Theorem C21_schedule_independent : forall (c : cfg) (evs : list ev),
  run_sched c evs <> LBad ->
  flush c (run_sched c evs) = run c [concat (data_of evs)].
Proof. exact schedule_independent. Qed.
Print Assumptions C21_schedule_independent.

Theorem C21_schedule_independent_settled : forall (c : cfg) (evs : list ev) (s : st),
  run_sched c evs = LRun s -> s = run c [concat (data_of evs)].
Proof. intros c evs s H. rewrite <- (schedule_independent c evs), H; [reflexivity|rewrite H; discriminate]. Qed.
Print Assumptions C21_schedule_independent_settled.

(* answering every command at once is Model/Socks5.v: the cut generators lose nothing *)
Theorem C21_prompt_completion_is_plain_model : forall (c : cfg) (s : st) (d : bytes),
  settle c (handle_data_r c s d) = handle_data c s d.
Proof. exact handle_data_r_settle. Qed.
Print Assumptions C21_prompt_completion_is_plain_model.

(* non-vacuous: the CONNECT request and two payload segments queued behind the auth
   hook, one more behind OpenConnection; paused state and final state computed *)
Theorem C21_schedule_nonvacuous :
  run_sched cfg_sched (firstn 5 sched_example)
    = LPaused (SAuth [x01; x01; x75; x01; x70] [x75] [x70]
                     (mkObs [x05; x02] None false false (Some ([x75], [x70])) []))
              [[x05; x01; x00; x01; x7f; x00; x00; x01; x00; x50]; [x47; x45]; [x54]]
  /\ run_sched cfg_sched sched_example
    = LRun (Relay, mkObs ([x05; x02; x01; x00] ++ REPLY_SUCCESS)
                         (Some (HText [x31; x32; x37; x2e; x30; x2e; x30; x2e; x31], 80%N)) true false
                         (Some ([x75], [x70])) [x47; x45; x54; x20]).
Proof. split; vm_compute; reflexivity. Qed.
Print Assumptions C21_schedule_nonvacuous.
