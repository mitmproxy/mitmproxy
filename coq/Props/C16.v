(* Props/C16.v -- Generated leaf certificates are valid for the identity the client asked for.
   Statements; each is closed by a lemma of Proofs/LeafCertC16.v or Proofs/LeafCertCtxC16.v, by instantiating
   one in a line or two, or, for a concrete witness, by evaluation.
   issue idna off exp guard crit ca serial now_local r  is the model of tls_start_client -> TlsConfig.get_cert ->
   CertStore.get_cert -> dummy_cert on a store without custom certificates (Model/LeafCert.v), for every idna
   codec behaviour on non-ASCII text, every validity constants off/exp, both forms of the upstream-CN
   conversion (guard = wrapped in try/except ValueError) and both forms of the SAN criticality expression
   (crit = critical exactly when the subject is empty; otherwise critical when there is no common name).  x509_ok is the strict verifier of
   Model/LeafCertSpec.v.  The _source theorems instantiate the constants read from the tree (Gen/LeafCertConst.v). *)
From Coq Require Import String.
From Coq Require Import List Bool NArith ZArith.
From MV Require Import Base.Bytes Model.LeafCert Model.LeafCertSpec Gen.LeafCertConst Proofs.LeafCertC16.
From MV Require Model.LeafCertCtx Proofs.LeafCertCtxC16.
Import ListNotations.

(* Whenever a certificate is served, it verifies under the strict verifier -- chain to the CA, AKI/SKI, validity at
   the time of issue, serverAuth, strict SAN rules, and name match -- for the identity the client asked for (SNI, or
   the local address without SNI; DNS name incl. wildcard-looking and IDN A-label, or IP literal), for every local
   clock offset tz the validity constants allow, with and without CN fallback in the verifier. *)
Theorem C16_verifies : forall idna off exp guard crit issuer serial now tz r c cs g,
  issue idna off exp guard crit issuer serial (now + tz) r = Ok c ->
  (off + tz <= 0)%Z -> (0 <= off + exp + tz)%Z ->
  ca_ok issuer now = true ->
  ip_or_dns_name idna (requested r) = Ok g -> target_clean g = true ->
  x509_ok cs issuer c now (target_of g) = true.
Proof. exact verifies. Qed.
Print Assumptions C16_verifies.

(* The constants of the tree: the window contains the time of issue for every local clock within a day of UTC
   (datetime.now() is naive local time and is written into the certificate as if it were UTC). *)
Theorem C16_validity_source : forall tz : Z,
  (-86400 <= tz <= 86400)%Z ->
  (VALIDITY_OFFSET + tz <= 0)%Z /\ (0 <= VALIDITY_OFFSET + CERT_EXPIRY + tz)%Z.
Proof. exact validity_source. Qed.
Print Assumptions C16_validity_source.

Theorem C16_verifies_source : forall idna issuer serial now tz r c cs g,
  issue idna VALIDITY_OFFSET CERT_EXPIRY CN_GUARDED SAN_CRIT_BY_SUBJECT issuer serial (now + tz) r = Ok c ->
  (-86400 <= tz <= 86400)%Z ->
  ca_ok issuer now = true ->
  ip_or_dns_name idna (requested r) = Ok g -> target_clean g = true ->
  x509_ok cs issuer c now (target_of g) = true.
Proof.
  intros idna issuer serial now tz r c cs g Hi Htz. destruct (validity_source tz Htz). eapply verifies; eassumption.
Qed.
Print Assumptions C16_verifies_source.

(* Every SAN of the served certificate is (the encoding of) the conversion of the requested name, of the server
   address, of the upstream CN, or an upstream SAN; the CN is the text of one of those SANs. *)
Theorem C16_names_allowed : forall idna off exp guard crit issuer serial now r c,
  issue idna off exp guard crit issuer serial now r = Ok c ->
  (forall g, In g (c_sans c) -> exists g0, g = wire_gname g0 /\ allowed idna r g0)
  /\ (forall v, c_cn c = Some v ->
        exists g0, In (wire_gname g0) (c_sans c) /\ allowed idna r g0 /\ v = str_value g0).
Proof.
  intros idna off exp guard crit issuer serial now r c. unfold issue.
  destruct (issue_on idna off exp guard crit issuer serial now [] r) as [[st' c']|e] eqn:E; [|discriminate].
  intros [= <-]. apply served_from_any_store in E as [_ E]; [exact E | intros k c0 []].
Qed.
Print Assumptions C16_names_allowed.

(* The same for a store with any history of earlier generated certificates (cache hits included). *)
Theorem C16_names_allowed_any_store : forall idna off exp guard crit issuer serial now st r st' c,
  store_wf st ->
  issue_on idna off exp guard crit issuer serial now st r = Ok (st', c) ->
  store_wf st'
  /\ (forall g, In g (c_sans c) -> exists g0, g = wire_gname g0 /\ allowed idna r g0)
  /\ (forall v, c_cn c = Some v ->
        exists g0, In (wire_gname g0) (c_sans c) /\ allowed idna r g0 /\ v = str_value g0).
Proof. exact served_from_any_store. Qed.
Print Assumptions C16_names_allowed_any_store.

(* Issued and signed by the CA, usable for server authentication, non-empty SAN that is critical when the
   subject is empty, AKI equal to the SKI of the CA, validity = local now + offset .. + expiry. *)
Theorem C16_issued_by_ca : forall idna off exp guard crit issuer serial now r c,
  issue idna off exp guard crit issuer serial now r = Ok c ->
  c_issuer c = ca_subject issuer /\ c_signer c = ca_key issuer
  /\ In EKU_SERVER_AUTH (c_eku c)
  /\ c_sans c <> []
  /\ (has_subject c = false -> c_san_critical c = true)
  /\ (forall s, ca_ski issuer = Some s -> c_aki c = s)
  /\ c_nb c = (now + off)%Z /\ c_na c = (now + off + exp)%Z.
Proof. exact issued_by_ca. Qed.
Print Assumptions C16_issued_by_ca.

(* RFC 5280 4.2.1.6 in both directions (subjectAltName critical exactly when the subject is empty; strict validators
   such as the one in `cryptography` reject a critical SAN next to a non-empty subject).  FALSE for crit = false
   (critical = no CN): a name of 64+ characters with an upstream organization -- finding
   san-critical-with-nonempty-subject; the tree has crit = true (Gen/LeafCertConst.v, SAN_CRIT_BY_SUBJECT). *)
Theorem C16_san_criticality_refuted :
  exists c, issue no_idna VALIDITY_OFFSET CERT_EXPIRY false false ca0 5 0 long_name_org_req = Ok c
            /\ has_subject c = true /\ c_san_critical c = true.
Proof. eexists. repeat split; vm_compute; reflexivity. Qed.
Print Assumptions C16_san_criticality_refuted.

(* ... and true for crit = true (critical = not subject), whose complement is the finding; the direction
   that strict OpenSSL enforces (empty subject -> critical) holds for both and is part of C16_issued_by_ca/C16_verifies. *)
Theorem C16_san_criticality_partial : forall idna off exp guard crit issuer serial now r c,
  crit = true ->
  issue idna off exp guard crit issuer serial now r = Ok c ->
  c_san_critical c = negb (has_subject c).
Proof. exact san_criticality. Qed.
Print Assumptions C16_san_criticality_partial.

(* A certificate IS served whenever the requested name and the server address are names (IP literal or
   IDNA-encodable) ... full statement: for every upstream certificate.  This is FALSE for the unguarded
   conversion (guard = false): finding upstream-cn-not-a-hostname; the tree guards it (CN_GUARDED). *)
Theorem C16_issues_refuted :
  exists r,
    encodable no_idna (requested r)
    /\ (forall a, r_addr r = Some a -> encodable no_idna a)
    /\ issue no_idna VALIDITY_OFFSET CERT_EXPIRY false false ca0 5 0 r = Err EIdna.
Proof.
  exists long_cn_req. split; [eexists; vm_compute; reflexivity|]. split; [|vm_compute; reflexivity].
  intros a [= <-]. eexists. vm_compute. reflexivity.
Qed.
Print Assumptions C16_issues_refuted.

(* ... and true under the guard that is exactly the complement of the finding: the upstream CN, when it is used,
   converts (upstream_cn_ok), or the conversion is guarded (guard = true).  The remaining hypothesis is the
   known finding upstream-empty-first-san (first name empty -> NameAttribute raises) and an ASCII CRL URL. *)
Theorem C16_issues_partial : forall idna off exp guard crit issuer serial now r,
  encodable idna (requested r) -> (forall a, r_addr r = Some a -> encodable idna a) ->
  (guard = true \/ upstream_cn_ok idna r) ->
  (forall n, get_cert_names idna guard serial r = Ok n ->
     n_cn n <> Some [] /\ (forall u, n_crl n = Some u -> is_ascii u = true)) ->
  exists c, issue idna off exp guard crit issuer serial now r = Ok c.
Proof. exact issues. Qed.
Print Assumptions C16_issues_partial.

(* the input of the refutation is served once the conversion is guarded *)
Theorem C16_issues_repaired_witness :
  exists c, issue no_idna VALIDITY_OFFSET CERT_EXPIRY true false ca0 5 0 long_cn_req = Ok c
            /\ c_sans c = [GDNS (B "example.com")].
Proof. eexists. split; vm_compute; reflexivity. Qed.
Print Assumptions C16_issues_repaired_witness.

(* the verifier specification accepts a name for itself (wildcard-looking names included) and nothing is hidden
   in it: see also the negative verdicts of C16_nonvacuous *)
Theorem C16_name_match_reflexive : forall h, has_nul h = false -> equal_wildcard h h = true.
Proof. exact equal_wildcard_refl. Qed.
Print Assumptions C16_name_match_reflexive.

(* a wildcard-looking SNI with an upstream certificate (CN, wildcard/IP SANs, organization, CRL), scoped IPv6 server
   address, clock one hour ahead: the exact certificate, accepted for the SNI and a label under it, rejected for two
   labels, the bare suffix, a foreign IP and after expiry. *)
Theorem C16_nonvacuous :
  issue no_idna (-172800) 17193600 false false ca0 5 3600 sample_req = Ok sample_cert
  /\ x509_ok false ca0 sample_cert 0 (THost (B "*.example.com")) = true
  /\ x509_ok false ca0 sample_cert 0 (THost (B "www.example.com")) = true
  /\ x509_ok false ca0 sample_cert 0 (THost (B "a.b.example.com")) = false
  /\ x509_ok false ca0 sample_cert 0 (THost (B "example.com")) = false
  /\ x509_ok true ca0 sample_cert 0 (TIP [x01; x02; x03; x04]) = true
  /\ x509_ok true ca0 sample_cert 0 (TIP [x01; x02; x03; x05]) = false
  /\ x509_ok false ca0 sample_cert (17193600 - 172800 + 3601) (THost (B "up.example")) = false.
Proof. repeat split; vm_compute; reflexivity. Qed.
Print Assumptions C16_nonvacuous.

(* What is PRESENTED over histories with cert-store reloads (Model/LeafCertCtx.v): the leaf comes from the current
   store, the rest of the chain from the lru_cached SSL.Context keyed by (settings, chain_file path, dhparams object).
   For every history of CA-file rewrites, reloads, handshakes and cache evictions in which clients connect only while
   the CA file is the one the store was loaded from, every handshake presents the chain of the CA that issued the leaf,
   PROVIDED each reload gets a fresh dhparams object (the only key component that changes on reload). *)
Theorem C16_presented_chain_fresh : forall ops,
  (forall x, In x (LeafCertCtx.run false LeafCertCtx.init ops) -> LeafCertCtx.synced x = true) ->
  forall x, In x (LeafCertCtx.run false LeafCertCtx.init ops) -> LeafCertCtx.complete x = true.
Proof. exact LeafCertCtxC16.presented_chain_fresh. Qed.
Print Assumptions C16_presented_chain_fresh.

(* the tree satisfies the proviso (DH_SHARED is read from the decorators of CertStore.load_dhparam) *)
Theorem C16_presented_chain_source : forall ops,
  (forall x, In x (LeafCertCtx.run DH_SHARED LeafCertCtx.init ops) -> LeafCertCtx.synced x = true) ->
  forall x, In x (LeafCertCtx.run DH_SHARED LeafCertCtx.init ops) -> LeafCertCtx.complete x = true.
Proof. exact LeafCertCtxC16.presented_chain_fresh. Qed.
Print Assumptions C16_presented_chain_source.

(* the proviso is needed: with one dhparams object per path, rotate-in-place + reload presents the old chain *)
Theorem C16_presented_chain_shared_dh_refuted :
  LeafCertCtx.run true LeafCertCtx.init LeafCertCtxC16.rotation
  = [LeafCertCtx.mkShown true 1 1; LeafCertCtx.mkShown true 2 1].
Proof. vm_compute. reflexivity. Qed.
Print Assumptions C16_presented_chain_shared_dh_refuted.

(* and so is the hypothesis on the history: the context reads the file when it is created, not when the store is
   loaded (known finding chain-file-read-late) *)
Theorem C16_presented_chain_unsynced_refuted :
  LeafCertCtx.run false LeafCertCtx.init
    [LeafCertCtx.Rewrite 1; LeafCertCtx.Reload; LeafCertCtx.Rewrite 2; LeafCertCtx.Handshake 0]
  = [LeafCertCtx.mkShown false 1 2].
Proof. vm_compute. reflexivity. Qed.
Print Assumptions C16_presented_chain_unsynced_refuted.
