(* Props/C49.v -- mitmdump output cannot inject terminal control sequences.
   Statements only; each is closed by [exact] of a lemma proved elsewhere.
   The model (Model/Dumper.v) is the code with the two repairs of findings/C49.jsonl (C1 controls in the
   escape table; every flow field escaped before it is echoed): without them the property is false,
   the correspondence disagrees and C49_paths_sanitized does not compile.
   A token is a data character [Ch c] or one styling sequence added by the dumper [Sgr s];
   [flatten] of the token list is the text written to the stream (compared with the real
   Dumper by Corr/C49.v).  OK v t: every data character of t is outside category Cc or is
   TAB, LF, CR, and every styling sequence is ESC [ digits m and occurs only when v (styling
   enabled) holds. *)
From Coq Require Import List Bool NArith String.
From MV Require Import Base.Bytes Model.Strutils Model.Dumper Proofs.DumperBase Proofs.DumperMain
  Proofs.DumperPaths Gen.DumperPaths.
Import ListNotations.
Local Open Scope N_scope.

Theorem C49_escape_no_control : forall t, ok_text (escape_control_characters t true) = true.
Proof. exact escape_ok. Qed.
Print Assumptions C49_escape_no_control.

Theorem C49_escape_strict_no_control : forall t,
  forallb (fun c => negb (is_cc c)) (escape_control_characters t false) = true.
Proof. exact escape_strict_ok. Qed.
Print Assumptions C49_escape_strict_no_control.

(* prettify_message: whatever the content view returned (or a missing body) *)
Theorem C49_prettify_no_control : forall m, ok_text (prettify_message m) = true.
Proof. exact prettify_ok. Qed.
Print Assumptions C49_prettify_no_control.

(* escape_control_characters is str.translate with the tables built by strutils.py (translated) *)
Theorem C49_escape_is_translate : forall t ks,
  escape_control_characters t ks = translate_with (if ks then cc_table_spacing else cc_table) t.
Proof. exact escape_is_translate. Qed.
Print Assumptions C49_escape_is_translate.

(* ---- every hook of the dumper, all flows, all flow_detail levels, styling on and off.
   Hypotheses: only the contracts of code that is not modelled (highlighter chunks concatenate
   to its input; pretty_size / to_str tables print harmless text). *)
Theorem C49_http : forall o r rs err,
  pm_ok (rq_msg r) = true -> (forall x, rs = Some x -> resp_ok x = true) ->
  OK (vt o) (hook_http o r rs err).
Proof. exact http_ok. Qed.
Print Assumptions C49_http.

Theorem C49_websocket_message : forall o cl sv p fc it m,
  pm_ok m = true -> OK (vt o) (hook_websocket_message o cl sv p fc it m).
Proof. exact websocket_message_ok. Qed.
Print Assumptions C49_websocket_message.

Theorem C49_websocket_end : forall o code name bc reason sv,
  OK (vt o) (hook_websocket_end o code name bc reason sv).
Proof. exact websocket_end_ok. Qed.
Print Assumptions C49_websocket_end.

Theorem C49_proto_error : forall o tcp sv msg, OK (vt o) (hook_proto_error o tcp sv msg).
Proof. exact proto_error_ok. Qed.
Print Assumptions C49_proto_error.

Theorem C49_proto_message : forall o tcp fc cl sv q m,
  pm_ok m = true -> OK (vt o) (hook_proto_message o tcp fc cl sv q m).
Proof. exact proto_message_ok. Qed.
Print Assumptions C49_proto_message.

Theorem C49_dns_response : forall o c op ty qn ans rc,
  ok_text op = true -> ok_text ty = true -> ok_text rc = true ->
  OK (vt o) (hook_dns_response o c op ty qn ans rc).
Proof. exact dns_response_ok. Qed.
Print Assumptions C49_dns_response.

Theorem C49_dns_error : forall o c op ty qn msg,
  ok_text op = true -> ok_text ty = true -> OK (vt o) (hook_dns_error o c op ty qn msg).
Proof. exact dns_error_ok. Qed.
Print Assumptions C49_dns_error.

(* ---- what OK means for the stream *)
Theorem C49_unstyled_stream : forall t, OK false t ->
  forall c, In c (flatten t) -> is_cc c = false \/ is_spacing c = true.
Proof. exact unstyled_stream. Qed.
Print Assumptions C49_unstyled_stream.

Theorem C49_styled_stream : forall t, OK true t -> forall k, In k t ->
  match k with
  | Ch c => is_cc c = false \/ is_spacing c = true
  | Sgr s => exists d, s = [27; 91] ++ d ++ [109] /\ d <> [] /\ forallb is_digit_n d = true
  end.
Proof. exact styled_stream. Qed.
Print Assumptions C49_styled_stream.

(* ---- the echo-path table translated from the source (coq/Gen/DumperPaths.v) *)
(* an expression accepted by [sanitized] evaluates to harmless text whatever the flow holds *)
Theorem C49_sanitized_sound : forall e t, den e t -> sanitized e = true -> OK true t.
Proof. exact sanitized_sound. Qed.
Print Assumptions C49_sanitized_sound.

(* every self.echo call of dumper.py is sanitized *)
Theorem C49_paths_sanitized : forall name e, In (name, e) paths -> sanitized e = true.
Proof. exact paths_sanitized_all. Qed.
Print Assumptions C49_paths_sanitized.

(* and those calls are exactly the ones Model.Dumper models *)
Theorem C49_sites_covered : map fst paths = sites.
Proof. exact sites_covered. Qed.
Print Assumptions C49_sites_covered.

(* ---- the defect repaired by fixes/C49-c1-controls.diff, on the pre-repair model kept in Model/Strutils.v *)
Theorem C49_prerepair_c1_refuted :
  In 155 (Strutils.escape_control_characters [155] true) /\ is_cc 155 = true.
Proof. exact prerepair_c1_passes. Qed.
Print Assumptions C49_prerepair_c1_refuted.

(* the repair changes the result only for texts that contain a C1 control *)
Theorem C49_repair_only_c1 : forall t ks, forallb (fun c => negb (is_c1 c)) t = true ->
  escape_control_characters t ks = Strutils.escape_control_characters t ks.
Proof. exact repair_only_c1. Qed.
Print Assumptions C49_repair_only_c1.

(* ---- non-vacuity: a flow with ESC [ 2 J, CSI (U+009B) and BEL in every field satisfies the
   hypotheses, prints more than 200 tokens and styling sequences *)
Theorem C49_nonvacuous :
  pm_ok sample_msg = true /\ resp_ok sample_resp = true
  /\ existsb (N.eqb 27) evil = true
  /\ (200 <? N.of_nat (List.length (hook_http sample_opts sample_req (Some sample_resp) (Some evil))))%N = true
  /\ existsb (fun k => match k with Sgr _ => true | _ => false end)
       (hook_http sample_opts sample_req (Some sample_resp) (Some evil)) = true.
Proof. exact sample_nonvacuous. Qed.
Print Assumptions C49_nonvacuous.
