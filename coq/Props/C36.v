(* Props/C36.v -- Flow files round-trip every flow type and reading never fails unexpectedly.
   Model: Model/Tnet.v (tnetstring dumps/load/parse/pop, FlowReader.stream exception mapping).
   float() and Flow.from_state(compat.migrate_flow(.)) are parameters: every theorem holds for
   all of their behaviours. Flow get_state/from_state are not modelled (oracle only). *)
From Coq Require Import List Bool Arith NArith ZArith.
From MV Require Import Base.Bytes Model.Tnet Proofs.TnetBase Proofs.TnetRoundtrip Proofs.TnetReader Proofs.TnetTrunc Proofs.TnetExamples Model.ConnLiterals Gen.ConnectionLiterals Proofs.ConnLiterals.
Import ListNotations.

(* Codec round trip, all value trees: what dumps writes, load reads back as the same tree with
   the item order of every dict reversed (mirror), and leaves the rest of the file untouched.
   wf = representable Python value (canonical float tokens, valid UTF-8 strs, hashable pairwise
   different dict keys, at most 4300 digits per int and length prefix); top_ok = at most 12 length
   digits (load rejects longer prefixes); height v <= depth = the interpreter stack suffices. *)
Theorem C36_roundtrip : forall pyfloat (v : tv) (depth : nat) (rest : bytes),
  wf pyfloat v -> top_ok v -> (height v <= depth)%nat ->
  load pyfloat depth (dumps v ++ rest) = LValue (mirror v) rest.
Proof. exact load_dumps. Qed.
Print Assumptions C36_roundtrip.

(* mirror v is the same Python value (dicts compare as unordered item collections), and a second
   save/load restores the original item order *)
Theorem C36_mirror_is_python_equal : forall v, tv_equiv v (mirror v) /\ mirror (mirror v) = v.
Proof. exact (fun v => conj (mirror_equiv v) (mirror_involutive v)). Qed.
Print Assumptions C36_mirror_is_python_equal.

(* The length-prefixed framing is prefix-free, hence injective: no encoding is the beginning of
   another one. *)
Theorem C36_prefix_free : forall pyfloat v1 v2 rest,
  wf pyfloat v1 -> wf pyfloat v2 -> dumps v2 = dumps v1 ++ rest -> v1 = v2 /\ rest = [].
Proof. exact dumps_prefix_free. Qed.
Print Assumptions C36_prefix_free.

(* Whole files: the records written are read back in order and the reader ends cleanly. This is
   the truncation theorem of C37 at the full length, whence the two hypotheses on outer; a file
   of loadable records reaches no handler. *)
Theorem C36_file_roundtrip : forall pyfloat outer inner from_state depth,
  outer ValueError = true -> outer IndexError = true -> forall vs : list tv,
  Forall (loadable pyfloat from_state depth) vs ->
  stream pyfloat outer inner from_state depth (file_of vs) = (map mirror vs, Clean).
Proof. exact stream_whole. Qed.
Print Assumptions C36_file_roundtrip.

(* Reading arbitrary bytes. outer_current / inner_current (Model/Tnet.v) are the handler sets
   FlowReader.stream had up to /repo commit e10908913: outer ValueError, TypeError, IndexError;
   inner ValueError. With them full totality (only Clean / ReadError) is FALSE: refuted by a record
   that takes 499 pop frames where depth 496 gives load 497, and by a well-formed dict on which
   from_state raises KeyError (findings recursion-error, wrong-shape-state). *)
Theorem C36_reader_total_refuted :
  (exists pyfloat from_state depth file,
     snd (stream pyfloat outer_current inner_current from_state depth file) = Other RecursionError)
  /\ (exists pyfloat from_state depth file,
     snd (stream pyfloat outer_current inner_current from_state depth file) = Other KeyError).
Proof.
  split; [exists nofloat, accept, 496%nat, (dumps deep); exact (proj1 recursion_error_escapes)|].
  exists (fun _ => None), (fun _ => Some KeyError), 10%nat, [x30; x3a; x7d]. reflexivity.
Qed.
Print Assumptions C36_reader_total_refuted.

(* ... and with those handlers these are the ONLY ways (exact complement of the findings): for all
   bytes, all float() and from_state behaviours and every stack budget, the reader ends cleanly,
   with a read error, in the HAR branch, or with RecursionError, or with an exception class that
   from_state raised and that is not ValueError/TypeError/IndexError. It never runs out of model
   fuel. *)
Theorem C36_reader_total_partial : forall pyfloat from_state depth file,
  let fin := snd (stream pyfloat outer_current inner_current from_state depth file) in
  fin = Clean \/ fin = ReadError \/ fin = HarBranch
  \/ fin = Other RecursionError
  \/ (exists v e, from_state v = Some e /\ outer_current e = false /\ fin = Other e).
Proof.
  intros pf fs d file.
  destruct (stream_outcomes pf outer_current inner_current fs d load_class file) as [H|[H|[H|(e & H & Ho & Hc)]]]; auto.
  - intros f _. apply load_total; unfold load_class; auto.
  - (* escapes: e is unhandled (Ho) and load raised it, one of load_class, or it passed the inner
       handler and is the ValueError for a non-dict or what from_state raised on v *)
    destruct Hc as [[-> | [-> | [-> | ->]]] | [_ [-> | [v Hv]]]]; try discriminate Ho; eauto 10.
Qed.
Print Assumptions C36_reader_total_partial.

(* Sufficient guard for those handlers: from_state raises only the named classes and the file is
   too short to exhaust the stack (every nesting level costs at least two bytes). *)
Theorem C36_reader_total_guarded : forall pyfloat from_state depth file,
  (forall v e, from_state v = Some e -> outer_current e = true) ->
  (length file <= 2 * depth)%nat ->
  let fin := snd (stream pyfloat outer_current inner_current from_state depth file) in
  fin = Clean \/ fin = ReadError \/ fin = HarBranch.
Proof.
  intros pf fs d file Hfs Hshort. apply stream_total.
  - intros f Hf. apply load_total; auto. right. exact (Nat.le_trans _ _ _ Hf Hshort).
  - intros e [->|[v Hv]]; [left; reflexivity | right; eauto].
Qed.
Print Assumptions C36_reader_total_guarded.

(* The handlers io.py has since that commit (fixes/C36-reader-exception-mapping.diff; translated
   in Gen/FlowReaderExcept.v: outer_gen names the four classes, inner_gen every class) meet these
   hypotheses: the reader is total on all inputs. *)
Theorem C36_reader_total_if_handled : forall pyfloat outer inner from_state depth file,
  outer ValueError = true -> outer TypeError = true -> outer IndexError = true ->
  outer RecursionError = true -> (forall e, inner e = true) ->
  let fin := snd (stream pyfloat outer inner from_state depth file) in
  fin = Clean \/ fin = ReadError \/ fin = HarBranch.
Proof.
  intros pf outer inner fs d file HV HT HI HR Hin. apply stream_total; [|auto].
  intros f _. apply load_total; auto.
Qed.
Print Assumptions C36_reader_total_if_handled.

(* tnetstring level: load raises only these four classes, for all inputs (pop: the same without
   IndexError, TnetReader.pop_exceptions). *)
Theorem C36_load_exceptions : forall pyfloat depth file e,
  load pyfloat depth file = LExc e ->
  e = ValueError \/ e = TypeError \/ e = IndexError \/ e = RecursionError.
Proof.
  intros pf d file e H. pose proof (load_total pf load_class d file) as L. rewrite H in L.
  apply L; unfold load_class; auto.
Qed.
Print Assumptions C36_load_exceptions.

Theorem C36_nonvacuous :
  wf pf_sample sample /\ top_ok sample /\ (height sample <= 2)%nat
  /\ load pf_sample 2 (dumps sample) = LValue (mirror sample) []
  /\ mirror sample <> sample
  /\ load pf_sample 2 (dumps (mirror sample)) = LValue sample [].
Proof.
  split; [exact (proj1 samples_wf)|].
  vm_compute. repeat split; discriminate || reflexivity || (repeat constructor). Qed.
Print Assumptions C36_nonvacuous.

(* Typed connection fields (coretypes/serializable._process Literal check, Model/ConnLiterals.v).
   The domains are the ones spelled in mitmproxy/connection.py (translated: Gen/ConnectionLiterals.v);
   the values are pinned independently: everything OpenSSL / aioquic report as TLS version and both
   transports pass get_state/set_state, so such a connection never makes FlowWriter.add raise. *)
Theorem C36_reported_tls_versions_serialisable :
  forall v, In v reported_tls_versions -> opt_literal_ok tls_version_src (Some v) = true.
Proof. apply (forallb_In (fun v => opt_literal_ok tls_version_src (Some v))). vm_compute. reflexivity. Qed.
Print Assumptions C36_reported_tls_versions_serialisable.

Theorem C36_reported_transports_serialisable :
  forall v, In v reported_transports -> literal_ok transport_protocol_src v = true.
Proof. apply (forallb_In (literal_ok transport_protocol_src)). vm_compute. reflexivity. Qed.
Print Assumptions C36_reported_transports_serialisable.

(* the annotation and the pinned lists coincide: a drift in either direction breaks this proof *)
Theorem C36_typed_domains_pinned :
  tls_version_src = reported_tls_versions /\ transport_protocol_src = reported_transports.
Proof. split; vm_compute; reflexivity. Qed.
Print Assumptions C36_typed_domains_pinned.
