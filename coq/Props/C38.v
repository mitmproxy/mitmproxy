(* Props/C38.v -- Flows from older mitmproxy versions load correctly: the migrate_flow driver.
   Statements only; each is an instance of a lemma of Proofs/Compat*.v or the evaluation of a concrete run.
   [converters], [FLOW_FORMAT_VERSION] and [progress_guard] are translated from
   mitmproxy/io/compat.py and mitmproxy/version.py on every run (Gen/CompatChain.v).
   Converter bodies are a universally quantified parameter [body] (None = the body raised). The
   contracts on it used below are [frame] (a body leaves the bytes version entry alone) and
   [body_ok] (after a converter for k the bytes version entry is absent or still reads k).
   A result is [good] when it is not OutOfFuel and a Migrated state reads the current version.
   Fuel counts converter calls. *)
From Coq Require Import ZArith List Bool Lia.
From MV Require Import Model.CompatPrelude Model.Compat Gen.CompatChain Proofs.Compat Proofs.CompatChain.
Import ListNotations.

(* The translated table is a single chain: keys are distinct hashable int versions below the
   current one, every converter writes the key of the next entry, the last one writes
   FLOW_FORMAT_VERSION, and a converter writing the bytes key is never followed by one relying on
   the str key. *)
Theorem C38_chain_wellformed : chain_ok FLOW_FORMAT_VERSION converters = true.
Proof. exact converters_ok. Qed.
Print Assumptions C38_chain_wellformed.

(* A state at the current version passes through unchanged, with no converter call, for every
   body, guard setting and fuel. *)
Theorem C38_current_unchanged : forall R body guard (s : state R) prev fuel,
  get_version s = VInt FLOW_FORMAT_VERSION ->
  migrate_flow body converters FLOW_FORMAT_VERSION guard fuel prev s = ([], Migrated s).
Proof.
  intros R body guard s prev fuel H. apply current_unchanged. unfold key_of. rewrite H. reflexivity.
Qed.
Print Assumptions C38_current_unchanged.

(* Every int version above the current one is rejected before any converter runs, with the
   upgrade hint. *)
Theorem C38_newer_rejected : forall R body guard (s : state R) prev fuel z,
  get_version s = VInt z -> (FLOW_FORMAT_VERSION < z)%Z ->
  migrate_flow body converters FLOW_FORMAT_VERSION guard fuel prev s = ([], Rejected true).
Proof. intros R body guard. exact (newer_rejected R body converters FLOW_FORMAT_VERSION guard converters_ok). Qed.
Print Assumptions C38_newer_rejected.

(* Every other version without a converter is rejected before any converter runs; the hint is given
   iff the version is an int greater than the current one. *)
Theorem C38_unknown_rejected : forall R body guard (s : state R) prev fuel fv,
  key_of R s = Some fv -> is_current FLOW_FORMAT_VERSION fv = false -> unhashable fv = false ->
  lookup fv converters = None ->
  migrate_flow body converters FLOW_FORMAT_VERSION guard fuel prev s
    = ([], Rejected (should_upgrade FLOW_FORMAT_VERSION fv))
  /\ (should_upgrade FLOW_FORMAT_VERSION fv = true <-> exists z, fv = FInt z /\ (FLOW_FORMAT_VERSION < z)%Z).
Proof. intros R body guard. exact (unknown_rejected R body converters FLOW_FORMAT_VERSION guard). Qed.
Print Assumptions C38_unknown_rejected.

(* FULL STATEMENT IS FALSE for the driver without the progress guard (mitmproxy before a3ef1ea54):
   the state with the single entry  bytes-version -> [3, 0]  (a 25-byte file) makes migrate_flow
   call convert_300_4 for ever, with a body that changes nothing else: OutOfFuel for every fuel.
   Finding stale-bytes-version-loop. *)
Theorem C38_terminates_refuted :
  frame unit id_body /\ ~ not_stale unit converters stale_state /\
  forall fuel, snd (migrate_flow id_body converters FLOW_FORMAT_VERSION false fuel None stale_state) = OutOfFuel.
Proof. exact (conj id_body_frame (conj stale_is_stale stale_loops)). Qed.
Print Assumptions C38_terminates_refuted.

(* PARTIAL (guard = exactly the complement of the finding): without the progress guard, for
   frame-respecting bodies, every state that has no bytes version entry (all files since 0.18) or
   whose version is handled by a bytes-era or convert_unicode converter (all files up to 0.17)
   terminates within |converters| calls at the current version or with an error, and the converters
   called are a contiguous segment of the table in table order. *)
Theorem C38_terminates_partial : forall R body (s : state R) prev fuel,
  frame R body -> not_stale R converters s -> (length converters <= fuel)%nat ->
  let tr := migrate_flow body converters FLOW_FORMAT_VERSION false fuel prev s in
  good R FLOW_FORMAT_VERSION (snd tr)
  /\ (length (fst tr) <= length converters)%nat
  /\ exists pre, prefix_of (pre ++ map fst (fst tr)) (map fst converters).
Proof.
  intros R body s prev fuel Hf Hs Hl.
  exact (unguarded_frame_total R body converters FLOW_FORMAT_VERSION false converters_ok Hf s prev fuel Hs Hl).
Qed.
Print Assumptions C38_terminates_partial.

(* With the progress guard (`and flow_version != previous_version`) the statement holds for ALL
   states, under the weaker contract body_ok. *)
Theorem C38_terminates_if_guarded : forall R body (s : state R) prev fuel,
  body_ok R body -> (length converters <= fuel)%nat ->
  let tr := migrate_flow body converters FLOW_FORMAT_VERSION true fuel prev s in
  good R FLOW_FORMAT_VERSION (snd tr)
  /\ (length (fst tr) <= length converters)%nat
  /\ exists pre, prefix_of (pre ++ map fst (fst tr)) (map fst converters).
Proof.
  intros R body s prev fuel Hb Hl.
  exact (guarded_total R body converters FLOW_FORMAT_VERSION true converters_ok eq_refl Hb s prev fuel Hl).
Qed.
Print Assumptions C38_terminates_if_guarded.

(* The driver as translated from the source tree under check: total for all states once the guard
   is present, and for the not_stale states before. *)
Theorem C38_terminates_source : forall R body (s : state R) prev fuel,
  frame R body -> (progress_guard = true \/ not_stale R converters s) -> (length converters <= fuel)%nat ->
  let tr := migrate_flow body converters FLOW_FORMAT_VERSION progress_guard fuel prev s in
  good R FLOW_FORMAT_VERSION (snd tr) /\ (length (fst tr) <= length converters)%nat.
Proof.
  intros R body s prev fuel Hf Hg Hl.
  destruct (frame_total R body converters FLOW_FORMAT_VERSION progress_guard converters_ok Hf s prev fuel Hg Hl)
    as [A [B _]].
  exact (conj A B).
Qed.
Print Assumptions C38_terminates_source.

(* With the guard the looping state is rejected after one converter call. *)
Theorem C38_guard_rejects_stale : forall fuel,
  snd (migrate_flow id_body converters FLOW_FORMAT_VERSION true (S (S fuel)) None stale_state) = Rejected false.
Proof. intros fuel. reflexivity. Qed.
Print Assumptions C38_guard_rejects_stale.

(* Hypotheses are satisfiable on a non-trivial value: a 0.18 state with str keys runs all but the
   first seven converters and ends at the current version. *)
Theorem C38_nonvacuous :
  frame nat count_body /\ not_stale nat converters sample_018
  /\ length (fst (migrate_flow count_body converters FLOW_FORMAT_VERSION false (length converters) None sample_018))
     = (length converters - 7)%nat
  /\ snd (migrate_flow count_body converters FLOW_FORMAT_VERSION false (length converters) None sample_018)
     = Migrated (mk_state None (Some (VInt FLOW_FORMAT_VERSION)) (length converters - 7)%nat).
Proof. split; [exact count_body_frame | split; [left; reflexivity | split; vm_compute; reflexivity]]. Qed.
Print Assumptions C38_nonvacuous.
