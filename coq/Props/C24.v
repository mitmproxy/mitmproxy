(* Props/C24.v -- Upstream credentials are only sent to the upstream proxy or reverse target.
   Statements only; each is closed by [exact] of a lemma proved in Proofs/UpstreamAuth*.v, or by a proof of up to
   three lines from those lemmas (an instance of a more general one, or the evaluation of a concrete history).

   The model (Model/UpstreamAuth.v) has a flag c_fixed: true = UpstreamAuth remembers the client connections whose
   CONNECT was accepted (mitmproxy since commit 362e3030d, fixes/C24-tunnelled-plain-http.diff), false = the addon
   before that.  The full-strength statement holds with c_fixed (C24_sound); without it, it is false
   (C24_sound_refuted: in upstream mode a plain-HTTP request sent through an accepted CONNECT tunnel gets
   Proxy-Authorization and is delivered to the origin server) and holds for exactly the histories that contain
   no such request (C24_sound_partial; wsafe is the computable complement of the finding).

   wrun cfg ws_init es = the heads written while processing the history es of events (the option upstream_auth being
   set, unset or changed at run time -- WConfigure, the configure hook -- at any point, clients connecting in any of
   the modes and disconnecting, requests in any form, CONNECTs followed by plain HTTP or TLS, upstream proxy accepting or refusing,
   servers closing connections) on any number of client connections that share one addon instance.
   carries cred fs = some header field of the head has the value cred;  wevent_clean = the client did not send it;
   good w = w went to the upstream proxy itself (w_via), outside any CONNECT tunnel, for an upstream-mode client,
            or to the reverse target of a reverse-mode client. *)
From Coq Require Import List Bool NArith.
From MV Require Import Base.Bytes Model.UpstreamAuth Proofs.UpstreamAuthStep Proofs.UpstreamAuthWorld Proofs.UpstreamAuthSent.
Import ListNotations.

(* For EVERY header value cred that no client sent -- in particular every credential configured at any time of the
   history, whatever the option was when a CONNECT was accepted. *)
Theorem C24_sound : forall cfg cred es,
  cfg.(c_fixed) = true -> Forall (wevent_clean cred) es ->
  forall c w, In (c, w) (snd (wrun cfg ws_init es)) -> carries cred w.(w_fields) -> good w.
Proof. intros cfg cred es Hf Hcl. apply (wrun_sound cfg cred es ws_init (winv_init cfg) Hcl). auto. Qed.
Print Assumptions C24_sound.

Theorem C24_sound_refuted : exists cfg cred es c w,
  cfg.(c_fixed) = false /\ (fst (wrun cfg ws_init es)).(ws_auth) = Some cred /\ Forall (wevent_clean cred) es
  /\ In (c, w) (snd (wrun cfg ws_init es)) /\ carries cred w.(w_fields)
  /\ w.(w_via) = true /\ w.(w_tunnelled) = true /\ w.(w_kind) = WRequest.
Proof. exact refuted. Qed.
Print Assumptions C24_sound_refuted.

(* any value of c_fixed *)
Theorem C24_sound_partial : forall cfg cred es,
  Forall (wevent_clean cred) es -> wsafe cfg ws_init es = true ->
  forall c w, In (c, w) (snd (wrun cfg ws_init es)) -> carries cred w.(w_fields) -> good w.
Proof. intros cfg cred es Hcl Hs. apply (wrun_sound cfg cred es ws_init (winv_init cfg) Hcl). auto. Qed.
Print Assumptions C24_sound_partial.

(* what good excludes: regular / transparent / SOCKS5 clients, and anything behind a CONNECT to the proxy *)
Theorem C24_good_modes : forall w, good w -> is_upstream w.(w_pm) || is_reverse w.(w_pm) = true.
Proof. exact good_modes. Qed.
Print Assumptions C24_good_modes.

Theorem C24_good_not_tunnelled : forall w, good w -> w.(w_via) && w.(w_tunnelled) = false.
Proof. exact good_not_tunnelled. Qed.
Print Assumptions C24_good_not_tunnelled.

(* Nothing written into a CONNECT tunnel carries a credential, whatever the option value was when the
   client's CONNECT was accepted and however it changed afterwards. *)
Theorem C24_tunnel_never : forall cfg cred es,
  cfg.(c_fixed) = true -> Forall (wevent_clean cred) es ->
  forall c w, In (c, w) (snd (wrun cfg ws_init es)) -> w.(w_via) = true -> w.(w_tunnelled) = true ->
  ~ carries cred w.(w_fields).
Proof.
  intros cfg cred es Hf Hcl c w Hin Hv Ht Hcar.
  assert (Hg := good_not_tunnelled w (wrun_sound cfg cred es ws_init (winv_init cfg) Hcl (or_introl Hf) c w Hin Hcar)).
  rewrite Hv, Ht in Hg. discriminate.
Qed.
Print Assumptions C24_tunnel_never.

(* The other direction of the statement (the credential IS sent where it belongs), for both values of c_fixed:
   after any history, if upstream_auth is now configured with value cred, the next event writes cred into every CONNECT
   head sent to the upstream proxy, every request head sent to the proxy outside a tunnel, and every request head of a
   reverse-mode client. *)
Theorem C24_sent_where_due : forall cfg cred es e,
  let ws := fst (wrun cfg ws_init es) in
  ws.(ws_auth) = Some cred -> cred <> [] ->
  forall c w, In (c, w) (snd (wstep cfg ws e)) ->
  w.(w_kind) = WConnect \/ (w.(w_via) = true /\ w.(w_tunnelled) = false) \/ is_reverse w.(w_pm) = true ->
  carries cred w.(w_fields).
Proof.
  intros cfg cred es e ws Ha Hne c w Hin Hwhere. pose proof (wrun_inv cfg es ws_init (winv_init cfg)) as Hw. fold ws in Hw.
  destruct (wstep cfg ws e) as [ws' wr] eqn:E. eapply wstep_sent; eassumption.
Qed.
Print Assumptions C24_sent_where_due.

(* the configured value: Basic + base64 of the UTF-8 option string, never empty (so the addon is active) *)
Theorem C24_credential_shape : forall s v, parse_upstream_auth s = POk v ->
  exists b, utf8_encode s = Some b /\ v = basic_prefix ++ b64encode b /\ truthy (Some v) = Some v.
Proof. exact parse_shape. Qed.
Print Assumptions C24_credential_shape.

(* Non-vacuity. history0: upstream_auth set, upstream mode, a plain request, CONNECT e.com:80 (TLS-less tunnel), a plain
   request through the tunnel: three heads, the first two (to the proxy) carry the credential, the tunnelled one does not.
   history1: the CONNECT is accepted while upstream_auth is unset, the option is set afterwards, then a request in the
   tunnel: the CONNECT mitmproxy sends to the proxy carries the credential, the tunnelled request does not.
   history0 is outside the guard of C24_sound_partial when c_fixed = false. *)
Theorem C24_nonvacuous :
  let obs := fun cfg h => map (fun cw => (w_kind (snd cw), w_tunnelled (snd cw), carriesb cred0 (w_fields (snd cw))))
                              (snd (wrun cfg ws_init h)) in
  (fst (wrun (cfg0 true) ws_init history0)).(ws_auth) = Some cred0
  /\ Forall (wevent_clean cred0) history0 /\ Forall (wevent_clean cred0) history1
  /\ obs (cfg0 true) history0 = [(WRequest, false, true); (WConnect, false, true); (WRequest, true, false)]
  /\ obs (cfg0 true) history1 = [(WConnect, false, true); (WRequest, true, false)]
  /\ wsafe (cfg0 false) ws_init history0 = false.
Proof.
  cbn zeta. split; [vm_compute; reflexivity|]. split; [exact (proj1 histories_clean)|]. split; [exact (proj2 histories_clean)|].
  repeat split; vm_compute; reflexivity.
Qed.
Print Assumptions C24_nonvacuous.
