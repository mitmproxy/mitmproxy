(* Props/C37.v -- Flow files are crash-consistent. Statements; each follows in a line or two from
   Proofs/TnetTrunc.v or Proofs/SaveStream.v (concrete witnesses by evaluation).
   Same model as C36 (Model/Tnet.v). A flow file is file_of vs = the concatenation of dumps of the
   records written (FlowWriter.add / FilteredFlowWriter.add write exactly dumps(get_state())).
   loadable v = the complete file delivers v as a flow (well-formed, within the stack budget, a
   dict, accepted by from_state). OS-level durability of flush() is not modelled. *)
From Coq Require Import List Bool Arith NArith ZArith.
From MV Require Import Base.Bytes Model.Tnet Proofs.TnetBase Proofs.TnetRoundtrip Proofs.TnetReader Proofs.TnetTrunc Proofs.TnetExamples Model.SaveStream Proofs.SaveStream.
Import ListNotations.

(* Every truncation: reading the first k bytes of the file yields exactly the records completely
   contained in those k bytes, in order, then ends cleanly iff k is a record boundary and with a
   flow-read error otherwise -- never another exception, never a partially written record.
   Stated for outer_current / inner_current, the handler sets of io.py up to /repo commit
   e10908913 (see Props/C36.v); the next theorem covers the present ones. *)
Theorem C37_truncation : forall pyfloat from_state depth (vs : list tv) (k : nat),
  Forall (loadable pyfloat from_state depth) vs ->
  stream pyfloat outer_current inner_current from_state depth (firstn k (file_of vs)) =
    (map mirror (fst (complete vs k)), if snd (complete vs k) then Clean else ReadError).
Proof. exact (fun pf fs d => stream_truncated pf outer_current inner_current fs d eq_refl eq_refl). Qed.
Print Assumptions C37_truncation.

(* the same for every handler pair that names ValueError and IndexError; io.py's present handlers
   (Gen/FlowReaderExcept.v) are such a pair *)
Theorem C37_truncation_any_handlers : forall pyfloat outer inner from_state depth,
  outer ValueError = true -> outer IndexError = true -> forall vs k,
  Forall (loadable pyfloat from_state depth) vs ->
  stream pyfloat outer inner from_state depth (firstn k (file_of vs)) =
    (map mirror (fst (complete vs k)), if snd (complete vs k) then Clean else ReadError).
Proof. exact stream_truncated. Qed.
Print Assumptions C37_truncation_any_handlers.

(* what is delivered is a prefix of what was written: no record that is not in vs, none skipped *)
Theorem C37_delivered_is_prefix : forall vs k, exists rest, vs = fst (complete vs k) ++ rest.
Proof. exact complete_prefix. Qed.
Print Assumptions C37_delivered_is_prefix.

(* a cut exactly after j records delivers those j records and ends cleanly ... *)
Theorem C37_boundary_is_clean : forall vs j, (j <= length vs)%nat ->
  complete vs (length (file_of (firstn j vs))) = (firstn j vs, true).
Proof. exact complete_boundary. Qed.
Print Assumptions C37_boundary_is_clean.

(* ... and a clean end happens only there: every cut inside a record is reported as a read error *)
Theorem C37_clean_only_at_boundary : forall vs k, snd (complete vs k) = true ->
  (length (file_of vs) <= k)%nat \/ exists j, (j <= length vs)%nat /\ k = length (file_of (firstn j vs)).
Proof. exact complete_true_boundary. Qed.
Print Assumptions C37_clean_only_at_boundary.

(* stream saving: add = write one complete record + flush, so after every add the file is the
   concatenation of the records added so far and reads back completely and cleanly *)
Theorem C37_after_each_add : forall pyfloat from_state depth vs j,
  Forall (loadable pyfloat from_state depth) vs ->
  stream pyfloat outer_current inner_current from_state depth (file_of (firstn j vs)) =
    (map mirror (firstn j vs), Clean).
Proof. exact (fun pf fs d => stream_after_each_add pf outer_current inner_current fs d eq_refl eq_refl). Qed.
Print Assumptions C37_after_each_add.

Theorem C37_nonvacuous :
  Forall (loadable pf_sample (fun _ => None) 5) [sample; sample2]
  /\ (length (dumps sample) < length (dumps sample) + 4 < length (file_of [sample; sample2]))%nat
  /\ stream pf_sample outer_current inner_current (fun _ => None) 5
       (firstn (length (dumps sample) + 4) (file_of [sample; sample2])) = ([mirror sample], ReadError)
  /\ stream pf_sample outer_current inner_current (fun _ => None) 5
       (firstn (length (dumps sample)) (file_of [sample; sample2])) = ([mirror sample], Clean).
Proof.
  split; [exact samples_loadable | split; [split; apply Nat.ltb_lt; vm_compute; reflexivity|]].
  split; vm_compute; reflexivity. Qed.
Print Assumptions C37_nonvacuous.

(* Stream saving under option changes (Model/SaveStream.v: Save.configure / maybe_rotate_to_new_file
   / save_flow / done and the optmanager rollback). For EVERY sequence of save_stream_file changes
   (to openable and unopenable paths, append or overwrite, switching off) interleaved with finished
   flows, the addon never exits and every file holds exactly what [reference] says: the flows finished
   while it was the target, since its last successful open (overwrite) or on top of what it held
   (append); a rejected change contributes nothing. *)
Theorem C37_stream_files_complete : forall openable f evs,
  crashed (run openable (init_state f) evs) = false
  /\ forall q, fs (run openable (init_state f) evs) q = reference openable evs None f q.
Proof. intros openable f evs. destruct (run_init openable f evs) as [c ->]. split; reflexivity. Qed.
Print Assumptions C37_stream_files_complete.

(* in every reachable state, a change whose target cannot be opened raises and leaves files, writer,
   current_path and option exactly as they were (the rollback re-configure does not re-open) *)
Theorem C37_failed_option_change_is_noop : forall openable f evs o,
  let s := run openable (init_state f) evs in
  configure openable (with_opt s o) = None -> set_option openable o s = (s, true).
Proof. intros openable f evs o. destruct (run_init openable f evs) as [c ->]. apply failed_change_is_noop. Qed.
Print Assumptions C37_failed_option_change_is_noop.

(* ... and so does ONE update that carries a new save_stream_file together with an unparsable
   save_stream_filter: the filter is validated before the file is touched *)
Theorem C37_bad_filter_update_is_noop : forall openable f evs o,
  let s := run openable (init_state f) evs in set_option_bad_filter openable o s = (s, true).
Proof. intros openable f evs o. destruct (run_init openable f evs) as [c ->]. apply bad_filter_is_noop. Qed.
Print Assumptions C37_bad_filter_update_is_noop.

(* in every reachable state, a finished flow is appended to the current stream file and nothing else changes *)
Theorem C37_finish_appends_only : forall openable f evs r,
  let s := run openable (init_state f) evs in
  save_flow openable r s =
    match strm s with
    | Some p => {| opt := opt s; cur := cur s; strm := strm s; fs := upd (fs s) p (fs s p ++ [r]); crashed := false |}
    | None => s
    end.
Proof.
  intros openable f evs r. destruct (run_init openable f evs) as [c ->]. cbv zeta.
  rewrite save_flow_appends. destruct c; reflexivity. Qed.
Print Assumptions C37_finish_appends_only.

Theorem C37_reconf_nonvacuous :
  let s := run ex_open (init_state (fun _ => [])) ex_events in
  fs s 0 = [1; 2; 4]%nat /\ fs s 3 = [] /\ strm s = Some 0%nat
  /\ snd (step ex_open (run ex_open (init_state (fun _ => [])) (firstn 3 ex_events))
                (SetOpt (Some {| sp_append := false; sp_path := 3 |}))) = true.
Proof. vm_compute. repeat split; reflexivity. Qed.
Print Assumptions C37_reconf_nonvacuous.
