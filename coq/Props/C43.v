(* Props/C43.v -- The flow view always shows exactly the matching flows in order.
   Model: Model/View.v (View, _OrderKey, Focus, Settings of mitmproxy/addons/view.py, SortedKeyList as sorted
   insertion over (key, id) pairs).  [run ops init] executes a history of calls on a fresh View; every theorem
   quantifies over ALL histories (any flows, any key changes between updates).
   Definitions used: [visible] = list(view); [wanted s id] = the flow matches the current filter and, in
   marked-only mode, is marked; [key_of s id] = current sort key of the flow under the selected order;
   [view_sorted] = list(view) ascending by key_of (descending when reversed); [notif] = what the signals of a
   call say about the change of the shown set.

   The model describes view.py of /repo, which contains the repairs of the two findings of this property:
   - marked-only-ignored-by-add-update (commit 3371dcd73): add/update test show_marked as well as the filter
     ->  C43_exact has no guard.
   - stale-order-key (commit 068930216): _base_add and set_order regenerate the cached sort key instead of reusing one
     filled for another order or while the flow was hidden  ->  C43_sorted has no guard. *)
From Coq Require Import List Bool NArith Permutation Sorted.
From MV Require Import Base.Bytes Model.View Proofs.ViewSpec Proofs.ViewOps Proofs.ViewMain.
Import ListNotations.

(* No call ever raises (ValueError from the sorted list or the focus setter, KeyError from settings,
   IndexError from _rev / __getitem__), whatever the history. *)
Theorem C43_no_exception : forall ops, exists s, run ops init = Ok s.
Proof. exact no_exception. Qed.
Print Assumptions C43_no_exception.

(* Unconditionally: each flow is listed at most once; every listed flow is stored and matches the filter;
   every stored flow that matches (and is marked, in marked-only mode) is listed; the list is ordered
   (reversal handled) by the keys cached for the selected order. *)
Theorem C43_view_bounds : forall ops s, run ops init = Ok s ->
  NoDup (visible s)
  /\ (forall id, In id (visible s) -> In id (store s) /\ fmatches (filt s) (attr s id) = true)
  /\ (forall id, In id (store s) -> wanted s id = true -> In id (visible s))
  /\ view_sorted_cached s.
Proof. exact view_bounds. Qed.
Print Assumptions C43_view_bounds.

(* The view lists exactly the stored flows that match the filter and, in marked-only mode, are marked,
   each once (full strength, no guard). *)
Theorem C43_exact : forall ops s, run ops init = Ok s ->
  Permutation (visible s) (filter (wanted s) (store s)).
Proof. exact view_exact. Qed.
Print Assumptions C43_exact.

(* The list is always sorted by the CURRENT key of the selected order, reversed when requested
   (full strength, no guard; a flow's key may change at every update). *)
Theorem C43_sorted : forall ops s, run ops init = Ok s -> view_sorted s.
Proof. exact view_sorted_always. Qed.
Print Assumptions C43_sorted.

(* The focus is always a listed flow; it is None exactly when the view is empty. *)
Theorem C43_focus : forall ops s, run ops init = Ok s ->
  (forall f, focus s = Some f -> In f (visible s)) /\ (focus s = None <-> visible s = []).
Proof. exact focus_in_view. Qed.
Print Assumptions C43_focus.

(* Per-flow settings exist only for stored flows. *)
Theorem C43_settings : forall ops s id, run ops init = Ok s -> In id (settings_ids s) -> In id (store s).
Proof. exact settings_only_stored. Qed.
Print Assumptions C43_settings.

(* The signals of every call account for the change of the shown set: sig_view_add only for a flow that was
   not shown and now is, sig_view_remove (with its position in the underlying list) only for a shown flow that
   is no longer shown, sig_view_update only for a shown flow, and without sig_view_refresh nothing else changes. *)
Theorem C43_signals : forall ops s o s', run ops init = Ok s -> step o s = Ok s' ->
  notif (raw_ids s) (log s') (raw_ids s').
Proof. exact signals_match. Qed.
Print Assumptions C43_signals.

(* A non-trivial history (two marked flows, size order, marked-only mode, the shown flow 0 shrinks and is
   re-sorted, reversed) ends with both flows listed in descending size order and the focus kept. *)
Theorem C43_nonvacuous : exists s, run hist_good init = Ok s
  /\ visible s = [1%N; 0%N] /\ show_marked s = true /\ focus s = Some 0%N /\ key_of s 1%N = 1%N /\ key_of s 0%N = 0%N.
Proof. exact good_history. Qed.
Print Assumptions C43_nonvacuous.
