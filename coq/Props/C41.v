(* Props/C41.v -- HAR export followed by HAR import preserves the exchange.
   Statements only; each is closed by a lemma of Proofs/Har*.v, an instance of one, or, for a concrete witness,
   by evaluation.

   The full statement (every HTTP flow comes back with the same method, URL, version, request headers apart from
   Content-Length, POST/PUT/PATCH body, status, response headers and decoded body) is FALSE of the faithful model:
   see the C41_refuted theorems (each is a finding in findings/C41.jsonl, reproduced on the real code).  What holds
   is C41_roundtrip_partial / C41_roundtrip_file_partial under the guard [flow_ok], whose conjuncts are the complements
   of the findings, for every codec library satisfying [contracts] (identity coding, base64 and surrogateescape
   round-trip).  The version mapping is characterised exactly (the two C41_version_exact theorems). *)
From Coq Require Import List Bool NArith.
From MV Require Import Base.Bytes Model.Headers Proofs.HeadersLaws Gen.HarTables Model.Har
                       Proofs.HarBase Proofs.HarRoundtrip Proofs.HarMain.
Import ListNotations.

(* The importer's version tables (translated from har.py) give back the version they are given exactly for
   HTTP/1.1, HTTP/2 and HTTP/3 -- and for no other spelling. *)
Theorem C41_version_exact_req : forall v : bytes,
  match_version req_version_table req_version_default v = v <-> (v = V11 \/ v = V2 \/ v = V3).
Proof. exact req_version_exact. Qed.
Print Assumptions C41_version_exact_req.

Theorem C41_version_exact_resp : forall v : bytes,
  match_version resp_version_table resp_version_default v = v <-> (v = V11 \/ v = V2 \/ v = V3).
Proof.
  (* har.py writes the same three cases and the same default for responses: the two generated tables are
     convertible, so the lemma about the request table applies as it stands *)
  exact req_version_exact.
Qed.
Print Assumptions C41_version_exact_resp.

(* mitmproxy spells HTTP/2 as HTTP/2.0 (Message.is_http2); that spelling falls through to the default. *)
Theorem C41_refuted_http2_table :
  import_req_version V20 = V11 /\ import_resp_version V20 = V11 /\ ~ version_kept V20.
Proof.
  split; [vm_compute; reflexivity|]. split; [vm_compute; reflexivity|]. intros [H|[H|H]]; discriminate H.
Qed.
Print Assumptions C41_refuted_http2_table.

(* ... and through the whole pipeline: an HTTP/2.0 exchange is exported, imported, and is HTTP/1.1 afterwards. *)
Theorem C41_refuted_http2 :
  exists e i, flow_entry toy (sample_rq V20) (Some (sample_resp V20 [SERVER; CL2])) = Ok e
              /\ request_to_flow false toy e = Ok i
              /\ rq_version (sample_rq V20) = V20 /\ i_version i = V11 /\ i_sversion i = V11.
Proof. eexists. eexists. split; [vm_compute; reflexivity|]. split; [vm_compute; reflexivity|]. repeat split. Qed.
Print Assumptions C41_refuted_http2.

(* One flow.  For every library satisfying the contracts, with or without the header repair [se], and every
   request/response pair inside the guard, export succeeds, import of the entry succeeds, and the imported flow has
   the same method, URL, version, request headers apart from Content-Length, request body (POST/PUT/PATCH), status,
   response version, response headers (exactly) and body. *)
Theorem C41_roundtrip_partial : forall (L : lib) (se : bool) (rq : request) (r : response),
  contracts L -> flow_ok L se rq r ->
  exists e i, flow_entry L rq (Some r) = Ok e /\ request_to_flow se L e = Ok i /\ same_exchange L rq r i.
Proof. intros L se rq r (C1 & C2 & C3). apply roundtrip_flow; assumption. Qed.
Print Assumptions C41_roundtrip_partial.

(* The whole file: any list of flows (non-HTTP flows are skipped by the exporter), all exchanges inside the guard:
   the reader yields exactly one flow per exchange, in order, without raising. *)
Theorem C41_roundtrip_file_partial : forall (L : lib) (se : bool) (flows : list flow),
  contracts L -> Forall (flow_okF L se) flows ->
  exists es imported,
    make_har L flows = Ok es
    /\ import_har se L es = (imported, Clean)
    /\ Forall2 (fun x i => same_exchange L (fst x) (snd x) i) (exchanges flows) imported.
Proof. exact roundtrip_har. Qed.
Print Assumptions C41_roundtrip_file_partial.

(* Outside the guard (findings/C41.jsonl).  The importer without surrogateescape in fix_headers (se = false; the
   code carries the repair since e65a528bc) raises on a header value that is not valid UTF-8: *)
Theorem C41_refuted_non_utf8_header :
  exists es, make_har toy [HttpFlow (sample_rq V11) (Some (sample_resp V11 [H [x58] [xff]; CL2]))] = Ok es
             /\ import_har false toy es = ([], Raised).
Proof. eexists. split; [vm_compute; reflexivity|]. vm_compute. reflexivity. Qed.
Print Assumptions C41_refuted_non_utf8_header.

Theorem C41_refuted_content_length_added :
  exists e i, flow_entry toy (sample_rq V11) (Some (sample_resp V11 [SERVER])) = Ok e
              /\ request_to_flow false toy e = Ok i
              /\ i_sh i = [SERVER; CL2].
Proof. eexists. eexists. split; [vm_compute; reflexivity|]. split; vm_compute; reflexivity. Qed.
Print Assumptions C41_refuted_content_length_added.

Theorem C41_refuted_content_encoding_dropped :
  exists e i, flow_entry toy (sample_rq V11) (Some (sample_resp V11 [H K_CE GZIP; CL2])) = Ok e
              /\ request_to_flow false toy e = Ok i
              /\ i_sh i = [CL2].
Proof. eexists. eexists. split; [vm_compute; reflexivity|]. split; vm_compute; reflexivity. Qed.
Print Assumptions C41_refuted_content_encoding_dropped.

(* With surrogateescape in fix_headers (se = true, the code of /repo) the same file is read and the header comes back. *)
Theorem C41_header_fix_effective :
  exists es i, make_har toy [HttpFlow (sample_rq V11) (Some (sample_resp V11 [H [x58] [xff]; CL2]))] = Ok es
               /\ import_har true toy es = ([i], Clean) /\ i_sh i = [H [x58] [xff]; CL2].
Proof. eexists. eexists. split; [vm_compute; reflexivity|]. split; vm_compute; reflexivity. Qed.
Print Assumptions C41_header_fix_effective.

(* The contracts are satisfiable and the guard is satisfiable by a non-trivial exchange (POST with body, several
   headers, text response; the request Content-Length is really rewritten, postData really carries the text). *)
Theorem C41_nonvacuous :
  contracts toy /\ flow_ok toy false (sample_rq V11) (sample_resp V3 [SERVER; CL2])
  /\ exists e i, flow_entry toy (sample_rq V11) (Some (sample_resp V3 [SERVER; CL2])) = Ok e
                 /\ request_to_flow false toy e = Ok i
                 /\ i_rh i <> rq_headers (sample_rq V11)
                 /\ e_post e = Some (Some [123;125]%N).
Proof.
  split; [exact toy_contracts|]. split; [exact sample_ok|].
  eexists. eexists. split; [vm_compute; reflexivity|]. split; [vm_compute; reflexivity|].
  split; [vm_compute; intros E; discriminate E | reflexivity].
Qed.
Print Assumptions C41_nonvacuous.

(* "in the same order", for ANY list of flows (no guard, no contracts; the model of make_har takes no creation or
   start time as input, so the statement holds whatever those are): if the export succeeds, entry number i is the
   entry of the i-th HTTP flow of the list handed to the exporter ... *)
Theorem C41_entry_order : forall (L : lib) (flows : list flow) (es : list entry),
  make_har L flows = Ok es ->
  Forall2 (fun x e => flow_entry L (fst x) (snd x) = Ok e) (http_flows flows) es.
Proof. exact entry_order. Qed.
Print Assumptions C41_entry_order.

(* ... exporting a concatenation gives the concatenation of the exports ... *)
Theorem C41_export_app : forall (L : lib) (fs1 fs2 : list flow) (es1 es2 : list entry),
  make_har L fs1 = Ok es1 -> make_har L fs2 = Ok es2 -> make_har L (fs1 ++ fs2) = Ok (es1 ++ es2).
Proof. exact make_har_app. Qed.
Print Assumptions C41_export_app.

(* ... and the reader yields the import of entry i at position i (up to the first entry it fails on). *)
Theorem C41_import_order : forall (se : bool) (L : lib) (es : list entry) (imported : list iflow) (st : stop),
  import_har se L es = (imported, st) ->
  Forall2 (fun e i => request_to_flow se L e = Ok i) (firstn (length imported) es) imported.
Proof. exact import_order. Qed.
Print Assumptions C41_import_order.
