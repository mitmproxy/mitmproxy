(* Props/C17.v -- the certificate store is bounded and never serves a certificate for other names.
   Proofs are in Proofs/CertStore*.v.
   Every theorem is for every capacity [cap] and for both forms of the name test in get_cert
   ([truthy = true] is [if name:], [truthy = false] is [if name is not None:]); Gen/CertsConst.v says which
   one the source uses (NAME_TEST_TRUTHY). *)
From Coq Require Import List Bool Arith.
From MV Require Import Base.Bytes Model.CertStore Gen.CertsConst.
From MV Require Import Proofs.CertStoreInv Proofs.CertStoreStable Proofs.CertStoreC17.
Import ListNotations.

(* T1. After any history of add_cert / get_cert calls on a fresh store, at most cap generated
   keys are in certs and at most cap entries in the expire queue. *)
Theorem C17_bound : forall (truthy : bool) (cap : nat) (ops : list op),
  gen_count (certs (run truthy cap ops empty_store)) <= cap
  /\ length (expire_queue (run truthy cap ops empty_store)) <= cap.
Proof. exact (fun truthy cap ops => bound cap truthy ops). Qed.
Print Assumptions C17_bound.

(* T1 for the constants read from the source (Gen/CertsConst.v). *)
Theorem C17_bound_source : forall (ops : list op),
  gen_count (certs (run NAME_TEST_TRUTHY STORE_CAP ops empty_store)) <= STORE_CAP.
Proof. exact (fun ops => proj1 (bound STORE_CAP NAME_TEST_TRUTHY ops)). Qed.
Print Assumptions C17_bound_source.

(* T2. In any reachable store, whatever get_cert returns for (cn, sans) is either a custom entry
   that is bound, at that moment, to one of the potential names of the request, or a generated
   entry made by dummy_cert for exactly (cn, sans): the cached one under that key or a fresh one. *)
Theorem C17_served : forall (truthy : bool) (cap : nat) (ops : list op) cn sans st' e,
  get_cert truthy cap (run truthy cap ops empty_store) cn sans = Some (st', e) ->
  (exists n i, In n (potential_names cn sans) /\ e = ECustom i
               /\ dict_get (KCustom n) (certs (run truthy cap ops empty_store)) = Some e)
  \/ (exists i, e = EGen i cn sans
                /\ (dict_get (KGen cn sans) (certs (run truthy cap ops empty_store)) = Some e
                    \/ i = next_gen (run truthy cap ops empty_store))).
Proof. exact (fun truthy cap ops cn sans st' e => served cap truthy ops cn sans st' e). Qed.
Print Assumptions C17_served.

(* T2, wildcard rules: a potential name of a request is the single asterisk, or a requested DNS name
   (non-empty CN or DNS SAN) itself, or asterisk-dot followed by what comes after one of its dots,
   or the text of a non-DNS SAN. *)
Theorem C17_wildcard_forms : forall cn sans n, In n (potential_names cn sans) -> covers cn sans n.
Proof. exact potential_names_covers. Qed.
Print Assumptions C17_wildcard_forms.

(* T3, full statement: FALSE for truthy = true ([if name:]). With a custom certificate
   registered under the empty name and a request carrying DNSName of the empty string, two
   consecutive identical requests (capacity 2, nothing in between) get different certificates. *)
Theorem C17_stable_refuted :
  exists cap pre cn sans st1 e st2 e',
    get_cert true cap (run true cap pre empty_store) cn sans = Some (st1, e)
    /\ no_touch cn sans [] /\ next_gen (run true cap [] st1) - gid e <= cap
    /\ get_cert true cap (run true cap [] st1) cn sans = Some (st2, e') /\ e' <> e.
Proof. exact stable_refuted. Qed.
Print Assumptions C17_stable_refuted.

(* T3, partial: the guard is exactly the complement of the finding -- at the first request the
   first registered potential name is not the empty string (only needed when truthy = true).
   If a request returned e, then after any further calls that do not re-register one of the
   potential names of the request, the same request returns e again and leaves the store
   unchanged, provided e is custom or is still among the cap most recently generated entries. *)
Theorem C17_stable_partial : forall (cap : nat) (truthy : bool) cn sans (pre mid : list op) st1 e,
  let st0 := run truthy cap pre empty_store in
  get_cert truthy cap st0 cn sans = Some (st1, e) ->
  let st2 := run truthy cap mid st1 in
  no_touch cn sans mid ->
  (truthy = true -> ~ empty_hit cn sans st0) ->
  (forall i c s, e = EGen i c s -> next_gen st2 - i <= cap) ->
  get_cert truthy cap st2 cn sans = Some (st2, e).
Proof. exact stable. Qed.
Print Assumptions C17_stable_partial.

(* T3 for truthy = false ([if name is not None:]): no guard. *)
Theorem C17_stable_repaired : forall (cap : nat) cn sans (pre mid : list op) st1 e,
  let st0 := run false cap pre empty_store in
  get_cert false cap st0 cn sans = Some (st1, e) ->
  let st2 := run false cap mid st1 in
  no_touch cn sans mid ->
  (forall i c s, e = EGen i c s -> next_gen st2 - i <= cap) ->
  get_cert false cap st2 cn sans = Some (st2, e).
Proof.
  intros cap cn sans pre mid st1 e st0 H st2 NT F.
  apply (stable cap false cn sans pre mid st1 e H NT); [discriminate | exact F].
Qed.
Print Assumptions C17_stable_repaired.

(* T3 for a freshly generated certificate: it is returned again unless cap or more generations
   happened in between. *)
Theorem C17_stable_fresh : forall (cap : nat) (truthy : bool) cn sans (pre mid : list op) st1 e,
  let st0 := run truthy cap pre empty_store in
  get_cert truthy cap st0 cn sans = Some (st1, e) ->
  next_gen st1 = S (next_gen st0) ->
  let st2 := run truthy cap mid st1 in
  no_touch cn sans mid ->
  (truthy = true -> ~ empty_hit cn sans st0) ->
  next_gen st2 - next_gen st1 < cap ->
  get_cert truthy cap st2 cn sans = Some (st2, e).
Proof. exact stable_fresh. Qed.
Print Assumptions C17_stable_fresh.

(* The queue is FIFO, not LRU: counting generations from a cache hit (instead of from the creation
   of the entry) is not enough -- capacity 2, one generation in between, a different certificate. *)
Theorem C17_fifo_not_lru :
  let pre := [GetCert (Some nA) []; GetCert (Some nB) []] in
  let st0 := run false 2 pre empty_store in
  exists st1 st2,
    get_cert false 2 st0 (Some nA) [] = Some (st1, EGen 0 (Some nA) [])
    /\ next_gen (run false 2 [GetCert (Some nC) []] st1) - next_gen st1 = 1
    /\ get_cert false 2 (run false 2 [GetCert (Some nC) []] st1) (Some nA) [] = Some (st2, EGen 3 (Some nA) []).
Proof. eexists. eexists. repeat split; vm_compute; reflexivity. Qed.
Print Assumptions C17_fifo_not_lru.

(* The hypotheses of T3 are satisfiable on a non-trivial history (custom wildcard hit, generation,
   unrelated registration and another generation in between, bound attained). *)
Theorem C17_nonvacuous :
  let st0 := run true 2 w_pre empty_store in
  exists st1,
    get_cert true 2 st0 (Some nC) [] = Some (st1, EGen 0 (Some nC) [])
    /\ no_touch (Some nC) [] w_mid
    /\ ~ empty_hit (Some nC) [] st0
    /\ next_gen (run true 2 w_mid st1) - 0 <= 2
    /\ gen_count (certs (run true 2 w_mid st1)) = 2
    /\ snd (step true 2 empty_store (GetCert (Some n_ab) [DNS n_ab])) = Some (EGen 0 (Some n_ab) [DNS n_ab])
    /\ snd (step true 2 (run true 2 [AddCert 0 None [DNS n_sb] []] empty_store) (GetCert (Some n_ab) [DNS n_ab]))
       = Some (ECustom 0).
Proof. exact nonvacuous. Qed.
Print Assumptions C17_nonvacuous.
