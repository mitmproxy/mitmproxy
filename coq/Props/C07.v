(* Props/C07.v -- Body size limits are enforced and streamed bodies are relayed exactly.
   Proofs are in Proofs/HttpBody*.v and Proofs/H2SendBufFlat.v.  HttpBody.send_data is written qualified because
   Model/H2SendBuf.v has a send_data of its own.
   All theorems are about Model/HttpBody.v, the model the correspondence check runs: S, fq, fs are the state and the
   two stream callables (arbitrary state-passing functions), cfg the options / addon policy / connectability.
   Findings: (fixed, /repo d5b92a7b2) a zero-length data event on a chunked message was written as the last-chunk
   -- C07_empty_chunk_unrepaired_refuted is the witness on the encoding before the fix (send_data_unrepaired),
   C07_wire_chunked_decodes the theorem for the code as it is; (known) no error response after 100 Continue -- C07_client_error_refuted +
   C07_client_error_partial, whose guard (no response recorded on the client connection) is the complement. *)
From Coq Require Import List Bool NArith ZArith.
From MV Require Import Base.Bytes Model.Http1Msg Model.Rfc9112 Model.HttpBody.
From MV Require Import Proofs.HttpBodyBase Proofs.HttpBodyLimit Proofs.HttpBodySteps Proofs.HttpBodyBound.
From MV Require Import Proofs.HttpBodyForward Proofs.HttpBodyRelay Proofs.HttpBodyWire.
From MV Require Import Model.H2SendBuf Proofs.H2SendBufFlat.
Import ListNotations.
Open Scope Z_scope.

(* ---- (1) memory bound.  For every history of events from the initial state (every prefix of a history is a
   history, so this is every reachable state): with body_size_limit = L >= 0, a body that is being buffered never
   exceeds L after the event has been handled; no buffer ever exceeds L plus the largest chunk received; a streamed
   body is not buffered at all.  The only bytes outside the bound are those kept on request by
   store_streamed_bodies, hence the hypothesis o_store = false on those clauses. *)
Theorem C07_buffer_bound :
  forall (S : Type) (fq fs : S -> bytes -> S * sres) (cfg : config) (L : Z),
  parse_size (o_limit cfg) = PVal L -> 0 <= L ->
  forall (q0 s0 : S) (evs : list event) (s : st S) (out : list cmd) (cr : bool),
  run S fq fs cfg (init S q0 s0) evs = (s, out, cr) ->
  (client_state s = Consume -> blen (request_body_buf s) <= L)
  /\ (server_state s = Consume -> blen (response_body_buf s) <= L)
  /\ (o_store cfg = false ->
      blen (request_body_buf s) <= L + max_req evs /\ blen (response_body_buf s) <= L + max_resp evs)
  /\ (o_store cfg = false -> client_state s = Streaming -> request_body_buf s = [])
  /\ (o_store cfg = false -> server_state s = Streaming -> response_body_buf s = [])
  /\ (client_state s = WaitHeaders \/ client_state s = Done -> request_body_buf s = [])
  /\ (server_state s = WaitHeaders \/ server_state s = Done -> response_body_buf s = []).
Proof. exact buffer_bound. Qed.
Print Assumptions C07_buffer_bound.

(* ---- (2) a body known to exceed the limit is rejected: error hook, error to the client, stream errored *)
Theorem C07_early_reject_request :
  forall (S : Type) (fq fs : S -> bytes -> S * sres) (cfg : config) (L : Z),
  parse_size (o_limit cfg) = PVal L ->
  forall (s : st S) (n : Z) (e100 : bool),
  client_state s = WaitHeaders -> request_body_buf s = [] -> 0 < n -> L < n ->
  exists s', handle_event S fq fs cfg s (ReqHeaders (FLen n) e100)
             = Some (s', [CHook HRequestHeaders; CHook HError; CSend Client (MErr ReqTooLarge)])
    /\ client_state s' = Errored /\ flow_error s' = true /\ flow_live s' = false
    /\ request_body_buf s' = [].
Proof. exact early_reject_request. Qed.
Print Assumptions C07_early_reject_request.

Theorem C07_late_reject_request :
  forall (S : Type) (fq fs : S -> bytes -> S * sres) (cfg : config) (L : Z),
  parse_size (o_limit cfg) = PVal L ->
  forall (s : st S) (d : bytes),
  client_state s = Consume -> 0 <= L -> L < blen (request_body_buf s ++ d) ->
  exists s', handle_event S fq fs cfg s (ReqData d) = Some (s', [CHook HError; CSend Client (MErr ReqTooLarge)])
    /\ client_state s' = Errored /\ flow_error s' = true /\ flow_live s' = false
    /\ request_body_buf s' = request_body_buf s ++ d.
Proof. exact late_reject_request. Qed.
Print Assumptions C07_late_reject_request.

Theorem C07_early_reject_response :
  forall (S : Type) (fq fs : S -> bytes -> S * sres) (cfg : config) (L : Z),
  parse_size (o_limit cfg) = PVal L ->
  forall (s : st S) (n : Z),
  server_state s = WaitHeaders -> response_body_buf s = [] -> 0 < n -> L < n ->
  exists s', handle_event S fq fs cfg s (RespHeaders (FLen n))
             = Some (s', [CHook HResponseHeaders; CHook HError; CSend Client (MErr RespTooLarge);
                          CSend Server (MErr RespTooLarge)])
    /\ client_state s' = Errored /\ server_state s' = Errored
    /\ flow_error s' = true /\ flow_live s' = false.
Proof. exact early_reject_response. Qed.
Print Assumptions C07_early_reject_response.

Theorem C07_late_reject_response :
  forall (S : Type) (fq fs : S -> bytes -> S * sres) (cfg : config) (L : Z),
  parse_size (o_limit cfg) = PVal L ->
  forall (s : st S) (d : bytes),
  server_state s = Consume -> 0 <= L -> L < blen (response_body_buf s ++ d) ->
  exists s', handle_event S fq fs cfg s (RespData d)
             = Some (s', [CHook HError; CSend Client (MErr RespTooLarge); CSend Server (MErr RespTooLarge)])
    /\ client_state s' = Errored /\ server_state s' = Errored
    /\ flow_error s' = true /\ flow_live s' = false
    /\ response_body_buf s' = response_body_buf s ++ d.
Proof. exact late_reject_response. Qed.
Print Assumptions C07_late_reject_response.

(* after the decision the request side swallows every event: no RequestData is forwarded *)
Theorem C07_rejected_stream_silent :
  forall (S : Type) (fq fs : S -> bytes -> S * sres) (cfg : config) (s : st S) (e : event),
  client_state s = Errored -> is_request_event e = true -> handle_event S fq fs cfg s e = Some (s, []).
Proof. exact step_request_errored. Qed.
Print Assumptions C07_rejected_stream_silent.

(* in every history, with any options: if the request was rejected for its size then no request head, data or
   end-of-message was sent to the server at any time, before or after the decision *)
Theorem C07_rejected_request_never_forwarded :
  forall (S : Type) (fq fs : S -> bytes -> S * sres) (cfg : config) (q0 s0 : S) (evs : list event)
         (s : st S) (out : list cmd) (cr : bool),
  run S fq fs cfg (init S q0 s0) evs = (s, out, cr) ->
  In (CSend Client (MErr ReqTooLarge)) out -> server_content out = [] /\ client_state s = Errored.
Proof.
  intros S fq fs cfg q0 s0 evs s out cr R RJ.
  destruct (finv_run S fq fs cfg evs _ _ [] _ _ (finv_init S fq fs q0 s0) R) as ((_ & J2) & _).
  destruct (J2 RJ); auto.
Qed.
Print Assumptions C07_rejected_request_never_forwarded.

Theorem C07_rejected_response_never_forwarded :
  forall (S : Type) (fq fs : S -> bytes -> S * sres) (cfg : config) (q0 s0 : S) (evs : list event)
         (s : st S) (out : list cmd) (cr : bool),
  run S fq fs cfg (init S q0 s0) evs = (s, out, cr) ->
  In (CSend Client (MErr RespTooLarge)) out ->
  client_content out = [] /\ server_state s = Errored /\ client_state s = Errored.
Proof.
  intros S fq fs cfg q0 s0 evs s out cr R RJ.
  destruct (finv_run S fq fs cfg evs _ _ [] _ _ (finv_init S fq fs q0 s0) R) as (_ & (_ & K2) & KC & _).
  destruct (K2 RJ); auto.
Qed.
Print Assumptions C07_rejected_response_never_forwarded.

(* in every history: nothing of a message reaches the other side while it is still being buffered *)
Theorem C07_buffering_forwards_nothing :
  forall (S : Type) (fq fs : S -> bytes -> S * sres) (cfg : config) (q0 s0 : S) (evs : list event)
         (s : st S) (out : list cmd) (cr : bool),
  run S fq fs cfg (init S q0 s0) evs = (s, out, cr) ->
  (client_state s = Consume -> server_content out = [])
  /\ (server_state s = Consume -> client_content out = []).
Proof.
  intros S fq fs cfg q0 s0 evs s out cr R.
  destruct (finv_run S fq fs cfg evs _ _ [] _ _ (finv_init S fq fs q0 s0) R) as ((J1 & _) & (K1 & _) & _).
  split; intros C; [apply J1|apply K1]; right; right; exact C.
Qed.
Print Assumptions C07_buffering_forwards_nothing.

(* ---- (3) streamed bodies.  From any state in which the request is being streamed, for every list of received
   chunks: the data events sent to the server are, in order, the chunks the callable returns for each received
   chunk and for the final b"" (or the received chunks themselves when stream is True); the end of message follows
   them; the flow keeps exactly those bytes iff store_streamed_bodies. *)
Theorem C07_stream_request_relay :
  forall (S : Type) (fq fs : S -> bytes -> S * sres) (cfg : config) (ds : list bytes)
         ss qb sb qf sf qs rs q1 q2 qc sc er lv,
  let s := mkSt Streaming ss qb sb qf sf qs rs q1 q2 qc sc er lv in
  let pieces := expected_pieces S qs fq q1 ds in
  exists s' out,
    run S fq fs cfg s (map ReqData ds ++ [ReqEom]) = (s', out, false)
    /\ data_to Server out = pieces
    /\ server_content out = map (fun c => CSend Server (MData c)) pieces ++ [CSend Server MEom]
    /\ client_state s' = Done
    /\ req_content s' = (if o_store cfg then Some (qb ++ concat pieces) else qc)
    /\ request_body_buf s' = (if o_store cfg then [] else qb).
Proof. intros. exact (stream_request_relay_from S fq fs cfg ds s eq_refl). Qed.
Print Assumptions C07_stream_request_relay.

Theorem C07_stream_response_relay :
  forall (S : Type) (fq fs : S -> bytes -> S * sres) (cfg : config) (ds : list bytes)
         cs qb sb qf sf qs rs q1 q2 qc sc er lv,
  let s := mkSt cs Streaming qb sb qf sf qs rs q1 q2 qc sc er lv in
  let pieces := expected_pieces S rs fs q2 ds in
  exists s' out,
    run S fq fs cfg s (map RespData ds ++ [RespEom]) = (s', out, false)
    /\ data_to Client out = pieces
    /\ client_content out = map (fun c => CSend Client (MData c)) pieces
                             ++ (if hstate_eqb cs Done then [CSend Client MEom] else [])
    /\ server_state s' = Done
    /\ resp_content s' = (if o_store cfg then Some (sb ++ concat pieces) else sc)
    /\ response_body_buf s' = (if o_store cfg then [] else sb).
Proof. intros. exact (stream_response_relay_from S fq fs cfg ds s eq_refl). Qed.
Print Assumptions C07_stream_response_relay.

(* relayed without buffering: the commands of one data event are exactly the callable's chunks for that event *)
Theorem C07_stream_request_immediate :
  forall (S : Type) (fq fs : S -> bytes -> S * sres) (cfg : config) (s : st S) (d : bytes),
  client_state s = Streaming ->
  let pieces := match req_stream s with SCall => data_chunks (snd (fq (fq_st s) d)) | _ => [d] end in
  exists s', handle_event S fq fs cfg s (ReqData d) = Some (s', map (fun c => CSend Server (MData c)) pieces)
    /\ client_state s' = Streaming
    /\ request_body_buf s' = (if o_store cfg then request_body_buf s ++ concat pieces else request_body_buf s).
Proof.
  intros S fq fs cfg s d Hc. destruct (stream_request_data S fq fs cfg s d Hc) as (s' & HE & C & B & _).
  exists s'. auto.
Qed.
Print Assumptions C07_stream_request_immediate.

Theorem C07_stream_response_immediate :
  forall (S : Type) (fq fs : S -> bytes -> S * sres) (cfg : config) (s : st S) (d : bytes),
  server_state s = Streaming ->
  let pieces := match resp_stream s with SCall => data_chunks (snd (fs (fs_st s) d)) | _ => [d] end in
  exists s', handle_event S fq fs cfg s (RespData d) = Some (s', map (fun c => CSend Client (MData c)) pieces)
    /\ server_state s' = Streaming
    /\ response_body_buf s' = (if o_store cfg then response_body_buf s ++ concat pieces else response_body_buf s).
Proof.
  intros S fq fs cfg s d Hc. destruct (stream_response_data S fq fs cfg s d Hc) as (s' & HE & C & B & _).
  exists s'. auto.
Qed.
Print Assumptions C07_stream_response_immediate.

(* the late switch (stream_large_bodies exceeded while buffering): connect, head, then everything buffered as one
   data event; the buffer is cleared first, so nothing is duplicated *)
Theorem C07_late_switch_request :
  forall (S : Type) (fq fs : S -> bytes -> S * sres) (cfg : config) (s : st S) (d : bytes) (T : Z),
  client_state s = Consume -> c_ok cfg = true ->
  parse_size (o_stream cfg) = PVal T -> 0 <= T -> T < blen (request_body_buf s ++ d) ->
  parse_size (o_limit cfg) <> PErr -> over (parse_size (o_limit cfg)) (blen (request_body_buf s ++ d)) = false ->
  exists s', handle_event S fq fs cfg s (ReqData d)
             = Some (s', [CGetConn; CSend Server (MHeaders false); CSend Server (MData (request_body_buf s ++ d))])
    /\ client_state s' = Streaming /\ req_stream s' = STrue
    /\ request_body_buf s' = (if o_store cfg then request_body_buf s ++ d else []).
Proof. exact late_switch_request. Qed.
Print Assumptions C07_late_switch_request.

(* a whole chunked request from the initial state with an addon installing a callable, any size options *)
Theorem C07_stream_request_end_to_end :
  forall (S : Type) (fq fs : S -> bytes -> S * sres) (cfg : config) (q0 s0 : S) (e100 : bool) (ds : list bytes),
  p_req cfg = Some SCall -> c_ok cfg = true ->
  let pieces := transformed S fq q0 ds in
  exists s' out,
    run S fq fs cfg (init S q0 s0) (ReqHeaders FChunked e100 :: map ReqData ds ++ [ReqEom]) = (s', out, false)
    /\ data_to Server out = pieces
    /\ server_content out = CSend Server (MHeaders false)
                             :: map (fun c => CSend Server (MData c)) pieces ++ [CSend Server MEom]
    /\ client_state s' = Done
    /\ req_content s' = (if o_store cfg then Some (concat pieces) else None)
    /\ request_body_buf s' = [].
Proof. exact stream_request_end_to_end. Qed.
Print Assumptions C07_stream_request_end_to_end.

(* ---- on the wire (Http1Client.send / Http1Server.send).  For every list of data events, empty ones included, what
   is written for a chunked message is read back by the RFC 9112 reference decoder as the concatenation of the data,
   with nothing left over *)
Theorem C07_wire_chunked_decodes :
  forall (o : ref_opts) (pieces : list bytes) (rest : bytes),
  read_body o BLChunked (wire_chunks HttpBody.send_data pieces ++ rest) = POk (concat pieces, [], rest).
Proof. exact wire_chunked_decodes. Qed.
Print Assumptions C07_wire_chunked_decodes.

Theorem C07_wire_request_stream_decodes :
  forall (S : Type) (cfg : config) (w : wst S) (pieces : list bytes) (o : ref_opts) (rest : bytes),
  req_framing (hs S w) = FChunked ->
  let '(w1, t1) := exec_cmds S cfg w (map (fun c => CSend Server (MData c)) pieces) in
  let '(w2, t2) := exec_cmd S cfg w1 (CSend Server MEom) in
  read_body o BLChunked (sent_to Server (t1 ++ t2) ++ rest) = POk (concat pieces, [], rest).
Proof. intros S cfg. exact (wire_stream_decodes S cfg Server). Qed.
Print Assumptions C07_wire_request_stream_decodes.

Theorem C07_wire_response_stream_decodes :
  forall (S : Type) (cfg : config) (w : wst S) (pieces : list bytes) (o : ref_opts) (rest : bytes),
  resp_fr S w = FChunked ->
  let '(w1, t1) := exec_cmds S cfg w (map (fun c => CSend Client (MData c)) pieces) in
  let '(w2, t2) := exec_cmd S cfg w1 (CSend Client MEom) in
  read_body o BLChunked (sent_to Client (t1 ++ t2) ++ rest) = POk (concat pieces, [], rest).
Proof. intros S cfg. exact (wire_stream_decodes S cfg Client). Qed.
Print Assumptions C07_wire_response_stream_decodes.

(* the defect fixed by /repo d5b92a7b2, on the encoding before it: the data events [b""; b"defg"]
   are read back as an empty body and the second chunk is left over as the start of another message *)
Theorem C07_empty_chunk_unrepaired_refuted :
  exists pieces body rest,
    read_body (mkOpts false false false) BLChunked (wire_chunks HttpBody.send_data_unrepaired pieces) = POk (body, [], rest)
    /\ body <> concat pieces /\ rest <> [].
Proof. exact wire_unrepaired_empty_chunk. Qed.
Print Assumptions C07_empty_chunk_unrepaired_refuted.

(* ---- the client receives an error.  Full statement is false (known finding no-error-response-after-100-continue):
   a chunked request with Expect: 100-continue that outgrows the limit is closed without any error response *)
Theorem C07_client_error_refuted :
  exists cfg steps trace bufs w,
    wrun unit (fun q _ => (q, RB [])) (fun q _ => (q, RB [])) cfg (winit unit tt tt) steps = (trace, bufs, w, false)
    /\ In (THook HError) trace /\ flow_error (hs unit w) = true
    /\ In (TClose Client) trace
    /\ (forall z, ~ In (TErrPage z) trace).
Proof. exact client_error_after_continue_refuted. Qed.
Print Assumptions C07_client_error_refuted.

(* ... and holds whenever no response is recorded on the client connection (no 100 Continue, no response head) *)
Theorem C07_client_error_partial :
  forall (S : Type) (cfg : config) (w : wst S) (code : errcode),
  client_open S w = true -> srv_response S w = SrNone ->
  exists w', exec_cmd S cfg w (CSend Client (MErr code)) = (w', [TErrPage (status_of code); TClose Client])
             /\ client_open S w' = false.
Proof. exact client_error_response. Qed.
Print Assumptions C07_client_error_partial.

(* end to end, early case, on the wire: 413 and close, nothing opened towards the server *)
Theorem C07_wire_early_reject :
  forall (S : Type) (fq fs : S -> bytes -> S * sres) (cfg : config) (q0 s0 : S) (L n : Z) (e100 : bool),
  parse_size (o_limit cfg) = PVal L -> 0 < n -> L < n ->
  exists w', wstep S fq fs cfg (winit S q0 s0) (WReqHead (FLen n) e100)
             = Some (w', [THook HRequestHeaders; THook HError; TErrPage 413; TClose Client])
    /\ client_open S w' = false /\ server_conn S w' = None
    /\ flow_error (hs S w') = true /\ flow_live (hs S w') = false.
Proof. exact wire_early_reject. Qed.
Print Assumptions C07_wire_early_reject.

(* ---- bodies relayed over an HTTP/2 leg: BufferedH2Connection's per-stream send buffer (Model/H2SendBuf.v) is a
   queue.  Each stream's traffic is read as tokens: the bytes of every chunk, then an END marker if the chunk carries
   END_STREAM.  For EVERY sequence of send_data / end_stream / stream and connection WINDOW_UPDATE operations, of
   any sizes, on any streams, from any state: tokens written ++ tokens still buffered = tokens buffered before ++
   tokens handed to send_data. *)
Theorem C07_h2_send_buffer_is_a_queue :
  forall (ops : list op) (s s' : sb) (fss : list (list frame)) (sid : N),
  run_ops ops s = Some (s', fss) ->
  flat (frames_of sid (concat fss)) ++ flat (buf_of sid s')
  = flat (buf_of sid s) ++ flat (flat_map (uchunks (maxf s) sid) ops).
Proof. exact send_buffer_is_a_queue. Qed.
Print Assumptions C07_h2_send_buffer_is_a_queue.

(* the DATA payloads written for a stream are a prefix of the data queued for it, in order; what is missing is
   exactly what is still buffered (uchunks_send_bytes: cutting over-long frames does not change the bytes) *)
Theorem C07_h2_written_is_prefix_of_queued :
  forall (ops : list op) (sids : list N) (w0 c0 mf : Z) (s' : sb) (fss : list (list frame)) (sid : N),
  run_ops ops (init_sb sids w0 c0 mf) = Some (s', fss) ->
  bytes_of (frames_of sid (concat fss)) ++ bytes_of (buf_of sid s') = bytes_of (flat_map (uchunks mf sid) ops).
Proof.
  intros ops sids w0 c0 mf s' fss sid H. pose proof (send_buffer_is_a_queue ops _ _ _ sid H) as Q.
  apply (f_equal strip) in Q. rewrite !strip_app, !strip_flat in Q. exact Q.
Qed.
Print Assumptions C07_h2_written_is_prefix_of_queued.

Theorem C07_h2_queued_bytes :
  forall (mf : Z) (k : N) (d : bytes) (es : bool), bytes_of (uchunks mf k (OSend k d es)) = d.
Proof. exact uchunks_send_bytes. Qed.
Print Assumptions C07_h2_queued_bytes.

(* END_STREAM last: if END_STREAM is the last thing queued for a stream and a frame carrying END_STREAM has been
   written, every queued byte was written before it, in order, and nothing is left *)
Theorem C07_h2_end_stream_is_last :
  forall (ops : list op) (sids : list N) (w0 c0 mf : Z) (s' : sb) (fss : list (list frame)) (sid : N) (body : bytes),
  run_ops ops (init_sb sids w0 c0 mf) = Some (s', fss) ->
  flat (flat_map (uchunks mf sid) ops) = map Some body ++ [None] ->
  (exists d, In (d, true) (frames_of sid (concat fss))) ->
  bytes_of (frames_of sid (concat fss)) = body /\ flat (buf_of sid s') = []
  /\ flat (frames_of sid (concat fss)) = map Some body ++ [None].
Proof. exact end_stream_is_last. Qed.
Print Assumptions C07_h2_end_stream_is_last.

(* a concrete run: window 4, two chunks and END_STREAM queued, the window re-opened by 3, 3 and 9: the first chunk is
   cut twice and its remainder goes back to the HEAD of the buffer *)
Theorem C07_h2_nonvacuous :
  exists s fss,
    run_ops [OSend 1 [x61; x62; x63; x64; x65; x66; x67; x68] false; OSend 1 [x58; x59] false; OEnd 1;
             OWinS 1 3; OWinS 1 3; OWinS 1 9] (init_sb [1%N] 4 65535 16384) = Some (s, fss)
    /\ fss = [[Frame 1 [x61; x62; x63; x64] false]; []; []; [Frame 1 [x65; x66; x67] false];
              [Frame 1 [x68] false; Frame 1 [x58; x59] false]; [Frame 1 [] true]]
    /\ bufs s = [].
Proof. exact h2_example. Qed.
Print Assumptions C07_h2_nonvacuous.

(* ---- the hypotheses are satisfiable on concrete, non-trivial values *)
Theorem C07_nonvacuous :
  parse_size (Some [x31; x6b]) = PVal 1024
  /\ parse_size (Some [x20; x2d; x33; x6d]) = PVal (-3145728)
  /\ parse_size (Some [x31; x4b]) = PErr
  /\ (let cfg := mkConfig (Some [x33]) None false None None true in
      exists s out,
        run unit (fun q d => (q, RB d)) (fun q d => (q, RB d)) cfg (init unit tt tt)
            [ReqHeaders FChunked false; ReqData [x61; x62]; ReqData [x63; x64]; ReqData [x65]] = (s, out, false)
        /\ In (CSend Client (MErr ReqTooLarge)) out /\ blen (request_body_buf s) = 4)
  /\ (let cfg := mkConfig None (Some [x32]) true None None true in
      exists s out,
        run unit (fun q d => (q, RB d)) (fun q d => (q, RB d)) cfg (init unit tt tt)
            [ReqHeaders FChunked false; ReqData [x61; x62]; ReqData [x63]; ReqData [x64]; ReqEom] = (s, out, false)
        /\ data_to Server out = [[x61; x62; x63]; [x64]] /\ req_content s = Some [x61; x62; x63; x64]).
Proof. exact nonvacuous_examples. Qed.
Print Assumptions C07_nonvacuous.
