(* Props/C40.v -- Backup, revert and copy behave exactly.  Statements only; each is closed by
   [exact] of a lemma of Proofs/FlowBackup.v.  Every theorem quantifies over the content lens
   (get_c, set_c, new_o: the content part of get_state / set_state / a fresh flow, for any flow
   type) under the contract get_c (set_c c o) = c, over a decidable content equality, and over
   arbitrary edit functions on the live content.  The model describes the REPAIRED modified
   (fixes/C40-modified-ignores-embedded-backup.diff) and the REPAIRED copy
   (fixes/C40-copy-backup-id.diff). *)
From Coq Require Import List Bool NArith.
From MV Require Import Base.Bytes Model.FlowBackup Proofs.FlowBackup.
Import ListNotations.
Open Scope N_scope.

(* Backup, then ANY revert-free history of edits, live toggles, repeated backups and
   set_state(get_state()) round trips, then revert: get_state is exactly the backed-up state and
   the backup is cleared (live is left alone).  With a backup already pending, backup is a no-op
   and the state saved first is the one restored. *)
Theorem C40_revert_restores :
  forall (Obj C : Type) (get_c : Obj -> C) (set_c : C -> Obj -> Obj),
  (forall c o, get_c (set_c c o) = c) ->
  forall (f : flow Obj C) (h : list (fop Obj)), no_revert Obj h ->
  let g := frun Obj C get_c set_c (backup Obj C get_c f) h in
  get_state Obj C get_c (revert Obj C set_c g) =
    match fbackup f with
    | Some b => St (sid b) (sc b) None
    | None => get_state Obj C get_c f
    end
  /\ fbackup (revert Obj C set_c g) = None
  /\ flive (revert Obj C set_c g) = flive g.
Proof. exact revert_restores. Qed.
Print Assumptions C40_revert_restores.

(* The same inside any longer history: h1 is arbitrary (reverts included) and leaves no backup
   pending; the segment backup / revert-free h2 / revert brings the state back to what it was
   after h1 and again leaves no backup pending, so segments compose. *)
Theorem C40_revert_restores_in_history :
  forall (Obj C : Type) (get_c : Obj -> C) (set_c : C -> Obj -> Obj),
  (forall c o, get_c (set_c c o) = c) ->
  forall (f0 : flow Obj C) (h1 h2 : list (fop Obj)),
  fbackup (frun Obj C get_c set_c f0 h1) = None -> no_revert Obj h2 ->
  let g := frun Obj C get_c set_c f0 (h1 ++ [FBackup] ++ h2 ++ [FRevert]) in
  get_state Obj C get_c g = get_state Obj C get_c (frun Obj C get_c set_c f0 h1)
  /\ fbackup g = None.
Proof. exact revert_restores_in_history. Qed.
Print Assumptions C40_revert_restores_in_history.

(* Through ALL histories of one flow the id never changes and the saved state is flat (contains
   no backup of its own) and carries that id. *)
Theorem C40_history_flat :
  forall (Obj C : Type) (get_c : Obj -> C) (set_c : C -> Obj -> Obj)
         (h : list (fop Obj)) (f : flow Obj C),
  flat Obj C f ->
  flat Obj C (frun Obj C get_c set_c f h) /\ fid (frun Obj C get_c set_c f h) = fid f.
Proof. exact history_flat. Qed.
Print Assumptions C40_history_flat.

(* modified() is True exactly when a backup is pending and the current (id, content) differs
   from the saved one. *)
Theorem C40_modified_iff :
  forall (Obj C : Type) (get_c : Obj -> C) (C_eqb : C -> C -> bool),
  (forall a b, C_eqb a b = true <-> a = b) ->
  forall f : flow Obj C,
  modified Obj C get_c C_eqb f = true <->
  exists b, fbackup f = Some b /\ (sid b, sc b) <> (fid f, get_c (fo f)).
Proof. exact modified_iff. Qed.
Print Assumptions C40_modified_iff.

(* In particular modified() is False right after a backup (this is what the unrepaired code got
   wrong) and after a revert; after backup and any revert-free history it is True iff the content now
   differs from the content at backup time (edit and edit back gives False again). *)
Theorem C40_modified_after_backup :
  forall (Obj C : Type) (get_c : Obj -> C) (C_eqb : C -> C -> bool),
  (forall a b, C_eqb a b = true <-> a = b) ->
  forall f : flow Obj C, fbackup f = None ->
  modified Obj C get_c C_eqb (backup Obj C get_c f) = false.
Proof. exact modified_after_backup. Qed.
Print Assumptions C40_modified_after_backup.

Theorem C40_modified_after_revert :
  forall (Obj C : Type) (get_c : Obj -> C) (set_c : C -> Obj -> Obj) (C_eqb : C -> C -> bool)
         (f : flow Obj C),
  modified Obj C get_c C_eqb (revert Obj C set_c f) = false.
Proof. exact modified_after_revert. Qed.
Print Assumptions C40_modified_after_revert.

Theorem C40_modified_in_history :
  forall (Obj C : Type) (get_c : Obj -> C) (set_c : C -> Obj -> Obj) (C_eqb : C -> C -> bool),
  (forall a b, C_eqb a b = true <-> a = b) ->
  forall (f : flow Obj C) (h : list (fop Obj)),
  fbackup f = None -> no_revert Obj h ->
  (modified Obj C get_c C_eqb (frun Obj C get_c set_c (backup Obj C get_c f) h) = true <->
   get_c (fo (frun Obj C get_c set_c (backup Obj C get_c f) h)) <> get_c (fo f)).
Proof. exact modified_in_history. Qed.
Print Assumptions C40_modified_in_history.

(* The defect that was repaired (finding modified-without-change): the comparison
   self._backup != self.get_state() is True for EVERY flow with a backup, edited or not, because
   get_state embeds the backup and no state equals a state that contains it. *)
Theorem C40_unrepaired_modified_constant :
  forall (Obj C : Type) (get_c : Obj -> C) (C_eqb : C -> C -> bool) (f : flow Obj C) (b : state C),
  fbackup f = Some b -> modified_unrepaired Obj C get_c C_eqb f = true.
Proof. exact unrepaired_modified_constant. Qed.
Print Assumptions C40_unrepaired_modified_constant.

(* A copy has the id it was given (a fresh uuid4), equal content and an equal pending backup
   that carries the id of the copy, and is not live. *)
Theorem C40_copy_spec :
  forall (Obj C : Type) (get_c : Obj -> C) (set_c : C -> Obj -> Obj) (new_o : Obj),
  (forall c o, get_c (set_c c o) = c) ->
  forall (nid : ident) (f : flow Obj C),
  get_state Obj C get_c (copy Obj C get_c set_c new_o nid f) =
    St nid (get_c (fo f)) (option_map (reid C nid) (fbackup f))
  /\ fid (copy Obj C get_c set_c new_o nid f) = nid
  /\ flive (copy Obj C get_c set_c new_o nid f) = false.
Proof. exact copy_spec. Qed.
Print Assumptions C40_copy_spec.

(* Reverting a copy keeps the fresh id, whatever backup was pending in the original. *)
Theorem C40_copy_revert_keeps_id :
  forall (Obj C : Type) (get_c : Obj -> C) (set_c : C -> Obj -> Obj) (new_o : Obj),
  (forall c o, get_c (set_c c o) = c) ->
  forall (nid : ident) (f : flow Obj C),
  fid (revert Obj C set_c (copy Obj C get_c set_c new_o nid f)) = nid.
Proof. exact copy_revert_keeps_id. Qed.
Print Assumptions C40_copy_revert_keeps_id.

(* The defect that was repaired (finding copy-revert-restores-original-id): with the shipped copy,
   backup / copy / revert-the-copy gave the copy the id of the original, for every flow. *)
Theorem C40_unrepaired_copy_revert_collides :
  forall (Obj C : Type) (get_c : Obj -> C) (set_c : C -> Obj -> Obj) (new_o : Obj)
         (nid : ident) (f : flow Obj C),
  fbackup f = None ->
  fid (revert Obj C set_c (copy_unrepaired Obj C get_c set_c new_o nid (backup Obj C get_c f))) = fid f.
Proof. exact unrepaired_copy_revert_collides. Qed.
Print Assumptions C40_unrepaired_copy_revert_collides.

(* Editing either one never changes the other: in a store of flows, over any history, a flow
   that no operation targets is unchanged, whatever is done to the other flows and however often
   it is copied (copies are appended at the end of the store). *)
Theorem C40_independent :
  forall (Obj C : Type) (get_c : Obj -> C) (set_c : C -> Obj -> Obj) (new_o : Obj)
         (h : list (op Obj)) (s : list (flow Obj C)) (j : nat),
  (j < length s)%nat ->
  (forall o i p, In o h -> fop_of Obj o = Some (i, p) -> i <> j) ->
  nth_error (run Obj C get_c set_c new_o s h) j = nth_error s j.
Proof. exact run_independent. Qed.
Print Assumptions C40_independent.

Theorem C40_copy_appends :
  forall (Obj C : Type) (get_c : Obj -> C) (set_c : C -> Obj -> Obj) (new_o : Obj)
         (s : list (flow Obj C)) (i : nat) (nid : ident) (f : flow Obj C),
  nth_error s i = Some f ->
  step Obj C get_c set_c new_o s (Copy i nid) = s ++ [copy Obj C get_c set_c new_o nid f].
Proof. exact step_copy. Qed.
Print Assumptions C40_copy_appends.

(* The fresh id stays fresh: if every copy receives an unused id, ids stay pairwise distinct, and
   every saved state keeps carrying the id of its own flow, through EVERY history of edits,
   backups, reverts, reloads and copies, from any store in which that holds (in particular any
   store of flows without a pending backup). *)
Theorem C40_ids_distinct :
  forall (Obj C : Type) (get_c : Obj -> C) (set_c : C -> Obj -> Obj) (new_o : Obj),
  (forall c o, get_c (set_c c o) = c) ->
  forall (h : list (op Obj)) (s : list (flow Obj C)),
  NoDup (map fid s) -> Forall (own Obj C) s ->
  hist_ok Obj C get_c set_c new_o (fresh_op Obj C) s h ->
  NoDup (map fid (run Obj C get_c set_c new_o s h))
  /\ Forall (own Obj C) (run Obj C get_c set_c new_o s h).
Proof. exact ids_distinct. Qed.
Print Assumptions C40_ids_distinct.

(* The history of the former finding, at the token instance the correspondence check runs. *)
Theorem C40_former_collision_distinct :
  map fid (run N N tget tset 0 collide_store collide_hist) = [0; 1]
  /\ fid (revert N N tset (copy_unrepaired N N tget tset 0 1 (backup N N tget (Flow 0 0 true None)))) = 0.
Proof. exact collide_hist_now_distinct. Qed.
Print Assumptions C40_former_collision_distinct.

(* The contract is satisfiable (token instance) and the hypotheses of C40_revert_restores hold on
   a history that really edits: before the revert the state differs and modified is True, after
   it the state is back and modified is False; right after the backup modified is False. *)
Theorem C40_nonvacuous :
  (forall c o, tget (tset c o) = c)
  /\ no_revert N sample_hist /\ fbackup sample_flow = None
  /\ let g := frun N N tget tset (backup N N tget sample_flow) (tl sample_hist) in
     tget_state g <> tget_state sample_flow
     /\ tmodified g = true
     /\ tget_state (revert N N tset g) = tget_state sample_flow
     /\ tmodified (revert N N tset g) = false
     /\ tmodified (backup N N tget sample_flow) = false.
Proof. exact (conj token_contract sample_nonvacuous). Qed.
Print Assumptions C40_nonvacuous.
