(* Props/C22.v -- Client connections from blocked address classes are refused.
   Statements only; each is closed by [exact] of a lemma proved in Proofs/BlockC22.v.

   Subject: Gen/Block.v, regenerated on every run from mitmproxy/addons/block.py, from the source of
   the ipaddress properties of the running CPython and from its run-time network tables.
   Specification: Model/Iana.v (IANA special-purpose registries, hand-entered).
   [refused bp bg m a] is: client.error is set after the client_connected hook.
   [ip_wf a] is: a < 2^32 (IPv4) or a < 2^128 (IPv6).  Every notation of an address (plain, exploded,
   zone-scoped) is the same (family, integer); the IPv4-mapped form is IPv6 (0xffff * 2^32 + v4).

   The full-strength statement (refused = spec_refused for ALL addresses) is FALSE of the faithful
   model: the CPython tables differ from the registry.  The set of addresses where they differ is
   computed in Coq ([in_diff], 3 IPv4 and 8 IPv6 intervals with CPython 3.12.1) and
     C22_refuted            exhibits a counterexample (first address of the difference),
     C22_partial            proves the statement for every address outside the difference,
     C22_difference_exact   proves that every address inside the difference is a counterexample,
   so the guard of C22_partial is exactly the complement of the finding. *)
From Coq Require Import List Bool NArith String.
From MV Require Import Model.Ipaddr Model.Iana Gen.Block Model.Pexp Model.BlockDiff Proofs.BlockC22.

Theorem C22_refuted : exists bp bg m a,
  ip_wf a = true /\ refused bp bg m a <> spec_refused bp bg (spec_local m) a.
Proof. exact refuted. Qed.
Print Assumptions C22_refuted.

(* also in plain IPv6 and through the IPv4-mapped notation of the IPv4 counterexample *)
Theorem C22_refuted_v6_and_mapped :
  (exists bp bg, refused bp bg RegularMode (IPv6 witness6) <> spec_refused bp bg false (IPv6 witness6))
  /\ (exists bp bg, refused bp bg RegularMode (IPv6 (mapped_base + witness4))
                    <> spec_refused bp bg false (IPv6 (mapped_base + witness4))).
Proof. exact refuted_v6_and_mapped. Qed.
Print Assumptions C22_refuted_v6_and_mapped.

(* For both options, every proxy mode and every address (plain or IPv4-mapped) outside the computed
   table difference: the connection is refused iff the registry says the peer is global (resp. private)
   and the corresponding option is on, and the peer is not loopback and the mode is not local. *)
Theorem C22_partial : forall (block_private block_global : bool) (m : proxy_mode) (a : ip),
  ip_wf a = true -> in_diff a = false ->
  refused block_private block_global m a = spec_refused block_private block_global (spec_local m) a.
Proof. exact partial. Qed.
Print Assumptions C22_partial.

Theorem C22_difference_exact : forall a : ip, in_diff a = true ->
  exists bp bg, refused bp bg RegularMode a <> spec_refused bp bg false a.
Proof. exact difference_exact. Qed.
Print Assumptions C22_difference_exact.

(* On the WHOLE address space (difference included): loopback peers and local-redirect mode are
   never refused, whatever the options. *)
Theorem C22_exempt : forall (block_private block_global : bool) (m : proxy_mode) (a : ip),
  spec_loopback a = true \/ m = LocalMode -> client_connected block_private block_global m a = None.
Proof. exact exempt. Qed.
Print Assumptions C22_exempt.

(* HISTORIES: one Block instance serves any sequence of connections (any peers, any proxy modes, local
   included, options changing in between).  The verdict on each connection is the per-connection
   decision for the options current at that moment -- nothing is remembered from earlier connections
   (the translator fails closed on any instance or module state, see stateless_class). *)
Theorem C22_history_stateless : forall (st : addon_state) (h : list conn),
  run_history st h = map (fun c => client_connected (c_bp c) (c_bg c) (c_mode c) (c_addr c)) h.
Proof. exact history_stateless. Qed.
Print Assumptions C22_history_stateless.

(* ... hence C22_partial and C22_exempt hold for every connection of every history *)
Theorem C22_history_partial : forall (st : addon_state) (h : list conn),
  Forall2 (fun c e => ip_wf (c_addr c) = true -> in_diff (c_addr c) = false ->
                      is_some e = spec_refused (c_bp c) (c_bg c) (spec_local (c_mode c)) (c_addr c))
          h (run_history st h).
Proof. exact history_partial. Qed.
Print Assumptions C22_history_partial.

Theorem C22_history_exempt : forall (st : addon_state) (h : list conn),
  Forall2 (fun c e => spec_loopback (c_addr c) = true \/ c_mode c = LocalMode -> e = None) h (run_history st h).
Proof. exact history_exempt. Qed.
Print Assumptions C22_history_exempt.

(* A refused connection is closed right after the hook; no Start event, no connection handler. *)
Theorem C22_refused_before_processing : forall bp bg m a,
  refused bp bg m a = true ->
  ~ In StartEvent (handle_client_after_hook (refused bp bg m a))
  /\ ~ In HandleConnection (handle_client_after_hook (refused bp bg m a))
  /\ In CloseWriter (handle_client_after_hook (refused bp bg m a)).
Proof. exact refused_before_processing. Qed.
Print Assumptions C22_refused_before_processing.

(* The registry tables are listed general -> specific, so last match = most specific entry. *)
Theorem C22_registry_ordered : ordered iana_v4 = true /\ ordered iana_v6 = true.
Proof. exact iana_tables_ordered. Qed.
Print Assumptions C22_registry_ordered.

(* The hypotheses of C22_partial hold on addresses of every class and both outcomes occur: 134744072 is
   8.8.8.8 (global; also as ::ffff:8.8.8.8), 167772161 is 10.0.0.1 (private); local mode and ::1 are exempt;
   the computed difference is not empty. *)
Theorem C22_nonvacuous :
  ip_wf (IPv4 134744072) = true /\ in_diff (IPv4 134744072) = false /\ refused false true RegularMode (IPv4 134744072) = true
  /\ in_diff (IPv6 (mapped_base + 134744072)) = false /\ refused false true Socks5Mode (IPv6 (mapped_base + 134744072)) = true
  /\ in_diff (IPv4 167772161) = false /\ refused false true RegularMode (IPv4 167772161) = false
  /\ refused true false RegularMode (IPv4 167772161) = true
  /\ refused true true LocalMode (IPv4 134744072) = false /\ refused true true RegularMode (IPv6 1) = false
  /\ diff4 <> nil /\ diff6 <> nil.
Proof. exact nonvacuous. Qed.
Print Assumptions C22_nonvacuous.
