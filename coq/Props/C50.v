(* Props/C50.v -- Content views always render safely; the DNS view re-encodes faithfully.
   Statements; each follows in a line or two from a lemma of Proofs/Contentviews*.v, from the
   definitions, or (the examples) by evaluation.
   Views are arbitrary partial functions; M is the (abstract) type of Metadata. *)
From Coq Require Import List Bool NArith ZArith.
From MV Require Import Base.Bytes Model.Strutils Model.DnsNames Model.DnsMessage Model.Contentviews
  Model.ContentviewsDns Proofs.DnsMessageRT Proofs.ContentviewsSafe Proofs.ContentviewsDns.
Import ListNotations.
Local Open Scope N_scope.

(* Rendering never raises: for ANY registry of views (render_priority and prettify arbitrary,
   failing wherever they like), any data, metadata and view name (auto, registered, unknown),
   prettify_message returns a result provided the raw view does not fail on this input and at
   least one registered view has a working render_priority (both hold of the shipped registry:
   C50_raw_total; RawContentview.render_priority is the constant 0.1). *)
Theorem C50_render_total : forall (M : Type) c1 (rawv : view M) (reg : list (view M)) data enc m name,
  (forall d, data = Some d -> exists t, v_prettify rawv d m = inl t) ->
  (forall d, data = Some d -> exists v, In v reg /\ v_prio v d m <> None) ->
  exists r, prettify_message c1 rawv reg data enc m name = Some r.
Proof. exact prettify_message_total. Qed.
Print Assumptions C50_render_total.

(* the raw view (bytes.decode(utf-8, backslashreplace)) is total: it is a function *)
Theorem C50_raw_total : forall (M : Type) p d (m : M), exists t, v_prettify (raw_view p) d m = inl t.
Proof. intros M p d m. eexists. reflexivity. Qed.
Print Assumptions C50_raw_total.

(* and these are the only ways out *)
Theorem C50_render_raises_only_if : forall (M : Type) c1 (rawv : view M) reg d enc m name,
  prettify_message c1 rawv reg (Some d) enc m name = None ->
  (forall v, In v reg -> v_prio v d m = None)
  \/ (text_eqb name AUTO = true /\ exists e, v_prettify rawv d m = inr e).
Proof. exact prettify_message_none_inv. Qed.
Print Assumptions C50_render_raises_only_if.

(* The rendered text has no control character other than TAB / LF / CR.
   As stated (Cc includes the C1 controls U+0080-U+009F) this is FALSE of the unchanged code
   (c1 = false is escape_control_characters as it was; since the repair of finding
   c1-control-passthrough the function replaces them too, which is c1 = true). *)
Theorem C50_filtered_refuted_c1 :
  exists r, prettify_message false (raw_view (M:=unit) 1) [raw_view 1] (Some c1_body) [] tt AUTO = Some r
            /\ In 155 (r_text r) /\ is_c1 155 = true.
Proof. eexists. split; [vm_compute; reflexivity|]. split; [cbn; auto | reflexivity]. Qed.
Print Assumptions C50_filtered_refuted_c1.

(* On the complement (C0 controls and DEL), and in full once the filter replaces C1 controls
   (c1 = true): whatever the views return or raise, no such character is in the result. *)
Theorem C50_filtered_partial : forall (M : Type) c1 (rawv : view M) reg data enc m name r,
  prettify_message c1 rawv reg data enc m name = Some r ->
  forall c, In c (r_text r) -> bad0 c = false /\ (c1 = true -> is_c1 c = false).
Proof. exact prettify_message_filtered. Qed.
Print Assumptions C50_filtered_partial.

(* the parametric filter with c1 = false is the model of escape_control_characters of C51/C49 *)
Theorem C50_filter_is_strutils : forall t, ecc false t = escape_control_characters t true.
Proof.
  intro t. unfold ecc, escape_control_characters. apply map_ext. intro c.
  unfold replaced. cbn [andb]. rewrite orb_false_r. reflexivity.
Qed.
Print Assumptions C50_filter_is_strutils.

(* View choice: automatic (or unknown name) picks a registered view of maximal working priority;
   an explicit registered name picks exactly that view. *)
Theorem C50_auto_picks_max : forall (M : Type) (reg : list (view M)) d m name v,
  (text_eqb name AUTO = true \/ getitem reg (lower_text name) = None) ->
  get_view reg d m name = Some v ->
  In v reg /\ exists p, v_prio v d m = Some p /\
    forall w q, In w reg -> v_prio w d m = Some q -> (q <= p)%Z.
Proof. exact get_view_auto_max. Qed.
Print Assumptions C50_auto_picks_max.

Theorem C50_explicit_picks_named : forall (M : Type) (reg : list (view M)) d m name v,
  text_eqb name AUTO = false -> getitem reg (lower_text name) = Some v ->
  get_view reg d m name = Some v.
Proof. intros M reg d m name v Hn Hg. unfold get_view. rewrite Hn, Hg. reflexivity. Qed.
Print Assumptions C50_explicit_picks_named.

(* what is shown when the chosen view fails: raw with a note (auto) or the filtered error (explicit) *)
Theorem C50_fallback_to_raw : forall (M : Type) c1 (rawv : view M) reg d enc m v err t,
  get_view reg d m AUTO = Some v -> v_prettify v d m = inr err -> v_prettify rawv d m = inl t ->
  prettify_message c1 rawv reg (Some d) enc m AUTO
  = Some (mkRes (ecc c1 t) (v_syntax rawv) (Some (v_name rawv)) (enc ++ FAILED_PREFIX ++ v_name v ++ [93])).
Proof. intros M c1 rawv reg d enc m v err t G P R. unfold prettify_message. rewrite G, P, R. reflexivity. Qed.
Print Assumptions C50_fallback_to_raw.

Theorem C50_explicit_error_display : forall (M : Type) c1 (rawv : view M) reg d enc m name v err,
  text_eqb name AUTO = false -> get_view reg d m name = Some v -> v_prettify v d m = inr err ->
  prettify_message c1 rawv reg (Some d) enc m name
  = Some (mkRes (ecc c1 (COULDNT_PREFIX ++ v_name v ++ [58; 10] ++ err)) S_ERROR (Some (v_name v)) enc).
Proof. intros M c1 rawv reg d enc m name v err N G P. unfold prettify_message. rewrite G, P, N. reflexivity. Qed.
Print Assumptions C50_explicit_error_display.

(* The DNS view.  As stated (same header fields, questions and records for every DNS message) the property is
   FALSE of the faithful model, for every library codec:
   - the reserved header bits (Z, AD, CD) are not in the JSON: finding dns-reserved-bits-dropped; *)
Theorem C50_dns_refuted_reserved : forall lib_enc lib_dec,
  exists m', m_from_json lib_dec (m_to_json lib_enc 0 ad_query) = Some m' /\ m' <> ad_query
    /\ wf_msg ad_query /\ Forall (rr_ok lib_enc lib_dec) (all_rrs ad_query).
Proof.
  intros. eexists. split; [vm_compute; reflexivity|]. split; [discriminate|].
  split; [apply DnsC25.wf_msgb_ok; vm_compute; reflexivity|constructor].
Qed.
Print Assumptions C50_dns_refuted_reserved.

(* - TXT data that is not UTF-8 is printed as a marker string that from_json takes for the text:
     finding dns-txt-not-utf8-garbled; *)
Theorem C50_dns_refuted_txt : forall lib_enc lib_dec,
  exists r', rr_from_json lib_dec (rr_to_json lib_enc txt_bad) = Some r' /\ r_data r' <> r_data txt_bad
    /\ r_data r' = invalid_str 16 [x01; xff].
Proof. intros. eexists. split; [vm_compute; reflexivity|]. split; [discriminate | vm_compute; reflexivity]. Qed.
Print Assumptions C50_dns_refuted_txt.

(* - NS / CNAME / PTR data that is not a complete name likewise becomes a name made of the marker:
     finding dns-name-rdata-garbled. *)
Theorem C50_dns_refuted_name_rdata : forall lib_enc lib_dec,
  exists r', rr_from_json lib_dec (rr_to_json lib_enc cname_bad) = Some r' /\ r_data r' <> r_data cname_bad.
Proof. intros. eexists. split; [vm_compute; reflexivity | discriminate]. Qed.
Print Assumptions C50_dns_refuted_name_rdata.

(* In general from_json (to_json m) is m with the reserved bits cleared, given rr_ok (the
   complement of the record findings; the library contract for A / AAAA / HTTPS data). *)
Theorem C50_dns_json_roundtrip : forall lib_enc lib_dec sz m,
  Forall (rr_ok lib_enc lib_dec) (all_rrs m) ->
  m_from_json lib_dec (m_to_json lib_enc sz m) = Some (clear_reserved m).
Proof. exact message_json_roundtrip. Qed.
Print Assumptions C50_dns_json_roundtrip.

(* On the complement of the findings (and within the guards of the wire round trip proved for
   C25: wf_msg, rdata_guard), for UDP framing and for the 2-byte length framing, with the filter
   of prettify_message applied to the rendering (either C1 behaviour): data that decodes to m
   renders, the unedited rendering re-encodes, and the result decodes to exactly m.
   yaml_ok is the contract of the YAML library for the rendered document. *)
Theorem C50_dns_reencode_partial : forall lib_enc lib_dec yaml_dumps yaml_loads c1 tcp data m,
  DnsMessage.unpack (strip tcp data) = Ok m ->
  m_reserved m = 0 -> Forall (rr_ok lib_enc lib_dec) (all_rrs m) ->
  yaml_ok yaml_dumps yaml_loads (m_to_json lib_enc (msg_size m) m) ->
  wf_msg m -> Forall rdata_guard (all_rrs m) ->
  (tcp = true -> forall b, packed m = Ok b -> N.of_nat (length b) < 65536) ->
  exists t out, dns_prettify lib_enc yaml_dumps tcp data = inl t
    /\ dns_reencode lib_dec yaml_loads tcp (ecc c1 t) = Some out
    /\ DnsMessage.unpack (strip tcp out) = Ok m.
Proof. exact dns_view_roundtrip. Qed.
Print Assumptions C50_dns_reencode_partial.

(* The hypotheses are satisfiable: a registry of three views (one without a working priority,
   the raw view, one that fails with ESC in its message) on a body with NUL, and a real DNS
   query with a toy library / YAML instance meeting every hypothesis of the theorem above. *)
Theorem C50_nonvacuous :
  ((forall d, exists t, v_prettify (raw_view (M:=unit) 1) d tt = inl t)
   /\ (exists v, In v sample_reg /\ v_prio v [x41] tt <> None) /\ length sample_reg = 3%nat)
  /\ prettify_message false (raw_view 1) sample_reg (Some [x41; x00; x09]) [] tt AUTO
     = Some (mkRes [65; 46; 9] S_NONE (Some RAW_NAME) (FAILED_PREFIX ++ T [x4a; x53; x4f; x4e] ++ [93]))
  /\ (DnsMessage.unpack good_query = Ok good_msg /\ m_reserved good_msg = 0
      /\ Forall (rr_ok toy_enc toy_dec) (all_rrs good_msg)
      /\ yaml_ok toy_dumps toy_loads (m_to_json toy_enc (msg_size good_msg) good_msg)
      /\ wf_msg good_msg /\ Forall rdata_guard (all_rrs good_msg)
      /\ (forall b, packed good_msg = Ok b -> N.of_nat (length b) < 65536)
      /\ dns_reencode toy_dec toy_loads false (ecc false (toy_dumps (m_to_json toy_enc 0 good_msg))) = Some good_query).
Proof.
  split; [|split; [vm_compute; reflexivity | exact good_query_instance]].
  split; [intro d; eexists; reflexivity|]. split; [|reflexivity].
  exists (raw_view 1). split; [right; left; reflexivity | discriminate].
Qed.
Print Assumptions C50_nonvacuous.
