(* Props/C34.v -- Query, cookie, form and path views are lossless.
   Statements only; each is closed by a lemma proved in Proofs/Mv*.v, by an instance of one, or, where the
   statement asks for a concrete witness, by the witness and the evaluation of the model on it.
   str values are represented by their UTF-8/surrogateescape bytes (see Model/MvCommon.v).
   Findings (kind known): the multipart encoder/decoder pair loses CR/LF inside values, names with a
   double quote or a line break, parts with an empty name, and everything when the boundary contains a
   byte that urllib quote rewrites; url.encode with similar_to loses the pair of two empty strings.
   The multipart and form theorems are therefore _refuted + _partial; the guards of the partial theorems
   are the complements of those findings (plus: the delimiter itself must not occur in a part, which
   no encoder using that boundary can represent). *)
From Coq Require Import List Bool NArith.
From MV Require Import Base.Bytes Model.MvCommon Model.MvUrl Model.MvCookie Model.MvMultipart Model.MvViews Model.MvForm Proofs.MvFormProofs
  Proofs.MvUrlQuote Proofs.MvUrlMain Proofs.MvCookieProofs Proofs.MvMultipartProofs Proofs.MvMultipartMain Proofs.MvC34.
Import ListNotations.

(* Request.query: every path (origin form), every list of pairs *)
Theorem C34_query_roundtrip : forall (path : bytes) (l : pairs), get_query (set_query path l) = l.
Proof. exact query_roundtrip. Qed.
Print Assumptions C34_query_roundtrip.

Theorem C34_query_writeback : forall path : bytes, get_query (set_query path (get_query path)) = get_query path.
Proof. intros path. apply query_roundtrip. Qed.
Print Assumptions C34_query_writeback.

(* item assignment, set_all, add, insert, del through the MultiDictView act on the pair list as on a MultiDict *)
Theorem C34_query_view_ops : forall (path : bytes) (o : md_op),
  get_query (view_op get_query set_query path o)
  = match apply_op o (get_query path) with Some f => f | None => get_query path end.
Proof. exact query_view_ops. Qed.
Print Assumptions C34_query_view_ops.

Theorem C34_unquote_quote : forall safe s : bytes, memb PCT safe = false -> unquote (quote safe s) = s.
Proof. exact unquote_quote. Qed.
Print Assumptions C34_unquote_quote.

Theorem C34_url_decode_encode : forall l : pairs, url_decode (url_encode l None) = l.
Proof. exact (fun l => url_decode_encode_plain l None eq_refl). Qed.
Print Assumptions C34_url_decode_encode.

(* Request.urlencoded_form: the full statement (every old body, every list) is false *)
Theorem C34_form_refuted :
  exists old l, plain_mode old = false /\ get_urlencoded_form (set_urlencoded_form old l) <> l.
Proof.
  exists (Some [x61]), [([], [])]. split; [reflexivity|]. rewrite form_similar_loses_empty_pair. discriminate.
Qed.
Print Assumptions C34_form_refuted.

(* old body empty/absent or every old field has an equals sign: every list of pairs *)
Theorem C34_form_partial : forall (old : option bytes) (l : pairs),
  plain_mode old = true -> get_urlencoded_form (set_urlencoded_form old l) = l.
Proof. exact (fun old l => url_decode_encode_plain l old). Qed.
Print Assumptions C34_form_partial.

(* the same on a whole message: ANY prior header list (content-type with any charset parameter, other
   types, duplicates, none); the setter's header write is part of the round trip. get_text is abstract
   with the contract that under the plain form content-type an ASCII body is its own text. *)
Theorem C34_form_msg_partial : forall (get_text : bytes -> bytes -> bytes),
  (forall body, forallb is_ascii body = true -> get_text FORM_CT body = body) ->
  forall (h : fields) (old_text : option bytes) (l : pairs),
  plain_mode old_text = true ->
  let m := set_form_msg h old_text l in
  get_form_msg (fst m) (get_text (ct_of (fst m)) (snd m)) = l.
Proof. exact form_msg_roundtrip. Qed.
Print Assumptions C34_form_msg_partial.

Theorem C34_form_msg_header : forall (h : fields) (old_text : option bytes) (l : pairs),
  ct_of (fst (set_form_msg h old_text l)) = FORM_CT.
Proof. exact ct_after_set. Qed.
Print Assumptions C34_form_msg_header.

(* Request.path_components: every path, every list of non-empty components *)
Theorem C34_path_components_roundtrip : forall (path : bytes) (comps : list bytes),
  forallb nonempty comps = true -> get_path_components (set_path_components path comps) = comps.
Proof. exact path_components_roundtrip. Qed.
Print Assumptions C34_path_components_roundtrip.

Theorem C34_path_components_writeback : forall path : bytes,
  get_path_components (set_path_components path (get_path_components path)) = get_path_components path.
Proof. exact path_components_writeback. Qed.
Print Assumptions C34_path_components_writeback.

(* an empty component is not representable (the getter drops empty segments by design) *)
Theorem C34_path_components_empty_dropped :
  exists path comps, get_path_components (set_path_components path comps) <> comps.
Proof. exists [SLASH], [[x61]; []; [x62]]. rewrite path_components_empty_lost. discriminate. Qed.
Print Assumptions C34_path_components_empty_dropped.

(* Request.cookies: every header list, every representable list (names without semicolon, equals
   sign and leading white space; not the pair of two empty strings); values are arbitrary bytes *)
Theorem C34_cookies_roundtrip : forall (h : fields) (l : pairs),
  ck_repr l = true -> get_cookies (set_cookies h l) = Ok l.
Proof. exact cookies_roundtrip. Qed.
Print Assumptions C34_cookies_roundtrip.

Theorem C34_cookies_guard_needed : exists l, ck_repr l = false /\ get_cookies (set_cookies [] l) <> Ok l.
Proof. exists [([MvCookie.SP; x61], [x62])]. split; [reflexivity|]. rewrite refuted_leading_space. discriminate. Qed.
Print Assumptions C34_cookies_guard_needed.

Theorem C34_multipart_refuted_value_newline :
  exists b k v, boundary_ok b = true /\ key_ok b k = true /\ mp_lossy b [(k, v)].
Proof.
  exists bnd, [x6b], [x61; x0d; x0a; x62]. do 2 (split; [reflexivity|]).
  exact (mp_lossy_intro _ _ _ refuted_value_newline ltac:(discriminate)).
Qed.
Print Assumptions C34_multipart_refuted_value_newline.

Theorem C34_multipart_refuted_name_quote :
  exists b k v, boundary_ok b = true /\ val_ok b v = true /\ mp_lossy b [(k, v)].
Proof.
  exists bnd, [x61; x22; x62], [x76]. do 2 (split; [reflexivity|]).
  exact (mp_lossy_intro _ _ _ refuted_name_quote ltac:(discriminate)).
Qed.
Print Assumptions C34_multipart_refuted_name_quote.

Theorem C34_multipart_refuted_empty_name :
  exists b v, boundary_ok b = true /\ val_ok b v = true /\ mp_lossy b [([], v)].
Proof.
  exists bnd, [x76]. do 2 (split; [reflexivity|]).
  eapply mp_lossy_intro; [vm_compute; reflexivity|discriminate].
Qed.
Print Assumptions C34_multipart_refuted_empty_name.

Theorem C34_multipart_refuted_boundary_quoted :
  exists b k v, nonempty b = true /\ key_ok b k = true /\ val_ok b v = true /\ mp_lossy b [(k, v)].
Proof.
  exists [x61; x3d; x62], [x6b], [x76]. do 3 (split; [reflexivity|]).
  exact (mp_lossy_intro _ _ _ refuted_boundary_quoted ltac:(discriminate)).
Qed.
Print Assumptions C34_multipart_refuted_boundary_quoted.

(* boundary of unreserved bytes and slashes (what _set_multipart_form generates itself); names non-empty,
   without double quote, CR, LF; values without CR, LF; the delimiter --boundary in neither *)
Theorem C34_multipart_partial : forall (b : bytes) (parts : pairs),
  boundary_ok b = true -> parts_ok b parts = true ->
  exists content, set_multipart_form b parts = Some content /\ get_multipart_form b content = parts.
Proof.
  intros b parts Hb Hp. destruct (multipart_functions_roundtrip b parts Hb Hp) as (content & He & Hd).
  exists content. split; [exact He|]. unfold get_multipart_form. rewrite Hd. reflexivity.
Qed.
Print Assumptions C34_multipart_partial.

Theorem C34_multipart_functions_partial : forall (b : bytes) (parts : pairs),
  boundary_ok b = true -> parts_ok b parts = true ->
  exists content, encode_multipart (Some b) parts = Some content /\ decode_multipart (Some b) content = Some parts.
Proof. exact multipart_functions_roundtrip. Qed.
Print Assumptions C34_multipart_functions_partial.

(* the guards are satisfiable on non-trivial values *)
Theorem C34_nonvacuous :
  (boundary_ok bnd = true /\ parts_ok bnd [([x6b; x31], [x61; x20; x2d; x2d; xff]); ([x6b; x31], [])] = true
   /\ view bnd [([x6b; x31], [x61; x20; x2d; x2d; xff]); ([x6b; x31], [])]
      = Some [([x6b; x31], [x61; x20; x2d; x2d; xff]); ([x6b; x31], [])])
  /\ (ck_repr [([x61], [x22; x5c; MvCookie.SEMI; MvCookie.SP; xc3]); ([], [x3d]); ([x62; MvCookie.SP], [])] = true
      /\ get_cookies (set_cookies [([x43; x6f; x6f; x6b; x69; x65], [x7a]); ([x63; x6f; x6f; x6b; x69; x65], [x79])]
           [([x61], [x22; x5c; MvCookie.SEMI; MvCookie.SP; xc3]); ([], [x3d]); ([x62; MvCookie.SP], [])])
         = Ok [([x61], [x22; x5c; MvCookie.SEMI; MvCookie.SP; xc3]); ([], [x3d]); ([x62; MvCookie.SP], [])]).
Proof. vm_compute. repeat split; reflexivity. Qed.
Print Assumptions C34_nonvacuous.
