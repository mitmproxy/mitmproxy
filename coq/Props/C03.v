(* Props/C03.v -- Every HTTP flow has an ordered hook lifecycle and exactly one outcome.
   Objects: Model/HttpStream.v (HttpStream as a state machine with explicit await states) and Model/HttpSys.v
   (Http1Server / Http1Client / HttpLayer routing / driver).  sreach o s: s is reached from a new stream by any
   sequence of HTTP events, completions and addon actions (all sizes, all orders).  hooks s is the list of hooks
   the stream fired, oldest first; rule h pre says whether h may fire after the hooks pre:
     requestheaders / http_connect only first; request after requestheaders and once; responseheaders after
     requestheaders and once; response after requestheaders and responseheaders and once; error after requestheaders.
   venv s = false: every handled event is one the connection layers deliver (first event is the request headers;
   response-side events only after the request went upstream; nothing from the client after its protocol error;
   no empty data events).  The system model checks this flag on every correspondence case.
   The model has check_killed after the request hook of a streamed request, abort marks server_state errored, and
   Http1Client waits after an early complete response (/repo commits e2b7e6879, 99d99512a; findings both-outcomes and
   crash-AssertionError@_handle_event).  gap_run is the schedule on which, without the first of these, both hooks fire. *)
From Coq Require Import List Bool NArith.
From MV Require Import Base.Bytes Model.HttpStream Model.HttpSys Proofs.HttpStreamAbs Proofs.HttpStreamSound
  Proofs.HttpStreamInv Proofs.HttpStreamHooks Proofs.HookSeq Proofs.HttpStreamMain.
Import ListNotations.

(* requestheaders first; request / responseheaders / response at most once and in order *)
Theorem C03_hook_order : forall o s, sreach o s -> venv s = false ->
  forall pre h post, hooks s = pre ++ h :: post -> rule h pre = true.
Proof. exact T_order. Qed.
Print Assumptions C03_hook_order.

(* not streamed => request precedes responseheaders *)
Theorem C03_request_before_responseheaders : forall o s, sreach o s -> venv s = false -> req_stream s = false ->
  forall pre post, hooks s = pre ++ HkRespHeaders :: post -> mem HkRequest pre = true.
Proof. exact T_request_first. Qed.
Print Assumptions C03_request_before_responseheaders.

(* never both response and error; error at most once *)
Theorem C03_not_both : forall o s, sreach o s -> venv s = false ->
  mem HkResponse (hooks s) && mem HkError (hooks s) = false
  /\ (forall pre post, hooks s = pre ++ HkError :: post -> mem HkError pre = false).
Proof. exact T_not_both. Qed.
Print Assumptions C03_not_both.

(* gap_run, the schedule on which the unrepaired code fired both outcome hooks, ends with the error outcome only *)
Theorem C03_former_gap_closed :
  let s := run_stream gap_opts gap_run in
  venv s = false /\ hooks s = [HkReqHeaders; HkRequest; HkError] /\ live s = false.
Proof. exact T_gap_closed. Qed.
Print Assumptions C03_former_gap_closed.

(* exactly one outcome and not live, for an idle stream that fired requestheaders and whose two sides are finished:
   the client side delivered its end of message / protocol error (or the stream is errored), and if the request
   went upstream the server side delivered its end / error (or the flow was aborted towards the server) *)
(* fws s = flow.websocket is set.  Among idle, non-tunnel streams that happens only when an addon replaced the 101
   response of a WebSocket handshake in the response hook (finding still-live-replaced-101): C03_one_outcome_refuted
   is that run, C03_one_outcome_partial the statement under the complement. *)
Theorem C03_one_outcome_partial : forall o s, sreach o s ->
  pc s = None -> tunnel s = false -> crashed s = false -> venv s = false -> fws s = false ->
  mem HkReqHeaders (hooks s) = true -> closed_s s = true ->
  xorb (mem HkResponse (hooks s)) (mem HkError (hooks s)) = true /\ live s = false.
Proof. exact T_outcome. Qed.
Print Assumptions C03_one_outcome_partial.

Theorem C03_one_outcome_refuted :
  let s := run_stream gap_opts ws_run in
  pc s = None /\ tunnel s = false /\ crashed s = false /\ venv s = false /\ closed_s s = true
  /\ hooks s = [HkReqHeaders; HkRequest; HkRespHeaders; HkResponse] /\ fws s = true /\ live s = true.
Proof. exact T_live_refuted. Qed.
Print Assumptions C03_one_outcome_refuted.

(* the streams of the system model (any options, policy, connect outcomes, schedule) are such streams *)
Theorem C03_system_streams : forall e ops, Forall (fun p => sreach (e_opts e) (fst p)) (streams (run_ops e ops)).
Proof. exact run_ops_reach. Qed.
Print Assumptions C03_system_streams.

(* hypotheses are satisfiable: a plain GET exchange ends idle, closed, with exactly the response outcome *)
Definition nv_req : head := mkHead [] MGet HNone 0 true true false false 0 false.
Definition nv_resp : head := mkHead [] MGet (HLen 2) 0 true true false false 200 false.
Definition nv_run : list sstep :=
  [SIn (IEvent (EReqHeaders nv_req true)); SIn IHookDone; SIn (IEvent EReqEOM); SIn IHookDone; SIn (IConnDone (Some 1%N));
   SIn (IEvent (ERespHeaders nv_resp false)); SIn IHookDone; SIn (IEvent (ERespData [x6f; x6b])); SIn (IEvent ERespEOM); SIn IHookDone].
Theorem C03_nonvacuous :
  let s := run_stream gap_opts nv_run in
  sreach gap_opts s /\ pc s = None /\ tunnel s = false /\ crashed s = false /\ venv s = false /\ fws s = false
  /\ closed_s s = true /\ hooks s = [HkReqHeaders; HkRequest; HkRespHeaders; HkResponse] /\ live s = false.
Proof. split; [apply run_stream_reach | vm_compute; repeat split]. Qed.
Print Assumptions C03_nonvacuous.
