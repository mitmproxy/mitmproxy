(* Props/C48.v -- Exported commands reproduce the request and are shell-safe.
   Models: Model/Export.v (export.py + shlex.quote), Model/Sh.v (bash word parser and printf builtin,
   fail-closed: ShRun means exactly one command is executed, with that argv and that here-string input),
   Model/CurlRef.v (curl option reading), Model/Http1Msg.v + Model/Rfc9112.v (C01).
   The theorems are about variant [repaired], export.py from /repo 04c0aeecb (printf format) and 6ea5203cd (GET with a
   body) on; the [_refuted] theorems about variant [original] are those two findings; the [_refuted]
   theorems about [body_seen] are the two known findings that remain (trailing newlines, NUL). *)
From Coq Require Import List Bool NArith.
From MV Require Import Base.Bytes Model.Http1Msg Model.Rfc9112 Model.Sh Model.Export Model.CurlRef
  Proofs.Http1Roundtrip Proofs.ShQuote Proofs.ExportSh Proofs.ExportDecode Proofs.ExportRaw.
Import ListNotations.

(* shlex.quote: for EVERY non-empty list of NUL-free arguments whose first word can name a command, bash reads the
   space-joined quoted arguments as exactly one command with exactly those arguments (a NUL byte cannot be in any argv). *)
Theorem C48_quote_roundtrip : forall args,
  args <> [] -> Forall nonul args -> cmd_name_ok (hd [] args) = true ->
  sh_eval (join_sp (map quote args)) = ShRun args None.
Proof. exact quote_join_roundtrip. Qed.
Print Assumptions C48_quote_roundtrip.

(* the escaping of request_content_for_console is an exact inverse of the printf builtin, for every text *)
Theorem C48_printf_escape_roundtrip : forall t, printf_fmt (printf_escape repaired t) = Some t.
Proof. exact printf_escape_roundtrip. Qed.
Print Assumptions C48_printf_escape_roundtrip.

(* before the repair it is not: body 100%s LF 0x01 reaches curl as 100 LF 0x01 (finding printf-format-interpreted) *)
Theorem C48_printf_original_refuted :
  printf_fmt (printf_escape original body_100) = Some [x31; x30; x30; x0a; x01].
Proof. exact printf_escape_original_refuted. Qed.
Print Assumptions C48_printf_original_refuted.

(* curl export: for every request, options and peer address, whenever curl_command returns a command, bash executes
   exactly one command, curl, with the assembled arguments followed by -d and the body as [body_seen] gives it;
   nothing is read from standard input.  Guard: the assembled arguments are NUL-free. *)
Theorem C48_curl_runs : forall preserve addr r cmd,
  curl_command repaired preserve addr r = XOk cmd ->
  exists h, pop_headers (x_host r) (x_headers r) = XOk h /\
    (Forall nonul (curl_args repaired preserve addr r h) ->
     sh_eval cmd = ShRun (curl_args repaired preserve addr r h ++ curl_body_args r) None).
Proof. exact curl_command_runs. Qed.
Print Assumptions C48_curl_runs.

(* httpie export: exactly one command, http METHOD URL and one item per header; the body is the here-string input *)
Theorem C48_httpie_runs : forall r cmd,
  httpie_command repaired r = XOk cmd ->
  exists h, pop_headers (x_host r) (x_headers r) = XOk h /\
    (Forall nonul (httpie_args r h) -> sh_eval cmd = ShRun (httpie_args r h) (httpie_stdin r)).
Proof. exact httpie_command_runs. Qed.
Print Assumptions C48_httpie_runs.

(* the body: unchanged when the text has no control character, and when it is NUL-free and does not end in LF *)
Theorem C48_body_exact_partial : forall t,
  (existsb is_ctrl t = false \/ (nonul t /\ last t x00 <> NL)) -> body_seen t = t.
Proof. exact body_exact_partial. Qed.
Print Assumptions C48_body_exact_partial.

(* known findings: command substitution strips trailing newlines and drops NUL bytes *)
Theorem C48_body_trailing_newline_refuted : exists t, nonul t /\ body_seen t <> t.
Proof. exact body_trailing_newline_refuted. Qed.
Print Assumptions C48_body_trailing_newline_refuted.

Theorem C48_body_nul_refuted : exists t, last t x00 <> NL /\ body_seen t <> t.
Proof. exact body_nul_refuted. Qed.
Print Assumptions C48_body_nul_refuted.

(* the argv of the curl export, read with the curl reference, is the request: method (also GET with a body), URL,
   one header line per remaining header in order, --compressed once per accept-encoding header, --resolve, body.
   Guard: the URL is not read as an option (does not start with a dash). *)
Theorem C48_curl_argv_decodes : forall preserve addr r h,
  starts_dash (x_pretty_url r) = false ->
  let s := seen_of preserve addr r h in
  curl_read (tl (curl_args repaired preserve addr r h ++ curl_body_args r)) seen0 = Some s
  /\ curl_method s = x_method r
  /\ s_urls s = [x_pretty_url r]
  /\ s_headers s = map header_line (filter (fun f => negb (is_ae f)) h) ++ cl_zero_lines r
  /\ s_compressed s = N.of_nat (length (filter is_ae h))
  /\ s_resolve s = resolve_vals preserve addr r
  /\ s_data s = body_vals r.
Proof. intros preserve addr r h D. split; [exact (curl_argv_read preserve addr r h D) | exact (seen_of_fields preserve addr r h)]. Qed.
Print Assumptions C48_curl_argv_decodes.

(* a header line gives back name and value whenever the name has no colon *)
Theorem C48_header_line_read : forall k v, existsb (byte_eqb x3a) k = false ->
  read_header_line (header_line (k, v)) = Some (k, v).
Proof. exact header_line_read. Qed.
Print Assumptions C48_header_line_read.

(* before the repair a GET request with a body was sent as POST (finding curl-get-body-becomes-post) *)
Theorem C48_get_body_original_refuted :
  exists s, curl_read (tl (curl_args original false None get_with_body [] ++ curl_body_args get_with_body)) seen0 = Some s
            /\ curl_method s = POST /\ x_method get_with_body = GET.
Proof. exact original_get_body_refuted. Qed.
Print Assumptions C48_get_body_original_refuted.

(* raw export: read back by the reference HTTP/1 parser as the same head and body (both framings) *)
Theorem C48_raw_reads_back_length : forall o r c, Inv_req r -> send_chunked (rq_headers r) = false ->
  exists raw, raw_request r (Some c) [] = Ok raw
    /\ parse_request_head o raw = POk (rq_method r, req_target r, rq_version r, rq_headers r, c)
    /\ read_body o (BLLen (N.of_nat (length c))) c = POk (c, [], []).
Proof. exact raw_request_reads_back_length. Qed.
Print Assumptions C48_raw_reads_back_length.

Theorem C48_raw_reads_back_chunked : forall o r c, Inv_req r -> send_chunked (rq_headers r) = true -> c <> [] ->
  exists raw body, raw_request r (Some c) [] = Ok raw
    /\ parse_request_head o raw = POk (rq_method r, req_target r, rq_version r, rq_headers r, body)
    /\ read_body o BLChunked body = POk (c, [], []).
Proof. exact raw_request_reads_back_chunked. Qed.
Print Assumptions C48_raw_reads_back_chunked.

(* exports do not change the flow: for every history of curl / httpie / raw exports of one flow, the flow afterwards is
   the flow before, and each output is that exporter's output on the initial flow (tied to the real code by Hist cases:
   several exports of the SAME flow object, each compared with the model run on a snapshot taken before the first) *)
Theorem C48_exports_pure : forall v p a s fs,
  snd (export_history v p a s fs) = s
  /\ fst (export_history v p a s fs) = map (fun f => fst (export_step v p a s f)) fs.
Proof. exact exports_pure. Qed.
Print Assumptions C48_exports_pure.

(* non-vacuity: a request with quotes, a command substitution and a control-character body is exported, executed
   as one curl command, and the body arrives unchanged *)
Theorem C48_nonvacuous :
  exists cmd argv, curl_command repaired false None sample_req = XOk cmd
    /\ sh_eval cmd = ShRun argv None
    /\ last argv [] = [x31;x30;x30;x25;x73;x5c;x6e;x0a;x2d]
    /\ existsb (byte_eqb x27) cmd = true.
Proof. exact sample_nonvacuous. Qed.
Print Assumptions C48_nonvacuous.
