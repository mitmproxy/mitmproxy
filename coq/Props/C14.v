(* Props/C14.v -- TLS interception is byte-transparent after the handshake.
   Model: Model/TlsTunnel.v (TunnelLayer + TLSLayer/ClientTLSLayer/ServerTLSLayer glue over an abstract
   OpenSSL connection object R and an arbitrary child layer), child_close_sent guard included.
   run ... s evs feeds the events evs to the layer in state s and returns the final state and the trace
   (TCmd c: command yielded, TChild e: event given to the child, TFromChild c: command of the child).
   Theorems (1)-(4) hold for every record layer satisfying contract (Proofs/TlsTunnelC14.v), every child
   layer, every configuration, every fuel, every event sequence: arbitrary cutting of the wire stream
   into TCP segments (tunnel_data is their concatenation; plain is a function of the whole stream, so
   record sizes do not matter either), arbitrarily interleaved with other events and with whatever the
   child does in response.  Guards: crashed s' = None (no exception escaped; without it the statement
   is false, see C14_send_after_error_refuted, finding send-after-tls-error-crash) and has_open = false
   (the child does not re-open the established connection).  Theorems (5)-(6) need no contract. *)
From Coq Require Import List Bool Arith NArith.
From MV Require Import Base.Bytes Model.TlsTunnel Proofs.TlsTunnelBase Proofs.TlsTunnelData Proofs.TlsTunnelToy Proofs.TlsTunnelC14.
Import ListNotations.

(* (1) peer -> child: the plaintext given to the child is exactly the plaintext of the wire stream,
   each byte once and in order (pout = everything recv returned; first two conjuncts: all of it was
   delivered and nothing else; third: it is all the plaintext of the bytes received so far). *)
Theorem C14_inbound_transparent_partial :
  forall (R : Type) bio_write recv bio_read sendall do_handshake parse_hello (CS : Type) child (cf : cfg)
         win pout pin wout plain closed_in bad peer_plain,
  @contract R bio_write recv bio_read sendall win pout pin wout plain closed_in bad peer_plain ->
  forall (evs : list event) (s : st R CS),
  established s -> ~ In EStart evs ->
  (bad (win (tls s)) \/ pout (tls s) = plain (win (tls s))) ->
  let s' := fst (run R bio_write recv bio_read sendall do_handshake parse_hello CS child cf s evs) in
  let tr := snd (run R bio_write recv bio_read sendall do_handshake parse_hello CS child cf s evs) in
  crashed s' = None -> has_open (me cf) tr = false ->
  win (tls s') = win (tls s) ++ tunnel_data (me cf) evs /\
  pout (tls s') = pout (tls s) ++ child_data (me cf) tr /\
  (~ bad (win (tls s')) ->
   pout (tls s) ++ child_data (me cf) tr = plain (win (tls s) ++ tunnel_data (me cf) evs)).
Proof. exact inbound. Qed.
Print Assumptions C14_inbound_transparent_partial.

(* (2) child -> peer: what the peer decodes from all bytes written to the wire is exactly what the
   child asked to send (drops = 0: sendall never raised ZeroReturn/SysCall, which send_data swallows). *)
Theorem C14_outbound_transparent_partial :
  forall (R : Type) bio_write recv bio_read sendall do_handshake parse_hello (CS : Type) child (cf : cfg)
         win pout pin wout plain closed_in bad peer_plain,
  @contract R bio_write recv bio_read sendall win pout pin wout plain closed_in bad peer_plain ->
  forall (evs : list event) (s : st R CS),
  established s -> ~ In EStart evs -> peer_plain (wout (tls s)) = pin (tls s) ->
  let s' := fst (run R bio_write recv bio_read sendall do_handshake parse_hello CS child cf s evs) in
  let tr := snd (run R bio_write recv bio_read sendall do_handshake parse_hello CS child cf s evs) in
  crashed s' = None -> has_open (me cf) tr = false -> drops tr = 0 ->
  peer_plain (wout (tls s) ++ sent_wire (me cf) tr) = pin (tls s) ++ child_sends (me cf) tr.
Proof. exact outbound. Qed.
Print Assumptions C14_outbound_transparent_partial.

(* the guard crashed s' = None cannot be dropped *)
Theorem C14_send_after_error_refuted :
  exists (s : st toy (list event)) (evs : list event),
    established s /\ ~ In EStart evs /\
    let s' := fst (talk_run s evs) in let tr := snd (talk_run s evs) in
    has_open Client tr = false /\ drops tr = 0 /\ child_sends Client tr <> [] /\
    crashed s' = Some SendRaise /\ sent_wire Client tr = [].
Proof. exact send_after_error_refuted. Qed.
Print Assumptions C14_send_after_error_refuted.

(* (3) when a segment makes the layer dispatch ConnectionClosed (close_sent becomes true), the wire
   stream contains a close_notify and all its plaintext has been given to the child before *)
Theorem C14_close_after_all_data :
  forall (R : Type) bio_write recv bio_read sendall do_handshake parse_hello (CS : Type) child (cf : cfg)
         win pout pin wout plain closed_in bad peer_plain,
  @contract R bio_write recv bio_read sendall win pout pin wout plain closed_in bad peer_plain ->
  forall (d : bytes) (s : st R CS),
  established s -> close_sent s = false ->
  let s' := fst (step R bio_write recv bio_read sendall do_handshake parse_hello CS child cf s (EData (me cf) d)) in
  let tr := snd (step R bio_write recv bio_read sendall do_handshake parse_hello CS child cf s (EData (me cf) d)) in
  crashed s' = None -> has_open (me cf) tr = false -> close_sent s' = true ->
  closed_in (win (tls s')) = true /\ pout (tls s) ++ child_data (me cf) tr = plain (win (tls s')) /\
  win (tls s') = win (tls s) ++ d.
Proof.
  intros * (A & B & C & D) d s [E1 E2].
  exact (close_after_all_data _ _ _ _ _ _ _ _ _ _ _ _ _ _ _ _ _ _ A B C D d s E1 E2).
Qed.
Print Assumptions C14_close_after_all_data.

(* (4) ... and no data is delivered after it, whatever arrives *)
Theorem C14_no_data_after_close_notify :
  forall (R : Type) bio_write recv bio_read sendall do_handshake parse_hello (CS : Type) child (cf : cfg)
         win pout pin wout plain closed_in bad peer_plain,
  @contract R bio_write recv bio_read sendall win pout pin wout plain closed_in bad peer_plain ->
  forall (evs : list event) (s : st R CS),
  (forall w x, closed_in w = true -> plain (w ++ x) = plain w) ->
  established s -> ~ In EStart evs -> closed_in (win (tls s)) = true -> pout (tls s) = plain (win (tls s)) ->
  let s' := fst (run R bio_write recv bio_read sendall do_handshake parse_hello CS child cf s evs) in
  let tr := snd (run R bio_write recv bio_read sendall do_handshake parse_hello CS child cf s evs) in
  crashed s' = None -> has_open (me cf) tr = false -> ~ bad (win (tls s')) ->
  child_data (me cf) tr = [].
Proof.
  intros * (A & B & C & D) evs s Hf [E1 E2].
  exact (no_data_after_close_notify _ _ _ _ _ _ _ _ _ _ _ _ _ _ _ _ _ _ A B C D Hf evs s E1 E2).
Qed.
Print Assumptions C14_no_data_after_close_notify.

(* (5) ConnectionClosed(conn) reaches the child at most once: every record layer (no contract), every
   child, every configuration, every event sequence from the initial state, handshake included *)
Theorem C14_close_at_most_once :
  forall (R : Type) bio_write recv bio_read sendall do_handshake parse_hello (CS : Type) child (cf : cfg)
         (r : R) (replies : list bool) (cs : CS) (evs : list event),
  child_closes (me cf)
    (snd (run R bio_write recv bio_read sendall do_handshake parse_hello CS child cf (init r replies cs) evs)) <= 1.
Proof. exact close_at_most_once. Qed.
Print Assumptions C14_close_at_most_once.

(* (6) events queued while ESTABLISHING are replayed by _handshake_finished in arrival order, each
   once, and the queue is emptied (okv: no exception escaped; otherwise a prefix was replayed) *)
Theorem C14_establishing_replay_in_order :
  forall (R : Type) bio_write recv bio_read sendall do_handshake (CS : Type) child (cf : cfg) (err : bool) (s : st R CS),
  reply_to s = false ->
  let x := handshake_finished R bio_write recv bio_read sendall do_handshake CS child cf err s in
  (okv R CS x = true -> replayed (trc R CS x) = queue s /\ queue (stt R CS x) = []) /\
  exists rest, queue s = replayed (trc R CS x) ++ rest.
Proof. exact replay_in_order. Qed.
Print Assumptions C14_establishing_replay_in_order.

(* non-vacuity: the contract is satisfiable (null-cipher record layer); a state reached by a real
   handshake of the model is established, and a run from it meets the guards of (1),(2) (no crash,
   no re-open, no drop) and delivers the expected bytes *)
Theorem C14_contract_satisfiable :
  contract toy_bio_write toy_recv toy_bio_read toy_sendall toy_win t_pout toy_pin t_wout idb (fun _ => false) toy_bad idb.
Proof. exact (conj toy_bio_write_spec (conj toy_recv_spec (conj toy_bio_read_spec toy_sendall_spec))). Qed.
Print Assumptions C14_contract_satisfiable.

Theorem C14_nonvacuous :
  let s := fst (toy_run toy_init hello_evs) in
  let s' := fst (toy_run s app_evs) in
  let tr := snd (toy_run s app_evs) in
  crashed s = None /\ tunnel_state s = OPEN /\ has_tls s = true /\ errored s = false /\
  cstate s = [EStart; EOther 7; EData Client [x16; x03; x01]] /\
  crashed s' = None /\ has_open Client tr = false /\ drops tr = 0 /\
  child_data Client tr = [x61; x62; x63; x64] /\ child_sends Client tr = [x61; x62; x63; x64] /\
  sent_wire Client tr = [x61; x62; x63; x64] /\
  child_closes Client tr = 0.
Proof. vm_compute. repeat split; reflexivity. Qed.
Print Assumptions C14_nonvacuous.
