(* Props/C31.v -- Content-Encoding round-trips and the codec cache is transparent.
   Proofs are in Proofs/Encoding*.v; the witnesses are over the toy codec family of Proofs/EncodingToy.v.

   C : codecs is the family of library primitives (zlib, gzip, brotli, zstd, Python codecs);
   [contract C] is the library contract: decompress (compress x) = x and compress x is not empty.
   [run C lenient h] is the cache state after the arbitrary history h of encode / decode calls and
   message operations, starting from the empty cache.  [lenient] is the revision of http.py
   (true: the TypeError of a str codec is treated like ValueError, as in fixes/C31-str-codec-typeerror.diff;
   false: it escapes from the content accessors). *)
From Coq Require Import List Bool NArith.
From MV Require Import Base.Bytes Model.Encoding Proofs.EncodingCache Proofs.EncodingMsg Proofs.EncodingToy Proofs.EncodingC31.
Import ListNotations.


(* After ANY history, decode returns exactly what it returns on an empty cache (value or error). *)
Theorem C31_cache_transparent_decode :
  forall (C : codecs) (lenient : bool) (h : list call) (e : option bytes) (n err : bytes),
    contract C ->
    fst (decode C (run C lenient h) e n err) = fst (decode C None e n err).
Proof. intros C l h e n err K. apply decode_transparent, inv_run, K. Qed.
Print Assumptions C31_cache_transparent_decode.

(* After ANY history, encode returns what it returns on an empty cache, or -- for the five cached
   codings only -- another stream, and then both streams decode (cache-free) to the input. *)
Theorem C31_cache_transparent_encode :
  forall (C : codecs) (lenient : bool) (h : list call) (d n err : bytes),
    contract C ->
    enc_equiv C d n err (fst (encode C (run C lenient h) (Some d) n err)) (fst (encode C None (Some d) n err)).
Proof. intros C l h d n err K. apply encode_equiv; [exact K | apply inv_run, K]. Qed.
Print Assumptions C31_cache_transparent_encode.

(* Equality cannot be claimed for encode: by design the cache hands back the stream it decoded.
   (This is also how a stream that only mitmproxy's lenient decoders accept gets replayed:
   findings cache-replays-lenient-gzip-stream, cache-replays-deflate-trailing-data.) *)
Theorem C31_cache_transparent_encode_exact_refuted :
  exists (C : codecs) (h : list call) (d n err : bytes),
    contract C /\
    fst (encode C (run C false h) (Some d) n err) <> fst (encode C None (Some d) n err).
Proof.
  exists toy, [CDecode (Some lenient_stream) s_gzip s_strict], body, s_gzip, s_strict.
  split; [exact toy_contract |]. vm_compute. discriminate.
Qed.
Print Assumptions C31_cache_transparent_encode_exact_refuted.

(* Message.get_content (content) after any history = on an empty cache, for every message. *)
Theorem C31_get_content_transparent :
  forall (C : codecs) (lenient : bool) (h : list call) (m : msg) (strict : bool),
    contract C ->
    fst (get_content C lenient (run C lenient h) m strict) = fst (get_content C lenient None m strict).
Proof. intros C l h m s K. apply get_content_transparent, inv_run, K. Qed.
Print Assumptions C31_get_content_transparent.

(* Assigning content under a supported coding (any case; absent or empty header = identity), after
   any history h: succeeds, keeps the headers, the raw body decodes cache-free to the value, and
   reading it back after any further history h2 yields the value. *)
Theorem C31_set_get_roundtrip :
  forall (C : codecs) (lenient : bool) (h h2 : list call) (m : msg) (v : bytes) o m' st' (strict : bool),
    contract C ->
    supported (lower (coding_of m)) = true ->
    set_content C lenient (run C lenient h) m (Some v) = (o, m', st') ->
    o = Done /\ m_ce m' = m_ce m /\ m_te m' = m_te m
    /\ (exists e, m_raw m' = Some e /\ pure_decode C (lower (coding_of m)) s_strict e = PBytes v)
    /\ fst (get_content C lenient (run_from C lenient st' h2) m' strict) = GBytes v.
Proof. exact hist_set_get_roundtrip. Qed.
Print Assumptions C31_set_get_roundtrip.

(* Content-Length rule, for every coding (supported or not) and every cache state: without
   Transfer-Encoding it is the decimal length of the raw body, with it the header is untouched. *)
Theorem C31_content_length :
  forall (C : codecs) (lenient : bool) (st : cstate) (m : msg) (v : bytes) o m' st',
    set_content C lenient st m (Some v) = (o, m', st') -> o = Done ->
    m_te m' = m_te m
    /\ (m_te m = true -> m_cl m' = m_cl m)
    /\ (m_te m = false -> exists r, m_raw m' = Some r /\ m_cl m' = Some (dec_of_N (N.of_nat (length r)))).
Proof. exact content_length. Qed.
Print Assumptions C31_content_length.

(* A coding the encoder rejects: the header is removed and the body stored and read back as is.
   Guard = exactly the complement of finding str-codec-typeerror: the rejection is a ValueError,
   or it is a TypeError and the repaired http.py is in use. *)
Theorem C31_invalid_coding_partial :
  forall (C : codecs) (lenient : bool) (st : cstate) (m : msg) (v : bytes) (r : res),
    fst (encode C st (Some v) (coding_of m) s_strict) = r ->
    r = RValueError \/ (r = RTypeError /\ lenient = true) ->
    exists cl' st',
      set_content C lenient st m (Some v) = (Done, Build_msg None (m_te m) cl' (Some v), st')
      /\ forall st2 s, fst (get_content C lenient st2 (Build_msg None (m_te m) cl' (Some v)) s) = GBytes v.
Proof. exact invalid_coding. Qed.
Print Assumptions C31_invalid_coding_partial.

(* ... and the unguarded statement is false for lenient = false: a str codec (utf8) as
   Content-Encoding makes the assignment raise TypeError and leaves the message unchanged. *)
Theorem C31_invalid_coding_refuted :
  exists (C : codecs) (m : msg) (v : bytes),
    fst (encode C None (Some v) (coding_of m) s_strict) = RTypeError /\
    set_content C false None m (Some v) = (RaisedTypeError, m, None).
Proof. exists toy, (Build_msg (Some s_utf8) false None None), body. split; reflexivity. Qed.
Print Assumptions C31_invalid_coding_refuted.

(* Message.encode with a str codec: TypeError, and the new Content-Encoding header stays on the
   unchanged body (the message then claims a coding it does not have). lenient = false. *)
Theorem C31_message_encode_typeerror_refuted :
  exists (C : codecs) (m : msg),
    msg_encode C false None m s_utf8 = (RaisedTypeError, Build_msg (Some s_utf8) (m_te m) (m_cl m) (m_raw m), None)
    /\ m_ce m = None.
Proof. exists toy, (Build_msg None false None (Some body)). split; reflexivity. Qed.
Print Assumptions C31_message_encode_typeerror_refuted.

(* Message.decode followed (after any other calls) by Message.encode with a supported coding
   preserves the content; h0 .. h3 are arbitrary histories before the read, the decode, the encode
   and the final read. Non-empty body, any original coding whose strict read succeeded. *)
Theorem C31_decode_encode_preserves :
  forall (C : codecs) (lenient : bool) (h0 h1 h2 h3 : list call) (m : msg) (c : bytes) (s s3 : bool) (n : bytes)
         (b0 : byte) (r0 : bytes) o1 m1 st1' o2 m2 st2',
    contract C ->
    m_raw m = Some (b0 :: r0) ->
    fst (get_content C lenient (run C lenient h0) m true) = GBytes c ->
    msg_decode C lenient (run C lenient h1) m s = (o1, m1, st1') ->
    supported (lower (match n with [] => s_identity | _ => n end)) = true ->
    msg_encode C lenient (run C lenient h2) m1 n = (o2, m2, st2') ->
    o1 = Done /\ o2 = Done /\ m_ce m1 = None /\ m_raw m1 = Some c /\ m_ce m2 = Some n
    /\ fst (get_content C lenient (run C lenient h3) m2 s3) = GBytes c.
Proof.
  intros C l h0 h1 h2 h3 * K Hr G D S E. pose proof (inv_run C l) as I.
  destruct (decode_encode_preserves C l _ _ _ _ _ _ _ _ _ _ _ _ _ _ _ K (I h0 K) (I h1 K) (I h2 K) Hr G D S E)
    as (A & B & X & Y & Z & W); auto 10.
Qed.
Print Assumptions C31_decode_encode_preserves.

(* Same with an empty or missing body (Message.decode is a no-op there), original coding supported. *)
Theorem C31_decode_encode_preserves_empty :
  forall (C : codecs) (lenient : bool) (h0 h1 h2 h3 : list call) (m : msg) (g : gres) (s s3 : bool) (n : bytes)
         o1 m1 st1' o2 m2 st2',
    contract C ->
    m_raw m = None \/ m_raw m = Some [] ->
    supported (lower (coding_of m)) = true ->
    fst (get_content C lenient (run C lenient h0) m true) = g ->
    msg_decode C lenient (run C lenient h1) m s = (o1, m1, st1') ->
    supported (lower (match n with [] => s_identity | _ => n end)) = true ->
    msg_encode C lenient (run C lenient h2) m1 n = (o2, m2, st2') ->
    o1 = Done /\ m1 = m /\ o2 = Done /\ m_ce m2 = Some n
    /\ fst (get_content C lenient (run C lenient h3) m2 s3) = g.
Proof.
  intros C l h0 h1 h2 h3 * K Hr Sm G D S E. pose proof (inv_run C l) as I.
  destruct (decode_encode_preserves_empty C l _ _ _ _ _ _ _ _ _ _ _ _ _ K (I h0 K) (I h2 K) Hr Sm G D S E)
    as (A & B & X & Y & W); auto 10.
Qed.
Print Assumptions C31_decode_encode_preserves_empty.

(* The contract is satisfiable by a family whose decoders are lenient like the real ones, a history
   really hits the cache in both directions, and a message round trip goes through a compressed body. *)
Theorem C31_nonvacuous :
  contract toy
  /\ run toy false [CDecode (Some lenient_stream) s_gzip s_strict] <> None
  /\ fst (encode toy (run toy false [CDecode (Some lenient_stream) s_gzip s_strict]) (Some body) s_gzip s_strict)
     = RBytes lenient_stream
  /\ fst (decode toy (run toy false [CEncode (Some body) s_gzip s_strict]) (Some (x01 :: body)) s_gzip s_strict)
     = RBytes body
  /\ set_content toy false None m_gzip (Some body)
     = (Done, Build_msg (m_ce m_gzip) false (Some [x33]) (Some (x01 :: body)),
        Some (Build_centry (x01 :: body) s_gzip s_strict body)).
Proof. exact nonvacuous. Qed.
Print Assumptions C31_nonvacuous.
