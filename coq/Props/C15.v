(* Props/C15.v -- Upstream certificates are verified unless verification is disabled.
   Models: Model/TlsStartServer.v (tls_start_server decision, ipaddress.ip_address, idna ASCII path),
   Model/ServerTlsLayer.v (TunnelLayer/TLSLayer/ServerTLSLayer over an abstract OpenSSL connection),
   Model/X509Verify.v (what verified means).  OpenSSL itself is the contract openssl_verifies. *)
From Coq Require Import List Bool NArith ZArith.
From MV Require Import Base.Bytes Model.X509Verify Model.TlsStartServer Model.ServerTlsLayer.
From MV Require Import Proofs.X509VerifyLemmas Proofs.ServerTlsLayerInv Proofs.UpstreamVerifyC15 Corr.C15.
Import ListNotations.

(* MAIN.  For every option/name input, trust set, server chain, time, every OpenSSL connection object
   satisfying the contract, every child layer and every history of events: if ssl_insecure is off and
   anything at all indicates a usable upstream connection (tls_established_server hook, application
   plaintext sent, child told the connection is up, child observing tls_established, tunnel OPEN), then
   the chain leads over CA-signed, currently valid links to a self-issued member of the trust set, the
   leaf is currently valid, and a SAN of the leaf matches the target derived from the SNI (IP: packed
   address; DNS: the idna-encoded name). *)
Theorem C15_verified_unless_disabled :
  forall i trust chain now eng seg hs_step send_app recv_app got_shutdown start_conn cst child_step c b es,
  openssl_verifies i trust chain now eng seg hs_step send_app recv_app start_conn ->
  ssl_insecure i = false ->
  usable eng seg hs_step send_app recv_app got_shutdown start_conn cst child_step c b es ->
  exists t leaf extra n,
    target_of i t /\ chain = leaf :: extra
    /\ valid_path trust extra now n leaf 0%N /\ time_ok now leaf = true /\ name_ok leaf t = true.
Proof. exact verified_unless_disabled. Qed.
Print Assumptions C15_verified_unless_disabled.

(* MAIN with the trust-store selection of create_proxy_server_context: the root the chain ends in is a
   CONFIGURED trusted CA -- a member of the CA file or of the CA directory when either option is set, a
   member of the bundled default file only when neither is. *)
Theorem C15_verified_by_configured_ca :
  forall i tc chain now eng seg hs_step send_app recv_app got_shutdown start_conn cst child_step c b es,
  openssl_verifies i (loaded_trust tc) chain now eng seg hs_step send_app recv_app start_conn ->
  ssl_insecure i = false ->
  usable eng seg hs_step send_app recv_app got_shutdown start_conn cst child_step c b es ->
  exists t leaf extra n r,
    target_of i t /\ chain = leaf :: extra
    /\ valid_path (loaded_trust tc) extra now n leaf 0%N /\ time_ok now leaf = true /\ name_ok leaf t = true
    /\ configured_root tc r /\ self_issued r = true /\ time_ok now r = true.
Proof. exact verified_by_configured_ca. Qed.
Print Assumptions C15_verified_by_configured_ca.

Theorem C15_loaded_trust_configured : forall tc r, In r (loaded_trust tc) <-> configured_root tc r.
Proof. exact loaded_trust_configured. Qed.
Print Assumptions C15_loaded_trust_configured.

Theorem C15_default_bundle_ignored : forall f d def1 def2,
  (f <> None \/ d <> None) -> loaded_trust (mkTc f d def1) = loaded_trust (mkTc f d def2).
Proof. intros f d def1 def2. unfold loaded_trust; simpl. destruct f, d; intros [H|H]; try reflexivity; contradiction. Qed.
Print Assumptions C15_default_bundle_ignored.

(* contrapositive, in the form of the statement: a chain that does not verify is never usable, so no
   application data is ever sent to that server *)
Theorem C15_unverifiable_never_usable :
  forall i trust chain now eng seg hs_step send_app recv_app got_shutdown start_conn cst child_step c b es,
  openssl_verifies i trust chain now eng seg hs_step send_app recv_app start_conn ->
  ssl_insecure i = false ->
  (forall t, target_of i t -> x509_ok trust chain now t = false) ->
  ~ usable eng seg hs_step send_app recv_app got_shutdown start_conn cst child_step c b es.
Proof.
  intros * Hc Hi Hn U. destruct (usable_verified _ _ _ _ _ _ _ _ _ _ _ _ _ _ _ _ Hc Hi U) as [t [Tg X]].
  rewrite (Hn t Tg) in X; discriminate.
Qed.
Print Assumptions C15_unverifiable_never_usable.

(* tls_start_server raised (no name to verify, un-encodable or invalid name): with the repair
   fixes/C15-assign-ssl-conn-last.diff no connection object reaches the layer, and then nothing usable
   ever happens, for every server, child and history, without any assumption about OpenSSL *)
Theorem C15_hook_exception_never_usable :
  forall (eng seg : Type) hs_step send_app recv_app got_shutdown cst child_step c b es,
  ~ usable eng seg hs_step send_app recv_app got_shutdown None cst child_step c b es.
Proof. exact no_context_never_usable. Qed.
Print Assumptions C15_hook_exception_never_usable.

(* the failure is signalled: OpenSSL error during the handshake *)
Theorem C15_handshake_error_is_signalled :
  forall eng seg hs_step send_app recv_app got_shutdown start_conn cst child_step
         (s : st eng seg cst) e e' d,
  crashed _ _ _ s = false -> awaiting_open _ _ _ s = false ->
  tunnel_state _ _ _ s = ESTABLISHING -> reply_to _ _ _ s = true ->
  tls _ _ _ s = Some e -> hs_step e (Some d) = (e', HsError) ->
  exists rest,
    snd (step eng seg hs_step send_app recv_app got_shutdown start_conn cst child_step s (EData _ d))
    = [CLogWarn; CHook HFailed; CClose] ++ CChild (CevOpenReply true) (established _ _ _ s) :: rest.
Proof. exact handshake_error_is_signalled. Qed.
Print Assumptions C15_handshake_error_is_signalled.

(* ... the server closing during the handshake *)
Theorem C15_close_during_handshake_is_signalled :
  forall eng seg hs_step send_app recv_app got_shutdown start_conn cst child_step (s : st eng seg cst),
  crashed _ _ _ s = false -> awaiting_open _ _ _ s = false ->
  tunnel_state _ _ _ s = ESTABLISHING -> reply_to _ _ _ s = true ->
  exists rest,
    snd (step eng seg hs_step send_app recv_app got_shutdown start_conn cst child_step s (EClosed _))
    = [CLogWarn; CHook HFailed; CClose] ++ CChild (CevOpenReply true) (established _ _ _ s) :: rest.
Proof. exact close_during_handshake_is_signalled. Qed.
Print Assumptions C15_close_during_handshake_is_signalled.

(* ... and the hook leaving no connection object: error log and CloseConnection (whose ConnectionClosed
   event then takes the branch above) *)
Theorem C15_no_context_closes :
  forall (eng seg : Type) (start_conn : option eng) (cst : Type) (s : st eng seg cst),
  start_conn = None -> tls _ _ _ s = None ->
  snd (start_tls eng seg start_conn cst s) = [CHook HStart; CLogError; CClose].
Proof. intros eng seg start_conn cst s Hs Ht. unfold start_tls. rewrite Ht, Hs. reflexivity. Qed.
Print Assumptions C15_no_context_closes.

(* the decision of tls_start_server: verify mode is NONE iff ssl_insecure, and with verification on
   every configuration carries a target that is the SNI (preset, else client SNI, else address) *)
Theorem C15_verify_mode : forall i cf,
  o_res (tls_start_server i) = inr cf ->
  cf_verify cf = if ssl_insecure i then VERIFY_NONE else VERIFY_PEER.
Proof. intros i cf E. apply (start_server_cases i cf E). Qed.
Print Assumptions C15_verify_mode.

Theorem C15_peer_has_target : forall i cf,
  ssl_insecure i = false -> o_res (tls_start_server i) = inr cf ->
  cf_verify cf = VERIFY_PEER /\ exists t, cf_target cf = Some t /\ target_of i t.
Proof.
  intros i cf Hi E. destruct (start_server_cases i cf E) as (V & T & X). rewrite Hi in V.
  destruct (X Hi) as [t Ht]. eauto.
Qed.
Print Assumptions C15_peer_has_target.

Theorem C15_sni_source : forall i,
  o_sni (tls_start_server i)
  = match preset_sni i with Some s => s | None => py_or (client_sni i) (address_host i) end.
Proof. reflexivity. Qed.
Print Assumptions C15_sni_source.

(* ssl_insecure on: every chain is acceptable ...  The full statement (handshakes with such servers
   succeed) is FALSE of the faithful model: the hook still insists on configuring the name and raises
   for names it cannot configure.  _refuted gives the witness (address example.com. with a trailing
   dot, known finding insecure-unverifiable-name-fails); _partial holds under the exact complement:
   the hook returns a configuration. *)
Theorem C15_insecure_succeeds_refuted :
  exists i, ssl_insecure i = true /\ o_res (tls_start_server i) = inl SslError.
Proof. exists trailing_dot_input; split; vm_compute; reflexivity. Qed.
Print Assumptions C15_insecure_succeeds_refuted.

Theorem C15_insecure_succeeds_partial : forall i cf trust chain now,
  ssl_insecure i = true -> o_res (tls_start_server i) = inr cf ->
  peer_acceptable cf trust chain now = true.
Proof.
  intros i cf trust chain now Hi E. unfold peer_acceptable.
  rewrite (proj1 (start_server_cases i cf E)), Hi. reflexivity.
Qed.
Print Assumptions C15_insecure_succeeds_partial.

(* what verified means: no Common Name fallback *)
Theorem C15_no_cn_fallback : forall s i k sk nb na ca pl dns ips cn1 cn2 t,
  name_ok (mkCert s i k sk nb na ca pl dns ips cn1) t = name_ok (mkCert s i k sk nb na ca pl dns ips cn2) t.
Proof. intros. destruct t; reflexivity. Qed.
Print Assumptions C15_no_cn_fallback.

(* no partial wildcards: a SAN that is not star-dot-rest only matches literally *)
Theorem C15_no_partial_wildcards : forall pat host,
  (forall rest, pat <> x2a :: x2e :: rest) ->
  dns_match pat host = true -> eq_nocase pat host = true.
Proof.
  intros pat host Hn E. destruct (dns_match_cases pat host E) as [L | (rest & l & hr & Hp & _)]; [exact L|].
  destruct (Hn rest Hp).
Qed.
Print Assumptions C15_no_partial_wildcards.

(* a wildcard stands for exactly one whole, non-empty, dot-free left-most label *)
Theorem C15_wildcard_one_label : forall pat host,
  dns_match pat host = true ->
  eq_nocase pat host = true
  \/ exists rest l hr, pat = x2a :: x2e :: rest /\ host = l ++ hr /\ l <> [] /\ ~ In x2e l
                       /\ eq_nocase hr (x2e :: rest) = true.
Proof. exact dns_match_cases. Qed.
Print Assumptions C15_wildcard_one_label.

Theorem C15_ip_exact : forall c ip, name_ok c (TIp ip) = true <-> In ip (c_ips c).
Proof. exact name_ok_ip. Qed.
Print Assumptions C15_ip_exact.

(* the executable chain search decides the path relation (soundness; completeness within the fuel) *)
Theorem C15_chain_sound : forall trust pool now leaf,
  chain_ok trust pool now leaf = true -> exists n, valid_path trust pool now n leaf 0%N.
Proof. exact chain_ok_sound. Qed.
Print Assumptions C15_chain_sound.

Theorem C15_chain_complete : forall trust pool now leaf n,
  valid_path trust pool now n leaf 0%N -> (n <= search_fuel trust pool)%nat -> chain_ok trust pool now leaf = true.
Proof. intros trust pool now leaf n V H. exact (path_search_complete _ _ _ _ _ _ V _ H). Qed.
Print Assumptions C15_chain_complete.

Theorem C15_path_ends_in_trusted_root : forall trust pool now n c d,
  valid_path trust pool now n c d ->
  exists r, In r trust /\ self_issued r = true /\ time_ok now r = true.
Proof. exact valid_path_ends_in_trusted_root. Qed.
Print Assumptions C15_path_ends_in_trusted_root.

(* the four clauses of the contract are satisfiable: the specification engine the correspondence check runs
   meets them, with its flag a = true in the place of the acceptance *)
Theorem C15_contract_satisfiable : forall (a : bool) (conn : option phase),
  (forall e, conn = Some e -> e = Fresh) ->
  exists (live : phase -> Prop) (ok_eng : phase -> bool),
    (forall e, conn = Some e -> live e /\ ok_eng e = false)
    /\ (forall e d e' r, live e -> spec_hs a e d = (e', r) ->
          live e' /\ (r = HsDone -> a = true) /\ (ok_eng e' = true -> r = HsDone \/ ok_eng e = true))
    /\ (forall e d e' r, live e -> spec_send e d = (e', r) ->
          live e' /\ (ok_eng e' = true -> ok_eng e = true) /\ (forall p, r = Sent p -> ok_eng e = true))
    /\ (forall e d e' x, live e -> spec_recv e d = (e', x) ->
          live e' /\ (ok_eng e' = true -> ok_eng e = true)).
Proof. exact spec_engine_contract. Qed.
Print Assumptions C15_contract_satisfiable.

(* hypotheses are satisfiable on a concrete, non-trivial value: a matching leaf under a trusted root is
   accepted and the modelled layer establishes and sends; expired, untrusted or misnamed it is not *)
Theorem C15_nonvacuous :
  x509_ok [sample_root] [sample_leaf] 500 (THost s_example) = true
  /\ In (CHook HEstablished) sample_trace /\ In (CSendApp appdata) sample_trace
  /\ x509_ok [sample_root] [sample_leaf] 2000 (THost s_example) = false
  /\ x509_ok [] [sample_leaf] 500 (THost s_example) = false
  /\ x509_ok [sample_root] [sample_leaf] 500 (THost (x78 :: s_example)) = false.
Proof. vm_compute. repeat split; auto 10. Qed.
Print Assumptions C15_nonvacuous.
