(* Props/C08.v -- Upstream connection reuse never sends a request to the wrong destination.
   Model: Model/HttpRouting.v (HttpLayer.get_connection / register_connection / connections /
   waiting_for_establishment, Server.__setattr__) over the predicate connection_spec_matches and the command
   builder dest_of_flow that are REGENERATED from the source on every run (Gen/ConnSpec.v).
   A history is a list of steps: SGet (a stream asks for a connection to its destination), SRegister (a layer
   stack reports the outcome of its connection attempt), SSet (somebody assigns an attribute of a connection
   object: state, error, alpn, address, via, tls, transport).  run returns, per step, the replies; a reply
   OReply rid g (Some (c, k, h)) means: request rid with destination g is completed with connection c whose
   attributes at that moment are k, and its head is dispatched to the layer stack of connection h. *)
From Coq Require Import List Bool NArith.
From MV Require Import Base.Bytes Model.HttpRoutingBase Gen.ConnSpec Model.HttpRouting
                       Proofs.HttpRoutingBase Proofs.HttpRouting Proofs.HttpRoutingC08.
Import ListNotations.
Open Scope N_scope.

(* The regenerated reuse predicate is exactly equality of (Server, address, tls, via, transport). *)
Theorem C08_spec_matches_iff : forall (g : get_cmd) (k : conn),
  connection_spec_matches g k = true <->
  (c_server k = true /\ c_address k = Some (g_address g) /\ c_tls k = g_tls g /\ c_via k = g_via g /\ c_tp k = g_tp g).
Proof. exact matches_iff. Qed.
Print Assumptions C08_spec_matches_iff.

(* The regenerated destination of a flow: (host, port), scheme == https, server_conn.via, server_conn.transport. *)
Theorem C08_dest_of_flow : forall host port scheme via tp,
  let g := dest_of_flow host port scheme via tp in
  g_address g = (host, port) /\ (g_tls g = true <-> scheme = https_scheme) /\ g_via g = via /\ g_tp g = tp.
Proof. exact dest_of_flow_spec. Qed.
Print Assumptions C08_dest_of_flow.

(* ROUTING, for every history that respects the environment contract env_ok (RegisterHttpConnection(l, None)
   only for an open, non-failed l; no assignment of address / via / tls / transport to a connection that
   requests are waiting on -- both evaluated on every observed history by the correspondence check):
   every request that is completed with a connection gets one whose (address, tls, via, transport) equal the
   destination of the request at that moment, which is open and has not failed; and the request was really issued
   at or before that step.  In particular no request head is ever written to a failed connection. *)
Theorem C08_routing : forall cf ctx hist,
  ctx_server cf = 1 -> env_ok cf (init_state ctx) hist = true ->
  forall i outs rid g c k h,
    nth_error (snd (run cf (init_state ctx) hist)) i = Some outs ->
    In (OReply rid g (Some (c, k, h))) outs ->
    (c_server k = true /\ c_address k = Some (g_address g) /\ c_tls k = g_tls g /\ c_via k = g_via g /\ c_tp k = g_tp g)
    /\ c_error k = false /\ connected k = true /\ In (SGet rid g) (firstn (S i) hist).
Proof. exact routing. Qed.
Print Assumptions C08_routing.

(* DISPATCH.  The full statement -- the head of a completed request is processed by the layer stack of the
   very connection it was completed with -- is FALSE of the faithful model (finding
   carrier-reused-as-origin): the TCP connection to an upstream proxy is registered in HttpLayer.connections
   under the address of the proxy itself with the layer stack of the tunnel as handler, so a later request whose destination
   is that address (no via) is written into the CONNECT tunnel of another destination. *)
Theorem C08_dispatch_refuted :
  exists cf ctx hist i outs rid g c k h,
    ctx_server cf = 1 /\ env_ok cf (init_state ctx) hist = true
    /\ nth_error (snd (run cf (init_state ctx) hist)) i = Some outs
    /\ In (OReply rid g (Some (c, k, h))) outs
    /\ h <> c
    /\ c_address (hget (l_heap (fst (run cf (init_state ctx) hist))) h) <> Some (g_address g).
Proof.
  exists cfg0, ctx0, hist_refuted, 4%nat. eexists. exists 1, g_origin, 3. eexists. exists 2.
  split; [reflexivity|]. split; [vm_compute; reflexivity|]. split; [vm_compute; reflexivity|]. split; [left; reflexivity|].
  split; [discriminate|]. vm_compute. discriminate.
Qed.
Print Assumptions C08_dispatch_refuted.

(* ... and it holds under the guard guard_ok, which is exactly the complement of the finding: no request
   asks for a destination matching a registered connection whose handler is the stack of another connection. *)
Theorem C08_dispatch_partial : forall cf ctx hist,
  ctx_server cf = 1 -> guard_ok cf (init_state ctx) hist = true ->
  forall i outs rid g c k h,
    nth_error (snd (run cf (init_state ctx) hist)) i = Some outs ->
    In (OReply rid g (Some (c, k, h))) outs -> h = c.
Proof.
  intros cf ctx hist Hc HG i outs rid g c k h Hn Hin.
  pose proof (run_dispatch hist cf (init_state ctx) (inv_init _ _ cf ctx Hc) HG i outs Hn) as HF.
  rewrite Forall_forall in HF. exact (HF _ Hin).
Qed.
Print Assumptions C08_dispatch_partial.

(* Server.__setattr__: a different address / via cannot be assigned to an open Server ... *)
Theorem C08_setattr_guard : forall k,
  c_server k = true -> connected k = true ->
  (forall a, c_address k <> a -> server_setattr k (FAddress a) = None)
  /\ (forall v, c_via k <> v -> server_setattr k (FVia v) = None).
Proof. intros k H1 H2. split; [intros a; apply setattr_guard_address | intros v; apply setattr_guard_via]; assumption. Qed.
Print Assumptions C08_setattr_guard.

(* ... hence, along any history (any interleaving of requests, registrations and assignments), a Server
   object that is open in every state between two points has the same address and via at both. *)
Theorem C08_open_immutable : forall cf ctx pre hist c,
  ctx_server cf = 1 ->
  let s := fst (run cf (init_state ctx) pre) in
  c < l_next s -> c_server (hget (l_heap s) c) = true ->
  open_throughout cf s c hist ->
  c_address (hget (l_heap (fst (run cf s hist))) c) = c_address (hget (l_heap s) c)
  /\ c_via (hget (l_heap (fst (run cf s hist))) c) = c_via (hget (l_heap s) c).
Proof. intros cf ctx pre hist c Hc s. apply run_open_stable, run_struct, inv_init, Hc. Qed.
Print Assumptions C08_open_immutable.

(* The hypotheses are satisfiable on a non-trivial history: two requests queue on one pending TLS connection,
   both are completed with it when it opens, a third one reuses it. *)
Theorem C08_nonvacuous :
  let g := mkGet (a_test, 443) true None TCP in
  let hist := [SGet 0 g; SGet 1 g; SSet 2 (FState Open); SRegister 2 false; SGet 2 g] in
  env_ok cfg0 (init_state ctx0) hist = true /\ guard_ok cfg0 (init_state ctx0) hist = true
  /\ exists k, nth_error (snd (run cfg0 (init_state ctx0) hist)) 3 = Some [OReply 0 g (Some (2, k, 2)); OReply 1 g (Some (2, k, 2))]
  /\ nth_error (snd (run cfg0 (init_state ctx0) hist)) 4 = Some [OReply 2 g (Some (2, k, 2))].
Proof.
  cbv zeta. split; [vm_compute; reflexivity|]. split; [vm_compute; reflexivity|].
  eexists. split; vm_compute; reflexivity.
Qed.
Print Assumptions C08_nonvacuous.
