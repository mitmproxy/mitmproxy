(* Props/C32.v -- Message text round-trips for every content type.
   The full-strength statement (every string, every Content-Type reads back unchanged) is FALSE of the
   faithful model and of the code: C32_roundtrip_refuted and the three bundles of witnesses below.
   C32_roundtrip_partial holds under a guard that is exactly the complement of the recorded findings:
     set_text succeeds          (complement of finding non-text-charset: TypeError)
     getter_agrees              (complement of bom-prefix and body-declared-charset: the encoding inferred
                                 with the stored body equals the one inferred without it)
     codec_rt                   (complement of non-injective-codec; PROVED for ascii/latin-1/utf-8/utf-8-sig,
                                 see C32_roundtrip_exact, a contract for abstract codecs)
     scalar_text                (complement of surrogate-escape)
   C32_infer_stable gives a syntactic sufficient condition for getter_agrees. *)
From Coq Require Import String.
From Coq Require Import List Bool NArith.
From MV Require Import Base.Bytes Model.MsgText Proofs.MsgTextCodec Proofs.MsgTextParse Proofs.MsgTextMain Proofs.MsgTextBom.
Import ListNotations.
Local Open Scope N_scope.

(* Latin-1 text whose bytes begin like a UTF-16 BOM: stored as latin-1, read back as UTF-16, for every codec family. *)
Theorem C32_roundtrip_refuted :
  exists (m : msg) (s : text), scalar_text s /\
    forall C strict, exists m', set_text C m (Some s) = SetOk m' /\ get_text C m' strict <> GStr s.
Proof.
  exists (mk None), [255; 254; 97; 98]. split; [repeat constructor|]. intros C strict.
  eexists. split; [vm_compute; reflexivity | vm_compute; discriminate].
Qed.
Print Assumptions C32_roundtrip_refuted.

(* BOM family: Latin-1 text looking like a UTF-16 BOM; U+FEFF lost under utf-8; utf-16 gains U+FEFF *)
Theorem C32_bom_family_refuted : forall C strict,
  after_set C (mk None) [255; 254; 97; 98] strict = Some (GStr [65279; 25185])
  /\ after_set C (mk (Some (B "text/plain; charset=utf-8"))) [65279; 97] strict = Some (GStr [97])
  /\ after_set C (mk (Some (B "text/plain; charset=utf-16"))) [97] strict = Some (GStr [65279; 97]).
Proof. intros C strict. repeat split; vm_compute; reflexivity. Qed.
Print Assumptions C32_bom_family_refuted.

(* html meta, xml declaration, css at-charset inside the text win over the setter's default *)
Theorem C32_body_declaration_refuted : forall C strict,
    (exists g, after_set C (mk (Some (B "text/html"))) meta_text strict = Some g /\ g <> GStr meta_text)
    /\ (exists g, after_set C (mk (Some (B "text/xml"))) xml_text strict = Some g /\ g <> GStr xml_text)
    /\ (exists g, after_set C (mk (Some (B "text/css"))) css_text strict = Some g /\ g <> GStr css_text).
Proof.
  intros C strict. repeat split; eexists; (split; [vm_compute; reflexivity | vm_compute; discriminate]).
Qed.
Print Assumptions C32_body_declaration_refuted.

(* surrogate-escaped bytes: the strict getter raises, the lenient one merges them *)
Theorem C32_surrogate_escape_refuted : forall C,
  is_escaped_byte 56575 = true
  /\ after_set C (mk (Some (B "text/plain; charset=utf-8"))) [56575] true = Some GValueErr
  /\ after_set C (mk None) [56515; 56489] false = Some (GStr [233]).
Proof. intros C. repeat split; vm_compute; reflexivity. Qed.
Print Assumptions C32_surrogate_escape_refuted.

(* a charset naming a codec that is not str -> bytes: TypeError instead of the UTF-8 fallback *)
Theorem C32_non_text_codec_raises : forall C m s,
  In (encode C (infer_content_encoding (ctype_str m) []) s) [EStr; ETypeErr] ->
  set_text C m (Some s) = SetTypeErr.
Proof. exact non_text_codec_raises. Qed.
Print Assumptions C32_non_text_codec_raises.

(* the guarded round trip: every codec table, message, text, both getter modes *)
Theorem C32_roundtrip_partial : forall C m s m' strict,
  set_text C m (Some s) = SetOk m' ->
  getter_agrees m' ->
  codec_rt C (infer_content_encoding (ctype_str m) []) s ->
  scalar_text s ->
  get_text C m' strict = GStr s.
Proof. exact roundtrip_partial. Qed.
Print Assumptions C32_roundtrip_partial.

(* no codec contract when the Content-Type resolves to ascii, latin-1, utf-8 or utf-8-sig *)
Theorem C32_roundtrip_exact : forall C m s m' strict,
  set_text C m (Some s) = SetOk m' ->
  getter_agrees m' ->
  In (resolve (lower (infer_content_encoding (ctype_str m) []))) [CAscii; CLatin1; CUtf8; CUtf8Sig] ->
  scalar_text s ->
  get_text C m' strict = GStr s.
Proof.
  intros C m s m' strict Hset Hag Hin Hsc.
  apply (roundtrip_partial C m s m' strict Hset Hag); [apply codec_rt_exact, Hin | exact Hsc].
Qed.
Print Assumptions C32_roundtrip_exact.

(* exact characterisation of the BOM finding on the default path (no charset, no sniffed media type,
   e.g. no Content-Type at all): Latin-1 text reads back IF AND ONLY IF its bytes carry no BOM *)
Theorem C32_default_roundtrip_iff : forall C m s,
  plain_ct (ctype_str m) -> latin1_text s ->
  let m' := {| ctype := ctype m; content := Some (map Nb s) |} in
  set_text C m (Some s) = SetOk m'
  /\ (get_text C m' true = GStr s <-> bom_encoding (map Nb s) = None).
Proof. exact default_roundtrip_iff. Qed.
Print Assumptions C32_default_roundtrip_iff.

(* the same for a message without any Content-Type *)
Theorem C32_no_ctype_roundtrip_iff : forall C s, latin1_text s ->
  set_text C {| ctype := None; content := None |} (Some s)
    = SetOk {| ctype := None; content := Some (map Nb s) |}
  /\ (get_text C {| ctype := None; content := Some (map Nb s) |} true = GStr s
      <-> bom_encoding (map Nb s) = None).
Proof. intros C s. exact (default_roundtrip_iff C {| ctype := None; content := None |} s plain_ct_empty). Qed.
Print Assumptions C32_no_ctype_roundtrip_iff.

(* syntactic sufficient condition for getter_agrees *)
Theorem C32_infer_stable : forall ct b,
  bom_encoding b = None ->
  (falsy (header_charset ct) = false
   \/ contains (B "json") ct = true
   \/ ((contains (B "html") ct = true -> meta_search b = None)
       /\ (contains (B "html") ct = false -> contains (B "xml") ct = true -> xml_search b = None)
       /\ (contains (B "html") ct = false -> contains (B "xml") ct = false ->
           contains (B "javascript") ct || contains (B "ecmascript") ct = false ->
           contains (B "text/css") ct = true -> css_match b = None))) ->
  infer_content_encoding ct b = infer_content_encoding ct [].
Proof. exact infer_stable. Qed.
Print Assumptions C32_infer_stable.

(* the declared charset is rewritten exactly when the text is not encodable, and then to utf-8 *)
Theorem C32_charset_updated : forall C m s m',
  set_text C m (Some s) = SetOk m' ->
  (exists b, encode C (infer_content_encoding (ctype_str m) []) s = EBytes b
             /\ ctype m' = ctype m /\ content m' = Some b)
  \/ (encode C (infer_content_encoding (ctype_str m) []) s = EValueErr
      /\ header_charset (ctype_str m') = Some (B "utf-8")
      /\ infer_content_encoding (ctype_str m') [] = B "utf-8"
      /\ content m' = utf8_encode_se s).
Proof. exact charset_updated. Qed.
Print Assumptions C32_charset_updated.

(* for EVERY Content-Type value the rewritten header parses back with charset utf-8 *)
Theorem C32_fallback_charset : forall ct, header_charset (fallback_ctype ct) = Some (B "utf-8").
Proof. exact fallback_charset. Qed.
Print Assumptions C32_fallback_charset.

(* codec level: decode (encode s) = s *)
Theorem C32_codec_rt_exact : forall C enc s,
  In (resolve (lower enc)) [CAscii; CLatin1; CUtf8; CUtf8Sig] -> codec_rt C enc s.
Proof. exact codec_rt_exact. Qed.
Print Assumptions C32_codec_rt_exact.

(* the strict UTF-8 codec of the model, used by the fallback path *)
Theorem C32_utf8_roundtrip : forall s b, utf8_encode s = Some b -> utf8_decode b = Some s.
Proof. exact utf8_rt. Qed.
Print Assumptions C32_utf8_roundtrip.

(* The guards of C32_roundtrip_partial hold on two runs: the fallback path (latin1 cannot hold U+2603, the header
   is rewritten; codec_rt holds there because nothing is encoded) and the kept path (html without charset). *)
Theorem C32_nonvacuous : forall C,
  (exists m', set_text C (mk (Some (B "text/html; charset=latin1; foo=bar"))) (Some snowman) = SetOk m'
      /\ ctype m' = Some (B "text/html; charset=utf-8; foo=bar")
      /\ getter_agrees m' /\ scalar_text snowman
      /\ codec_rt C (infer_content_encoding (B "text/html; charset=latin1; foo=bar") []) snowman
      /\ get_text C m' true = GStr snowman)
  /\ (exists m', set_text C (mk (Some (B "text/html"))) (Some [60; 233; 62]) = SetOk m'
      /\ ctype m' = Some (B "text/html") /\ content m' = Some [x3c; xc3; xa9; x3e]
      /\ getter_agrees m'
      /\ In (resolve (lower (infer_content_encoding (B "text/html") []))) [CAscii; CLatin1; CUtf8; CUtf8Sig]
      /\ get_text C m' true = GStr [60; 233; 62]).
Proof. exact nonvacuous. Qed.
Print Assumptions C32_nonvacuous.
