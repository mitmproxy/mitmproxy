(* Props/C42.v -- Filter expressions mean what the documented grammar says.
   expr / style / render: expression trees over the documented operators and their surface syntax (explicit
   op_and or juxtaposition, redundant parentheses, whitespace of every kind, naked or coded regexes, bare /
   raw-quoted / escape-quoted arguments), parenthesised by the documented precedence (not > and > or,
   juxtaposition = and).  parse_grammar / parse_filter: the model of flowfilter.parse (pyparsing grammar). *)
From Coq Require Import List Bool NArith.
From MV Require Import Base.Bytes Gen.FlowFilterAtoms Model.FilterGrammar Model.FilterBody Model.FilterHeader
  Proofs.FilterGrammarExpr Proofs.FilterGrammarC42 Proofs.FilterBody Proofs.FilterHeader.
Import ListNotations.

(* The full statement (every rendering of every tree over table atoms is accepted with the documented meaning)
   is false of the faithful model: *)
Theorem C42_full_refuted :
  ~ (forall e st, atoms_ok e = true ->
       exists t, parse_grammar (render_top e st [] []) = Ok t /\ forall rho, eval rho t = evalE rho e).
Proof.
  intros H. destruct (H e_group st_group) as [t [Hp _]]; [reflexivity |]. vm_compute in Hp. discriminate Hp.
Qed.
Print Assumptions C42_full_refuted.

(* Finding juxtaposition-in-group-rejected: !(~q ~s) is rejected (juxtaposition exists only at top level). *)
Theorem C42_juxt_in_group_refuted :
  atoms_ok e_group = true /\ quoting_ok e_group st_group = true
  /\ render_top e_group st_group [] [] = [x21; x28; x7e; x71; x20; x7e; x73; x29]
  /\ parse_grammar (render_top e_group st_group [] []) = Fail.
Proof. vm_compute. repeat split. Qed.
Print Assumptions C42_juxt_in_group_refuted.

(* Finding juxtaposition-binds-looser-than-or: ~q |~s ~a is read as (~q | ~s) & ~a. *)
Theorem C42_juxt_or_refuted :
  atoms_ok e_or = true /\ quoting_ok e_or st_or = true
  /\ parse_grammar (render_top e_or st_or [] [])
     = Ok (And [Or [Atom (AUnary [x71]); Atom (AUnary [x73])]; Atom (AUnary [x61])])
  /\ eval rho_q (And [Or [Atom (AUnary [x71]); Atom (AUnary [x73])]; Atom (AUnary [x61])]) <> evalE rho_q e_or.
Proof. vm_compute. repeat split. discriminate. Qed.
Print Assumptions C42_juxt_or_refuted.

(* Finding quoted-backslash-consumed: ~u followed by a quoted backslash-d yields the regex d. *)
Theorem C42_raw_backslash_refuted :
  atoms_ok e_raw = true /\ juxt_top e_raw st_raw = true
  /\ parse_grammar (render_top e_raw st_raw [] []) = Ok (Atom (ARex [x75] [x64]))
  /\ eval rho_d (Atom (ARex [x75] [x64])) <> evalE rho_d e_raw.
Proof. vm_compute. repeat split. discriminate. Qed.
Print Assumptions C42_raw_backslash_refuted.

(* Main theorem (unbounded depth, every style, every valuation).  Guard = complement of the findings:
   juxt_top  -- juxtaposition only along the top-level spine (the two juxtaposition findings violate it; the
                harmless mixed form  a b & c  is also outside and covered by correspondence only);
   quoting_ok -- bare arguments contain no reserved character (as the documentation demands), raw-quoted ones no
                backslash (third finding), own quote, LF or CR; escape-quoted arguments are unrestricted;
   atoms_ok  -- codes come from the generated tables, integer arguments are digit strings.
   The returned tree has the same atoms in the same order and the same value under every valuation. *)
Theorem C42_partial : forall e st lead trail,
  atoms_ok e = true -> quoting_ok e st = true -> juxt_top e st = true ->
  exists t, parse_grammar (render_top e st lead trail) = Ok t
            /\ (forall rho, eval rho t = evalE rho e) /\ atoms t = atomsE e.
Proof. exact parse_render. Qed.
Print Assumptions C42_partial.

(* The same for flowfilter.parse including regex compilation, for every regex engine verdict rex_ok. *)
Theorem C42_partial_filter : forall rex_ok e st lead trail,
  atoms_ok e = true -> quoting_ok e st = true -> juxt_top e st = true ->
  forallb (fun a => match a with ARex c x => rex_ok c x | _ => true end) (atomsE e) = true ->
  exists t, parse_filter rex_ok (render_top e st lead trail) = Ok t
            /\ (forall rho, eval rho t = evalE rho e) /\ atoms t = atomsE e.
Proof.
  intros rex_ok e st lead trail Ha Hq Hj Hr. destruct (parse_render e st lead trail Ha Hq Hj) as [t [Hp [He Hat]]].
  exists t. unfold parse_filter. rewrite Hp, all_rex_atoms, Hat, Hr. auto.
Qed.
Print Assumptions C42_partial_filter.

Theorem C42_nonvacuous :
  atoms_ok e_ok = true /\ quoting_ok e_ok st_ok = true /\ juxt_top e_ok st_ok = true
  /\ parse_grammar (render_top e_ok st_ok [WSp] [WCr])
     = Ok (And [Or [Not (Atom (AUnary [x71])); Atom (ARex [x75] [x61; x20; x62])]; Atom (AInt [x63] 200%N)]).
Proof. vm_compute. repeat split. Qed.
Print Assumptions C42_nonvacuous.

(* Body operators (codes b / bq / bs), for every regex engine [search] and every flow shape: the verdict is the
   regex search over exactly the bodies that are present -- request body, response body, websocket / TCP / UDP
   messages of the named direction, DNS message text.  A body that is present and empty is searched; only an
   absent body (None) is not. *)
Theorem C42_body_any : forall search f, fbod search f = existsb search (parts_any f).
Proof. exact fbod_spec. Qed.
Print Assumptions C42_body_any.
Theorem C42_body_request : forall search f, fbod_request search f = existsb search (parts_request f).
Proof. exact fbod_request_spec. Qed.
Print Assumptions C42_body_request.
Theorem C42_body_response : forall search f, fbod_response search f = existsb search (parts_response f).
Proof. exact fbod_response_spec. Qed.
Print Assumptions C42_body_response.
Theorem C42_body_empty_request_searched : forall search rs ws, search [] = true ->
  fbod search (HttpB (Some []) rs ws) = true /\ fbod_request search (HttpB (Some []) rs ws) = true.
Proof. intros search rs ws H. simpl. rewrite H. split; reflexivity. Qed.
Print Assumptions C42_body_empty_request_searched.
Theorem C42_body_empty_response_searched : forall search rq ws, search [] = true ->
  fbod search (HttpB rq (Some (Some [])) ws) = true /\ fbod_response search (HttpB rq (Some (Some [])) ws) = true.
Proof. intros search rq ws H. simpl. rewrite H. destruct (search_opt search rq); split; reflexivity. Qed.
Print Assumptions C42_body_empty_response_searched.
Theorem C42_body_absent_not_searched : forall search, fbod search (HttpB None (Some None) None) = false
  /\ fbod_request search (HttpB None (Some None) None) = false /\ fbod_response search (HttpB None (Some None) None) = false.
Proof. intros search. repeat split. Qed.
Print Assumptions C42_body_absent_not_searched.

(* Header operators, for every regex engine and every list of header fields (absent, once, repeated, any case of
   the name).  Content-type operators (t tq ts, and a with the asset patterns): some Content-Type field VALUE is
   matched, each value searched on its own; with no such field nothing is searched and the verdict is false even
   for a regex matching the empty string.  Header operators (h hq hs): the serialised header block of each
   message that is present is searched. *)
Theorem C42_content_type_each_value : forall search fields,
  check_content_type search fields = existsb search (ct_values fields).
Proof. exact check_ct_spec. Qed.
Print Assumptions C42_content_type_each_value.
Theorem C42_content_type_absent : forall search fields, ct_values fields = [] -> check_content_type search fields = false.
Proof. intros search fields H. rewrite check_ct_spec, H. reflexivity. Qed.
Print Assumptions C42_content_type_absent.
Theorem C42_content_type_some_value : forall search fields v,
  In v (ct_values fields) -> search v = true -> check_content_type search fields = true.
Proof. intros search fields v Hin Hs. rewrite check_ct_spec. apply existsb_exists. exists v. split; assumption. Qed.
Print Assumptions C42_content_type_some_value.
Theorem C42_t : forall search f,
  fcontent_type search f = existsb search (ct_values (req_fields f) ++ ct_values (resp_fields f)).
Proof. exact fct_spec. Qed.
Print Assumptions C42_t.
Theorem C42_tq : forall search f, fcontent_type_request search f = existsb search (ct_values (req_fields f)).
Proof. intros search [rq rs |]; [| reflexivity]. apply check_ct_spec. Qed.
Print Assumptions C42_tq.
Theorem C42_ts : forall search f, fcontent_type_response search f = existsb search (ct_values (resp_fields f)).
Proof. intros search [rq [r |] |]; try reflexivity. apply check_ct_spec. Qed.
Print Assumptions C42_ts.
Theorem C42_a : forall types f,
  fasset types f = existsb (fun v => existsb (fun i => i v) types) (ct_values (resp_fields f)).
Proof. exact fasset_spec. Qed.
Print Assumptions C42_a.
Theorem C42_h : forall search f, fhead search f = existsb search (present_blocks f).
Proof. intros s [rq [r |] |]; simpl; try reflexivity; destruct (s (headers_bytes rq)); simpl; rewrite ?orb_false_r; reflexivity. Qed.
Print Assumptions C42_h.
Theorem C42_hq : forall search f,
  fhead_request search f = existsb search (match f with HttpH rq _ => [headers_bytes rq] | OtherH => [] end).
Proof. intros s f. destruct f; simpl; rewrite ?orb_false_r; reflexivity. Qed.
Print Assumptions C42_hq.
Theorem C42_hs : forall search f,
  fhead_response search f = existsb search (match f with HttpH _ (Some r) => [headers_bytes r] | _ => [] end).
Proof. intros s [rq [r |] |]; simpl; rewrite ?orb_false_r; reflexivity. Qed.
Print Assumptions C42_hs.
