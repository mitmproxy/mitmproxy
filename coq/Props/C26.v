(* Props/C26.v -- Forwarded DNS messages keep their meaning.
   forward_udp (Model/DnsMessage.v) is the layer path with no addon change: DNSMessage.unpack
   then pack_message; ref_canon (Model/DnsRef.v) is the independent RFC 1035 reference
   decoder: two byte strings mean the same iff their ref_canon values are equal.
   Statements; proofs in Proofs/DnsC26.v and Proofs/DnsMessageRT.v, the example messages by
   evaluation. *)
From Coq Require Import List Bool Arith NArith.
From MV Require Import Base.Bytes Model.DnsNames Model.DnsMessage Model.DnsRef
  Proofs.DnsNamesRT Proofs.DnsMessageRT Proofs.DnsC25 Proofs.DnsC26.
Import ListNotations.

(* The property as stated is FALSE of the faithful model: a response with a compressed owner
   name and TXT data 02 c0 0c is forwarded as a message the reference decoder reads
   differently (TXT is not forwarded byte-for-byte).  Finding raw-rdata-rewritten. *)
Theorem C26_meaning_preserved_refuted : exists b w b',
  ref_canon b = Some w /\ forward_udp b = Ok b' /\ ref_canon b' <> Some w.
Proof.
  exists txt_compressed. eexists. eexists.
  split; [vm_compute; reflexivity|]. split; [vm_compute; reflexivity|]. vm_compute. discriminate.
Qed.
Print Assumptions C26_meaning_preserved_refuted.

(* Every well-formed message in plain wire form (full field ranges, arbitrary record data
   except bytes >= 0xC0 in the data of the record types of record_data_can_have_compression:
   the complement of the finding) is forwarded byte-for-byte, so every decoder, the reference
   decoder included, reads it identically, all record data unchanged. *)
Theorem C26_plain_forward_identical_partial : forall m : message,
  wf_msg m -> Forall rdata_guard (all_rrs m) -> forward_udp (msgwire m) = Ok (msgwire m).
Proof. exact forward_plain. Qed.
Print Assumptions C26_plain_forward_identical_partial.

(* For ARBITRARY input bytes (compressed names, pointer chains included): whatever is sent
   on is the encoding of the decoded message; if that message is well-formed and passes
   the guard, the bytes sent are its plain wire form, decode to the same message again,
   and a second forwarding hop changes nothing. *)
Theorem C26_forward_decoded_partial : forall b b' : bytes, forward_udp b = Ok b' ->
  exists m, DnsMessage.unpack b = Ok m /\ packed m = Ok b' /\
    (wf_msg m -> Forall rdata_guard (all_rrs m) ->
     b' = msgwire m /\ DnsMessage.unpack b' = Ok m /\ forward_udp b' = Ok b').
Proof. exact forward_decoded. Qed.
Print Assumptions C26_forward_decoded_partial.

(* Non-vacuous: a response with a compressed owner name, a CNAME whose data ends in a
   pointer and an MX with an upper-case label is forwarded as different bytes (72 -> 108)
   with the same meaning under the reference decoder. *)
Theorem C26_nonvacuous : exists w b',
  ref_canon cname_mx_compressed = Some w /\ forward_udp cname_mx_compressed = Ok b'
  /\ b' <> cname_mx_compressed /\ ref_canon b' = Some w /\ length b' = 108.
Proof.
  eexists. eexists. split; [vm_compute; reflexivity|]. split; [vm_compute; reflexivity|].
  split; [vm_compute; discriminate|]. split; vm_compute; reflexivity.
Qed.
Print Assumptions C26_nonvacuous.

(* A pointer inside RDATA may target an earlier name of the SAME rdata (SOA RNAME compressed against
   the MNAME, as BIND emits it): such a record is expanded and keeps its meaning (101 -> 133 bytes). *)
Theorem C26_intra_rdata_pointer_example : exists w b',
  ref_canon soa_intra_rdata = Some w /\ forward_udp soa_intra_rdata = Ok b'
  /\ ref_canon b' = Some w /\ length b' = 133.
Proof.
  eexists. eexists. split; [vm_compute; reflexivity|]. split; [vm_compute; reflexivity|].
  split; vm_compute; reflexivity.
Qed.
Print Assumptions C26_intra_rdata_pointer_example.

(* Over TCP every forwarded frame is the UDP forwarding of the same message behind its 2-byte length
   prefix (the message is decoded on its own: pointers are relative to the message, not to the stream
   buffer), and a pipelined stream is forwarded frame by frame, independently of how it is split. *)
Theorem C26_tcp_frame_is_udp : forall msg f : bytes, forward_tcp_frame msg = Ok f ->
  exists b, forward_udp msg = Ok b /\ f = put_u16be (N.of_nat (length b)) ++ b.
Proof. exact tcp_frame_is_udp. Qed.
Print Assumptions C26_tcp_frame_is_udp.

Theorem C26_tcp_stream_compositional : forall a b : list bytes, forward_tcp_stream (a ++ b) =
  match forward_tcp_stream a, forward_tcp_stream b with Some x, Some y => Some (x ++ y) | _, _ => None end.
Proof. exact tcp_stream_app. Qed.
Print Assumptions C26_tcp_stream_compositional.
