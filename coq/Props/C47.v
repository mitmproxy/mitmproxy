(* Props/C47.v -- Flow edits through mitmweb are atomic.
   [put vx vb body f] is the model of FlowHandler.put run by the correspondence check; vx/vb select the code
   variant (true/true = the handler in /repo since a18518699, fixes/C47-restore-on-any-error.diff: except
   Exception + restore of a snapshot taken before backup(); false/false = the handler before it, "the
   code as found": except APIError + flow.revert()).
   [invalid_document] = the submitted body has an unknown field at any level, a port or status code that int()
   refuses, a malformed header/trailer list, a non-object where an object is expected, or is not readable JSON. *)
From Coq Require Import Strings.String.
From Coq Require Import List Bool NArith ZArith.
Import ListNotations.
From MV Require Import Base.Bytes Model.WebFlowEdit Proofs.WebFlowEdit Proofs.WebFlowEditApply.

(* Full strength, repaired code: for every body and every flow (with or without an earlier backup) the handler
   either accepts and returns the completely edited flow, or returns the flow exactly as it was. *)
Theorem C47_all_or_nothing_repaired : forall (body : option jv) (f : flow),
  (exists c', put_body body (f_cur (backup f)) = Ok c'
              /\ put true true body f = (mkFlow c' (f_backup (backup f)), Done))
  \/ (fst (put true true body f) = f /\ snd (put true true body f) <> Done).
Proof. exact put_all_or_nothing_repaired. Qed.
Print Assumptions C47_all_or_nothing_repaired.

Theorem C47_rejected_unchanged_repaired : forall body f f' e,
  put true true body f = (f', Failed e) -> f' = f.
Proof.
  exact (fun body f f' e H =>
           put_failed_restores true true body f f' e H (conj (or_introl eq_refl) (or_introl eq_refl))).
Qed.
Print Assumptions C47_rejected_unchanged_repaired.

(* Every invalid part named by the property is refused by every variant on every flow ... *)
Theorem C47_invalid_never_accepted : forall vx vb body f,
  invalid_document body -> snd (put vx vb body f) <> Done.
Proof. exact put_invalid_not_done. Qed.
Print Assumptions C47_invalid_never_accepted.

(* ... and the repaired handler then leaves the flow exactly as it was. *)
Theorem C47_invalid_unchanged_repaired : forall body f,
  invalid_document body -> fst (put true true body f) = f /\ snd (put true true body f) <> Done.
Proof.
  intros body f Hinv. destruct (put_all_or_nothing_repaired body f) as [[c' [E _]]|H]; [|exact H].
  destruct (put_body_refused _ _ _ Hinv E).
Qed.
Print Assumptions C47_invalid_unchanged_repaired.

(* The full statement is FALSE of the code as found (findings non-apierror-not-reverted and
   failed-edit-reverts-earlier-edits). Two counterexamples: *)
Theorem C47_rejected_unchanged_refuted_uncaught : exists body f f' e,
  f_backup f = None /\ invalid_document body /\ put false false body f = (f', Failed e) /\ e <> EApi
  /\ f_cur f' <> f_cur f.
Proof.
  exists (Some doc_bad_port), sample_flow, (fst (put false false (Some doc_bad_port) sample_flow)), EValue.
  split; [reflexivity|]. split; [exact doc_bad_port_invalid|]. split; [vm_compute; reflexivity|].
  split; [discriminate|]. vm_compute. discriminate.
Qed.
Print Assumptions C47_rejected_unchanged_refuted_uncaught.

Theorem C47_rejected_unchanged_refuted_earlier_backup : exists body1 body2 f0 f1 f2,
  f_backup f0 = None /\ put false false body1 f0 = (f1, Done)
  /\ invalid_document body2 /\ put false false body2 f1 = (f2, Failed EApi) /\ f2 = f0 /\ f2 <> f1.
Proof. exact refuted_earlier_backup. Qed.
Print Assumptions C47_rejected_unchanged_refuted_earlier_backup.

(* Partial statement for any variant; the guard is exactly the complement of the two findings:
   (the handler catches everything, or the exception is APIError) and
   (the handler restores a snapshot, or the flow had no earlier backup). *)
Theorem C47_rejected_unchanged_partial : forall vx vb body f f' e,
  put vx vb body f = (f', Failed e) ->
  (vx = true \/ e = EApi) /\ (vb = true \/ f_backup f = None) ->
  f' = f.
Proof. exact put_failed_restores. Qed.
Print Assumptions C47_rejected_unchanged_partial.

(* An accepted edit keeps the original for undo: the backup afterwards is the older backup if there was one,
   else the state before this edit; reverting an accepted edit of an unedited flow gives back that flow. *)
Theorem C47_accepted_keeps_original : forall vx vb body f f',
  put vx vb body f = (f', Done) ->
  f_backup f' = Some (match f_backup f with Some b => b | None => f_cur f end).
Proof. exact put_done_backup. Qed.
Print Assumptions C47_accepted_keeps_original.

Theorem C47_accepted_then_revert : forall vx vb body f f',
  f_backup f = None -> put vx vb body f = (f', Done) -> revert f' = f.
Proof. exact put_done_revert. Qed.
Print Assumptions C47_accepted_then_revert.

(* Applies completely: after an accepted edit the request port and method, the comment and the marker are
   exactly what the document says -- [expected] walks the document in order, the last submitted value of a field
   wins (int() of it for the port, str() encoded as utf-8/surrogateescape for the method), and a field the
   document does not mention keeps its old value. Holds for every variant. *)
Theorem C47_accepted_applies : forall vx vb body f f', put vx vb body f = (f', Done) ->
  exists items, body = Some (JDict items)
  /\ q_port (c_request (f_cur f')) = expected (in_request upd_port) items (q_port (c_request (f_cur f)))
  /\ q_method (c_request (f_cur f')) = expected (in_request upd_method) items (q_method (c_request (f_cur f)))
  /\ c_comment (f_cur f') = expected upd_comment items (c_comment (f_cur f))
  /\ c_marked (f_cur f') = expected upd_marked items (c_marked (f_cur f)).
Proof. exact accepted_applies. Qed.
Print Assumptions C47_accepted_applies.

(* ... and so is the status code of a flow that has a response. *)
Theorem C47_accepted_applies_code : forall vx vb body f f' p, put vx vb body f = (f', Done) ->
  c_response (f_cur f) = Some p ->
  exists items, body = Some (JDict items)
  /\ code_of (f_cur f') = Some (expected (in_response upd_code) items (p_code p)).
Proof. exact accepted_applies_code. Qed.
Print Assumptions C47_accepted_applies_code.

(* the specification functions read the document: port from a padded underscore literal, last comment wins *)
Theorem C47_expected_example :
  expected (in_request upd_port)
    [(k_comment, JNull); (k_request, JDict [(k_port, JStr (lit " 8_0 ")); (k_method, JStr (lit "PATCH"))])] 22%Z = 80%Z
  /\ expected upd_comment [(k_comment, JInt 1); (k_marked, JNull); (k_comment, JStr (lit "last"))] JNull = JStr (lit "last").
Proof. split; vm_compute; reflexivity. Qed.
Print Assumptions C47_expected_example.

(* Whether an edit is accepted, and with which exception it is refused, does not depend on the variant. *)
Theorem C47_outcome_variant_independent : forall vx vb vx' vb' body f,
  snd (put vx vb body f) = snd (put vx' vb' body f).
Proof. exact put_outcome_variant_independent. Qed.
Print Assumptions C47_outcome_variant_independent.

(* The partial theorem is not vacuous: on the code as found, {request: {method: PATCH, foo: 1}} assigns the
   method, then raises APIError on foo, and the handler restores the flow. *)
Theorem C47_nonvacuous : exists c',
  put_body (Some doc_unknown_after_valid) (f_cur (backup sample_flow)) = Raise EApi c'
  /\ c' <> f_cur sample_flow
  /\ put false false (Some doc_unknown_after_valid) sample_flow = (sample_flow, Failed EApi)
  /\ guard false false sample_flow EApi
  /\ invalid_document (Some doc_unknown_after_valid).
Proof. exact nonvacuous. Qed.
Print Assumptions C47_nonvacuous.
