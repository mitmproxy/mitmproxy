(* Props/C19.v -- Ignored hosts are passed through untouched and allow/ignore rules are honoured.
   Model: Model/IgnoreHosts.v (mitmproxy/addons/next_layer.py, proxy/layer.py NextLayer,
   proxy/layers/tcp.py TCPLayer(ignore=True)); parse_client_hello and ClientHello.sni are those of
   Model/ClientHello.v (C13).  The theorems about decisions and runs quantify over the regular expression
   engine [re_search] (re.search(pattern, host, re.IGNORECASE) on the user patterns) and over [ace_ok]
   (encodings.idna inside ClientHello.sni); the Host-header grammar theorem needs neither, the witnesses
   fix them (lit_search, no_ace). *)
From Coq Require Import List Bool NArith Lia.
From MV Require Import Base.Bytes Model.ClientHello Model.IgnoreHosts.
From MV Require Import Proofs.IgnoreHostsScan Proofs.IgnoreHostsDecide Proofs.IgnoreHostsRelay Proofs.IgnoreHostsHttp.
Import ListNotations.

(* (1) Every byte is relayed unmodified and in order, both ways, including bytes received before the decision.
   For EVERY configuration, EVERY list of events (data from either peer, closes, connect results, in any order)
   and both directions fc: while the ignoring TCPLayer relays, the payloads sent towards a peer are exactly the
   payloads that arrived from the other one, chunk by chunk; while undecided or waiting for the server
   connection nothing has been sent and every arrived payload is still buffered; after the layer is done the
   sent payloads are a prefix of the arrived ones; the model emits no other kind of data. *)
Theorem C19_relay_exact :
  forall (pat : Type) (re_search : pat -> bytes -> bool) (ace_ok : bytes -> bool) (c : cfg pat)
         (server_open : bool) (l : list ev) (fc : bool),
  let '(s, o) := run re_search ace_ok c (init server_open) l in
  (ph s = PRelay -> sent fc o = data_of fc l) /\
  (ph s = PUndecided \/ ph s = PWaitOpen ->
     sent fc o = [] /\ data_of fc l = data_of fc (nl_events s ++ tq s)) /\
  (ph s = PDone -> exists rest, data_of fc l = sent fc o ++ rest) /\
  (ph s = POther -> sent fc o = []).
Proof. exact relay_exact. Qed.
Print Assumptions C19_relay_exact.

(* (2) Ignored => never intercepted, and the whole first flight (however it was segmented) has been forwarded
   unchanged as soon as the decision falls (server connection already open). *)
Theorem C19_ignored_first_flight_forwarded :
  forall (pat : Type) (re_search : pat -> bytes -> bool) (ace_ok : bytes -> bool) (c : cfg pat)
         (segs : list bytes) (hs : list bytes),
  first_decision re_search ace_ok c [] segs = Decided true hs ->
  let '(s, o) := run re_search ace_ok c (init true) (map (EData true) segs) in
  ph s = PRelay /\ sent true o = segs /\ sent false o = [].
Proof. exact ignored_first_flight_forwarded. Qed.
Print Assumptions C19_ignored_first_flight_forwarded.

(* (3) Connections not excluded by the rules are handed to an intercepting layer. *)
Theorem C19_not_ignored_intercepted :
  forall (pat : Type) (re_search : pat -> bytes -> bool) (ace_ok : bytes -> bool) (c : cfg pat)
         (segs : list bytes) (hs : list bytes) (server_open : bool),
  first_decision re_search ace_ok c [] segs = Decided false hs ->
  ph (fst (run re_search ace_ok c (init server_open) (map (EData true) segs))) = POther.
Proof.
  intros pat re_search ace_ok c segs hs so D.
  pose proof (run_first_decision pat re_search ace_ok c segs (init so) [] eq_refl eq_refl) as K.
  simpl concat in K. rewrite D in K. exact K.
Qed.
Print Assumptions C19_not_ignored_intercepted.

(* (4) The rules: with an option set and outside the WireGuard DNS exemption, the connection is ignored iff
   there is a host name and (allow_hosts is set and no name matches any allow pattern, or ignore_hosts is set
   and some name matches some ignore pattern). *)
Theorem C19_rules_honoured :
  forall (pat : Type) (re_search : pat -> bytes -> bool) (ace_ok : bytes -> bool) (c : cfg pat)
         (dc ds : bytes) (b : bool) (hs : list bytes),
  ignore_connection re_search ace_ok c dc ds = Decided b hs ->
  (ignore_hosts c <> [] \/ allow_hosts c <> []) -> wg_exempt c = false ->
  hostnames_of ace_ok c dc ds = Names hs /\
  (b = true <->
     hs <> [] /\
     ((allow_hosts c <> [] /\ forall h r, In h hs -> In r (allow_hosts c) -> re_search r h = false)
      \/ (ignore_hosts c <> [] /\ exists h r, In h hs /\ In r (ignore_hosts c) /\ re_search r h = true))).
Proof. exact rules_honoured. Qed.
Print Assumptions C19_rules_honoured.

(* (5) Every destination form is among the host names the rules are applied to: server address, peer
   address, SNI of a complete ClientHello, SNI of an already established client TLS session, Host header. *)
Theorem C19_destination_forms :
  forall (pat : Type) (ace_ok : bytes -> bool) (c : cfg pat) (dc ds : bytes) (hs : list bytes),
  hostnames_of ace_ok c dc ds = Names hs ->
  (forall h p, address c = Some (h, p) -> In (fmt_hp h p) hs) /\
  (forall h p, peername c = Some (h, p) -> In (fmt_hp h p) hs) /\
  (forall h p hl n, address c = Some (h, p) -> get_client_hello dc = CSome hl -> sni ace_ok hl = Some n ->
                    n <> [] -> In (fmt_hp n p) hs) /\
  (forall h p n, address c = Some (h, p) -> client_sni c = Some n -> n <> [] -> In (fmt_hp n p) hs) /\
  (forall h p v, ds = [] -> address c = Some (h, p) -> get_host_header dc [] = HSome v ->
                 In (if has_port v then v else fmt_hp v p) hs).
Proof. exact destination_forms. Qed.
Print Assumptions C19_destination_forms.

(* (6) The Host header as HTTP defines it: request-line CRLF, any field lines that are not Host, then a field
   whose name is host in ANY letter case followed by ANY optional white space (including none: finding
   host-header-no-ows, fixed in /repo), a non-empty trimmed value without LF, any trailing optional
   white space, CRLF, and anything after it.  Guard: the first three bytes of the method are letters (the
   complement is the known finding host-header-short-method, see C19_host_header_short_method_refuted). *)
Theorem C19_host_header_recognised :
  forall (m tg ver : bytes) (others : list field) (hf : field) (rest : bytes),
  wf_request_line m tg ver -> Forall wf_other others -> wf_host hf ->
  get_host_header (request_line m tg ver ++ CRLF ++ concat (map field_line others) ++ field_line hf ++ rest) []
  = HSome (f_value hf).
Proof. exact host_recognised. Qed.
Print Assumptions C19_host_header_recognised.

(* ... and a request whose Host value (with the port appended unless it ends in :digits) matches an ignore
   pattern is ignored, whatever the server address is. *)
Theorem C19_host_header_ignored :
  forall (pat : Type) (re_search : pat -> bytes -> bool) (ace_ok : bytes -> bool) (c : cfg pat)
         (m tg ver : bytes) (others : list field) (hf : field) (rest h : bytes) (p : N) (r : pat),
  wf_request_line m tg ver -> Forall wf_other others -> wf_host hf ->
  address c = Some (h, p) -> wg_exempt c = false -> allow_hosts c = [] ->
  In r (ignore_hosts c) ->
  re_search r (if has_port (f_value hf) then f_value hf else fmt_hp (f_value hf) p) = true ->
  exists hs,
    ignore_connection re_search ace_ok c
      (request_line m tg ver ++ CRLF ++ concat (map field_line others) ++ field_line hf ++ rest) []
    = Decided true hs
    /\ In (if has_port (f_value hf) then f_value hf else fmt_hp (f_value hf) p) hs.
Proof.
  intros pat re_search ace_ok c m tg ver others hf rest h p r WR WO WH A W _.
  exact (host_header_ignored pat re_search ace_ok c m tg ver others hf rest h p r WR WO WH A W).
Qed.
Print Assumptions C19_host_header_ignored.

(* the guard is needed: M-SEARCH * HTTP/1.1 with a Host line (msearch, spelled out by the first conjunct) has no
   three leading letters, and its Host header is not seen (known finding host-header-short-method) *)
Theorem C19_host_header_short_method_refuted :
  msearch = request_line [x4d; x2d; x53; x45; x41; x52; x43; x48] [x2a] [x31; x2e; x31] ++ CRLF
            ++ field_line {| f_name := [x48; x6f; x73; x74]; f_ows1 := [x20]; f_value := [x61]; f_ows2 := [] |} ++ CRLF
  /\ get_host_header msearch [] = HNone.
Proof. split; vm_compute; reflexivity. Qed.
Print Assumptions C19_host_header_short_method_refuted.

(* (7) Segmentation.  The FULL statement -- the decision does not depend on how the first client bytes are
   segmented beyond the three bytes needed to recognise TLS -- is FALSE of the code:
   - GET_ | / HTTP/1.1 CRLF Host: evil.com CRLF CRLF : asked with only the first segment, the addon sees no
     complete request line, decides without the Host header, and the connection is intercepted although the
     whole first flight is ignored (known finding segmentation-short-http-prefix);
   - a Host line with an empty value lets the scanner run on into later bytes
     (known finding segmentation-empty-host-value). *)
Theorem C19_segmentation_refuted_short_http_prefix :
  (3 <= length ex_s1)%nat /\ no_empty_host (ex_s1 ++ ex_s2) = true /\
  (exists hs, first_decision lit_search no_ace ex_cfg [] [ex_s1; ex_s2] = Decided false hs) /\
  (exists hs, ignore_connection lit_search no_ace ex_cfg (ex_s1 ++ ex_s2) [] = Decided true hs).
Proof. split; [simpl; lia|]. split; [vm_compute; reflexivity|]. split; eexists; vm_compute; reflexivity. Qed.
Print Assumptions C19_segmentation_refuted_short_http_prefix.

Theorem C19_segmentation_refuted_empty_host_value :
  seg_guard ex_p1 /\
  (exists hs, first_decision lit_search no_ace ex_cfg [] [ex_p1; ex_p2] = Decided false hs) /\
  (exists hs, ignore_connection lit_search no_ace ex_cfg (ex_p1 ++ ex_p2) [] = Decided true hs).
Proof. split; [split; [simpl; lia | vm_compute; reflexivity]|]. split; eexists; vm_compute; reflexivity. Qed.
Print Assumptions C19_segmentation_refuted_empty_host_value.

(* PARTIAL form, under guards that are exactly the complements of the two findings (and of the documented
   TLS minimum): the first segment has at least three bytes and, if it starts with three letters, it already
   contains HTTP/ on its first line or the end of that line [seg_guard]; the first flight contains no Host
   line with an empty value [no_empty_host].  Then for ALL configurations and ALL cuts into segments NextLayer
   reaches exactly the decision of the whole first flight ... *)
Theorem C19_segmentation_partial :
  forall (pat : Type) (re_search : pat -> bytes -> bool) (ace_ok : bytes -> bool) (c : cfg pat)
         (s1 : bytes) (rest : list bytes),
  seg_guard s1 -> no_empty_host (concat (s1 :: rest)) = true ->
  first_decision re_search ace_ok c [] (s1 :: rest) = ignore_connection re_search ace_ok c (concat (s1 :: rest)) [].
Proof. intros pat re_search ace_ok c s1 rest G N. apply (first_decision_gen pat re_search ace_ok c rest [] s1); assumption. Qed.
Print Assumptions C19_segmentation_partial.

(* ... because a decision, once taken, is not changed by any further bytes (all p, t). *)
Theorem C19_decision_stable_partial :
  forall (pat : Type) (re_search : pat -> bytes -> bool) (ace_ok : bytes -> bool) (c : cfg pat) (p t : bytes),
  seg_guard p -> no_empty_host p = true ->
  ignore_connection re_search ace_ok c p [] <> NeedsMore ->
  ignore_connection re_search ace_ok c (p ++ t) [] = ignore_connection re_search ace_ok c p [].
Proof. exact decision_stable. Qed.
Print Assumptions C19_decision_stable_partial.

(* ... so two segmentations of the same first flight, both within the guards, get the same decision *)
Theorem C19_two_segmentations_partial :
  forall (pat : Type) (re_search : pat -> bytes -> bool) (ace_ok : bytes -> bool) (c : cfg pat)
         (s1 : bytes) (r1 : list bytes) (s2 : bytes) (r2 : list bytes),
  concat (s1 :: r1) = concat (s2 :: r2) -> seg_guard s1 -> seg_guard s2 ->
  no_empty_host (concat (s1 :: r1)) = true ->
  first_decision re_search ace_ok c [] (s1 :: r1) = first_decision re_search ace_ok c [] (s2 :: r2).
Proof.
  intros pat re_search ace_ok c s1 r1 s2 r2 E G1 G2 N.
  rewrite !C19_segmentation_partial, E by (rewrite <- ?E; assumption). reflexivity.
Qed.
Print Assumptions C19_two_segmentations_partial.

(* The hypotheses are satisfiable on non-trivial values: a request cut inside the Host value (first segment
   asks for more data, the second decides ignore with two host names); a well-formed head with a field before
   a Host line spelled hOsT with NO optional white space. *)
Theorem C19_nonvacuous :
  (seg_guard ok_s1 /\ no_empty_host (concat [ok_s1; ok_s2]) = true /\
   ignore_connection lit_search no_ace ex_cfg ok_s1 [] = NeedsMore /\
   exists hs, first_decision lit_search no_ace ex_cfg [] [ok_s1; ok_s2] = Decided true hs /\ length hs = 2%nat)
  /\ (wf_request_line [x47; x45; x54] [x2f] [x31; x2e; x31] /\ Forall wf_other [ex_other] /\ wf_host ex_hostf
      /\ f_ows1 ex_hostf = []).
Proof.
  split; [split; [split; [simpl; lia | vm_compute; reflexivity]|]|].
  - split; [vm_compute; reflexivity|]. split; [vm_compute; reflexivity|]. eexists. split; vm_compute; reflexivity.
  - split; [repeat split; reflexivity|]. split; [constructor; [|constructor]; repeat split; try reflexivity; discriminate|].
    split; [|reflexivity]. repeat split; try reflexivity. eexists _, _. split; reflexivity.
Qed.
Print Assumptions C19_nonvacuous.
