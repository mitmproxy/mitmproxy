(* Model/Pexp.v -- boolean combinations of closed-interval membership tests over N, their
   breakpoints, the reflective validity check and the computation of the maximal intervals on which
   such a predicate holds.  Definitions only; the soundness theorems (valid_sound for the check,
   true_intervals_spec for the intervals) are in Proofs/Pexp.v. *)
From Coq Require Import NArith List Bool.
From MV Require Import Model.Ipaddr.
Import ListNotations.
Open Scope N_scope.

Inductive pexp :=
| PT | PF
| PIn (nt : net)
| PNot (p : pexp)
| PAnd (p q : pexp)
| POr (p q : pexp).

Fixpoint eval (p : pexp) (a : N) : bool :=
  match p with
  | PT => true
  | PF => false
  | PIn nt => in_net a nt
  | PNot p => negb (eval p a)
  | PAnd p q => eval p a && eval q a
  | POr p q => eval p a || eval q a
  end.

Definition PImp (p q : pexp) := POr (PNot p) q.
Definition PXor (p q : pexp) := POr (PAnd p (PNot q)) (PAnd (PNot p) q).
Definition PIff (p q : pexp) := PNot (PXor p q).

Fixpoint bps (p : pexp) : list N :=
  match p with
  | PT | PF => []
  | PIn nt => [fst nt; N.succ (snd nt)]
  | PNot p => bps p
  | PAnd p q | POr p q => bps p ++ bps q
  end.

Definition valid (p : pexp) : bool := forallb (eval p) (0 :: bps p).

(* ---- tables as predicates *)
Fixpoint por_tbl (t : list net) : pexp :=
  match t with [] => PF | n :: r => POr (PIn n) (por_tbl r) end.

(* ---- computing the maximal intervals of [0, maxv] on which a predicate holds
   (exactly those: Proofs/Pexp.true_intervals_spec). *)
Fixpoint insert (x : N) (l : list N) : list N :=
  match l with
  | [] => [x]
  | y :: t => if x <? y then x :: l else if x =? y then l else y :: insert x t
  end.
Definition sort_dedup (l : list N) : list N := fold_right insert [] l.

Fixpoint cells (l : list N) (maxv : N) : list net :=
  match l with
  | [] => []
  | x :: t =>
      if maxv <? x then [] else
      match t with
      | [] => [(x, maxv)]
      | y :: _ => (x, N.min (N.pred y) maxv) :: cells t maxv
      end
  end.

Fixpoint merge (l : list net) : list net :=
  match l with
  | [] => []
  | a :: t =>
      match merge t with
      | b :: r => if N.succ (snd a) =? fst b then (fst a, snd b) :: r else a :: b :: r
      | [] => [a]
      end
  end.

Definition true_intervals (p : pexp) (maxv : N) : list net :=
  merge (filter (fun c => eval p (fst c)) (cells (sort_dedup (0 :: bps p)) maxv)).
