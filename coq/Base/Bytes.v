(* Base/Bytes.v — bytes as lists of Coq.Init.Byte.byte; the helpers the models share.
   Executable definitions, each with its basic laws. *)
From Coq Require Import List Bool Arith NArith ZArith Lia.
From Coq Require Export Init.Byte.
From Coq Require Import Strings.Byte.
Import ListNotations.

Definition byte := Init.Byte.byte.
Definition bytes := list byte.

Definition byte_eqb (a b : byte) : bool := Byte.eqb a b.

Lemma byte_eqb_eq a b : byte_eqb a b = true <-> a = b.
Proof. unfold byte_eqb. split; [apply Byte.byte_dec_bl | apply Byte.byte_dec_lb]. Qed.

Lemma byte_eqb_refl a : byte_eqb a a = true.
Proof. apply byte_eqb_eq; reflexivity. Qed.

Lemma byte_eqb_neq a b : byte_eqb a b = false <-> a <> b.
Proof.
  split; intros H.
  - intros ->. rewrite byte_eqb_refl in H. discriminate.
  - destruct (byte_eqb a b) eqn:E; [apply byte_eqb_eq in E; contradiction | reflexivity].
Qed.

Lemma byte_eqb_sym a b : byte_eqb a b = byte_eqb b a.
Proof.
  destruct (byte_eqb b a) eqn:E.
  - apply byte_eqb_eq in E. subst. apply byte_eqb_refl.
  - apply byte_eqb_neq. apply byte_eqb_neq in E. congruence.
Qed.

Definition byte_dec (a b : byte) : {a = b} + {a <> b}.
Proof. destruct (byte_eqb a b) eqn:E; [left; apply byte_eqb_eq; exact E | right; apply byte_eqb_neq; exact E]. Defined.

Definition bN (b : byte) : N := Byte.to_N b.
Definition Nb (n : N) : byte := match Byte.of_N n with Some b => b | None => x00 end.

Lemma Nb_bN b : Nb (bN b) = b.
Proof. unfold Nb, bN. rewrite Byte.of_to_N. reflexivity. Qed.

Lemma bN_lt b : (bN b < 256)%N.
Proof. unfold bN. pose proof (Byte.to_N_bounded b). lia. Qed.

Lemma bN_Nb n : (n < 256)%N -> bN (Nb n) = n.
Proof.
  intros H. unfold bN, Nb.
  destruct (Byte.of_N n) eqn:E.
  - apply Byte.to_of_N in E. exact E.
  - apply Byte.of_N_None_iff in E. lia.
Qed.

Definition all_bytes : bytes := map Nb (map N.of_nat (seq 0 256)).

Lemma all_bytes_complete : forall b, In b all_bytes.
Proof.
  intros b. unfold all_bytes. rewrite <- (Nb_bN b).
  apply in_map. rewrite <- (N2Nat.id (bN b)). apply in_map.
  apply in_seq. pose proof (bN_lt b). lia.
Qed.

Lemma forall_bytes (P : byte -> bool) :
  forallb P all_bytes = true -> forall b, P b = true.
Proof. intros H b. rewrite forallb_forall in H. apply H, all_bytes_complete. Qed.

Lemma byte_imp (P Q : byte -> bool) :
  forallb (fun c => implb (P c) (Q c)) all_bytes = true -> forall b, P b = true -> Q b = true.
Proof. intros S b H. pose proof (forall_bytes _ S b) as I. simpl in I. rewrite H in I. exact I. Qed.

Lemma forallb_sweep (P Q : byte -> bool) s :
  forallb (fun c => implb (P c) (Q c)) all_bytes = true -> forallb P s = true -> forallb Q s = true.
Proof. intros S H. rewrite forallb_forall in H |- *. intros b Hb. apply (byte_imp P Q S), H, Hb. Qed.

Fixpoint bytes_eqb (a b : bytes) : bool :=
  match a, b with
  | [], [] => true
  | x :: a', y :: b' => byte_eqb x y && bytes_eqb a' b'
  | _, _ => false
  end.

Lemma bytes_eqb_eq a b : bytes_eqb a b = true <-> a = b.
Proof.
  revert b; induction a as [|x a IH]; intros [|y b]; simpl; split; intros H;
    try reflexivity; try discriminate.
  - apply andb_true_iff in H as [H1 H2]. apply byte_eqb_eq in H1. apply IH in H2. congruence.
  - inversion H; subst. rewrite byte_eqb_refl. simpl. apply IH. reflexivity.
Qed.

Lemma bytes_eqb_refl a : bytes_eqb a a = true.
Proof. apply bytes_eqb_eq; reflexivity. Qed.

(* generic correspondence helper: indices (from 0) of the cases where [chk] is false *)
Fixpoint mismatches_from {A} (chk : A -> bool) (i : nat) (l : list A) : list nat :=
  match l with
  | [] => []
  | x :: l' => if chk x then mismatches_from chk (S i) l' else i :: mismatches_from chk (S i) l'
  end.
Definition mismatches {A} (chk : A -> bool) (l : list A) : list nat := mismatches_from chk 0 l.

(* equality helpers for correspondence glue *)
Definition option_eqb {A} (eqb : A -> A -> bool) (a b : option A) : bool :=
  match a, b with
  | Some x, Some y => eqb x y
  | None, None => true
  | _, _ => false
  end.

Fixpoint list_eqb {A} (eqb : A -> A -> bool) (a b : list A) : bool :=
  match a, b with
  | [], [] => true
  | x :: a', y :: b' => eqb x y && list_eqb eqb a' b'
  | _, _ => false
  end.

Definition pair_eqb {A B} (ea : A -> A -> bool) (eb : B -> B -> bool) (a b : A * B) : bool :=
  ea (fst a) (fst b) && eb (snd a) (snd b).

Definition is_digit (b : byte) : bool := (48 <=? bN b)%N && (bN b <=? 57)%N.
Definition is_upper (b : byte) : bool := (65 <=? bN b)%N && (bN b <=? 90)%N.
Definition is_lower (b : byte) : bool := (97 <=? bN b)%N && (bN b <=? 122)%N.
Definition is_alpha (b : byte) : bool := is_upper b || is_lower b.
Definition to_lower (b : byte) : byte := if is_upper b then Nb (bN b + 32) else b.
Definition lower (s : bytes) : bytes := map to_lower s.

(* the lower-case form of an upper-case letter is not upper case *)
Lemma to_lower_idem b : to_lower (to_lower b) = to_lower b.
Proof.
  unfold to_lower. destruct (is_upper b) eqn:U; [|rewrite U; reflexivity].
  unfold is_upper in *. apply andb_true_iff in U. destruct U as [U1 U2]. apply N.leb_le in U1, U2.
  rewrite bN_Nb by lia. replace (bN b + 32 <=? 90)%N with false by (symmetry; apply N.leb_gt; lia).
  rewrite andb_false_r. reflexivity.
Qed.

Lemma lower_idem s : lower (lower s) = lower s.
Proof. unfold lower. rewrite map_map. apply map_ext, to_lower_idem. Qed.

Lemma lower_app a b : lower (a ++ b) = lower a ++ lower b.
Proof. apply map_app. Qed.

Lemma lower_rev s : lower (rev s) = rev (lower s).
Proof. apply map_rev. Qed.

Definition u16be (hi lo : byte) : N := (bN hi * 256 + bN lo)%N.
Definition put_u16be (n : N) : bytes := [Nb (n / 256 mod 256); Nb (n mod 256)]%N.

Lemma u16be_put n : (n < 65536)%N ->
  match put_u16be n with [h; l] => u16be h l = n | _ => False end.
Proof.
  intros H. unfold put_u16be, u16be.
  rewrite !bN_Nb by (apply N.mod_lt; lia).
  rewrite (N.mod_small (n / 256) 256) by (apply N.div_lt_upper_bound; lia).
  rewrite N.mul_comm. symmetry. apply N.div_mod. lia.
Qed.

Fixpoint starts_with (p s : bytes) : bool :=
  match p, s with
  | [], _ => true
  | x :: p', y :: s' => byte_eqb x y && starts_with p' s'
  | _ :: _, [] => false
  end.

Lemma starts_with_spec p s : starts_with p s = true <-> exists r, s = p ++ r.
Proof.
  revert s; induction p as [|x p IH]; intros s; simpl.
  - split; [intros _; exists s; reflexivity | reflexivity].
  - destruct s as [|y s].
    + split; [discriminate | intros [r Hr]; discriminate].
    + rewrite andb_true_iff, byte_eqb_eq, IH. split.
      * intros [-> [r ->]]. exists r; reflexivity.
      * intros [r Hr]. injection Hr as -> ->. split; [reflexivity | exists r; reflexivity].
Qed.

Lemma starts_with_prefix p y : starts_with p (p ++ y) = true.
Proof. apply starts_with_spec. exists y. reflexivity. Qed.

Lemma starts_with_app p d x : starts_with p d = true -> starts_with p (d ++ x) = true.
Proof. intros H. apply starts_with_spec in H as [r ->]. rewrite <- app_assoc. apply starts_with_prefix. Qed.

(* decimal rendering of naturals, as Python str(int) for n >= 0 *)
Fixpoint dec_digits (fuel : nat) (n : N) (acc : bytes) : bytes :=
  match fuel with
  | O => acc
  | S f => let d := Nb (48 + n mod 10)%N in
           if (n <? 10)%N then d :: acc else dec_digits f (n / 10)%N (d :: acc)
  end.
Definition dec_of_N (n : N) : bytes := dec_digits (S (N.to_nat (N.log2 n))) n [].
