(* Proofs/HttpStreamSound.v -- soundness of the abstract interpreter: for every option set, stream and input,
   the abstraction of the stream after a model function is one of the states the abstract function returns. *)
From Coq Require Import List Bool NArith.
From MV Require Import Base.Bytes Model.HttpStream Proofs.HttpStreamAbs.
Import ListNotations.

Ltac destr :=
  match goal with
  | |- context [match ?x with _ => _ end] =>
      lazymatch x with
      | context [match _ with _ => _ end] => fail
      | _ => (is_var x; destruct x) || (let E := fresh "E" in destruct x eqn:E)
      end
  end.
Ltac absurd_hyp :=
  match goal with
  | H : _ && false = true |- _ => rewrite andb_false_r in H; discriminate H
  | H : false && _ = true |- _ => discriminate H
  | H : _ || true = false |- _ => rewrite orb_true_r in H; discriminate H
  | H : true = false |- _ => discriminate H
  | H : false = true |- _ => discriminate H
  end.
Lemma nonempty_app (a b : bytes) : negb (isnil (a ++ b)) = negb (isnil a) || negb (isnil b).
Proof. destruct a, b; reflexivity. Qed.
(* destr: case analysis on the innermost scrutinee of a match in the goal.  crunch: simplify, split on every such
   scrutinee, and close each leaf (a disjunction of equations between abstract states) by auto or by a
   contradictory hypothesis; byte strings are split last, for the emptiness tests. *)
Ltac crunch := simpl; rewrite ?nonempty_app; repeat (destr; simpl; rewrite ?nonempty_app); try solve [auto 14]; try absurd_hyp;
  try solve [repeat match goal with x : bytes |- _ => destruct x end; simpl in *; try discriminate; auto 14].
Ltac start s := destruct s as [sid cs ss pc queue req rc rs fresp ferr live rb pb srv hooks up tun cr ms ab rqe rqf rsf ve fw].

Lemma perr_tail_s isreq code af s : In (abs (fst (perr_tail isreq code af s))) (a_perr_tail isreq af (abs s)).
Proof. start s. unfold perr_tail, check_killed, killed_by_remote, killed_by_us, finish_killed, apply_after, a_perr_tail. (destruct af, isreq; crunch). Qed.

Lemma handle_perr_s isreq code af s : In (abs (fst (handle_perr isreq code af s))) (a_handle_perr isreq af (abs s)).
Proof.
  start s. unfold handle_perr, a_handle_perr, seq_res, emit_hook, perr_tail, a_perr_tail, check_killed, killed_by_remote, killed_by_us, finish_killed, apply_after.
  destruct isreq, af; crunch.
Qed.

(* one round unfolds the function and its abstract twin; their callees show only then, hence unf; unf; unf *)
Ltac unf := unfold
  handle_perr, a_handle_perr, seq_res, emit_hook, a_emit_hook, perr_tail, a_perr_tail, check_killed, a_check_killed,
  killed_by_remote, killed_by_us, finish_killed, a_finish_killed, apply_after, a_apply_after, crash, a_crash,
  flow_done, a_flow_done, send_response, a_send_response, send_response_cont, a_send_response_cont,
  start_request_stream, a_start_request_stream, resume_conn_stream, a_resume_conn_stream,
  resume_conn_consume, a_resume_conn_consume, stream_req_data, stream_resp_data,
  cbs_req, a_cbs_req, cbs_resp, a_cbs_resp, state_wait_req_headers, a_state_wait_req_headers,
  cont_req_headers, a_cont_req_headers, state_consume_req, a_state_consume_req, cont_req, a_cont_req,
  state_stream_req, a_state_stream_req, cont_req_stream, a_cont_req_stream,
  start_response_stream, a_start_response_stream, state_wait_resp_headers, a_state_wait_resp_headers,
  cont_resp_headers, a_cont_resp_headers, state_consume_resp, a_state_consume_resp,
  state_stream_resp, a_state_stream_resp, cont_connect, a_cont_connect, set_content, set_rstream, resp_stream_on,
  req_head_or_default, req_host, limits_on in *.

Lemma crash_s s : In (abs (fst (crash s))) (a_crash (abs s)).
Proof. left. reflexivity. Qed.
(* check_killed either takes over, with the error hook or the plain kill, or lets its caller go on *)
Lemma check_killed_s emit s (k : res) l : In (abs (fst k)) l ->
  In (abs (fst match check_killed emit s with Some r => r | None => k end))
     ((if emit then a_emit_hook HkError PKilled (abs s) else a_finish_killed (abs s)) :: l).
Proof.
  intros H. unfold check_killed. destruct (killed_by_us s || killed_by_remote s); [left | right; exact H].
  destruct emit, (killed_by_remote s), (ferr s); reflexivity.
Qed.
Lemma send_response_cont_s already s : In (abs (fst (send_response_cont already s))) (a_send_response_cont (abs s)).
Proof. start s. unf; unf; unf. crunch. Qed.
Lemma send_response_s already s : In (abs (fst (send_response already s))) (a_send_response already (abs s)).
Proof. start s. unf; unf; unf. crunch. Qed.
Lemma resume_conn_stream_s o late c s :
  In (abs (fst (resume_conn_stream o late c s))) (a_resume_conn_stream (is_some late) (is_some c) (abs s)).
Proof. start s. unf; unf; unf. destruct late, c; crunch. Qed.
Lemma resume_conn_consume_s c s : In (abs (fst (resume_conn_consume c s))) (a_resume_conn_consume (is_some c) (abs s)).
Proof. start s. unf; unf; unf. destruct c; crunch. Qed.
Lemma abs_set_content b s : abs (set_content b s) = abs s.
Proof. unfold set_content. destruct (fresp s); reflexivity. Qed.

(* check_body_size is analysed once; its callers go through these two lemmas and through the fact that abs
   commutes with the update they make first (by conversion) *)
Lemma cbs_req_s o s :
  In (match cbs_req o s with CbNo s1 => (false, abs s1) | CbStop r => (true, abs (fst r)) end) (a_cbs_req (abs s)).
Proof. start s. unf; unf; unf. crunch. Qed.
Lemma cbs_resp_s o s :
  In (match cbs_resp o s with CbNo s1 => (false, abs s1) | CbStop r => (true, abs (fst r)) end) (a_cbs_resp (abs s)).
Proof. start s. unf; unf; unf. crunch. Qed.

Lemma state_wait_req_headers_s o h es s :
  In (abs (fst (state_wait_req_headers o h es s)))
     (a_state_wait_req_headers (o_val o && negb (h_valid h)) (meth_eqb (h_meth h) MConnect) (h_hashost h) es (abs s)).
Proof.
  unfold state_wait_req_headers, a_state_wait_req_headers. set (s1 := upd_live true (upd_req (Some h) s)).
  change (sx_live true (sx_rq true (abs s))) with (abs s1).
  destruct (o_val o && negb (h_valid h)); [left; reflexivity|]. destruct (meth_eqb (h_meth h) MConnect); [left; reflexivity|].
  destruct (h_hashost h); [|left; reflexivity]. destruct es; [left; reflexivity|].
  apply in_flat_map. eexists. split; [apply (cbs_req_s o s1)|]. destruct (cbs_req o s1); left; reflexivity.
Qed.
Lemma cont_req_headers_s es s : In (abs (fst (cont_req_headers es s))) (a_cont_req_headers es (abs s)).
Proof. start s. unf; unf; unf. destruct es; crunch. Qed.
Lemma state_consume_req_s o e s : In (abs (fst (state_consume_req o e s))) (a_state_consume_req (aev_of o e) (abs s)).
Proof.
  destruct e; [apply crash_s | | | apply crash_s ..]; unfold state_consume_req, a_state_consume_req; simpl aev_of; cbv iota beta.
  - pose proof (cbs_req_s o (upd_reqbuf (reqbuf s ++ d) s)) as H. apply (in_map snd) in H.
    change (abs (upd_reqbuf (reqbuf s ++ d) s)) with (sx_qb (negb (isnil (reqbuf s ++ d))) (abs s)) in H.
    rewrite nonempty_app in H. destruct (cbs_req o _); exact H.
  - left; reflexivity.
Qed.
Lemma cont_req_s s : In (abs (fst (cont_req s))) (a_cont_req (abs s)).
Proof. apply check_killed_s. destruct (fresp s); [left | right; left]; reflexivity. Qed.
Lemma state_stream_req_s o e s : In (abs (fst (state_stream_req o e s))) (a_state_stream_req (aev_of o e) (abs s)).
Proof. start s. unf; unf; unf. destruct e; crunch. Qed.
Lemma cont_req_stream_s s : In (abs (fst (cont_req_stream s))) (a_cont_req_stream (abs s)).
Proof. start s. unf; unf; unf. crunch. Qed.
Lemma state_wait_resp_headers_s o h es s :
  In (abs (fst (state_wait_resp_headers o h es s))) (a_state_wait_resp_headers (o_val o && negb (h_valid h)) es (abs s)).
Proof.
  unfold state_wait_resp_headers, a_state_wait_resp_headers. set (s1 := upd_fresp (Some (mkResp h [] false)) s).
  change (abs s) with (abs s1). apply in_flat_map.
  destruct es; [exists (false, abs s1); split; [left; reflexivity|] | eexists; split; [apply (cbs_resp_s o s1)|]; destruct (cbs_resp o s1)];
    simpl; destruct (o_val o && negb (h_valid h)); left; reflexivity.
Qed.
Lemma cont_resp_headers_s es s : In (abs (fst (cont_resp_headers es s))) (a_cont_resp_headers es (abs s)).
Proof. start s. unf; unf; unf. destruct es; crunch. Qed.
Lemma state_consume_resp_s o e s : In (abs (fst (state_consume_resp o e s))) (a_state_consume_resp (aev_of o e) (abs s)).
Proof.
  destruct e; [apply crash_s .. | | | apply crash_s]; unfold state_consume_resp, a_state_consume_resp; simpl aev_of; cbv iota beta.
  - pose proof (cbs_resp_s o (upd_respbuf (respbuf s ++ d) s)) as H. apply (in_map snd) in H.
    change (abs (upd_respbuf (respbuf s ++ d) s)) with (sx_pb (negb (isnil (respbuf s ++ d))) (abs s)) in H.
    rewrite nonempty_app in H. destruct (cbs_resp o _); exact H.
  - destruct (fresp s); [right|left; reflexivity].
    rewrite <- (abs_set_content (respbuf s) s). apply (send_response_s _ (upd_respbuf [] _)).
Qed.
Lemma state_stream_resp_s o e s : In (abs (fst (state_stream_resp o e s))) (a_state_stream_resp (aev_of o e) (abs s)).
Proof.
  unfold state_stream_resp, a_state_stream_resp. destruct (fresp s); [right | left; reflexivity].
  destruct e; simpl aev_of; cbv iota beta; try apply crash_s.
  - unfold stream_resp_data. destruct (o_ssb o); [right; left; cbn [fst] | left; reflexivity].
    change (abs (upd_respbuf (respbuf s ++ d) s)) with (sx_pb (negb (isnil (respbuf s ++ d))) (abs s)).
    rewrite nonempty_app. reflexivity.
  - apply in_or_app. destruct (o_ssb o); [right | left; apply send_response_s].
    rewrite <- (abs_set_content (respbuf s) s). apply (send_response_s _ (upd_respbuf [] _)).
Qed.
Lemma cont_connect_s s : In (abs (fst (cont_connect s))) (a_cont_connect (abs s)).
Proof. apply check_killed_s. destruct (fresp s); left; reflexivity. Qed.
Lemma note_event_s o e s : abs (note_event e s) = a_note_event (aev_of o e) (abs s).
Proof. start s. unfold note_event, a_note_event. destruct e; crunch. Qed.

Lemma id_s s : In (abs (fst (s, @nil scmd))) [abs s].
Proof. simpl. auto. Qed.

(* chosen by the shape of the goal: an [apply] of the wrong lemma fails only after unfolding both functions *)
Ltac by_lemma o :=
  lazymatch goal with
  | |- In (abs (fst ?r)) _ =>
      lazymatch r with
      | crash _ => apply crash_s
      | (_, _) => apply id_s
      | state_wait_req_headers _ _ _ _ => apply state_wait_req_headers_s
      | state_consume_req _ _ _ => apply (state_consume_req_s o)
      | state_stream_req _ _ _ => apply (state_stream_req_s o)
      | state_wait_resp_headers _ _ _ _ => apply state_wait_resp_headers_s
      | state_consume_resp _ _ _ => apply (state_consume_resp_s o)
      | state_stream_resp _ _ _ => apply (state_stream_resp_s o)
      | handle_perr _ _ _ _ => apply handle_perr_s
      end
  end.

Lemma run_event_s o s e : In (abs (fst (run_event o s e))) (a_run_event (aev_of o e) (abs s)).
Proof.
  unfold run_event, a_run_event. rewrite <- (note_event_s o e s). set (s1 := note_event e s).
  change (x_cs (abs s1)) with (cs s1). change (x_ss (abs s1)) with (ss s1).
  destruct e; simpl aev_of; cbv iota beta; try by_lemma o.
  all: first [ destruct (cs s1); by_lemma o | destruct (ss s1); by_lemma o ].
Qed.

Definition ok_of (inp : sinput) : bool := match inp with IConnDone (Some _) => true | _ => false end.
Lemma resume_s o k inp s : In (abs (fst (resume o k inp s))) (a_resume (tag_of (Some k)) (ok_of inp) (abs s)).
Proof.
  destruct k; simpl tag_of; unfold resume, a_resume.
  all: try (start s; unf; unf; simpl; auto 10; fail).
  - apply cont_req_headers_s.
  - pose proof (resume_conn_stream_s o None (match inp with IConnDone c => c | _ => None end) s) as H; destruct inp as [e | | [c|]]; exact H.
  - pose proof (resume_conn_stream_s o (Some body) (match inp with IConnDone c => c | _ => None end) s) as H; destruct inp as [e | | [c|]]; exact H.
  - pose proof (resume_conn_consume_s (match inp with IConnDone c => c | _ => None end) s) as H; destruct inp as [e | | [c|]]; exact H.
  - apply cont_req_stream_s.
  - apply cont_req_s.
  - apply check_killed_s, send_response_s.
  - apply cont_resp_headers_s.
  - apply send_response_cont_s.
  - apply perr_tail_s.
  - apply cont_connect_s.
Qed.

Lemma apply_act_s h a s : In (abs (apply_act h a s)) (a_apply_act (abs s)).
Proof. start s. unfold apply_act, a_apply_act, killable. destruct a, h; crunch. Qed.

(* stream_handle preserves what its parts preserve (run_event, crash and resume are only called on a
   stream that is not stopped, with pc clear resp. set) *)
Section HandlePreserves.
Variable P : stream -> Prop.
Variable o : opts.
Hypothesis P_queue : forall q s, P s -> P (upd_queue q s).
Hypothesis P_event : forall s e, P s -> pc s = None -> stopped s = false -> P (fst (run_event o s e)).
Hypothesis P_crash : forall s, P s -> pc s = None -> stopped s = false -> P (fst (crash s)).
Hypothesis P_resume : forall k inp s, P s -> pc s = Some k -> stopped s = false -> P (fst (resume o k inp (upd_pc None s))).

Lemma drain_preserves q : forall s acc, P s -> P (fst (drain o s q acc)).
Proof.
  induction q as [|e q IH]; intros s acc H; simpl.
  - apply P_queue, H.
  - destruct (is_some (pc s) || stopped s) eqn:E; [apply P_queue, H|].
    apply orb_false_elim in E. destruct E as [E1 E2].
    destruct (run_event o (upd_queue q s) e) as [s1 c1] eqn:R.
    apply IH. change s1 with (fst (s1, c1)). rewrite <- R.
    apply P_event; [apply P_queue, H | | destruct s; exact E2].
    destruct s as [? ? ? p]; destruct p; [discriminate | reflexivity].
Qed.

Lemma handle_preserves s inp : P s -> P (fst (stream_handle o s inp)).
Proof.
  intros H. unfold stream_handle. destruct (stopped s) eqn:Hst; [exact H|].
  assert (D : forall k, pc s = Some k ->
              P (fst (let '(s1, c1) := resume o k inp (upd_pc None s) in drain o s1 (queue s1) c1))).
  { intros k Hk. pose proof (P_resume k inp s H Hk Hst) as R.
    destruct (resume o k inp (upd_pc None s)) as [s1 c1]. apply drain_preserves, R. }
  destruct inp as [e | | c]; destruct (pc s) eqn:Hpc; auto.
  apply P_queue, H.
Qed.
End HandlePreserves.
