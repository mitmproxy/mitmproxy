(* Proofs/Socks5Seg.v -- segmentation independence of the Socks5Proxy model:
   feeding a ++ b in one DataReceived equals feeding a then b, for every state,
   hence every splitting of a byte stream reaches the same state as the unsplit stream. *)
From Coq Require Import List Bool Arith NArith Lia.
From MV Require Import Base.Bytes Model.Socks5 Proofs.Socks5Exact.
Import ListNotations.

Lemma child_data_app o a b : child_data (child_data o a) b = child_data o (a ++ b).
Proof. unfold child_data. cbn. rewrite app_assoc. reflexivity. Qed.

Lemma child_data_nil o : child_data o [] = o.
Proof. destruct o. unfold child_data. cbn. rewrite app_nil_r. reflexivity. Qed.

Lemma connect_finish_app c o h p rest b :
  connect_finish c o h p (rest ++ b) = handle_data c (connect_finish c o h p rest) b.
Proof.
  unfold connect_finish.
  destruct (finish_start c (set_dest o (h, p))) as [err o2].
  destruct err; [reflexivity|].
  destruct rest as [|r0 rest]; cbn [app].
  - destruct b as [|b0 b]; cbn [handle_data fst snd].
    + rewrite child_data_nil. reflexivity.
    + reflexivity.
  - cbn [handle_data fst snd]. rewrite child_data_app. reflexivity.
Qed.

(* By the shape of x: where the parser still waits on x, feeding b is by definition the parser on x ++ b; a
   rejected x stays rejected; a complete message is decoded the same way whatever follows it. *)
Lemma connect_app c x b o :
  state_connect c (x ++ b) o = handle_data c (state_connect c x o) b.
Proof.
  destruct (connect_shape x) as [W|[(code & R)|(a & hi & lo & t & -> & Hwf)]].
  - rewrite W. reflexivity.
  - rewrite R, <- (app_nil_r x), R. reflexivity.
  - rewrite <- app_assoc, !connect_accept by exact Hwf. apply connect_finish_app.
Qed.

Lemma auth_app c x b o :
  state_auth c (x ++ b) o = handle_data c (state_auth c x o) b.
Proof.
  destruct (auth_shape x) as [W|(ver & u & p & rest & -> & Hu & Hp)].
  - rewrite W. reflexivity.
  - rewrite <- app_assoc, !auth_step by assumption. destruct (authok c u p); [apply connect_app|reflexivity].
Qed.

Lemma greet_app c x b o :
  state_greet c (x ++ b) o = handle_data c (state_greet c x o) b.
Proof.
  destruct (greet_shape x) as [W|[R|(methods & rest & -> & Hl)]].
  - rewrite W. reflexivity.
  - rewrite R, <- (app_nil_r x), R. reflexivity.
  - rewrite <- app_assoc, !greet_step by exact Hl. destruct (existsb _ methods); [|reflexivity].
    unfold next_state. destruct (proxyauth c); [apply auth_app|apply connect_app].
Qed.

Lemma handle_data_app c s a b :
  handle_data c (handle_data c s a) b = handle_data c s (a ++ b).
Proof.
  destruct s as [p o]. destruct p as [buf|buf|buf| | |]; cbn [handle_data fst snd].
  - rewrite app_assoc. symmetry. apply greet_app.
  - rewrite app_assoc. symmetry. apply auth_app.
  - rewrite app_assoc. symmetry. apply connect_app.
  - rewrite child_data_app. reflexivity.
  - reflexivity.
  - reflexivity.
Qed.

Lemma feed_all_concat c segs : forall s a,
  feed_all c (handle_data c s a) segs = handle_data c s (a ++ concat segs).
Proof.
  induction segs as [|x segs IH]; intros s a; cbn [feed_all fold_left concat].
  - rewrite app_nil_r. reflexivity.
  - fold (feed_all c (handle_data c (handle_data c s a) x) segs).
    rewrite handle_data_app. rewrite IH. rewrite app_assoc. reflexivity.
Qed.

Theorem segmentation_independent c (segs : list bytes) :
  run c segs = run c [concat segs].
Proof.
  unfold run. cbn [feed_all fold_left].
  destruct segs as [|x segs].
  - reflexivity.
  - cbn [fold_left concat]. apply feed_all_concat.
Qed.
