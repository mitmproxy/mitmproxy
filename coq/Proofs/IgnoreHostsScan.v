(* Proofs/IgnoreHostsScan.v -- C19.  The Host-header scanners of Model/IgnoreHosts.v under appended data:
   a decision taken on a prefix p is the decision on p ++ t, for ALL p and t, provided p contains no
   Host line with an empty value (guard no_empty_host; its complement is a known finding). *)
From Coq Require Import List Bool NArith Lia.
From MV Require Import Base.Bytes Model.ClientHello Model.IgnoreHosts.
Import ListNotations.

Fixpoint has_crlf (s : bytes) : bool :=
  starts_with CRLF s || match s with _ :: r => has_crlf r | [] => false end.
(* no position of s holds CRLF, Host: (any case), white space, CRLF *)
Fixpoint no_empty_host (s : bytes) : bool :=
  match s with
  | [] => true
  | _ :: r =>
      (if starts_with CRLF s && starts_with_ci HOST_COLON (skipn 2 s)
       then negb (tail_ok (skipn 5 (skipn 2 s))) else true)
      && no_empty_host r
  end.

Lemma is_ws_CR : is_ws CR = true. Proof. reflexivity. Qed.
Lemma is_ws_LF : is_ws LF = true. Proof. reflexivity. Qed.
Lemma is_lf_eq c : is_lf c = true -> c = LF.
Proof. unfold is_lf. apply byte_eqb_eq. Qed.
Lemma is_lf_ws c : is_lf c = true -> is_ws c = true.
Proof. intros H. apply is_lf_eq in H. subst. reflexivity. Qed.

Lemma starts_crlf_inv s : starts_with CRLF s = true -> exists r, s = CR :: LF :: r.
Proof.
  destruct s as [|a [|b r]]; simpl; try discriminate.
  - rewrite andb_false_r. discriminate.
  - intros H. apply andb_true_iff in H as [H1 H2]. apply andb_true_iff in H2 as [H2 _].
    apply byte_eqb_eq in H1, H2. subst. eexists; reflexivity.
Qed.

Lemma starts_crlf_app_false s t :
  starts_with CRLF s = false -> (2 <= length s)%nat -> starts_with CRLF (s ++ t) = false.
Proof.
  destruct s as [|a [|b r]]; simpl; intros H L; try lia. exact H.
Qed.

Lemma has_crlf_len s : has_crlf s = true -> (2 <= length s)%nat.
Proof.
  induction s as [|c s IH]; intros H; [discriminate|]. cbn [has_crlf] in H.
  apply orb_true_iff in H as [H|H].
  - apply starts_crlf_inv in H as [r E]. rewrite E. simpl. lia.
  - specialize (IH H). simpl. lia.
Qed.

Lemma tail_ok_app s t : tail_ok s = true -> tail_ok (s ++ t) = true.
Proof.
  induction s as [|c r IH]; intros H; [discriminate|].
  cbn [tail_ok] in H. apply orb_true_iff in H as [H|H].
  - change ((c :: r) ++ t) with (c :: r ++ t). cbn [tail_ok].
    apply (starts_with_app _ _ t) in H. change ((c :: r) ++ t) with (c :: r ++ t) in H. rewrite H. reflexivity.
  - apply andb_true_iff in H as [H1 H2]. change ((c :: r) ++ t) with (c :: r ++ t). cbn [tail_ok].
    rewrite H1, (IH H2). apply orb_true_r.
Qed.

Lemma tail_ok_cons c r : tail_ok (c :: r) = starts_with CRLF (c :: r) || (is_ws c && tail_ok r).
Proof. reflexivity. Qed.

Lemma lazy_cons c r :
  lazy_host (c :: r) =
  if is_lf c then None else if tail_ok r then Some [c]
  else match lazy_host r with Some h => Some (c :: h) | None => None end.
Proof. reflexivity. Qed.

Lemma tail_ok_crlf s : tail_ok s = true -> has_crlf s = true.
Proof.
  induction s as [|c r IH]; intros H; [discriminate|]. rewrite tail_ok_cons in H. cbn [has_crlf].
  apply orb_true_iff in H as [H|H]; [rewrite H; reflexivity|].
  apply andb_true_iff in H as [_ H]. rewrite (IH H). apply orb_true_r.
Qed.

(* appended data cannot complete the white space before a CRLF once s holds a CRLF it does not reach *)
Lemma tail_ok_stable s t : tail_ok s = false -> has_crlf s = true -> tail_ok (s ++ t) = false.
Proof.
  induction s as [|c r IH]; intros F C; [discriminate|].
  change ((c :: r) ++ t) with (c :: r ++ t). rewrite tail_ok_cons in *. apply orb_false_iff in F as [F1 F2].
  cbn [has_crlf] in C. rewrite F1 in C.
  pose proof (starts_crlf_app_false (c :: r) t F1) as S. cbn [app length] in S.
  rewrite S by (apply has_crlf_len in C; lia).
  destruct (is_ws c); [exact (IH F2 C) | reflexivity].
Qed.

Lemma lazy_some_crlf s h : lazy_host s = Some h -> has_crlf s = true.
Proof.
  revert h; induction s as [|c r IH]; intros h H; [discriminate|]. rewrite lazy_cons in H. cbn [has_crlf].
  destruct (is_lf c); [discriminate|]. destruct (tail_ok r) eqn:T.
  - rewrite (tail_ok_crlf _ T). apply orb_true_r.
  - destruct (lazy_host r) as [h'|]; [|discriminate]. rewrite (IH h' eq_refl). apply orb_true_r.
Qed.

Lemma lazy_stable s t : tail_ok s = false -> has_crlf s = true -> lazy_host (s ++ t) = lazy_host s.
Proof.
  induction s as [|c r IH]; intros T C; [discriminate|].
  change ((c :: r) ++ t) with (c :: r ++ t). rewrite !lazy_cons. destruct (is_lf c); [reflexivity|].
  rewrite tail_ok_cons in T. apply orb_false_iff in T as [S _]. cbn [has_crlf] in C. rewrite S in C.
  destruct (tail_ok r) eqn:T1.
  - rewrite (tail_ok_app _ t T1). reflexivity.
  - rewrite (tail_ok_stable _ t T1 C), (IH eq_refl C). reflexivity.
Qed.

Lemma ws_star_some_crlf s : forall h, ws_star_host s = Some h -> has_crlf s = true.
Proof.
  induction s as [|c r IH]; intros h H; [discriminate|]. cbn [ws_star_host] in H.
  destruct (is_ws c); [|exact (lazy_some_crlf _ _ H)].
  destruct (ws_star_host r) as [h'|]; [|exact (lazy_some_crlf _ _ H)].
  cbn [has_crlf]. rewrite (IH h' eq_refl). apply orb_true_r.
Qed.

Lemma ws_star_stable s t : tail_ok s = false -> has_crlf s = true -> ws_star_host (s ++ t) = ws_star_host s.
Proof.
  induction s as [|c r IH]; intros T C; [discriminate|].
  pose proof (lazy_stable _ t T C) as L. change ((c :: r) ++ t) with (c :: r ++ t) in *.
  cbn [ws_star_host]. rewrite L. destruct (is_ws c) eqn:W; [|reflexivity].
  rewrite tail_ok_cons, W in T. apply orb_false_iff in T as [S T]. cbn [has_crlf] in C. rewrite S in C.
  rewrite (IH T C). reflexivity.
Qed.

Lemma to_lower_CR_ne x : In x HOST_COLON -> byte_eqb x (to_lower CR) = false.
Proof. simpl. intros [H|[H|[H|[H|[H|[]]]]]]; subst; reflexivity. Qed.

Lemma starts_with_ci_app p a t : starts_with_ci p a = true -> starts_with_ci p (a ++ t) = true.
Proof.
  revert a; induction p as [|x p IH]; intros [|y a] H; simpl in *; try reflexivity; try discriminate.
  apply andb_true_iff in H as [H1 H2]. rewrite H1, (IH _ H2). reflexivity.
Qed.

(* a text with a CRLF, against a pattern without CR: a match ends before the CRLF, a mismatch is final *)
Lemma ci_crlf p a :
  (forall x, In x p -> byte_eqb x (to_lower CR) = false) -> has_crlf a = true ->
  if starts_with_ci p a then has_crlf (skipn (length p) a) = true
  else forall t, starts_with_ci p (a ++ t) = false.
Proof.
  revert a; induction p as [|x p IH]; intros a P H; [exact H|].
  destruct a as [|y a]; [discriminate|]. cbn [starts_with_ci length skipn app].
  destruct (byte_eqb x (to_lower y)) eqn:E; [|intros t; reflexivity]. cbn [andb].
  assert (H' : has_crlf a = true).
  { cbn [has_crlf] in H. apply orb_true_iff in H as [H|H]; [|exact H].
    destruct a as [|z a]; [simpl in H; rewrite andb_false_r in H; discriminate|].
    simpl in H. apply andb_true_iff in H as [H _]. apply byte_eqb_eq in H. subst y.
    pose proof (P x (or_introl eq_refl)) as Q. unfold CR in *. congruence. }
  exact (IH a (fun z Hz => P z (or_intror Hz)) H').
Qed.

Lemma ci_skip_app p a t : starts_with_ci p a = true -> skipn (length p) (a ++ t) = skipn (length p) a ++ t.
Proof.
  revert a; induction p as [|x p IH]; intros a T; [reflexivity|].
  destruct a as [|y a]; [discriminate|]. simpl in T. apply andb_true_iff in T as [_ T]. simpl. apply IH. exact T.
Qed.

Lemma search_some_crlf s r : search_host s = Some r -> has_crlf s = true.
Proof.
  induction s as [|c s IH]; intros H; [discriminate|].
  cbn [search_host] in H. cbn [has_crlf].
  destruct (starts_with CRLF (c :: s)) eqn:E; [reflexivity|]. simpl. apply IH. exact H.
Qed.

(* what search_host tries right after a CRLF: the Host field name, then the value group *)
Definition host_group (after : bytes) : option bytes :=
  if starts_with_ci HOST_COLON after then ws_star_host (skipn 5 after) else None.

Lemma search_unfold c s :
  search_host (c :: s) =
  if starts_with CRLF (c :: s) then
    match host_group (skipn 2 (c :: s)) with
    | Some h => Some (Some h)
    | None => if starts_with CRLF (skipn 2 (c :: s)) then Some None else search_host s
    end
  else search_host s.
Proof. reflexivity. Qed.

(* the Host group after a CRLF does not change under appended data when its value is not empty and
   either it matched or a CRLF follows *)
Lemma host_group_stable after t :
  (starts_with_ci HOST_COLON after = true -> tail_ok (skipn 5 after) = false) ->
  has_crlf after = true \/ host_group after <> None ->
  host_group (after ++ t) = host_group after.
Proof.
  intros G C. unfold host_group in *. destruct (starts_with_ci HOST_COLON after) eqn:CI.
  - rewrite (starts_with_ci_app _ _ t CI). change 5%nat with (length HOST_COLON) in *. rewrite (ci_skip_app _ _ t CI).
    apply ws_star_stable; [exact (G eq_refl)|].
    destruct C as [C|C]; [pose proof (ci_crlf _ _ to_lower_CR_ne C) as K; rewrite CI in K; exact K|].
    destruct (ws_star_host (skipn (length HOST_COLON) after)) eqn:W; [exact (ws_star_some_crlf _ _ W)|contradiction].
  - destruct C as [C|C]; [|contradiction]. pose proof (ci_crlf _ _ to_lower_CR_ne C) as K. rewrite CI in K.
    rewrite (K t). reflexivity.
Qed.

Lemma search_app p t r :
  no_empty_host p = true -> search_host p = Some r -> search_host (p ++ t) = Some r.
Proof.
  revert r; induction p as [|c p IH]; intros r G H; [discriminate|].
  change ((c :: p) ++ t) with (c :: p ++ t). rewrite search_unfold in *.
  cbn [no_empty_host] in G. apply andb_true_iff in G as [G1 G2].
  destruct (starts_with CRLF (c :: p)) eqn:S.
  - pose proof (starts_with_app _ _ t S) as S'. change ((c :: p) ++ t) with (c :: p ++ t) in S'. rewrite S'.
    destruct (starts_crlf_inv _ S) as [after E]. injection E as -> ->.
    change (skipn 2 (CR :: LF :: after)) with after in *.
    change (skipn 2 (CR :: (LF :: after) ++ t)) with (after ++ t).
    assert (G' : starts_with_ci HOST_COLON after = true -> tail_ok (skipn 5 after) = false).
    { intros CI. rewrite CI in G1. apply negb_true_iff, G1. }
    destruct (host_group after) as [h|] eqn:HG.
    + rewrite (host_group_stable after t G'), HG; [exact H | right; rewrite HG; discriminate].
    + assert (HC : has_crlf after = true).
      { destruct (starts_with CRLF after) eqn:S2; [|apply search_some_crlf in H; exact H].
        destruct after; [discriminate|]. cbn [has_crlf]. rewrite S2. reflexivity. }
      rewrite (host_group_stable after t G' (or_introl HC)), HG.
      destruct (starts_with CRLF after) eqn:S2.
      * rewrite (starts_with_app _ _ t S2). exact H.
      * rewrite (starts_crlf_app_false _ t S2 (has_crlf_len _ HC)). apply IH; assumption.
  - assert (L : (2 <= length (c :: p))%nat).
    { apply search_some_crlf, has_crlf_len in H. simpl. lia. }
    pose proof (starts_crlf_app_false _ t S L) as S'. change ((c :: p) ++ t) with (c :: p ++ t) in S'.
    rewrite S'. apply IH; assumption.
Qed.

Lemma no_empty_host_prefix p t : no_empty_host (p ++ t) = true -> no_empty_host p = true.
Proof.
  induction p as [|c p IH]; intros H; [reflexivity|].
  change ((c :: p) ++ t) with (c :: p ++ t) in H. cbn [no_empty_host] in *.
  apply andb_true_iff in H as [H1 H2]. rewrite (IH H2), andb_true_r.
  destruct (starts_with CRLF (c :: p)) eqn:S; [|reflexivity].
  destruct (starts_crlf_inv _ S) as [after E]. injection E as -> ->.
  change (skipn 2 (CR :: LF :: after)) with after.
  change (skipn 2 (CR :: (LF :: after) ++ t)) with (after ++ t) in H1.
  cbn [andb].
  destruct (starts_with_ci HOST_COLON after) eqn:CI; [|reflexivity].
  change (starts_with CRLF (CR :: (LF :: after) ++ t)) with true in H1.
  rewrite (starts_with_ci_app _ _ t CI) in H1. cbn [andb] in H1.
  change 5%nat with (length HOST_COLON) in *. rewrite (ci_skip_app _ _ t CI) in H1.
  apply negb_true_iff in H1. apply negb_true_iff.
  destruct (tail_ok (skipn (length HOST_COLON) after)) eqn:T; [|reflexivity].
  rewrite (tail_ok_app _ t T) in H1. discriminate.
Qed.

Lemma until_lf_app r t : exists x, until_lf (r ++ t) = until_lf r ++ x.
Proof.
  induction r as [|c r [x IH]]; [exists (until_lf t); reflexivity|].
  simpl. destruct (is_lf c); [exists []; reflexivity|]. exists x. rewrite IH. reflexivity.
Qed.
Lemma until_lf_has r t : existsb is_lf r = true -> until_lf (r ++ t) = until_lf r.
Proof.
  induction r as [|c r IH]; intros H; [discriminate|]. simpl in *.
  destruct (is_lf c); [reflexivity|]. simpl in H. rewrite (IH H). reflexivity.
Qed.
Lemma find_http_app s x : find_http s = true -> find_http (s ++ x) = true.
Proof.
  induction s as [|c s IH]; intros H.
  - simpl in H. discriminate.
  - change ((c :: s) ++ x) with (c :: s ++ x). cbn [find_http] in *.
    apply orb_true_iff in H as [H|H].
    + apply (starts_with_ci_app _ _ x) in H. change ((c :: s) ++ x) with (c :: s ++ x) in H. rewrite H. reflexivity.
    + rewrite (IH H). apply orb_true_r.
Qed.

Lemma expected_app p t : host_header_expected p = true -> host_header_expected (p ++ t) = true.
Proof.
  destruct p as [|a [|b [|c r]]]; try discriminate. simpl.
  intros H. apply andb_true_iff in H as [H1 H2]. rewrite H1. simpl.
  destruct (until_lf_app r t) as [x E]. rewrite E.
  destruct (until_lf r) as [|y r']; [discriminate|]. simpl. apply find_http_app. exact H2.
Qed.

Definition alpha3 (p : bytes) : bool :=
  match p with a :: b :: c :: _ => is_alpha a && is_alpha b && is_alpha c | _ => false end.

Lemma expected_alpha3 p : host_header_expected p = true -> alpha3 p = true.
Proof.
  destruct p as [|a [|b [|c r]]]; try discriminate. simpl. intros H.
  apply andb_true_iff in H as [H _]. exact H.
Qed.

Lemma expected_not_alpha p t :
  (3 <= length p)%nat -> alpha3 p = false -> host_header_expected (p ++ t) = false.
Proof.
  destruct p as [|a [|b [|c r]]]; simpl; intros L H; try lia. rewrite H. reflexivity.
Qed.

Lemma is_alpha_not_lf c : is_alpha c = true -> is_lf c = false.
Proof. intros H. destruct (is_lf c) eqn:E; [|reflexivity]. apply is_lf_eq in E. subst c. discriminate H. Qed.

Lemma expected_lf p t :
  (3 <= length p)%nat -> existsb is_lf p = true -> host_header_expected (p ++ t) = host_header_expected p.
Proof.
  destruct p as [|a [|b [|c r]]]; simpl; intros L H; try lia.
  destruct (is_alpha a && is_alpha b && is_alpha c) eqn:A; [|reflexivity]. simpl.
  apply andb_true_iff in A as [A Ac]. apply andb_true_iff in A as [Aa Ab].
  rewrite (is_alpha_not_lf _ Aa), (is_alpha_not_lf _ Ab), (is_alpha_not_lf _ Ac) in H. simpl in H.
  rewrite (until_lf_has _ t H). reflexivity.
Qed.
