(* Proofs/HeadersLaws.v -- the laws of the abstract ordered multimap (Model/MultimapSpec.v): an ordered
   multimap keyed by canonical names that leaves every untouched entry (canonical name, spelling, value,
   relative order) alone, generic in the name/value types; the same laws transported to the line-by-line
   model of Headers along the refinement; the read views; and case-insensitivity of whole histories (run_ci). *)
From Coq Require Import List Bool NArith ZArith Lia.
From MV Require Import Base.Bytes Model.Headers Model.MultimapSpec Proofs.HeadersRefine.
Import ListNotations.

Section Laws.
  Context {K C V : Type}.
  Variable canon_of : K -> C.
  Variable ceqb : C -> C -> bool.
  Hypothesis ceqb_eq : forall a b, ceqb a b = true <-> a = b.

  (* the specification's functions at the section's parameters; the notations take their names, so the
     definitions themselves are unfolded by their qualified names (MultimapSpec.s_match ...) *)
  Notation entry := (@entry K C V).
  Notation s_match := (@s_match K C V ceqb).
  Notation s_others := (@s_others K C V ceqb).
  Notation s_get_all := (@s_get_all K C V ceqb).
  Notation s_contains := (@s_contains K C V ceqb).
  Notation s_replace := (@s_replace K C V ceqb).
  Notation s_count := (@s_count K C V ceqb).
  Notation s_set_all := (@s_set_all K C V canon_of ceqb).
  Notation s_delitem := (@s_delitem K C V ceqb).
  Notation s_firsts := (@s_firsts K C V ceqb).

  Lemma ceqb_refl a : ceqb a a = true.
  Proof. apply ceqb_eq. reflexivity. Qed.

  Lemma ceqb_neq a b : a <> b -> ceqb a b = false.
  Proof. rewrite <- ceqb_eq. apply not_true_is_false. Qed.

  Lemma filter_filter_imp {A} (P Q : A -> bool) l :
    (forall x, P x = true -> Q x = true) -> filter P (filter Q l) = filter P l.
  Proof.
    intros H. induction l as [|x l IH]; simpl; [reflexivity|].
    destruct (Q x) eqn:EQ; simpl.
    - rewrite IH. reflexivity.
    - destruct (P x) eqn:EP; [apply H in EP; congruence | exact IH].
  Qed.

  Lemma others_replace c (m : list entry) : forall vs, s_others c (s_replace c vs m) = s_others c m.
  Proof.
    induction m as [|e m IH]; intros vs; simpl; [reflexivity|].
    destruct (s_match c e) eqn:E; simpl.
    - destruct vs as [|v vs]; simpl.
      + apply IH.
      + unfold MultimapSpec.s_match, e_canon in *. simpl. rewrite E. simpl. apply IH.
    - rewrite E. simpl. rewrite IH. reflexivity.
  Qed.

  Lemma others_new c k (vs : list V) : s_others c (map (fun v => (c, k, v)) vs) = [].
  Proof.
    induction vs as [|v vs IH]; simpl; [reflexivity|].
    unfold MultimapSpec.s_match at 1, e_canon. simpl. rewrite ceqb_refl. simpl. exact IH.
  Qed.

  Theorem others_set_all (m : list entry) k vs :
    s_others (canon_of k) (s_set_all m k vs) = s_others (canon_of k) m.
  Proof.
    unfold MultimapSpec.s_set_all, MultimapSpec.s_others. rewrite filter_app.
    fold (s_others (canon_of k) (s_replace (canon_of k) vs m)). rewrite others_replace.
    fold (s_others (canon_of k) (map (fun v => (canon_of k, k, v)) (skipn (s_count m (canon_of k)) vs))).
    rewrite others_new, app_nil_r. reflexivity.
  Qed.

  Lemma get_all_replace c (m : list entry) : forall vs,
    s_get_all (s_replace c vs m) c = firstn (s_count m c) vs.
  Proof.
    unfold MultimapSpec.s_get_all, MultimapSpec.s_count.
    induction m as [|e m IH]; intros vs; simpl; [reflexivity|].
    destruct (s_match c e) eqn:E; simpl.
    - destruct vs as [|v vs]; simpl.
      + rewrite IH, firstn_nil. reflexivity.
      + unfold MultimapSpec.s_match, e_canon in *. simpl. rewrite E. simpl. rewrite IH. reflexivity.
    - rewrite E. apply IH.
  Qed.

  Lemma get_all_new c k (vs : list V) : s_get_all (map (fun v => (c, k, v)) vs) c = vs.
  Proof.
    unfold MultimapSpec.s_get_all.
    induction vs as [|v vs IH]; simpl; [reflexivity|].
    unfold MultimapSpec.s_match at 1, e_canon. simpl. rewrite ceqb_refl. simpl. rewrite IH. reflexivity.
  Qed.

  Lemma get_all_app (a b : list entry) c : s_get_all (a ++ b) c = s_get_all a c ++ s_get_all b c.
  Proof. unfold MultimapSpec.s_get_all. rewrite filter_app, map_app. reflexivity. Qed.

  Lemma get_all_others (m : list entry) c c' : c' <> c -> s_get_all (s_others c m) c' = s_get_all m c'.
  Proof.
    intros H. unfold MultimapSpec.s_get_all, MultimapSpec.s_others. f_equal.
    apply filter_filter_imp. intros e He. unfold MultimapSpec.s_match in *.
    apply ceqb_eq in He. rewrite He. rewrite (ceqb_neq _ _ H). reflexivity.
  Qed.

  Theorem get_all_set_all (m : list entry) k vs c' :
    s_get_all (s_set_all m k vs) c' = if ceqb c' (canon_of k) then vs else s_get_all m c'.
  Proof.
    destruct (ceqb c' (canon_of k)) eqn:E.
    - apply ceqb_eq in E. subst c'. unfold MultimapSpec.s_set_all.
      rewrite get_all_app, get_all_replace, get_all_new. apply firstn_skipn.
    - assert (H : c' <> canon_of k) by (intros ->; rewrite ceqb_refl in E; discriminate).
      rewrite <- (get_all_others (s_set_all m k vs) (canon_of k) c' H), others_set_all.
      apply get_all_others. exact H.
  Qed.

  Lemma replace_absent c (m : list entry) vs : s_contains m c = false -> s_replace c vs m = m.
  Proof.
    unfold MultimapSpec.s_contains. induction m as [|e m IH]; simpl; [reflexivity|].
    intros H. apply orb_false_iff in H as [He Hm]. rewrite He, (IH Hm). reflexivity.
  Qed.

  Lemma count_absent c (m : list entry) : s_contains m c = false -> s_count m c = 0.
  Proof.
    unfold MultimapSpec.s_contains, MultimapSpec.s_count. rewrite existsb_filter.
    destruct (filter _ m); [reflexivity | discriminate].
  Qed.

  Theorem set_all_absent (m : list entry) k vs :
    s_contains m (canon_of k) = false ->
    s_set_all m k vs = m ++ map (fun v => (canon_of k, k, v)) vs.
  Proof.
    intros H. unfold MultimapSpec.s_set_all. rewrite (replace_absent _ _ _ H), (count_absent _ _ H).
    reflexivity.
  Qed.

  Lemma replace_keeps_names c (m : list entry) : forall vs,
    s_count m c <= length vs -> map fst (s_replace c vs m) = map fst m.
  Proof.
    unfold MultimapSpec.s_count.
    induction m as [|e m IH]; intros vs H; simpl; [reflexivity|].
    simpl in H. destruct (s_match c e) eqn:E.
    - destruct vs as [|v vs]; simpl in H; [lia|]. simpl. f_equal; [destruct e as [[a b] d]; reflexivity|].
      apply IH. lia.
    - simpl. f_equal. apply IH. exact H.
  Qed.

  Theorem set_all_keeps_names (m : list entry) k vs :
    s_count m (canon_of k) <= length vs ->
    exists tail, map fst (s_set_all m k vs) = map fst m ++ tail.
  Proof.
    intros H. unfold MultimapSpec.s_set_all. rewrite map_app.
    eexists. f_equal. apply replace_keeps_names. exact H.
  Qed.

  Lemma contains_others (m : list entry) c : s_contains (s_others c m) c = false.
  Proof.
    unfold MultimapSpec.s_contains, MultimapSpec.s_others.
    induction m as [|e m IH]; simpl; [reflexivity|].
    destruct (s_match c e) eqn:E; simpl; [exact IH | rewrite E; exact IH].
  Qed.

  Lemma others_idem (m : list entry) c : s_others c (s_others c m) = s_others c m.
  Proof. unfold MultimapSpec.s_others. apply filter_filter_imp. trivial. Qed.

  Theorem delitem_spec (m : list entry) c :
    match s_delitem m c with
    | None => s_contains m c = false
    | Some m' => s_contains m c = true /\ s_contains m' c = false /\ s_others c m' = s_others c m
                 /\ forall c', c' <> c -> s_get_all m' c' = s_get_all m c'
    end.
  Proof.
    unfold MultimapSpec.s_delitem. destruct (s_contains m c) eqn:E; [|reflexivity].
    split; [reflexivity|]. split; [apply contains_others|]. split; [apply others_idem|].
    intros c' H. apply get_all_others. exact H.
  Qed.

  Lemma firsts_in (m : list entry) : forall pre c,
    In c (map e_canon (s_firsts pre m)) <->
    (existsb (s_match c) pre = false /\ existsb (s_match c) m = true).
  Proof.
    induction m as [|e m IH]; intros pre c; simpl; [intuition discriminate|].
    (* e is listed iff its name is new; either way it joins the names seen, and it matters for c
       only when c is its name *)
    pose proof (ceqb_eq (e_canon e) c) as Hc. fold (s_match c e) in Hc.
    destruct (existsb (s_match (e_canon e)) pre) eqn:Epre; simpl; rewrite IH; simpl;
      destruct (s_match c e) eqn:Ec; simpl; intuition (subst; congruence).
  Qed.

  Lemma firsts_nodup (m : list entry) : forall pre, NoDup (map e_canon (s_firsts pre m)).
  Proof.
    induction m as [|e m IH]; intros pre; simpl; [constructor|].
    destruct (existsb (s_match (e_canon e)) pre) eqn:Epre; [apply IH|].
    simpl. constructor; [|apply IH].
    rewrite firsts_in. intros [H _]. simpl in H. unfold MultimapSpec.s_match at 1 in H.
    rewrite ceqb_refl in H. discriminate.
  Qed.

  Theorem iter_spec (m : list entry) :
    NoDup (map e_canon (s_firsts [] m))
    /\ forall c, In c (map e_canon (s_firsts [] m)) <-> s_contains m c = true.
  Proof.
    split; [apply firsts_nodup|]. intros c. rewrite firsts_in. simpl.
    unfold MultimapSpec.s_contains. split; [intros [_ H]; exact H | intros H; split; [reflexivity | exact H]].
  Qed.

  Lemma firsts_sub (m : list entry) : forall pre e, In e (s_firsts pre m) -> In e m.
  Proof.
    induction m as [|x m IH]; intros pre e; simpl; [trivial|].
    destruct (existsb (s_match (e_canon x)) pre).
    - intros H. right. exact (IH _ _ H).
    - intros [H|H]; [left; exact H | right; exact (IH _ _ H)].
  Qed.
End Laws.

Definition others (k : bytes) (fs : list field) : list field :=
  filter (fun f => negb (bytes_eqb (_kconv k) (_kconv (fst f)))) fs.

Lemma count_get_all fs k : s_count bytes_eqb (abs fs) (lower k) = length (get_all fs k).
Proof. rewrite get_all_refines. unfold s_count, s_get_all. rewrite map_length. reflexivity. Qed.

Theorem set_all_get_all fs k vs k' :
  get_all (set_all fs k vs) k' = if bytes_eqb (lower k') (lower k) then vs else get_all fs k'.
Proof. rewrite !get_all_refines, set_all_refines. apply (get_all_set_all lower bytes_eqb bytes_eqb_eq). Qed.

Theorem set_all_untouched fs k vs : others k (set_all fs k vs) = others k fs.
Proof.
  apply abs_inj. unfold others. rewrite <- !others_abs, set_all_refines.
  apply (others_set_all lower bytes_eqb bytes_eqb_eq).
Qed.

Theorem set_all_absent_appends fs k vs :
  contains fs k = false -> set_all fs k vs = fs ++ map (fun v => (k, v)) vs.
Proof.
  intros H. apply abs_inj. rewrite set_all_refines, abs_app. rewrite contains_refines in H.
  rewrite (set_all_absent lower bytes_eqb (abs fs) k vs H). f_equal.
  unfold abs. rewrite map_map. reflexivity.
Qed.

Theorem set_all_keeps_spelling fs k vs :
  length (get_all fs k) <= length vs ->
  exists tail, map fst (set_all fs k vs) = map fst fs ++ tail.
Proof.
  intros H. rewrite <- count_get_all in H.
  destruct (set_all_keeps_names lower bytes_eqb (abs fs) k vs H) as [tail Ht].
  rewrite <- set_all_refines in Ht. exists (map snd tail).
  assert (Hm : forall l, map fst l = map snd (map fst (abs l))).
  { intros l. unfold abs. rewrite !map_map. reflexivity. }
  rewrite (Hm (set_all fs k vs)), Ht, map_app, <- Hm. reflexivity.
Qed.

Theorem delitem_law fs k :
  match delitem fs k with
  | None => contains fs k = false
  | Some fs' => contains fs k = true /\ contains fs' k = false /\ others k fs' = others k fs
                /\ forall k', lower k' <> lower k -> get_all fs' k' = get_all fs k'
  end.
Proof.
  pose proof (delitem_spec bytes_eqb bytes_eqb_eq (abs fs) (lower k)) as H.
  rewrite <- delitem_refines in H. destruct (delitem fs k) as [fs'|]; simpl in H.
  - destruct H as (H1 & H2 & H3 & H4). rewrite !contains_refines.
    split; [exact H1|]. split; [exact H2|]. split.
    + apply abs_inj. unfold others. rewrite <- !others_abs. exact H3.
    + intros k' Hk. rewrite !get_all_refines. apply H4. exact Hk.
  - rewrite contains_refines. exact H.
Qed.

Theorem insert_law fs i k v :
  exists p, p <= length fs
    /\ insert fs i k v = firstn p fs ++ (k, v) :: skipn p fs
    /\ ((0 <= i <= Z.of_nat (length fs))%Z -> p = Z.to_nat i)
    /\ ((- Z.of_nat (length fs) <= i < 0)%Z -> p = Z.to_nat (i + Z.of_nat (length fs))).
Proof.
  exists (slice_index i (length fs)). rewrite slice_index_pos. unfold s_pos.
  split; [destruct (Z.ltb_spec i 0); lia|]. split.
  - unfold insert. rewrite slice_index_pos. reflexivity.
  - split; intros H; destruct (Z.ltb_spec i 0); lia.
Qed.

Lemma abs_wf fs e : In e (abs fs) -> e_canon e = lower (e_spelled e).
Proof. unfold abs. rewrite in_map_iff. intros [[a b] [H _]]. subst e. reflexivity. Qed.

Lemma iter_canon fs : map lower (iter fs) = map e_canon (s_firsts bytes_eqb [] (abs fs)).
Proof.
  rewrite iter_refines. unfold s_iter. rewrite map_map. apply map_ext_in.
  intros e He. symmetry. apply (abs_wf fs). eapply firsts_sub. exact He.
Qed.

Theorem iter_law fs :
  NoDup (map lower (iter fs))
  /\ (forall k, In (lower k) (map lower (iter fs)) <-> contains fs k = true)
  /\ len fs = N.of_nat (length (iter fs))
  /\ (forall k, In k (iter fs) -> In k (map fst fs)).
Proof.
  destruct (iter_spec bytes_eqb bytes_eqb_eq (abs fs)) as [H1 H2].
  rewrite iter_canon. split; [exact H1|]. split.
  - intros k. rewrite contains_refines. apply H2.
  - split; [apply len_iter|]. intros k. rewrite iter_refines. unfold s_iter.
    rewrite in_map_iff. intros [e [<- He]]. apply firsts_sub, (in_map e_spelled) in He.
    unfold abs in He. rewrite map_map in He. exact He.
Qed.

Lemma getitem_contains fs k :
  contains fs k = true -> getitem fs k = Some (_reduce_values (get_all fs k)).
Proof.
  unfold contains, getitem. destruct (get_all fs k); [discriminate | reflexivity].
Qed.

Lemma items_loop_total fs : forall ks,
  (forall k, In k ks -> contains fs k = true) ->
  items_loop fs ks = Some (map (fun k => (k, _reduce_values (get_all fs k))) ks).
Proof.
  induction ks as [|k ks IH]; intros H; simpl; [reflexivity|].
  rewrite (getitem_contains fs k (H k (or_introl eq_refl))).
  rewrite IH by (intros k' Hk'; apply H; right; exact Hk'). reflexivity.
Qed.

(* items()/keys()/values() never fail and list every name once in its FIRST spelling (the iteration order)
   with the folded values; the multi views are the fields themselves *)
Theorem views_law fs :
  items fs = Some (map (fun k => (k, _reduce_values (get_all fs k))) (iter fs))
  /\ keys fs = Some (iter fs)
  /\ values fs = Some (map (fun k => _reduce_values (get_all fs k)) (iter fs))
  /\ items_multi fs = fs /\ keys_multi fs = map fst fs /\ values_multi fs = map snd fs.
Proof.
  assert (Hi : items fs = Some (map (fun k => (k, _reduce_values (get_all fs k))) (iter fs))).
  { unfold items. apply items_loop_total. intros k Hk.
    destruct (iter_law fs) as (_ & Hc & _). apply Hc. apply in_map. exact Hk. }
  split; [exact Hi|]. unfold keys, values. rewrite Hi. simpl. rewrite !map_map. simpl.
  rewrite map_id. repeat split; reflexivity.
Qed.

Theorem lookup_case_insensitive fs k k' :
  lower k = lower k' ->
  get_all fs k = get_all fs k' /\ getitem fs k = getitem fs k'
  /\ contains fs k = contains fs k' /\ delitem fs k = delitem fs k'.
Proof.
  intros H. unfold delitem, contains, getitem, get_all, _kconv. rewrite H.
  repeat split; reflexivity.
Qed.

Definition lf (fs : list field) : list field := map (fun f => (lower (fst f), snd f)) fs.
Definition lf2 (st : state) : state := (lf (fst st), lf (snd st)).
Definition lop (o : op) : op :=
  match o with
  | OGetItem t k => OGetItem t (lower k)
  | OContains t k => OContains t (lower k)
  | OSetItem t k v => OSetItem t (lower k) v
  | ODelItem t k => ODelItem t (lower k)
  | OGetAll t k => OGetAll t (lower k)
  | OSetAll t k vs => OSetAll t (lower k) vs
  | OAdd t k v => OAdd t (lower k) v
  | OInsert t i k v => OInsert t i (lower k) v
  | OIter t => OIter t
  | OLen t => OLen t
  | OEq => OEq
  | OCopy t => OCopy t
  end.
Definition ci_result (r : result) : result :=
  match r with RKeys ks => RKeys (map lower ks) | _ => r end.
Definition ci_obs (x : result * list field) : result * list field := (ci_result (fst x), lf (snd x)).
(* equality of two header objects compares spelling, so it is not part of the case-insensitive view *)
Definition no_eq (o : op) : bool := match o with OEq => false | _ => true end.

Lemma lf_app a b : lf (a ++ b) = lf a ++ lf b.
Proof. apply map_app. Qed.

Lemma filter_lf (P : bytes -> bool) fs :
  filter (fun f => P (_kconv (fst f))) (lf fs) = lf (filter (fun f => P (_kconv (fst f))) fs).
Proof.
  unfold lf. rewrite filter_map_comm. f_equal. apply filter_ext.
  intros [a b]. unfold _kconv. simpl. rewrite lower_idem. reflexivity.
Qed.

Lemma get_all_lf fs k : get_all (lf fs) (lower k) = get_all fs k.
Proof.
  unfold get_all, _kconv. rewrite lower_idem.
  rewrite (filter_lf (fun c => bytes_eqb c (lower k))). unfold lf. rewrite map_map.
  reflexivity.
Qed.

Lemma getitem_lf fs k : getitem (lf fs) (lower k) = getitem fs k.
Proof. unfold getitem. rewrite get_all_lf. reflexivity. Qed.

Lemma contains_lf fs k : contains (lf fs) (lower k) = contains fs k.
Proof. unfold contains. rewrite getitem_lf. reflexivity. Qed.

Lemma delitem_lf fs k : delitem (lf fs) (lower k) = option_map lf (delitem fs k).
Proof.
  unfold delitem. rewrite contains_lf. destruct (contains fs k); simpl; [|reflexivity].
  unfold _kconv at 1 3. rewrite lower_idem.
  rewrite (filter_lf (fun c => negb (bytes_eqb (lower k) c))). reflexivity.
Qed.

Lemma set_all_loop_lf c fs : forall vs acc,
  set_all_loop c (lf fs) vs (lf acc)
  = (lf (fst (set_all_loop c fs vs acc)), snd (set_all_loop c fs vs acc)).
Proof.
  induction fs as [|[k v] fs IH]; intros vs acc; simpl; [reflexivity|].
  unfold _kconv. rewrite lower_idem.
  destruct (bytes_eqb (lower k) c).
  - destruct vs as [|v0 vs]; [apply IH|].
    rewrite <- (IH vs (acc ++ [(k, v0)])), lf_app. reflexivity.
  - etransitivity; [|exact (IH vs (acc ++ [(k, v)]))]. rewrite lf_app. reflexivity.
Qed.

Lemma set_all_lf fs k vs : set_all (lf fs) (lower k) vs = lf (set_all fs k vs).
Proof.
  unfold set_all, _kconv. rewrite lower_idem.
  change (set_all_loop (lower k) (lf fs) vs []) with (set_all_loop (lower k) (lf fs) vs (lf [])).
  rewrite set_all_loop_lf.
  destruct (set_all_loop (lower k) fs vs []) as [nf rest]. cbn [fst snd].
  rewrite !set_all_rest_eq, lf_app. f_equal. unfold lf. rewrite map_map. reflexivity.
Qed.

Lemma insert_lf fs i k v : insert (lf fs) i (lower k) v = lf (insert fs i k v).
Proof.
  unfold insert. unfold lf at 1 3. rewrite map_length. fold (lf fs).
  rewrite !lf_app. unfold lf. rewrite firstn_map, skipn_map. reflexivity.
Qed.

Lemma add_lf fs k v : add (lf fs) (lower k) v = lf (add fs k v).
Proof. rewrite !add_eq, lf_app. reflexivity. Qed.

Lemma iter_loop_lf fs : forall seen, iter_loop (lf fs) seen = map lower (iter_loop fs seen).
Proof.
  induction fs as [|[k v] fs IH]; intros seen; simpl; [reflexivity|].
  unfold _kconv. rewrite lower_idem.
  destruct (mem (lower k) seen); simpl; rewrite IH; reflexivity.
Qed.

Lemma iter_lf fs : iter (lf fs) = map lower (iter fs).
Proof. apply iter_loop_lf. Qed.

Lemma len_lf fs : len (lf fs) = len fs.
Proof.
  unfold len. f_equal. f_equal. f_equal. unfold lf. rewrite map_map. apply map_ext.
  intros [a b]. unfold _kconv. simpl. apply lower_idem.
Qed.

Lemma reg_lf st t : reg (lf2 st) t = lf (reg st t).
Proof. destruct st, t; reflexivity. Qed.

Lemma set_reg_lf st t fs : set_reg (lf2 st) t (lf fs) = lf2 (set_reg st t fs).
Proof. destruct st, t; reflexivity. Qed.

Lemma step_ci st o : no_eq o = true ->
  step (lf2 st) (lop o) = (ci_result (fst (step st o)), lf2 (snd (step st o))).
Proof.
  intros Hne. destruct o; simpl; rewrite ?reg_lf; try discriminate.
  - rewrite getitem_lf. destruct (getitem (reg st t) key); reflexivity.
  - rewrite contains_lf. reflexivity.
  - unfold setitem. rewrite set_all_lf, set_reg_lf. reflexivity.
  - rewrite delitem_lf. destruct (delitem (reg st t) key); simpl; [|reflexivity].
    rewrite set_reg_lf. reflexivity.
  - rewrite get_all_lf. reflexivity.
  - rewrite set_all_lf, set_reg_lf. reflexivity.
  - rewrite add_lf, set_reg_lf. reflexivity.
  - rewrite insert_lf, set_reg_lf. reflexivity.
  - rewrite iter_lf. reflexivity.
  - rewrite len_lf. reflexivity.
  - unfold copy. rewrite set_reg_lf. reflexivity.
Qed.

Lemma target_lop o : target (lop o) = target o.
Proof. destruct o; reflexivity. Qed.

(* lower-casing every name in the state and in the operations commutes with running the model: two histories
   that differ only in the case of names give the same results and the same fields up to case, at every step *)
Theorem run_ci : forall ops st, forallb no_eq ops = true ->
  run_ops (lf2 st) (map lop ops)
  = (map ci_obs (fst (run_ops st ops)), lf2 (snd (run_ops st ops))).
Proof.
  induction ops as [|o ops IH]; intros st H; simpl; [reflexivity|].
  simpl in H. apply andb_true_iff in H as [Ho Hops].
  rewrite (step_ci st o Ho). destruct (step st o) as [r st'] eqn:E. simpl.
  rewrite (IH st' Hops). destruct (run_ops st' ops) as [obs st''] eqn:E2. simpl.
  rewrite target_lop, reg_lf. reflexivity.
Qed.
