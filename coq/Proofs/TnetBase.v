(* Proofs/TnetBase.v -- decimal round trip, int() on canonical decimals, the framing
   spec of dumps (dumps = dumps_spec), and the split/slice lemmas for one frame. *)
From Coq Require Import List Bool Arith NArith ZArith Lia.
From Coq Require Decimal DecimalN DecimalPos.
From MV Require Import Base.Bytes Model.Tnet Proofs.ListFacts.
Import ListNotations.

Section tv_ind2.
  Variable P : tv -> Prop.
  Hypothesis HNull : P TNull.
  Hypothesis HBool : forall b, P (TBool b).
  Hypothesis HInt : forall z, P (TInt z).
  Hypothesis HFloat : forall t, P (TFloat t).
  Hypothesis HBytes : forall b, P (TBytes b).
  Hypothesis HStr : forall s, P (TStr s).
  Hypothesis HList : forall l, Forall P l -> P (TList l).
  Hypothesis HDict : forall kv, Forall (fun p => P (fst p) /\ P (snd p)) kv -> P (TDict kv).
  Fixpoint tv_ind2 (v : tv) : P v :=
    match v with
    | TNull => HNull | TBool b => HBool b | TInt z => HInt z | TFloat t => HFloat t
    | TBytes b => HBytes b | TStr s => HStr s
    | TList l => HList l ((fix go (l : list tv) : Forall P l :=
                             match l with [] => Forall_nil _ | x :: r => Forall_cons _ (tv_ind2 x) (go r) end) l)
    | TDict kv => HDict kv ((fix go (kv : list (tv * tv)) : Forall (fun p => P (fst p) /\ P (snd p)) kv :=
                               match kv with
                               | [] => Forall_nil _
                               | p :: r => Forall_cons _ (conj (tv_ind2 (fst p)) (tv_ind2 (snd p))) (go r)
                               end) kv)
    end.
End tv_ind2.

Lemma digit_neq c d : is_digit c = true -> is_digit d = false ->
  byte_eqb c d = false /\ byte_eqb d c = false.
Proof. intros Hc Hd. split; apply byte_eqb_neq; intros E; rewrite E in *; congruence. Qed.

Lemma digit_not_us c : is_digit c = true -> byte_eqb c x5f = false.
Proof. intros Hc. exact (proj1 (digit_neq c x5f Hc eq_refl)). Qed.

Lemma digit_not_space c : is_digit c = true -> is_space c = false.
Proof.
  revert c. assert (H : forall c, (negb (is_digit c) || negb (is_space c)) = true)
    by (apply forall_bytes; vm_compute; reflexivity).
  intros c Hc. specialize (H c). rewrite Hc in H. simpl in H. now apply negb_true_iff in H.
Qed.

Lemma uint_of_bytes_of_uint u : uint_of_digits (bytes_of_uint u) = u.
Proof. induction u; simpl; congruence. Qed.

Lemma digits_bytes_of_uint u : Forall (fun c => is_digit c = true) (bytes_of_uint u).
Proof. induction u; simpl; constructor; auto. Qed.

Lemma digits_val_dec_N n : digits_val (dec_N n) = n.
Proof. unfold digits_val, dec_N. rewrite uint_of_bytes_of_uint. apply DecimalN.Unsigned.of_to. Qed.

Lemma dec_N_digits n : Forall (fun c => is_digit c = true) (dec_N n).
Proof. apply digits_bytes_of_uint. Qed.

Lemma dec_N_nonempty n : dec_N n <> [].
Proof.
  unfold dec_N. destruct n as [|p]; [discriminate|].
  simpl. pose proof (DecimalPos.Unsigned.to_uint_nonnil p) as H.
  destruct (Pos.to_uint p); [congruence| discriminate ..].
Qed.

Lemma scan_int_digits ds rest :
  Forall (fun c => is_digit c = true) ds ->
  (match rest with [] => True | c :: _ => is_digit c = false /\ byte_eqb c x5f = false end) ->
  scan_int (ds ++ rest) false = Some (ds, rest).
Proof.
  intros H Hr. induction H as [|c ds Hc _ IH].
  - rewrite app_nil_l. destruct rest as [|c r]; cbn [scan_int]; [reflexivity|]. destruct Hr as [H1 H2]. now rewrite H1, H2.
  - rewrite <- app_comm_cons. cbn [scan_int]. now rewrite Hc, IH.
Qed.

Lemma lstrip_digit c r : is_digit c = true -> lstrip (c :: r) = c :: r.
Proof. intros H. simpl. now rewrite (digit_not_space _ H). Qed.

Definition digits_ok (ds : bytes) : Prop := (blen ds <= 4300)%N.

(* int() on a run of digits with an optional minus sign *)
Lemma py_int_signed (neg : bool) ds :
  ds <> [] -> Forall (fun c => is_digit c = true) ds -> digits_ok ds ->
  py_int (if neg then x2d :: ds else ds)
  = Some (if neg then Z.opp (Z.of_N (digits_val ds)) else Z.of_N (digits_val ds)).
Proof.
  intros Hne Hd Hok. destruct ds as [|c r]; [congruence|].
  pose proof (Forall_inv Hd) as Hc.
  assert (Hus : starts_with [x5f] (c :: r) = false).
  { cbn [starts_with]. now rewrite (proj2 (digit_neq c x5f Hc eq_refl)). }
  assert (Hscan : scan_int (c :: r) false = Some (c :: r, [])).
  { rewrite <- (app_nil_r (c :: r)) at 1. now apply scan_int_digits. }
  assert (Hlen : (4300 <? blen (c :: r))%N = false) by (apply N.ltb_ge; exact Hok).
  unfold py_int. destruct neg.
  - cbn [lstrip is_space]. change (byte_eqb x2d x2d) with true. cbv iota.
    rewrite Hus, Hscan, Hlen. reflexivity.
  - rewrite (lstrip_digit _ _ Hc), (proj1 (digit_neq c x2d Hc eq_refl)), (proj1 (digit_neq c x2b Hc eq_refl)).
    rewrite Hus, Hscan, Hlen. reflexivity.
Qed.

Definition int_ok (z : Z) : Prop := digits_ok (dec_N (Z.abs_N z)).

Lemma py_int_dec_Z z : int_ok z -> py_int (dec_Z z) = Some z.
Proof.
  intros H.
  assert (E : dec_Z z = if (z <? 0)%Z then x2d :: dec_N (Z.abs_N z) else dec_N (Z.abs_N z))
    by (destruct z; reflexivity).
  rewrite E, py_int_signed, digits_val_dec_N by auto using dec_N_nonempty, dec_N_digits.
  destruct z; reflexivity.
Qed.

Definition frame (p : bytes) (ty : byte) : bytes := dec_N (blen p) ++ x3a :: p ++ [ty].

Definition enc_pair (f : tv -> bytes) (p : tv * tv) : bytes := f (fst p) ++ f (snd p).

Fixpoint dumps_spec (v : tv) : bytes :=
  match v with
  | TNull => frame [] x7e
  | TBool true => frame s_true x21
  | TBool false => frame s_false x21
  | TInt z => frame (dec_Z z) x23
  | TFloat tok => frame tok x5e
  | TBytes b => frame b x2c
  | TStr s => frame s x3b
  | TList l => frame (concat (map dumps_spec l)) x5d
  | TDict kv => frame (concat (rev (map (enc_pair dumps_spec) kv))) x7d
  end.

Definition tag (v : tv) : byte :=
  match v with
  | TNull => x7e | TBool _ => x21 | TInt _ => x23 | TFloat _ => x5e | TBytes _ => x2c
  | TStr _ => x3b | TList _ => x5d | TDict _ => x7d
  end.
Definition payload (v : tv) : bytes :=
  match v with
  | TNull => [] | TBool true => s_true | TBool false => s_false | TInt z => dec_Z z
  | TFloat tok => tok | TBytes b => b | TStr s => s
  | TList l => concat (map dumps_spec l)
  | TDict kv => concat (rev (map (enc_pair dumps_spec) kv))
  end.

Lemma dumps_spec_frame v : dumps_spec v = frame (payload v) (tag v).
Proof. destruct v as [| [|] | | | | | |]; reflexivity. Qed.

Lemma blen_app a b : blen (a ++ b) = (blen a + blen b)%N.
Proof. unfold blen. rewrite app_length. lia. Qed.

Lemma blen_frame p ty : blen (frame p ty) = (2 + blen (dec_N (blen p)) + blen p)%N.
Proof. unfold frame. rewrite blen_app. unfold blen. cbn [length]. rewrite app_length. cbn [length]. lia. Qed.

Lemma frame_app p ty rest : frame p ty ++ rest = dec_N (blen p) ++ x3a :: p ++ ty :: rest.
Proof. unfold frame. rewrite <- app_assoc, <- app_comm_cons, <- app_assoc. reflexivity. Qed.

(* the deque s holds the bytes b in front of what q held, and its running size grew by |b| *)
Definition pushed (s : st) (b : bytes) (q : list bytes) (size : N) : Prop :=
  concat (fst s) = b ++ concat q /\ snd s = (size + blen b)%N.

Lemma pushed_app s1 s2 b1 b2 q size :
  pushed s1 b1 q size -> pushed s2 b2 (fst s1) (snd s1) -> pushed s2 (b2 ++ b1) q size.
Proof.
  intros [C1 S1] [C2 S2]. split.
  - now rewrite C2, C1, app_assoc.
  - rewrite S2, S1, blen_app. lia.
Qed.

Lemma pushed_scalar q size data ty : pushed (dump_scalar q size data ty) (frame data ty) q size.
Proof. split; [reflexivity | unfold dump_scalar; cbn [snd]; rewrite blen_frame; lia]. Qed.

Lemma pushed_blob q size data ty : pushed (dump_blob q size data ty) (frame data ty) q size.
Proof. split; [symmetry; apply frame_app | unfold dump_blob; cbn [snd]; rewrite blen_frame; lia]. Qed.

(* a list or dict: the items went in behind the closing byte; the span is the size they added *)
Lemma pushed_container s body close q size :
  pushed s body ([close] :: q) (size + 1) ->
  pushed (dec_N (snd s - (size + 1)) :: [x3a] :: fst s, (snd s + 1 + blen (dec_N (snd s - (size + 1))))%N)
         (frame body close) q size.
Proof.
  intros [C S]. replace (snd s - (size + 1))%N with (blen body) by lia. split; cbn [fst snd concat].
  - now rewrite C, frame_app.
  - rewrite S, blen_frame. lia.
Qed.

Lemma rdumpq_spec v : forall q size, pushed (rdumpq q size v) (dumps_spec v) q size.
Proof.
  induction v as [| [|] | | | | | l IH | kv IH] using tv_ind2; intros q size;
    try apply pushed_scalar; try apply pushed_blob; try (split; reflexivity);
    cbn [rdumpq dumps_spec]; apply pushed_container.
  - (* reversed(value): the first item is pushed last and ends up in front *)
    induction IH as [|x l Hx _ IHl]; cbn [fold_right map concat]; [split; [reflexivity | cbn; lia]|].
    exact (pushed_app _ _ _ _ _ _ IHl (Hx _ _)).
  - (* value before key, item after item: the last item ends up in front *)
    assert (G : forall s b, pushed s b ([x7d] :: q) (size + 1) ->
      pushed (fold_left (fun (s : st) (p : tv * tv) =>
                let s1 := rdumpq (fst s) (snd s) (snd p) in rdumpq (fst s1) (snd s1) (fst p)) kv s)
             (concat (rev (map (enc_pair dumps_spec) kv)) ++ b) ([x7d] :: q) (size + 1)).
    { induction IH as [|p kv [Hk Hv] _ IHkv]; intros s b Hs; cbn [fold_left map rev]; [exact Hs|].
      rewrite concat_app. cbn [concat]. rewrite app_nil_r, <- app_assoc. apply IHkv.
      unfold enc_pair. rewrite <- app_assoc.
      exact (pushed_app _ _ _ _ _ _ (pushed_app _ _ _ _ _ _ Hs (Hv _ _)) (Hk _ _)). }
    rewrite <- (app_nil_r (concat _)). apply G. split; [reflexivity | cbn; lia].
Qed.

Lemma dumps_is_spec v : dumps v = dumps_spec v.
Proof. unfold dumps. rewrite (proj1 (rdumpq_spec v [] 0%N)). apply app_nil_r. Qed.

Lemma find_colon_digits ds rest :
  Forall (fun c => is_digit c = true) ds -> find_colon (ds ++ x3a :: rest) = Some (ds, rest).
Proof.
  induction 1 as [|c ds Hc _ IH]; cbn [app find_colon].
  - reflexivity.
  - now rewrite (proj1 (digit_neq c x3a Hc eq_refl)), IH.
Qed.

Definition len_ok (p : bytes) : Prop := digits_ok (dec_N (blen p)).

Lemma split_frame p rest : len_ok p ->
  split (dec_N (blen p) ++ x3a :: rest) = Some (Z.of_N (blen p), rest).
Proof.
  intros H. unfold split. rewrite find_colon_digits by apply dec_N_digits.
  rewrite (py_int_signed false); auto using dec_N_nonempty, dec_N_digits.
  now rewrite digits_val_dec_N.
Qed.

Lemma pop_slices_frame p ty rest :
  pop_slices (Z.of_N (blen p)) (p ++ ty :: rest) = Some (p, ty, rest).
Proof.
  unfold pop_slices, blen. cbv zeta. rewrite nat_N_Z, app_length. cbn [length].
  assert (E : (Z.of_nat (length p) <? 0)%Z = false) by (apply Z.ltb_ge; lia). rewrite !E.
  destruct (Z.leb_spec (Z.of_nat (length p + S (length rest))) (Z.of_nat (length p))); [lia|].
  destruct (Z.eqb_spec (Z.of_nat (length p)) (-1)); [lia|].
  cbn [orb]. now rewrite Nat2Z.id, skipn_exact, firstn_exact, skipn_S_exact.
Qed.

Lemma dumps_spec_digit v : exists c r, dumps_spec v = c :: r /\ is_digit c = true.
Proof.
  rewrite dumps_spec_frame. unfold frame. pose proof (dec_N_digits (blen (payload v))) as H.
  destruct (dec_N (blen (payload v))) as [|c r] eqn:E; [now apply dec_N_nonempty in E|].
  exists c, (r ++ x3a :: payload v ++ [tag v]). split; [reflexivity | exact (Forall_inv H)].
Qed.

Lemma dumps_spec_length v : (1 <= length (dumps_spec v))%nat.
Proof. destruct (dumps_spec_digit v) as (c & r & -> & _). cbn [length]. lia. Qed.
