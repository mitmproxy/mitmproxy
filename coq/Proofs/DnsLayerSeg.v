(* Proofs/DnsLayerSeg.v -- segmentation independence of DNSLayer over TCP, closing on malformed
   frames, and the structure of the SERVFAIL path. *)
From Coq Require Import List Bool Arith NArith.
From MV Require Import Base.Bytes Model.DnsLayer Proofs.DnsLayerFrame.
Import ListNotations.

Lemma apply_act_req a f : f_req (apply_act a f) = f_req f.
Proof. destruct a; try reflexivity. cbn [apply_act]. destruct (f_req f) eqn:E; [reflexivity | exact E]. Qed.

(* the reply of the addons to a hook is the head of the script; an exhausted script stays as it is *)
Lemma pop_act_eq s : pop_act s = (hd ANone (s_script s), with_script s (tl (s_script s))).
Proof. unfold pop_act. destruct s as [? ? ? ? ? ? ? ? [|a sc] ? ? ?]; reflexivity. Qed.

Lemma let_pair {A B C} (p : A * B) (g : A -> B -> C) : (let (a, b) := p in g a b) = g (fst p) (snd p).
Proof. destruct p; reflexivity. Qed.

(* handle_msgs and run thread the state through a list of inputs and append the commands.  A relation
   between a start state and (end state, commands) that holds of doing nothing, composes, and holds of
   one input holds of every list of inputs. *)
Lemma fold_out_ind {X} (f : st -> X -> st * list out) (F : st -> list X -> st * list out)
  (P : st -> st * list out -> Prop) :
  (forall s, F s [] = (s, [])) ->
  (forall s x r, F s (x :: r) = let (s1, o1) := f s x in let (s2, o2) := F s1 r in (s2, o1 ++ o2)) ->
  (forall s, P s (s, [])) ->
  (forall s s1 o1 s2 o2, P s (s1, o1) -> P s1 (s2, o2) -> P s (s2, o1 ++ o2)) ->
  (forall s x, P s (f s x)) ->
  forall xs s, P s (F s xs).
Proof.
  intros F0 F1 P0 P2 P1. induction xs as [|x r IH]; intros s; [rewrite F0; apply P0|].
  rewrite F1. pose proof (P1 s x) as H. destruct (f s x) as [s1 o1].
  specialize (IH s1). destruct (F s1 r) as [s2 o2]. exact (P2 _ _ _ _ _ H IH).
Qed.

Definition handle_msgs_ind c fc P :=
  fold_out_ind (handle_msg c fc) (handle_msgs c fc) P (fun _ => eq_refl) (fun _ _ _ => eq_refl).
Definition run_ind unpack c P :=
  fold_out_ind (step unpack c) (run unpack c) P (fun _ => eq_refl) (fun _ _ _ => eq_refl).

Definition wb (fc : bool) (b : bytes) (p : st * list out) : st * list out :=
  (with_buf (fst p) fc b, snd p).

(* a handler that prepends commands to what a sub-handler returns *)
Lemma wb_let fc b p (g : list out -> list out) :
  (let (s2, o) := wb fc b p in (s2, g o)) = wb fc b (let (s2, o) := p in (s2, g o)).
Proof. destruct p; reflexivity. Qed.

Lemma handle_response_buf c s fc b i f m :
  handle_response c (with_buf s fc b) i f m = wb fc b (handle_response c s i f m).
Proof.
  unfold handle_response. rewrite !pop_act_eq. reflexivity.
Qed.

Lemma handle_error_buf c s fc b i f :
  handle_error c (with_buf s fc b) i f = wb fc b (handle_error c s i f).
Proof.
  unfold handle_error. rewrite !pop_act_eq. cbn [s_script with_buf].
  destruct (f_req _); reflexivity.
Qed.

Lemma handle_request_buf c s fc b i f m :
  handle_request c (with_buf s fc b) i f m = wb fc b (handle_request c s i f m).
Proof.
  unfold handle_request. rewrite !pop_act_eq. cbn [s_script with_buf].
  change (with_script (with_buf s fc b) (tl (s_script s))) with (with_buf (with_script s (tl (s_script s))) fc b).
  set (s1 := with_script s (tl (s_script s))). cbn [s_srv s_conn with_buf].
  destruct (f_resp _).
  { rewrite handle_response_buf. apply wb_let. }
  destruct (f_err _).
  { rewrite handle_error_buf. apply wb_let. }
  destruct (negb (has_addr c)).
  { rewrite handle_error_buf. apply wb_let. }
  destruct (s_srv s1); [reflexivity|].
  destruct (s_conn s1) as [|[|] cn].
  - rewrite handle_error_buf. apply wb_let.
  - reflexivity.
  - change (with_srv (with_buf s1 fc b) false cn) with (with_buf (with_srv s1 false cn) fc b).
    rewrite handle_error_buf. apply wb_let.
Qed.

(* note_msg, retire and new_flow commute with with_buf by computation *)
Lemma handle_msg_buf c fc' s fc b m :
  handle_msg c fc' (with_buf s fc b) m = wb fc b (handle_msg c fc' s m).
Proof.
  unfold handle_msg. cbn [s_crashed s_flows with_buf].
  destruct (s_crashed s); [reflexivity|].
  destruct (find_flow (m_id m) (s_flows s)) as [f|]; destruct fc'.
  - destruct (fix_fresh c && answered f).
    + apply (handle_request_buf c (snd (new_flow (retire (note_msg s true m) f)))).
    + apply (handle_request_buf c (note_msg s true m)).
  - apply (handle_response_buf c (note_msg s false m)).
  - apply (handle_request_buf c (snd (new_flow (note_msg s true m)))).
  - destruct (fix_drop c); [reflexivity|].
    apply (handle_response_buf c (snd (new_flow (note_msg s false m)))).
Qed.

Lemma handle_msgs_buf c fc' ms : forall s fc b,
  handle_msgs c fc' (with_buf s fc b) ms = wb fc b (handle_msgs c fc' s ms).
Proof.
  induction ms as [|m r IH]; intros s fc b; [reflexivity|].
  cbn [handle_msgs]. rewrite handle_msg_buf.
  destruct (handle_msg c fc' s m) as [s1 o1]. unfold wb at 1. cbn [fst snd].
  rewrite IH. destruct (handle_msgs c fc' s1 r) as [s2 o2]. reflexivity.
Qed.

Lemma handle_msgs_app c fc a : forall s b,
  handle_msgs c fc s (a ++ b) =
  let (s1, o1) := handle_msgs c fc s a in
  let (s2, o2) := handle_msgs c fc s1 b in (s2, o1 ++ o2).
Proof.
  induction a as [|m a IH]; intros s b.
  - cbn [app handle_msgs]. destruct (handle_msgs c fc s b); reflexivity.
  - cbn [app handle_msgs]. destruct (handle_msg c fc s m) as [s1 o1].
    rewrite IH. destruct (handle_msgs c fc s1 a) as [s2 o2].
    destruct (handle_msgs c fc s2 b) as [s3 o3]. rewrite app_assoc. reflexivity.
Qed.

(* every dns_error hook carries a request and is directly followed by the packed SERVFAIL of
   that request, sent to the client *)
Fixpoint servfail_ok (tcp : bool) (outs : list out) : Prop :=
  match outs with
  | [] => True
  | OHook HErr _ rq _ _ :: rest =>
      match rq, rest with
      | Some q, OSend true d :: _ => d = pack_message (fail q) tcp /\ servfail_ok tcp rest
      | _, _ => False
      end
  | _ :: rest => servfail_ok tcp rest
  end.

Lemma servfail_ok_app tcp a : forall b, servfail_ok tcp a -> servfail_ok tcp b -> servfail_ok tcp (a ++ b).
Proof.
  induction a as [|x a IH]; intros b Ha Hb; [exact Hb|].
  destruct x as [k ord rq rs e| | | |]; cbn [app servfail_ok] in *; try (apply IH; assumption).
  destruct k; try (apply IH; assumption).
  destruct rq as [q|]; [|contradiction].
  destruct a as [|y a']; [contradiction|].
  destruct y as [| |tc d| |]; try contradiction. destruct tc; [|contradiction].
  destruct Ha as [Hd Ha]. split; [exact Hd|]. apply IH; assumption.
Qed.

(* phase and crash flag: what decides whether the layer still handles events *)
Definition ctl (s : st) : phase * bool := (s_phase s, s_crashed s).

Lemma handle_response_struct c s i f m :
  ctl (fst (handle_response c s i f m)) = ctl s /\ servfail_ok (ctcp c) (snd (handle_response c s i f m)).
Proof.
  unfold handle_response. rewrite pop_act_eq.
  split; [reflexivity|]. cbn. destruct (f_resp _); exact I.
Qed.

(* handle_error crashes on a flow without request *)
Lemma handle_error_struct c s i f q :
  f_req f = Some q ->
  ctl (fst (handle_error c s i f)) = ctl s /\ servfail_ok (ctcp c) (snd (handle_error c s i f)).
Proof.
  intros Hq. unfold handle_error. rewrite pop_act_eq.
  rewrite apply_act_req. cbn [f_req]. rewrite Hq.
  split; [reflexivity|]. cbn. auto.
Qed.

Lemma servfail_ok_cons_hook tcp k ord rq rs e l :
  k <> HErr -> servfail_ok tcp l -> servfail_ok tcp (OHook k ord rq rs e :: l).
Proof. intros Hk Hl. destruct k; try exact Hl. congruence. Qed.

(* the flow handle_request works on carries the request, so its error path does not crash *)
Lemma handle_request_struct c s i f m :
  ctl (fst (handle_request c s i f m)) = ctl s /\ servfail_ok (ctcp c) (snd (handle_request c s i f m)).
Proof.
  unfold handle_request. rewrite pop_act_eq.
  set (s1 := with_script s _). change (ctl s) with (ctl s1). set (f2 := apply_act _ _).
  assert (Herr : forall s0, ctl (fst (handle_error c s0 i f2)) = ctl s0
                            /\ servfail_ok (ctcp c) (snd (handle_error c s0 i f2)))
    by (intros s0; apply (handle_error_struct c s0 i f2 m), apply_act_req).
  destruct (f_resp f2) as [r|].
  { rewrite let_pair. apply (handle_response_struct c s1 i f2 r). }
  destruct (f_err f2).
  { rewrite let_pair. apply (Herr s1). }
  destruct (negb (has_addr c)).
  { rewrite let_pair. apply (Herr s1). }
  destruct (s_srv s1); [split; [reflexivity | exact I]|].
  destruct (s_conn s1) as [|[|] cn].
  - rewrite let_pair. apply (Herr s1).
  - split; [reflexivity | exact I].
  - rewrite let_pair. apply (Herr (with_srv s1 false cn)).
Qed.

Lemma handle_msg_struct c fc s m :
  ctl (fst (handle_msg c fc s m)) = ctl s /\ servfail_ok (ctcp c) (snd (handle_msg c fc s m)).
Proof.
  unfold handle_msg. destruct (s_crashed s); [split; [reflexivity | exact I]|].
  destruct (find_flow (m_id m) (s_flows s)) as [f|]; destruct fc.
  - destruct (fix_fresh c && answered f).
    + apply (handle_request_struct c (snd (new_flow (retire (note_msg s true m) f)))).
    + apply (handle_request_struct c (note_msg s true m)).
  - apply (handle_response_struct c (note_msg s false m)).
  - apply (handle_request_struct c (snd (new_flow (note_msg s true m)))).
  - destruct (fix_drop c); [split; [reflexivity | exact I]|].
    apply (handle_response_struct c (snd (new_flow (note_msg s false m)))).
Qed.

Lemma handle_msgs_struct c fc : forall ms s,
  ctl (fst (handle_msgs c fc s ms)) = ctl s /\ servfail_ok (ctcp c) (snd (handle_msgs c fc s ms)).
Proof.
  apply (handle_msgs_ind c fc (fun s p => ctl (fst p) = ctl s /\ servfail_ok (ctcp c) (snd p))).
  - split; [reflexivity | exact I].
  - intros s s1 o1 s2 o2 [H1 H2] [H3 H4]. cbn [fst snd] in *.
    split; [congruence | apply servfail_ok_app; assumption].
  - apply handle_msg_struct.
Qed.

Section Seg.
Variable unpack : bytes -> ures.
Notation utcp := (unpack_tcp unpack).
Notation step := (step unpack).
Notation run := (run unpack).

Definition buf_of (s : st) (fc : bool) : bytes := if fc then s_req_buf s else s_resp_buf s.

Definition working (s : st) : Prop := s_phase s = PQuery /\ s_crashed s = false.

Lemma with_buf_twice s fc b b' : with_buf (with_buf s fc b) fc b' = with_buf s fc b'.
Proof. destruct fc; reflexivity. Qed.

Lemma step_tcp_ok c s fc d ms r :
  working s -> ctcp c = true -> utcp (buf_of s fc ++ d) = ROk ms r ->
  step c s (EData fc d) = wb fc r (handle_msgs c fc s ms).
Proof.
  intros [Hp Hc] Ht Hu. unfold DnsLayer.step. rewrite Hc, Hp. unfold unpack_message. rewrite Ht.
  change (unpack_tcp unpack ((if fc then s_req_buf s else s_resp_buf s) ++ d)) with (utcp (buf_of s fc ++ d)).
  rewrite Hu. apply handle_msgs_buf.
Qed.

Lemma working_after c fc s ms b : working s -> working (fst (wb fc b (handle_msgs c fc s ms))).
Proof.
  intros [Hp Hc]. destruct (handle_msgs_struct c fc ms s) as [A _]. injection A as A1 A2.
  split; cbn; congruence.
Qed.

Lemma buf_after c fc s ms b : buf_of (fst (wb fc b (handle_msgs c fc s ms))) fc = b.
Proof. destruct fc; reflexivity. Qed.

Lemma step_split c s fc a b ms r :
  working s -> ctcp c = true ->
  utcp (buf_of s fc ++ a ++ b) = ROk ms r ->
  forall rest, run c s (EData fc a :: EData fc b :: rest) = run c s (EData fc (a ++ b) :: rest).
Proof.
  intros Hw Ht Hu rest.
  pose proof Hu as Hu0. rewrite app_assoc in Hu0.
  destruct (utcp_prefix_ok unpack _ _ _ _ Hu0) as (m1 & r1 & m2 & H1 & H2 & Hm).
  cbn [DnsLayer.run].
  rewrite (step_tcp_ok c s fc a m1 r1 Hw Ht H1).
  rewrite (step_tcp_ok c s fc (a ++ b) ms r Hw Ht Hu).
  pose proof (working_after c fc s m1 r1 Hw) as Hw1.
  pose proof (buf_after c fc s m1 r1) as Hb1.
  destruct (wb fc r1 (handle_msgs c fc s m1)) as [s1 o1] eqn:E1. cbn [fst] in Hw1, Hb1.
  rewrite <- Hb1 in H2.
  rewrite (step_tcp_ok c s1 fc b m2 r Hw1 Ht H2).
  subst ms. rewrite handle_msgs_app.
  unfold wb in E1. destruct (handle_msgs c fc s m1) as [s1' o1'] eqn:E0. cbn [fst snd] in E1.
  inversion E1; subst s1 o1. clear E1.
  rewrite handle_msgs_buf.
  destruct (handle_msgs c fc s1' m2) as [s2 o2]. unfold wb. cbn [fst snd].
  rewrite with_buf_twice.
  destruct (DnsLayer.run unpack c (with_buf s2 fc r) rest) as [s3 o3].
  rewrite app_assoc. reflexivity.
Qed.

(* by merging the first two chunks until one is left *)
Lemma segmentation_partial c fc chunks s ms r rest :
  chunks <> [] -> working s -> ctcp c = true ->
  utcp (buf_of s fc ++ concat chunks) = ROk ms r ->
  run c s (map (EData fc) chunks ++ rest) = run c s (EData fc (concat chunks) :: rest).
Proof.
  intros Hne Hw Ht. destruct chunks as [|a tl]; [congruence|]. clear Hne.
  revert a. induction tl as [|b tl IH]; intros a Hu; cbn [map app concat] in *.
  - rewrite app_nil_r. reflexivity.
  - rewrite (app_assoc a b), <- (IH (a ++ b)) by (rewrite <- app_assoc; exact Hu).
    rewrite 2 app_assoc, <- (app_assoc _ a b) in Hu.
    destruct (utcp_prefix_ok unpack _ _ _ _ Hu) as (m1 & r1 & _ & H1 & _).
    apply (step_split c s fc a b m1 r1 Hw Ht H1).
Qed.

Lemma done_silent c : forall es s, s_phase s = PDone -> run c s es = (s, []).
Proof.
  induction es as [|e es IH]; intros s Hp; [reflexivity|].
  cbn [DnsLayer.run]. unfold DnsLayer.step. rewrite Hp.
  destruct (s_crashed s); rewrite (IH s Hp); reflexivity.
Qed.

Lemma step_err c s fc d :
  working s -> unpack_message unpack c s fc d = RErr ->
  snd (step c s (EData fc d)) = [OClose fc] /\ s_phase (fst (step c s (EData fc d))) = PDone.
Proof. intros [Hp Hc] Hu. unfold DnsLayer.step. rewrite Hc, Hp, Hu. split; reflexivity. Qed.

Lemma malformed_closes c fc chunks s rest :
  chunks <> [] -> working s -> ctcp c = true ->
  utcp (buf_of s fc ++ concat chunks) = RErr ->
  let r := run c s (map (EData fc) chunks ++ rest) in
  (exists pre, snd r = pre ++ [OClose fc]) /\ s_phase (fst r) = PDone.
Proof.
  cbv zeta. revert s. induction chunks as [|a tl IH]; intros s Hne Hw Ht Hu; [congruence|].
  cbn [map app concat DnsLayer.run] in *.
  rewrite app_assoc in Hu. rewrite (utcp_app unpack) in Hu.
  destruct (utcp (buf_of s fc ++ a)) as [m1 r1| | |] eqn:E1; cbn [continue_with] in Hu; try discriminate.
  - (* this segment is fine; the error is still to come *)
    rewrite (step_tcp_ok c s fc a m1 r1 Hw Ht E1).
    pose proof (working_after c fc s m1 r1 Hw) as Hw1.
    pose proof (buf_after c fc s m1 r1) as Hb1.
    destruct (wb fc r1 (handle_msgs c fc s m1)) as [s1 o1]. cbn [fst] in Hw1, Hb1.
    assert (Hu1 : utcp (buf_of s1 fc ++ concat tl) = RErr).
    { rewrite Hb1. destruct (utcp (r1 ++ concat tl)); try discriminate; reflexivity. }
    destruct tl as [|b tl].
    { exfalso. cbn [concat] in Hu1. rewrite app_nil_r in Hu1.
      rewrite Hb1 in Hu1. rewrite (utcp_idem unpack _ _ _ E1) in Hu1. discriminate. }
    destruct (IH s1 ltac:(discriminate) Hw1 Ht Hu1) as [(pre & Hpre) Hph].
    destruct (DnsLayer.run unpack c s1 (map (EData fc) (b :: tl) ++ rest)) as [s2 o2]. cbn [fst snd] in *.
    split; [exists (o1 ++ pre); rewrite Hpre, app_assoc; reflexivity | exact Hph].
  - destruct (step_err c s fc a Hw) as [Ho Hp]; [unfold unpack_message; rewrite Ht; exact E1|].
    destruct (step c s (EData fc a)) as [s1 o1]. cbn [fst snd] in *.
    rewrite (done_silent c _ s1 Hp). cbn [fst snd]. subst o1. split; [exists []; reflexivity | exact Hp].
Qed.

End Seg.
