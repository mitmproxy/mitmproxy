(* Proofs/IgnoreHostsHttp.v -- C19.  The Host header as HTTP defines it (RFC 9112: request-line CRLF
   *( field-name : OWS field-value OWS CRLF ) CRLF) is the one _get_host_header returns, for every
   amount of optional white space (including none) and every spelling of the field name. *)
From Coq Require Import List Bool NArith Lia.
From MV Require Import Base.Bytes Model.ClientHello Model.IgnoreHosts Proofs.IgnoreHostsScan Proofs.IgnoreHostsDecide.
Import ListNotations.

Definition SP : byte := x20.
Definition COLON : byte := x3a.
Definition HTTPS : bytes := [x48; x54; x54; x50; x2f].       (* HTTP/ *)
Definition no_lf (s : bytes) : bool := negb (existsb is_lf s).
Definition is_ows (b : byte) : bool := (bN b =? 32)%N || (bN b =? 9)%N.

Record field := { f_name : bytes; f_ows1 : bytes; f_value : bytes; f_ows2 : bytes }.
Definition field_line (f : field) : bytes :=
  f_name f ++ COLON :: f_ows1 f ++ f_value f ++ f_ows2 f ++ CRLF.
Definition request_line (method target version : bytes) : bytes :=
  method ++ SP :: target ++ SP :: HTTPS ++ version.

Definition name_is_host (n : bytes) : bool := bytes_eqb (map to_lower n) [x68; x6f; x73; x74].
Definition name_ok (b : byte) : bool := negb (byte_eqb b COLON) && negb (is_cr b) && negb (is_lf b).
(* a field line that is not a Host line: non-empty name without colon, CR, LF; value without LF *)
Definition wf_other (f : field) : Prop :=
  f_name f <> [] /\ forallb name_ok (f_name f) = true
  /\ name_is_host (f_name f) = false
  /\ no_lf (f_ows1 f ++ f_value f ++ f_ows2 f) = true.
(* the Host line: any spelling of the name, any OWS, value non-empty, trimmed, without LF *)
Definition wf_host (f : field) : Prop :=
  name_is_host (f_name f) = true
  /\ forallb is_ows (f_ows1 f) = true /\ forallb is_ows (f_ows2 f) = true
  /\ no_lf (f_value f) = true
  /\ (exists a v, f_value f = a :: v /\ is_ws a = false)
  /\ is_ws (last (f_value f) x00) = false.
Definition wf_request_line (method target version : bytes) : Prop :=
  alpha3 method = true /\ no_lf method = true /\ no_lf target = true /\ no_lf version = true.

Lemma field_line_app f z :
  field_line f ++ z = f_name f ++ COLON :: f_ows1 f ++ f_value f ++ f_ows2 f ++ CRLF ++ z.
Proof. unfold field_line. rewrite <- app_assoc. cbn [app]. rewrite <- !app_assoc. reflexivity. Qed.

Lemma field_line_split f :
  field_line f = (f_name f ++ COLON :: f_ows1 f ++ f_value f ++ f_ows2 f) ++ CRLF.
Proof. unfold field_line. rewrite <- app_assoc. cbn [app]. rewrite <- !app_assoc. reflexivity. Qed.

Lemma no_lf_app a b : no_lf (a ++ b) = no_lf a && no_lf b.
Proof. unfold no_lf. rewrite existsb_app, negb_orb. reflexivity. Qed.
Lemma no_lf_cons c r : no_lf (c :: r) = negb (is_lf c) && no_lf r.
Proof. unfold no_lf. simpl. rewrite negb_orb. reflexivity. Qed.

Lemma until_lf_nolf x y : no_lf x = true -> until_lf (x ++ y) = x ++ until_lf y.
Proof.
  induction x as [|c x IH]; intros H; [reflexivity|].
  rewrite no_lf_cons in H. apply andb_true_iff in H as [H1 H2]. apply negb_true_iff in H1.
  simpl. rewrite H1, (IH H2). reflexivity.
Qed.

Lemma find_http_skip u w : find_http w = true -> find_http (u ++ w) = true.
Proof.
  intros H. induction u as [|c u IH]; [exact H|].
  change ((c :: u) ++ w) with (c :: u ++ w). cbn [find_http]. rewrite IH. apply orb_true_r.
Qed.

Lemma request_line_no_lf m tg v : wf_request_line m tg v -> no_lf (request_line m tg v) = true.
Proof.
  intros (_ & Nm & Nt & Nv). unfold request_line.
  rewrite no_lf_app, Nm, no_lf_cons, no_lf_app, Nt, no_lf_cons, no_lf_app, Nv. reflexivity.
Qed.

Lemma expected_request_line m tg v rest :
  wf_request_line m tg v -> host_header_expected (request_line m tg v ++ CRLF ++ rest) = true.
Proof.
  intros W. pose proof (request_line_no_lf m tg v W) as N. destruct W as (A & _).
  destruct m as [|a [|b [|c m']]]; try discriminate A.
  unfold request_line in *. cbn [app] in N. cbn [app host_header_expected]. cbn [alpha3] in A. rewrite A. cbn [andb].
  rewrite !no_lf_cons in N. apply andb_true_iff in N as [_ N]. apply andb_true_iff in N as [_ N].
  apply andb_true_iff in N as [_ N]. rewrite (until_lf_nolf _ _ N).
  (* the dot-plus takes one byte, of the method or the space after it; HTTP/ is found further on *)
  destruct m' as [|y m']; cbn [app]; apply find_http_app; [|apply find_http_skip, (find_http_skip [SP])];
    apply find_http_skip, (find_http_skip [SP]); reflexivity.
Qed.

Lemma starts_crlf_second c d r : is_lf d = false -> starts_with CRLF (c :: d :: r) = false.
Proof.
  intros H. simpl. destruct (byte_eqb x0a d) eqn:E; [|apply andb_false_r].
  apply byte_eqb_eq in E. subst d. discriminate H.
Qed.

Lemma search_skip_line l x : no_lf l = true -> search_host (l ++ CRLF ++ x) = search_host (CRLF ++ x).
Proof.
  induction l as [|c l IH]; intros H; [reflexivity|].
  rewrite no_lf_cons in H. apply andb_true_iff in H as [H1 H2].
  change ((c :: l) ++ CRLF ++ x) with (c :: l ++ CRLF ++ x). rewrite search_unfold.
  assert (S : starts_with CRLF (c :: l ++ CRLF ++ x) = false).
  { destruct l as [|d l']; [simpl; rewrite andb_false_r; reflexivity|].
    rewrite no_lf_cons in H2. apply andb_true_iff in H2 as [H2 _]. apply negb_true_iff in H2.
    apply starts_crlf_second, H2. }
  rewrite S. apply IH. exact H2.
Qed.

(* the search at the end of a line: a Host line, the end of the head, or on to the next line *)
Lemma search_at_crlf after :
  search_host (CRLF ++ after) =
  match host_group after with
  | Some h => Some (Some h)
  | None => if starts_with CRLF after then Some None else search_host after
  end.
Proof.
  change (CRLF ++ after) with (CR :: LF :: after). rewrite search_unfold.
  change (starts_with CRLF (CR :: LF :: after)) with true. cbv iota. cbn [skipn].
  rewrite (search_unfold LF after). change (starts_with CRLF (LF :: after)) with false. reflexivity.
Qed.

Lemma bN_to_lower b : bN (to_lower b) = if is_upper b then (bN b + 32)%N else bN b.
Proof.
  unfold to_lower. destruct (is_upper b) eqn:U; [|reflexivity].
  apply bN_Nb. unfold is_upper in U. apply andb_true_iff in U as [_ U%N.leb_le]. lia.
Qed.

(* lowering makes no colon: only letters change, into letters *)
Lemma lower_colon b : byte_eqb x3a (to_lower b) = true -> byte_eqb b COLON = true.
Proof.
  intros H%byte_eqb_eq. apply (f_equal bN) in H. rewrite bN_to_lower in H.
  apply byte_eqb_eq. rewrite <- (Nb_bN b).
  destruct (is_upper b) eqn:U; [|rewrite <- H; reflexivity].
  unfold is_upper in U. apply andb_true_iff in U as [U%N.leb_le _]. change (bN x3a) with 58%N in H. lia.
Qed.
Lemma ows_ws b : is_ows b = true -> is_ws b = true /\ is_lf b = false.
Proof.
  intros H. split.
  - unfold is_ws. apply orb_true_iff in H as [H|H]; apply N.eqb_eq in H; rewrite H; reflexivity.
  - destruct (is_lf b) eqn:E; [|reflexivity]. apply is_lf_eq in E. subst b. discriminate H.
Qed.
Lemma cr_is_ws b : is_cr b = true -> is_ws b = true.
Proof. unfold is_cr. intros H. apply byte_eqb_eq in H. subst. reflexivity. Qed.

Lemma ci_lower p s : starts_with_ci p s = starts_with p (map to_lower s).
Proof.
  revert s. induction p as [|x p IH]; intros [|y s]; try reflexivity.
  cbn [starts_with_ci starts_with map]. rewrite IH. reflexivity.
Qed.

Lemma starts_with_sep p c x y :
  ~ In c p -> ~ In c x -> starts_with (p ++ [c]) (x ++ c :: y) = true -> x = p.
Proof.
  revert x. induction p as [|a p IH]; intros [|b x] Hp Hx H; cbn [app starts_with] in H.
  - reflexivity.
  - apply andb_true_iff in H as [H _]. apply byte_eqb_eq in H. subst b. destruct Hx. left. reflexivity.
  - apply andb_true_iff in H as [H _]. apply byte_eqb_eq in H. subst a. destruct Hp. left. reflexivity.
  - apply andb_true_iff in H as [H1 H2]. apply byte_eqb_eq in H1. subst b. f_equal.
    apply IH; [intros I; apply Hp; right; exact I | intros I; apply Hx; right; exact I | exact H2].
Qed.

Lemma other_not_host n z :
  forallb name_ok n = true -> name_is_host n = false -> starts_with_ci HOST_COLON (n ++ COLON :: z) = false.
Proof.
  intros F N. destruct (starts_with_ci HOST_COLON (n ++ COLON :: z)) eqn:E; [|reflexivity]. exfalso.
  rewrite ci_lower, map_app in E.
  apply (starts_with_sep [x68; x6f; x73; x74] x3a) in E.
  - unfold name_is_host in N. rewrite E in N. discriminate N.
  - intros [H|[H|[H|[H|[]]]]]; discriminate H.
  - (* the name has no colon, and lowering makes none *)
    intros H. apply in_map_iff in H as (b & Hb & Hin). rewrite forallb_forall in F. specialize (F b Hin).
    unfold name_ok in F. rewrite (lower_colon b) in F; [discriminate F|]. rewrite Hb. reflexivity.
Qed.

Lemma name_no_lf n : forallb name_ok n = true -> no_lf n = true.
Proof.
  induction n as [|c n IH]; intros H; [reflexivity|]. simpl in H. apply andb_true_iff in H as [H1 H2].
  rewrite no_lf_cons, (IH H2). unfold name_ok in H1. apply andb_true_iff in H1 as [_ H1]. rewrite H1. reflexivity.
Qed.

Lemma search_skip_field f z :
  wf_other f -> search_host (CRLF ++ field_line f ++ z) = search_host (CRLF ++ z).
Proof.
  intros [NE [F [NH NL]]]. rewrite search_at_crlf.
  assert (B : search_host (field_line f ++ z) = search_host (CRLF ++ z)).
  { rewrite field_line_split, <- app_assoc. apply search_skip_line.
    rewrite no_lf_app, (name_no_lf _ F), no_lf_cons. exact NL. }
  rewrite B, field_line_app. unfold host_group. rewrite (other_not_host _ _ F NH).
  assert (S : starts_with CRLF (f_name f ++ COLON :: f_ows1 f ++ f_value f ++ f_ows2 f ++ CRLF ++ z) = false).
  { destruct (f_name f) as [|a n]; [contradiction|]. cbn [forallb] in F. apply andb_true_iff in F as [F1 _].
    unfold name_ok in F1. apply andb_true_iff in F1 as [F1 _]. apply andb_true_iff in F1 as [_ F1].
    apply negb_true_iff in F1. simpl. destruct (byte_eqb x0d a) eqn:E; [|reflexivity].
    apply byte_eqb_eq in E. subst a. discriminate F1. }
  rewrite S. reflexivity.
Qed.

Lemma search_skip_fields fs z :
  Forall wf_other fs -> search_host (CRLF ++ concat (map field_line fs) ++ z) = search_host (CRLF ++ z).
Proof.
  induction fs as [|f fs IH]; intros H; [reflexivity|].
  inversion H as [|? ? Hf Hfs]; subst. cbn [map concat]. rewrite <- app_assoc.
  rewrite (search_skip_field f _ Hf). apply IH. exact Hfs.
Qed.

Lemma tail_ok_blocked x y :
  no_lf x = true -> x <> [] -> is_ws (last x x00) = false -> tail_ok (x ++ y) = false.
Proof.
  induction x as [|c x IH]; intros N NE L; [contradiction|].
  rewrite no_lf_cons in N. apply andb_true_iff in N as [N1 N2].
  change ((c :: x) ++ y) with (c :: x ++ y). rewrite tail_ok_cons.
  destruct x as [|d x'].
  - simpl in L. rewrite L. simpl. rewrite orb_false_r.
    destruct (byte_eqb x0d c) eqn:E; [|reflexivity].
    apply byte_eqb_eq in E. subst c. discriminate L.
  - rewrite no_lf_cons in N2. apply andb_true_iff in N2 as [N2 N3]. apply negb_true_iff in N2.
    change ((d :: x') ++ y) with (d :: x' ++ y) at 1. rewrite (starts_crlf_second c d _ N2).
    rewrite IH; [apply andb_false_r | rewrite no_lf_cons, N2; exact N3 | discriminate | exact L].
Qed.

Lemma lazy_exact v z :
  no_lf v = true -> v <> [] -> is_ws (last v x00) = false -> tail_ok z = true -> lazy_host (v ++ z) = Some v.
Proof.
  induction v as [|c v IH]; intros N NE L T; [contradiction|].
  rewrite no_lf_cons in N. apply andb_true_iff in N as [N1 N2]. apply negb_true_iff in N1.
  change ((c :: v) ++ z) with (c :: v ++ z). rewrite lazy_cons, N1.
  destruct v as [|d v'].
  - simpl. rewrite T. reflexivity.
  - rewrite (tail_ok_blocked (d :: v') z N2 ltac:(discriminate) L).
    rewrite IH; [reflexivity | exact N2 | discriminate | exact L | exact T].
Qed.

Lemma tail_ok_ows o rest : forallb is_ows o = true -> tail_ok (o ++ CRLF ++ rest) = true.
Proof.
  induction o as [|c o IH]; intros H; [reflexivity|].
  simpl in H. apply andb_true_iff in H as [H1 H2]. destruct (ows_ws _ H1) as [W _].
  change ((c :: o) ++ CRLF ++ rest) with (c :: o ++ CRLF ++ rest). rewrite tail_ok_cons, W, (IH H2).
  apply orb_true_r.
Qed.

Lemma ws_star_value o1 v o2 rest :
  forallb is_ows o1 = true -> forallb is_ows o2 = true -> no_lf v = true ->
  (exists a v', v = a :: v' /\ is_ws a = false) -> is_ws (last v x00) = false ->
  ws_star_host (o1 ++ v ++ o2 ++ CRLF ++ rest) = Some v.
Proof.
  intros O1 O2 N [a [v' [E A]]] L.
  assert (V : lazy_host (v ++ o2 ++ CRLF ++ rest) = Some v).
  { apply lazy_exact; [exact N | rewrite E; discriminate | exact L | apply tail_ok_ows; exact O2]. }
  induction o1 as [|c o1 IH].
  - (* the value starts with a byte that is not white space: the greedy white space is empty *)
    cbn [app]. rewrite E in V |- *. cbn [app ws_star_host] in *. rewrite A. exact V.
  - cbn [forallb] in O1. apply andb_true_iff in O1 as [W O1]. apply ows_ws in W as [W _].
    cbn [app ws_star_host]. rewrite W, (IH O1). reflexivity.
Qed.

Lemma host_name_prefix n z : name_is_host n = true ->
  starts_with_ci HOST_COLON (n ++ COLON :: z) = true /\ skipn 5 (n ++ COLON :: z) = z.
Proof.
  unfold name_is_host. intros H. apply bytes_eqb_eq in H. split.
  - rewrite ci_lower, map_app, H. reflexivity.
  - apply (f_equal (@length byte)) in H. rewrite map_length in H.
    destruct n as [|a [|b [|c [|d [|e n']]]]]; try discriminate H. reflexivity.
Qed.

Theorem host_recognised m tg ver others hf rest :
  wf_request_line m tg ver -> Forall wf_other others -> wf_host hf ->
  get_host_header (request_line m tg ver ++ CRLF ++ concat (map field_line others) ++ field_line hf ++ rest) []
  = HSome (f_value hf).
Proof.
  intros WR WO [HN [O1 [O2 [NV [FV LV]]]]].
  unfold get_host_header. cbn [is_nil negb].
  rewrite (expected_request_line m tg ver _ WR), (search_skip_line _ _ (request_line_no_lf m tg ver WR)).
  rewrite (search_skip_fields others _ WO), search_at_crlf, field_line_app. unfold host_group.
  destruct (host_name_prefix (f_name hf) (f_ows1 hf ++ f_value hf ++ f_ows2 hf ++ CRLF ++ rest) HN) as [P1 P2].
  rewrite P1, P2, (ws_star_value _ _ _ _ O1 O2 NV FV LV). reflexivity.
Qed.

Lemma alpha_not_tls d : alpha3 d = true -> starts_like_tls_record d = false.
Proof.
  destruct d as [|a [|b [|c r]]]; try discriminate. simpl. intros H.
  apply andb_true_iff in H as [H _]. apply andb_true_iff in H as [H _].
  unfold starts_like_tls_record, at_. cbn [nth].
  destruct (bN a =? 22)%N eqn:E; [|rewrite andb_false_r; reflexivity].
  apply N.eqb_eq in E. unfold is_alpha, is_upper, is_lower in H. rewrite E in H. discriminate H.
Qed.

Section HostDecision.
  Variable pat : Type.
  Variable re_search : pat -> bytes -> bool.
  Variable ace_ok : bytes -> bool.

  (* A request whose Host value, in the form NextLayer gives it, matches an ignore pattern is ignored;
     this holds for the head alone and with any bytes after the Host line. *)
  Theorem host_header_ignored (c : cfg pat) m tg ver others hf rest h p r :
    wf_request_line m tg ver -> Forall wf_other others -> wf_host hf ->
    address c = Some (h, p) -> wg_exempt c = false ->
    In r (ignore_hosts c) ->
    re_search r (if has_port (f_value hf) then f_value hf else fmt_hp (f_value hf) p) = true ->
    exists hs,
      ignore_connection re_search ace_ok c
        (request_line m tg ver ++ CRLF ++ concat (map field_line others) ++ field_line hf ++ rest) []
      = Decided true hs
      /\ In (if has_port (f_value hf) then f_value hf else fmt_hp (f_value hf) p) hs.
  Proof.
    intros WR WO WH A W IR M.
    set (d := request_line m tg ver ++ CRLF ++ concat (map field_line others) ++ field_line hf ++ rest).
    pose proof (host_recognised m tg ver others hf rest WR WO WH) as HH. fold d in HH.
    assert (CH : get_client_hello d = CNone).
    { unfold get_client_hello. rewrite alpha_not_tls; [reflexivity|].
      destruct WR as [X _]. destruct m as [|a [|b [|c' m']]]; try discriminate X. exact X. }
    assert (NI : ignore_hosts c <> []) by (intros E; rewrite E in IR; destruct IR).
    pose proof (decision_rules pat re_search ace_ok c d [] (or_introl NI) W) as D.
    destruct (hostnames_of ace_ok c d []) as [|hs] eqn:E.
    { unfold hostnames_of in E. rewrite A, HH, CH in E. discriminate E. }
    destruct (destination_forms pat ace_ok c d [] hs E) as (_ & _ & _ & _ & IN).
    specialize (IN h p _ eq_refl A HH). exists hs. split; [|exact IN]. rewrite D. f_equal.
    (* ignored_b c hs = true: the iff of rules_honoured, from right to left, through its ignore_hosts disjunct *)
    apply (rules_honoured pat re_search ace_ok c d [] _ hs D (or_introl NI) W).
    split; [intros X; rewrite X in IN; destruct IN|]. right. split; [exact NI|eauto].
  Qed.
End HostDecision.

(* methods whose first three characters are not all letters are not recognised (known finding):
   M-SEARCH * HTTP/1.1 CRLF Host: a CRLF CRLF *)
Definition msearch : bytes :=
  [x4d; x2d; x53; x45; x41; x52; x43; x48; x20; x2a; x20; x48; x54; x54; x50; x2f; x31; x2e; x31; x0d; x0a;
   x48; x6f; x73; x74; x3a; x20; x61; x0d; x0a; x0d; x0a].
(* the hypotheses of host_recognised are satisfiable: GET / HTTP/1.1, Accept: x, hOsT:example.com (no OWS) *)
Definition ex_other : field := {| f_name := [x41; x63; x63; x65; x70; x74]; f_ows1 := [x20]; f_value := [x78]; f_ows2 := [] |}.
Definition ex_hostf : field :=
  {| f_name := [x68; x4f; x73; x54]; f_ows1 := [];
     f_value := [x65; x78; x61; x6d; x70; x6c; x65; x2e; x63; x6f; x6d]; f_ows2 := [x20; x09] |}.
