(* Proofs/EncodingCache.v -- the one-entry cache of encoding.py is transparent.
   Invariant: the cache entry (encoded, encoding, errors, decoded) always satisfies
   pure_decode encoding errors encoded = decoded, for a cached coding name. *)
From Coq Require Import List Bool NArith.
From MV Require Import Base.Bytes Model.Encoding.
Import ListNotations.

(* The library contract the round-trip statements rest on (TRUSTED, satisfiable: see EncodingToy.v). *)
Record contract (C : codecs) : Prop := {
  gzip_rt : forall x, zlib_auto C (gzip_compress C x) = Some x;
  gzip_ne : forall x, gzip_compress C x <> [];
  zlib_rt : forall x, zlib_decompress C (zlib_compress C x) = Some x;
  zlib_ne : forall x, zlib_compress C x <> [];
  brotli_rt : forall x, brotli_decompress C (brotli_compress C x) = Some x;
  brotli_ne : forall x, brotli_compress C x <> [];
  zstd_rt : forall x, zstd_decompress C (zstd_compress C x) = Some x;
  zstd_ne : forall x, zstd_compress C x <> []
}.

(* encode / decode without a cache *)
Definition pure_decode (C : codecs) (n err x : bytes) : pres :=
  match custom_decode C n with Some f => f x | None => py_decode C n err x end.
Definition pure_encode (C : codecs) (n err x : bytes) : pres :=
  match custom_encode C n with Some f => f x | None => py_encode C n err x end.

Definition to_res (p : pres) : res :=
  match p with PBytes b => RBytes b | PStr => RStr | PExc => RValueError | PTypeErr => RTypeError end.

Definition supported (n : bytes) : bool :=
  bytes_eqb n s_none || bytes_eqb n s_identity || is_cached_name n.

Definition Inv (C : codecs) (st : cstate) : Prop :=
  match st with
  | None => True
  | Some c => is_cached_name (c_encoding c) = true
              /\ pure_decode C (c_encoding c) (c_errors c) (c_encoded c) = PBytes (c_decoded c)
  end.

Section Cache.
Variable C : codecs.

(* the seven names both dictionaries know *)
Lemma supported_ind (P : bytes -> Prop) :
  P s_none -> P s_identity -> P s_gzip -> P s_deflate -> P s_deflateraw -> P s_br -> P s_zstd ->
  forall n, supported n = true -> P n.
Proof.
  intros H1 H2 H3 H4 H5 H6 H7 n. unfold supported, is_cached_name.
  rewrite !orb_true_iff, !bytes_eqb_eq.
  intros [[-> | ->] | [[[[-> | ->] | ->] | ->] | ->]]; assumption.
Qed.

Lemma cached_supported n : is_cached_name n = true -> supported n = true.
Proof. intros H. unfold supported. rewrite H. apply orb_true_r. Qed.

(* the decoding wrappers shortcut the empty stream, which the compressors never produce *)
Lemma shortcut_skip (e : bytes) (p : pres) x : e <> [] -> p = PBytes x ->
  match e with [] => PBytes [] | _ :: _ => p end = PBytes x.
Proof. intros Hne ->. destruct e; [contradiction | reflexivity]. Qed.

(* For a supported name both dictionaries have an entry, neither looks at errors, and they round-trip. *)
Lemma pure_roundtrip n err err' x : contract C -> supported n = true ->
  exists e, pure_encode C n err x = PBytes e /\ pure_decode C n err' e = PBytes x.
Proof.
  intros K. revert n. apply supported_ind; try (exists x; split; reflexivity).
  - exists (gzip_compress C x). split; [reflexivity |].
    apply shortcut_skip; [apply (gzip_ne C K) | rewrite (gzip_rt C K); reflexivity].
  - exists (zlib_compress C x). split; [reflexivity |].
    apply shortcut_skip; [apply (zlib_ne C K) | rewrite (zlib_rt C K); reflexivity].
  - exists (zlib_compress C x). split; [reflexivity |].
    apply shortcut_skip; [apply (zlib_ne C K) | rewrite (zlib_rt C K); reflexivity].
  - exists (brotli_compress C x). split; [reflexivity |].
    apply shortcut_skip; [apply (brotli_ne C K) | rewrite (brotli_rt C K); reflexivity].
  - exists (zstd_compress C x). split; [reflexivity |].
    apply shortcut_skip; [apply (zstd_ne C K) | rewrite (zstd_rt C K); reflexivity].
Qed.

Lemma pure_decode_errors n err err' x : supported n = true ->
  pure_decode C n err x = pure_decode C n err' x.
Proof. revert n. apply supported_ind; reflexivity. Qed.

Lemma pure_decode_empty n err : supported n = true -> pure_decode C n err [] = PBytes [].
Proof. revert n. apply supported_ind; reflexivity. Qed.

Lemma decode_miss_fst st e n err : fst (decode_miss C st e n err) = to_res (pure_decode C n err e).
Proof. unfold decode_miss, pure_decode. destruct (match custom_decode C n with Some f => f e | None => _ end); reflexivity. Qed.

Lemma encode_miss_fst st d n err : fst (encode_miss C st d n err) = to_res (pure_encode C n err d).
Proof. unfold encode_miss, pure_encode. destruct (match custom_encode C n with Some f => f d | None => _ end); reflexivity. Qed.

Lemma decode_none_fst e n err :
  fst (decode C None (Some e) n err) = to_res (pure_decode C (lower n) err e).
Proof. cbn [decode]. apply decode_miss_fst. Qed.

Lemma encode_none_fst d n err :
  fst (encode C None (Some d) n err) = to_res (pure_encode C (lower n) err d).
Proof. cbn [encode]. apply encode_miss_fst. Qed.

Lemma decode_transparent st e n err : Inv C st ->
  fst (decode C st e n err) = fst (decode C None e n err).
Proof.
  intros I. destruct e as [e |]; [| reflexivity].
  destruct st as [c |]; [| reflexivity].
  rewrite decode_none_fst. cbn [decode].
  destruct (bytes_eqb (c_encoded c) e && bytes_eqb (c_encoding c) (lower n) && bytes_eqb (c_errors c) err) eqn:H.
  - rewrite !andb_true_iff, !bytes_eqb_eq in H. destruct H as [[H1 H2] H3].
    destruct I as [_ I]. rewrite H1, H2, H3 in I. rewrite I. reflexivity.
  - apply decode_miss_fst.
Qed.

(* encode: equal, or (cached coding) two streams that both decode to the input *)
Definition enc_equiv (d n err : bytes) (r1 r2 : res) : Prop :=
  r1 = r2 \/
  (is_cached_name (lower n) = true /\
   exists b1 b2, r1 = RBytes b1 /\ r2 = RBytes b2 /\
                 pure_decode C (lower n) err b1 = PBytes d /\ pure_decode C (lower n) err b2 = PBytes d).

Lemma encode_equiv st d n err : contract C -> Inv C st ->
  enc_equiv d n err (fst (encode C st (Some d) n err)) (fst (encode C None (Some d) n err)).
Proof.
  intros K I. destruct st as [c |]; [| left; reflexivity].
  rewrite encode_none_fst. cbn [encode].
  destruct (bytes_eqb (c_decoded c) d && bytes_eqb (c_encoding c) (lower n) && bytes_eqb (c_errors c) err) eqn:H.
  - rewrite !andb_true_iff, !bytes_eqb_eq in H. destruct H as [[H1 H2] H3].
    destruct I as [Ic I]. rewrite H1, H2, H3 in I. rewrite H2 in Ic.
    destruct (pure_roundtrip (lower n) err err d K (cached_supported _ Ic)) as (e & He & Hd).
    right. split; [exact Ic |]. exists (c_encoded c), e. rewrite He. cbn [fst to_res]. auto.
  - left. apply encode_miss_fst.
Qed.

Lemma encode_supported st v n err : contract C -> Inv C st -> supported (lower n) = true ->
  exists e, fst (encode C st (Some v) n err) = RBytes e /\ pure_decode C (lower n) err e = PBytes v.
Proof.
  intros K I S.
  destruct (pure_roundtrip (lower n) err err v K S) as (e & He & Hd).
  destruct (encode_equiv st v n err K I) as [E | (_ & b1 & b2 & E1 & _ & D1 & _)].
  - exists e. rewrite E, encode_none_fst, He. auto.
  - exists b1. auto.
Qed.

Lemma inv_decode st e n err : Inv C st -> Inv C (snd (decode C st e n err)).
Proof.
  intros I. destruct e as [e |]; [| exact I].
  assert (M : Inv C (snd (decode_miss C st e (lower n) err))).
  { unfold decode_miss.
    destruct (match custom_decode C (lower n) with Some f => f e | None => _ end) eqn:P; try exact I.
    cbn [snd]. destruct (is_cached_name (lower n)) eqn:Cn; [| exact I].
    split; [exact Cn | exact P]. }
  destruct st as [c |]; [| exact M]. cbn [decode].
  destruct (bytes_eqb (c_encoded c) e && bytes_eqb (c_encoding c) (lower n) && bytes_eqb (c_errors c) err); [exact I | exact M].
Qed.

Lemma inv_encode st d n err : contract C -> Inv C st -> Inv C (snd (encode C st d n err)).
Proof.
  intros K I. destruct d as [d |]; [| exact I].
  assert (M : Inv C (snd (encode_miss C st d (lower n) err))).
  { unfold encode_miss.
    destruct (match custom_encode C (lower n) with Some f => f d | None => _ end) eqn:P; try exact I.
    cbn [snd]. destruct (is_cached_name (lower n)) eqn:Cn; [| exact I].
    split; [exact Cn |]. cbn [c_encoding c_errors c_encoded c_decoded].
    destruct (pure_roundtrip (lower n) err err d K (cached_supported _ Cn)) as (e & He & Hd).
    unfold pure_encode in He. rewrite He in P. injection P as P. subst b. exact Hd. }
  destruct st as [c |]; [| exact M]. cbn [encode].
  destruct (bytes_eqb (c_decoded c) d && bytes_eqb (c_encoding c) (lower n) && bytes_eqb (c_errors c) err); [exact I | exact M].
Qed.

End Cache.
