(* Proofs/WsRelay.v -- relay_messages: what is observed of a run (message and control frames sent to a side,
   the frames the recorded messages must produce), what sending does to the layer state, that a crashed layer
   stays as it is, and the receiver: reassembling the expected frames gives each relayed message exactly once.
   The results about a whole run are in Proofs/WsSource.v. *)
From Coq Require Import List Bool Arith NArith.
From MV Require Import Base.Bytes Model.WsUtf8 Model.Websocket Proofs.WsUtf8 Proofs.WsFragment.
Import ListNotations.

Definition is_msg_ev (e : wsevent) : bool :=
  match e with WText _ _ _ | WBytes _ _ _ => true | _ => false end.
Definition is_ctrl_ev (e : wsevent) : bool :=
  match e with WPing _ | WPong _ => true | _ => false end.

(* events of a given kind sent to one side *)
Definition sel (k : wsevent -> bool) (side : bool) (c : cmd) : list wsevent :=
  match c with CSend t e => if Bool.eqb t side && k e then [e] else [] | _ => [] end.
Definition sends (k : wsevent -> bool) (side : bool) (cs : list cmd) : list wsevent := flat_map (sel k side) cs.
Definition msg_sends := sends is_msg_ev.
Definition ctrl_sends := sends is_ctrl_ev.

Definition expected_frames (fs : nat) (m : wsmessage) : list wsevent :=
  if m_dropped m then []
  else match fragmentize fs (m_lens m) (m_text m) (m_content m) with Some es => es | None => [] end.
Definition sel_exp (fs : nat) (side : bool) (m : wsmessage) : list wsevent :=
  if Bool.eqb (m_from_client m) (negb side) then expected_frames fs m else [].
Definition expected_for (fs : nat) (side : bool) (ms : list wsmessage) : list wsevent := flat_map (sel_exp fs side) ms.

Lemma sends_app k side a b : sends k side (a ++ b) = sends k side a ++ sends k side b.
Proof. apply flat_map_app. Qed.

Lemma expected_app fs side a b : expected_for fs side (a ++ b) = expected_for fs side a ++ expected_for fs side b.
Proof. apply flat_map_app. Qed.

Lemma set_ws_messages c x s : messages (set_ws c x s) = messages s.
Proof. destruct c; reflexivity. Qed.
Lemma set_ws_closed c x s : closed (set_ws c x s) = closed s.
Proof. destruct c; reflexivity. Qed.
Lemma set_ws_finished c x s : finished (set_ws c x s) = finished s.
Proof. destruct c; reflexivity. Qed.

Lemma send2_inv t e s s1 cs : send2 t e s = (s1, cs) -> is_crashed s1 = false ->
  is_crashed s = false /\ messages s1 = messages s /\ closed s1 = closed s /\ finished s1 = finished s
  /\ cs = [CSend t e].
Proof.
  unfold send2. destruct (is_crashed s) eqn:C.
  - intros H. injection H as <- <-. congruence.
  - destruct (ws_send (get_ws t s) e) as [c'|]; intros H; injection H as <- <-.
    + intros _. rewrite set_ws_messages, set_ws_closed, set_ws_finished. auto.
    + cbn. discriminate.
Qed.

Lemma send_all_inv t es : forall s s1 cs, send_all t es s = (s1, cs) -> is_crashed s1 = false ->
  is_crashed s = false /\ messages s1 = messages s /\ closed s1 = closed s /\ finished s1 = finished s
  /\ cs = map (CSend t) es.
Proof.
  induction es as [|e es IH]; intros s s1 cs H NC; cbn [send_all] in H.
  - injection H as <- <-. auto.
  - destruct (send2 t e s) as [sa ca] eqn:E1. destruct (send_all t es sa) as [sb cb] eqn:E2.
    injection H as <- <-.
    destruct (IH _ _ _ E2 NC) as (Ca & Ma & Cla & Fa & ->).
    destruct (send2_inv _ _ _ _ _ E1 Ca) as (C0 & M0 & Cl0 & F0 & ->).
    repeat split; try congruence.
Qed.

Lemma sends_map_send k t side es : Forall (fun e => k e = true) es ->
  sends k side (map (CSend t) es) = if Bool.eqb t side then es else [].
Proof.
  induction 1 as [|e es He _ IH]; [destruct (Bool.eqb t side); reflexivity|].
  cbn [map]. unfold sends in *. cbn [flat_map sel]. rewrite IH, He.
  destruct (Bool.eqb t side); reflexivity.
Qed.

Lemma sends_map_none k t side es : Forall (fun e => k e = false) es -> sends k side (map (CSend t) es) = [].
Proof.
  induction 1 as [|e es He _ IH]; [reflexivity|].
  cbn [map]. unfold sends in *. cbn [flat_map sel]. rewrite IH, He, andb_false_r. reflexivity.
Qed.

Lemma fragmentize_msgs fs lens t c es : fragmentize fs lens t c = Some es -> Forall (fun e => is_msg_ev e = true) es.
Proof.
  intros H. apply fragmentize_inv in H as (fr & _ & ->). rewrite Forall_map.
  apply Forall_forall. intros df _. unfold msg. destruct t; reflexivity.
Qed.

Lemma close_one_inv c ev s s1 cs : is_msg_ev ev = false -> is_ctrl_ev ev = false ->
  close_one c ev s = (s1, cs) -> is_crashed s1 = false ->
  is_crashed s = false /\ messages s1 = messages s /\ closed s1 = closed s /\ finished s1 = finished s
  /\ (forall side, msg_sends side cs = []) /\ (forall side, ctrl_sends side cs = []).
Proof.
  intros K1 K2. unfold close_one. destruct (sendable _).
  - destruct (send2 c ev s) as [sa ca] eqn:E. intros H NC. injection H as <- <-.
    destruct (send2_inv _ _ _ _ _ E NC) as (C0 & M0 & Cl0 & F0 & ->).
    repeat split; try assumption; intros side; cbn; rewrite ?K1, ?K2, andb_false_r; reflexivity.
  - intros H NC. injection H as <- <-. repeat split; auto.
Qed.

(* a crashed layer stays as it is, so a run that ends uncrashed was never crashed on the way *)
Lemma process_events_crashed fs addon fc inj : forall evs s, is_crashed s = true ->
  process_events fs addon fc inj s evs = (s, []).
Proof.
  induction evs as [|e evs IH]; intros s C; cbn [process_events]; [reflexivity|].
  unfold process_event at 1. rewrite C, (IH _ C). reflexivity.
Qed.

Lemma process_events_alive fs addon fc inj evs s s1 cs :
  process_events fs addon fc inj s evs = (s1, cs) -> is_crashed s1 = false -> is_crashed s = false.
Proof.
  intros H NC. destruct (is_crashed s) eqn:X; [|reflexivity].
  rewrite (process_events_crashed _ _ _ _ _ _ X) in H. injection H as <- _. congruence.
Qed.

Lemma handle_event_crashed fs addon s e : is_crashed s = true -> handle_event fs addon s e = (s, []).
Proof. intros C. unfold handle_event. rewrite C, orb_true_r. reflexivity. Qed.

Lemma run_crashed fs addon : forall evs s, is_crashed s = true -> run fs addon s evs = (s, []).
Proof.
  induction evs as [|e evs IH]; intros s C; cbn [run]; [reflexivity|].
  rewrite (handle_event_crashed _ _ _ _ C), (IH _ C). reflexivity.
Qed.

Lemma run_alive fs addon evs s s1 cs : run fs addon s evs = (s1, cs) -> is_crashed s1 = false -> is_crashed s = false.
Proof.
  intros H NC. destruct (is_crashed s) eqn:X; [|reflexivity].
  rewrite (run_crashed _ _ _ _ X) in H. injection H as <- _. congruence.
Qed.

Fixpoint reasm (acc : bytes) (es : list wsevent) : list (bool * bytes) :=
  match es with
  | [] => []
  | WText d _ mf :: r => if mf then (true, acc ++ encode d) :: reasm [] r else reasm (acc ++ encode d) r
  | WBytes d _ mf :: r => if mf then (false, acc ++ d) :: reasm [] r else reasm (acc ++ d) r
  | _ :: r => reasm acc r
  end.

Lemma reasm_frags t fr : wf_frags fr -> forall acc rest,
  reasm acc (map (fun df => msg t (fst df) (snd df)) fr ++ rest)
  = (t, acc ++ concat (map (fun df => payload_as_sent t (fst df)) fr)) :: reasm [] rest.
Proof.
  induction 1 as [d|d r _ IH]; intros acc rest.
  - cbn. unfold msg, payload_as_sent. destruct t; cbn; rewrite app_nil_r; reflexivity.
  - cbn [map app fst snd concat]. unfold msg at 1. unfold payload_as_sent at 1.
    destruct t; cbn [reasm]; rewrite IH, app_assoc; reflexivity.
Qed.

(* a recorded message whose fragments carry exactly its content *)
Definition exact_msg (fs : nat) (m : wsmessage) : Prop :=
  forall fr, fragments fs (m_lens m) (m_content m) = Some fr ->
  concat (map (fun df => payload_as_sent (m_text m) (fst df)) fr) = m_content m.

Lemma exact_msg_binary fs m : m_text m = false -> exact_msg fs m.
Proof. intros T fr Hf. rewrite T. rewrite <- (fragments_concat _ _ _ _ Hf). reflexivity. Qed.

Lemma exact_msg_text_valid fs m :
  (forall fr, fragments fs (m_lens m) (m_content m) = Some fr -> Forall (fun df => utf8_valid (fst df) = true) fr) ->
  exact_msg fs m.
Proof.
  intros V fr Hf. rewrite <- (fragments_concat _ _ _ _ Hf). f_equal.
  apply map_ext_in. intros df Hin. specialize (V _ Hf). rewrite Forall_forall in V.
  unfold payload_as_sent. destruct (m_text m); [apply enc_dec_valid, V, Hin|reflexivity].
Qed.

Lemma exact_msg_text_boundaries fs m : utf8_valid (m_content m) = true ->
  (forall fr, fragments fs (m_lens m) (m_content m) = Some fr -> Forall (fun df => starts_ok (fst df) = true) fr) ->
  exact_msg fs m.
Proof.
  intros V S. apply exact_msg_text_valid. intros fr Hf. exact (boundaries_valid _ _ _ _ Hf V (S _ Hf)).
Qed.

Definition relayed (side : bool) (m : wsmessage) : bool :=
  Bool.eqb (m_from_client m) (negb side) && negb (m_dropped m).

Lemma reasm_expected fs side : 0 < fs -> forall ms, Forall (exact_msg fs) ms ->
  reasm [] (expected_for fs side ms) = map (fun m => (m_text m, m_content m)) (filter (relayed side) ms).
Proof.
  intros Hfs. induction 1 as [|m ms Hm _ IH]; [reflexivity|].
  unfold expected_for in *. cbn [flat_map filter]. unfold sel_exp at 1, relayed at 1, expected_frames.
  destruct (Bool.eqb (m_from_client m) (negb side)); cbn [andb app]; [|exact IH].
  destruct (m_dropped m); cbn [negb app]; [exact IH|].
  destruct (fragments_total fs (m_lens m) (m_content m) Hfs) as [fr Hf].
  unfold fragmentize. rewrite Hf. cbn [option_map map].
  rewrite (reasm_frags _ _ (proj2 (fragments_partition _ _ _ _ Hf))), IH. cbn [app]. rewrite (Hm _ Hf). reflexivity.
Qed.

