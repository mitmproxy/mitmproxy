(* Proofs/QuicDemuxInv.v -- the structural invariant of the RawQuicLayer model: maps <-> layers,
   equal class of paired ids, freshness of allocated ids, every command well targeted.  It reads a
   state only through [has_id], so one lemma covers every way a layer acquires an id. *)
From Coq Require Import NArith Arith List Bool Lia.
From MV Require Import Base.Bytes Model.QuicIdsPrelude Gen.QuicIds Model.QuicDemux Proofs.QuicIds Proofs.QuicDemuxCore.
Import ListNotations.
Open Scope N_scope.

Lemma dict_get_set k k' v d : dict_get k' (dict_set k v d) = if k' =? k then Some v else dict_get k' d.
Proof.
  induction d as [|[k2 v2] t IH]; cbn; [reflexivity|].
  destruct (k =? k2) eqn:E; cbn.
  - apply N.eqb_eq in E. subst k2. destruct (k' =? k); reflexivity.
  - rewrite IH. destruct (k' =? k2) eqn:E2; [|reflexivity].
    apply N.eqb_eq in E2. subst k2. rewrite N.eqb_sym, E. reflexivity.
Qed.

Section Inv.
Variable C : Type.
Notation state := (state C).
Notation has_id := (has_id C).

Definition target (st : state) (o : out) : Prop :=
  match o with
  | OSend L to id _ _ | OReset L to id _ | OStop L to id _ => has_id st L to id
  | OPass L _ => (L < length (layers st))%nat
  | OCloseConn _ _ => True
  end.
(* the ids mitmproxy allocates itself: server-initiated on the client connection, client-initiated on the server's *)
Definition ours (s : side) (id : N) : Prop := id mod 2 = match s with Cl => 1 | Sv => 0 end.

Record IdsOk (st : state) : Prop := {
  inv_cnt : counters_ok (next_ids st);
  inv_map : forall s k L, dict_get k (match s with Cl => client_ids st | Sv => server_ids st end) = Some L <-> has_id st L s k;
  inv_class : forall L c sv, has_id st L Cl c -> has_id st L Sv sv -> sv mod 4 = c mod 4;
  inv_fresh : forall L s id, has_id st L s id -> ours s id -> id < counter (next_ids st) (id mod 4);
  inv_outs : Forall (target st) (outs st) }.
(* a layer without server id belongs to a stream the client opened *)
Definition ClientOpened (st : state) : Prop := forall L c, has_id st L Cl c -> (forall sv, ~ has_id st L Sv sv) -> c mod 2 = 0.
Definition Inv (st : state) : Prop := IdsOk st /\ ClientOpened st.

Lemma has_id_lt st L s id : has_id st L s id -> (L < length (layers st))%nat.
Proof. intros (l & H & _). apply nth_error_Some. congruence. Qed.
Lemma has_id_fun st L s a b : has_id st L s a -> has_id st L s b -> a = b.
Proof. intros (l & E & A) (l' & E' & B). congruence. Qed.

Lemma Inv_push st o : Inv st -> target st o -> Inv (push C o st).
Proof. intros [[] N] T. split; [constructor; auto; constructor; auto | exact N]. Qed.

(* a state that differs only where the invariant does not look *)
Lemma Inv_ext st st' : (forall L s id, has_id st' L s id <-> has_id st L s id) ->
  length (layers st') = length (layers st) -> client_ids st' = client_ids st -> server_ids st' = server_ids st ->
  next_ids st' = next_ids st -> outs st' = outs st -> Inv st -> Inv st'.
Proof.
  intros Hh Hl Ec Es En Eo [[Hc Hm Hcl Hf Ho] Hn]. split; [constructor|].
  - rewrite En. exact Hc.
  - intros s k L. rewrite Ec, Es, Hh. apply Hm.
  - intros L c sv. rewrite !Hh. apply Hcl.
  - intros L s id. rewrite Hh, En. apply Hf.
  - rewrite Eo. eapply Forall_impl; [|exact Ho]. intros o T. destruct o; cbn in *; rewrite ?Hh, ?Hl; exact T.
  - intros L c H1 H2. rewrite Hh in H1. apply (Hn L c H1). intros sv H. apply (H2 sv), Hh, H.
Qed.

Lemma Inv_upd L f st : keeps_ids C f -> Inv st -> Inv (upd_layer C L f st).
Proof. intros K. apply Inv_ext; try reflexivity; [intros; apply has_id_upd, K | apply length_upd]. Qed.

Lemma Inv_fail e st : Inv st -> Inv (fail C e st).
Proof. apply Inv_ext; reflexivity. Qed.
Lemma Inv_roots c s d st : Inv st -> Inv (with_roots C c s d st).
Proof. apply Inv_ext; reflexivity. Qed.

Lemma counter_mono nx c u id nx' j : counters_ok nx -> get_next_available_stream_id nx c u = Some (id, nx') ->
  counter nx j <= counter nx' j.
Proof.
  intros Hok Hg. destruct (alloc_inv nx c u id nx' Hok Hg) as (_ & Hid & _ & Hb & Ho).
  destruct (N.eq_dec j (class_of c u)) as [->|Hn]; [rewrite Hb, Hid; lia | rewrite Ho; auto; lia].
Qed.

Lemma IdsOk_bump st c u id nx' : IdsOk st ->
  get_next_available_stream_id (next_ids st) c u = Some (id, nx') -> IdsOk (with_next C nx' st).
Proof.
  intros [] Hg. destruct (alloc_inv _ c u id nx' inv_cnt0 Hg) as (Hok' & _).
  constructor; auto.
  intros L s i H O. eapply N.lt_le_trans; [eapply inv_fresh0; eauto | eapply counter_mono; eauto].
Qed.

(* layer L acquires the id k on side s (a new layer with its client id, or the server id of an existing one),
   and k is entered in the map of that side *)
Lemma IdsOk_bind st st' L s k : IdsOk st ->
  (forall L' s' id, has_id st' L' s' id <-> has_id st L' s' id \/ (L' = L /\ s' = s /\ id = k)) ->
  (length (layers st) <= length (layers st'))%nat ->
  client_ids st' = match s with Cl => dict_set k L (client_ids st) | Sv => client_ids st end ->
  server_ids st' = match s with Cl => server_ids st | Sv => dict_set k L (server_ids st) end ->
  next_ids st' = next_ids st -> outs st' = outs st ->
  (forall L', ~ has_id st L' s k) ->
  (forall x, has_id st L (other s) x -> k mod 4 = x mod 4) ->
  (ours s k -> k < counter (next_ids st) (k mod 4)) ->
  IdsOk st'.
Proof.
  intros [Hc Hm Hcl Hf Ho] Hch Hlen Ec Es En Eo Hnew Hclass Hk. constructor.
  - rewrite En. exact Hc.
  - intros s' k' L'. rewrite Hch, Ec, Es.
    assert (Same : dict_get k' (dict_set k L (match s with Cl => client_ids st | Sv => server_ids st end)) = Some L' <->
                   has_id st L' s k' \/ L' = L /\ s = s /\ k' = k).
    { rewrite dict_get_set. destruct (k' =? k) eqn:E.
      - apply N.eqb_eq in E. subst k'. split; [intros [= <-]; auto|].
        intros [H|(-> & _)]; [destruct (Hnew _ H) | reflexivity].
      - rewrite Hm. split; [auto|]. intros [H|(_ & _ & ->)]; [exact H | rewrite N.eqb_refl in E; discriminate]. }
    pose proof (Hm s' k' L') as M. destruct s', s; try exact Same; rewrite M; (split; [auto | intros [H|(_ & X & _)]; [exact H | discriminate]]).
  - intros L' c sv H1 H2. apply Hch in H1, H2.
    destruct H1 as [H1|(E1 & S1 & K1)], H2 as [H2|(E2 & S2 & K2)]; subst; try congruence.
    + eapply Hcl; eauto.
    + apply (Hclass c H1).
    + symmetry. apply (Hclass sv H2).
  - intros L' s' id H O. rewrite En. apply Hch in H. destruct H as [H|(-> & -> & ->)]; [eapply Hf; eauto | auto].
  - rewrite Eo. eapply Forall_impl; [|exact Ho].
    intros o T. destruct o; cbn in *; try (apply Hch; auto); [lia | exact T].
Qed.

End Inv.
