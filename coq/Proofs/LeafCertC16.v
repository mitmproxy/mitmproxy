(* Proofs/LeafCertC16.v -- proofs for C16 about Model/LeafCert.v (the code) and
   Model/LeafCertSpec.v (what a strict verifier accepts). *)
From Coq Require Import String.
From Coq Require Import List Bool Arith NArith ZArith Lia.
From MV Require Import Base.Bytes Model.LeafCert Model.LeafCertSpec Gen.LeafCertConst Proofs.EqbIff.
Import ListNotations.

Lemma gname_eqb_eq (a b : gname) : gname_eqb a b = true <-> a = b.
Proof.
  destruct a as [x|[n|n s]|k x], b as [y|[m|m t]|j y]; simpl;
    rewrite ?andb_true_iff, ?N.eqb_eq, ?bytes_eqb_eq, ?(option_eqb_eq _ bytes_eqb_eq); intuition congruence.
Qed.

Lemma dedup_aux_in seen l x :
  In x (dedup_aux seen l) <-> In x l /\ existsb (gname_eqb x) seen = false.
Proof.
  revert seen; induction l as [|y l IH]; intros seen; simpl; [tauto|].
  destruct (existsb (gname_eqb y) seen) eqn:E; simpl; rewrite IH.
  - split; [tauto | intros [[->|H] F]; [congruence | auto]].
  - simpl. rewrite orb_false_iff. split; [intros [->|H]; tauto|].
    intros [[->|H] F]; [auto|]. destruct (gname_eqb x y) eqn:G; [apply gname_eqb_eq in G; auto | auto].
Qed.

Lemma dedup_in l x : In x (dedup l) <-> In x l.
Proof. unfold dedup. rewrite dedup_aux_in. simpl. tauto. Qed.

Lemma dedup_nonempty l : l <> [] -> dedup l <> [].
Proof.
  destruct l as [|y l]; [congruence|]. intros _. unfold dedup. simpl. discriminate.
Qed.

Lemma equal_plain_refl h : has_nul h = false -> equal_plain h h = true.
Proof. intros H. unfold equal_plain. rewrite H. simpl. apply bytes_eqb_refl. Qed.

Lemma skip_prefix_same h : skip_prefix h h = h.
Proof.
  unfold skip_prefix. destruct ((1 <? length h)%nat && bytes_eqb (firstn 1 h) [x2e]); [|reflexivity].
  rewrite Nat.sub_diag. reflexivity.
Qed.

Lemma equal_nocase_refl h : has_nul h = false -> equal_nocase h h = true.
Proof. intros H. unfold equal_nocase. rewrite skip_prefix_same. apply equal_plain_refl; exact H. Qed.

(* past the first character the recorded star never changes: a second star is refused, and so is a first
   one behind a dot, the only place where a label starts again *)
Lemma star_fixed p : forall i s s',
  is_some (st_star s) = true \/ (st_start s = true -> (0 <? st_dots s)%N = true) ->
  valid_star_loop i p s = Some s' -> st_star s' = st_star s.
Proof.
  induction p as [|c r IH]; intros i s s' Hs H; simpl in H; [inversion H; reflexivity|].
  destruct (byte_eqb c x2a).
  - exfalso. destruct (is_some (st_star s)); [discriminate|]. destruct Hs as [Hs|Hs]; [discriminate|].
    simpl in H. destruct (st_idna s); [discriminate|]. simpl in H.
    destruct (0 <? st_dots s)%N; [discriminate|].
    destruct (st_start s); [specialize (Hs eq_refl) | simpl in H]; discriminate.
  - destruct (is_alpha c || is_digit c); [apply IH in H; [exact H | right; discriminate]|].
    destruct (byte_eqb c x2e).
    + destruct (st_hyphen s || st_start s); [discriminate|].
      apply IH in H; [exact H | right; intros _; apply N.ltb_lt; simpl; lia].
    + destruct (byte_eqb c x2d); [|discriminate]. destruct (st_start s); [discriminate|].
      apply IH in H; [exact H | right; discriminate].
Qed.

Lemma valid_star_first p i : valid_star p = Some i -> i = O /\ exists r, p = x2a :: r.
Proof.
  unfold valid_star. destruct p as [|c r]; [discriminate|].
  destruct (valid_star_loop 0 (c :: r) _) as [s'|] eqn:E; [|discriminate].
  destruct (st_start s' || st_hyphen s' || (st_dots s' <? 2)%N); [discriminate|]. intros Hs.
  simpl in E. destruct (byte_eqb c x2a) eqn:Ec.
  - apply byte_eqb_eq in Ec. subst c. simpl in E.
    destruct (negb match r with [] => true | d :: _ => byte_eqb d x2e end); [discriminate|].
    apply star_fixed in E; [|left; reflexivity]. rewrite E in Hs. injection Hs as <-. eauto.
  - (* any other first character leaves no star recorded *)
    assert (H : st_star s' = None); [|congruence].
    destruct (is_alpha c || is_digit c); [apply star_fixed in E; [exact E | right; discriminate]|].
    destruct (byte_eqb c x2e); [discriminate|]. destruct (byte_eqb c x2d); discriminate.
Qed.

(* "*" ++ r matches itself: the star stands for the one label "*" *)
Lemma wildcard_match_star r : has_nul r = false -> wildcard_match [] r (x2a :: r) = true.
Proof.
  intros Hr. unfold wildcard_match. cbn [length firstn skipn Nat.add].
  replace (S (length r) - length r - 0)%nat with 1%nat by lia.
  replace (S (length r) - length r)%nat with 1%nat by lia.
  rewrite (proj2 (Nat.ltb_ge _ _) (Nat.le_succ_diag_r _)). cbn [skipn firstn].
  rewrite (equal_plain_refl r Hr). change (starts_nocase ACE (x2a :: r)) with false.
  rewrite !andb_false_r. reflexivity.
Qed.

Lemma equal_wildcard_refl h : has_nul h = false -> equal_wildcard h h = true.
Proof.
  intros Hn. unfold equal_wildcard.
  destruct (if (1 <? length h)%nat && bytes_eqb (firstn 1 h) [x2e] then None else valid_star h) as [i|] eqn:E;
    [|apply equal_nocase_refl; exact Hn].
  destruct ((1 <? length h)%nat && bytes_eqb (firstn 1 h) [x2e]); [discriminate|].
  apply valid_star_first in E as [-> [r ->]]. apply wildcard_match_star. exact Hn.
Qed.

Section Code.
Variable idna : bytes -> option bytes.
Variables off exp : Z.
Variable guard : bool.
Variable crit : bool.

Notation conv := (ip_or_dns_name idna).

(* identities the certificate may name: the requested one, the server address, the upstream CN and SANs *)
Definition allowed (r : req) (g : gname) : Prop :=
  conv (requested r) = Ok g
  \/ (exists a, r_addr r = Some a /\ conv a = Ok g)
  \/ (exists u, r_upstream_opt r = true /\ r_upstream r = Some u /\
        ((exists cn, opt_truthy (u_cn u) = Some cn /\ conv cn = Ok g) \/ In g (u_sans u))).

Lemma upstream_part_names serial u alt org crl :
  upstream_part idna guard serial u = Ok (alt, org, crl) ->
  (forall g, In g alt -> (exists cn, opt_truthy (u_cn u) = Some cn /\ conv cn = Ok g) \/ In g (u_sans u))
  /\ org = opt_truthy (u_org u).
Proof.
  unfold upstream_part. destruct (opt_truthy (u_cn u)) as [cn|] eqn:Ecn; simpl.
  - destruct (conv cn) as [g0|e] eqn:Eg; simpl.
    + intros H; inversion H; subst. split; [|reflexivity].
      intros g [Hg|Hg]; [left; exists cn; subst; auto | right; exact Hg].
    + destruct guard; simpl; [|discriminate].
      intros H; inversion H; subst. split; [|reflexivity]. intros g Hg; right; exact Hg.
  - intros H; inversion H; subst. split; [|reflexivity]. intros g Hg; right; exact Hg.
Qed.

Lemma get_cert_names_spec serial r n :
  get_cert_names idna guard serial r = Ok n ->
  (forall g, In g (n_alt n) -> allowed r g)
  /\ (exists g1, conv (requested r) = Ok g1 /\ In g1 (n_alt n))
  /\ n_cn n = match n_alt n with x :: _ => Some (str_value x) | [] => None end
  /\ n_alt n <> []
  /\ n_org n <> Some [].
Proof.
  unfold get_cert_names.
  destruct (match r_upstream_opt r, r_upstream r with
            | true, Some u => upstream_part idna guard serial u
            | _, _ => Ok ([], None, None) end) as [[[alt0 org] crl]|e] eqn:Eup; simpl; [|discriminate].
  destruct (conv (requested r)) as [g1|e] eqn:E1; simpl; [|discriminate].
  assert (Hup : (forall g, In g alt0 -> exists u, r_upstream_opt r = true /\ r_upstream r = Some u /\
                  ((exists cn, opt_truthy (u_cn u) = Some cn /\ conv cn = Ok g) \/ In g (u_sans u)))
                /\ org <> Some []).
  { destruct (r_upstream_opt r) eqn:Eo; [destruct (r_upstream r) as [u|] eqn:Eu|].
    - apply upstream_part_names in Eup as [Ha Ho]. split.
      + intros g Hg. exists u. auto.
      + subst org. unfold opt_truthy. destruct (u_org u) as [[|c o]|]; simpl; congruence.
    - inversion Eup; subst. split; [intros g []|discriminate].
    - inversion Eup; subst. split; [intros g []|discriminate]. }
  destruct Hup as [Hup Horg].
  destruct (match r_addr r with Some a => bind (conv a) (fun g => Ok [g]) | None => Ok [] end) as [alt2|e] eqn:E2;
    simpl; [|discriminate].
  assert (Haddr : forall g, In g alt2 -> exists a, r_addr r = Some a /\ conv a = Ok g).
  { destruct (r_addr r) as [a|]; [destruct (conv a) as [g2|e] eqn:Ea; [|discriminate]|];
      inversion E2; subst; [intros g [<-|[]]; eauto | intros g []]. }
  intros H; inversion H; subst; clear H. cbn [n_alt n_cn n_org].
  repeat split.
  - intros g Hg. apply (proj1 (dedup_in _ _)) in Hg. apply in_app_or in Hg as [Hg|[Hg|Hg]].
    + right; right. apply Hup; exact Hg.
    + left. subst g; exact E1.
    + right; left. apply Haddr; exact Hg.
  - exists g1. split; [reflexivity|]. apply dedup_in. apply in_or_app. right. left. reflexivity.
  - apply dedup_nonempty. destruct alt0; discriminate.
  - exact Horg.
Qed.

(* dummy_cert's local valid_cn: a common name is set and shorter than 64 characters *)
Definition valid_cn (n : names) : bool :=
  match n_cn n with Some c => (str_len c <? 64)%N | None => false end.

Record made_from (issuer : ca) (now : Z) (n : names) (c : cert) : Prop := {
  mf_issuer : c_issuer c = ca_subject issuer;
  mf_signer : c_signer c = ca_key issuer;
  mf_sans : c_sans c = map wire_gname (n_alt n);
  mf_cn : c_cn c = (if valid_cn n then n_cn n else None);
  mf_crit : c_san_critical c = negb (if crit then valid_cn n || is_some (n_org n) else valid_cn n);
  mf_eku : c_eku c = [EKU_SERVER_AUTH];
  mf_nb : c_nb c = (now + off)%Z;
  mf_na : c_na c = (now + off + exp)%Z;
  mf_aki : c_aki c = (match ca_ski issuer with Some s => s | None => ca_key_sha1 issuer end);
  mf_org : c_org c = n_org n }.

(* dummy_cert refuses an empty common name, an empty organization and a non-ASCII CRL URL (the cryptography
   library raises ValueError); otherwise the certificate is determined by the names *)
Lemma dummy_cert_spec issuer now n :
  match dummy_cert off exp crit issuer now n with
  | Ok c => made_from issuer now n c
  | Err _ => n_cn n = Some [] \/ n_org n = Some [] \/ exists u, n_crl n = Some u /\ is_ascii u = false
  end.
Proof.
  unfold dummy_cert, valid_cn.
  destruct (n_cn n) as [[|b c0]|] eqn:Ecn; [simpl; left; reflexivity | rewrite andb_false_r | ]; simpl.
  all: destruct (n_org n) as [[|b' o]|] eqn:Eorg; simpl; [right; left; reflexivity | | ].
  all: destruct (n_crl n) as [u|]; [destruct (is_ascii u) eqn:Ea; [rewrite andb_false_r | destruct (truthy u)] | ]; simpl.
  all: try (right; right; exists u; split; [reflexivity | exact Ea]).
  all: constructor; unfold valid_cn; rewrite ?Ecn, ?Eorg; reflexivity.
Qed.

Lemma dummy_cert_fields issuer now n c :
  dummy_cert off exp crit issuer now n = Ok c -> made_from issuer now n c.
Proof. intros H. generalize (dummy_cert_spec issuer now n). rewrite H. auto. Qed.

Lemma dummy_cert_total issuer now n :
  n_cn n <> Some [] -> n_org n <> Some [] ->
  (forall u, n_crl n = Some u -> is_ascii u = true) ->
  exists c, dummy_cert off exp crit issuer now n = Ok c.
Proof.
  intros Hcn Horg Hcrl. generalize (dummy_cert_spec issuer now n).
  destruct (dummy_cert off exp crit issuer now n) as [c|e]; [eauto|].
  intros [H|[H|[u [H Ha]]]]; [contradiction | contradiction | rewrite (Hcrl u H) in Ha; discriminate].
Qed.

(* issue = get_cert_names then dummy_cert (the fresh store has no entry) *)
Lemma issue_spec issuer serial now r c :
  issue idna off exp guard crit issuer serial now r = Ok c ->
  exists n, get_cert_names idna guard serial r = Ok n /\ made_from issuer now n c.
Proof.
  unfold issue, issue_on. destruct (get_cert_names idna guard serial r) as [n|e]; simpl; [|discriminate].
  unfold store_get_cert. simpl. destruct (dummy_cert off exp crit issuer now n) as [c0|e] eqn:Ed; simpl; [|discriminate].
  intros [= <-]. exists n. split; [reflexivity | apply dummy_cert_fields, Ed].
Qed.

Definition target_of (g : gname) : target :=
  match g with GDNS h => THost h | GIP a => TIP (packed a) | GOther _ _ => THost [] end.
Definition target_clean (g : gname) : bool :=
  match g with GDNS h => negb (has_nul h) | _ => true end.

Lemma conv_not_other s g : conv s = Ok g -> match g with GOther _ _ => False | _ => True end.
Proof.
  unfold ip_or_dns_name. destruct (ip_address s); [intros H; inversion H; exact I|].
  destruct (idna_encode idna s) as [a|]; [|discriminate].
  destruct (is_ascii a); [intros H; inversion H; exact I | discriminate].
Qed.

Lemma name_match_member cs c g :
  In (wire_gname g) (c_sans c) -> match g with GOther _ _ => False | _ => True end ->
  target_clean g = true -> name_match cs c (target_of g) = true.
Proof.
  intros Hin Hk Hc. destruct g as [h|a|k x]; [| |contradiction]; simpl in *.
  - apply negb_true_iff in Hc. unfold host_match. rewrite Hc.
    assert (E : existsb (fun p => equal_wildcard p h) (dns_names (c_sans c)) = true).
    { apply existsb_exists. exists h. split; [|apply equal_wildcard_refl; exact Hc].
      unfold dns_names. apply in_flat_map. exists (GDNS h). split; [exact Hin | left; reflexivity]. }
    rewrite E. reflexivity.
  - unfold ip_match. apply existsb_exists. exists (packed a). split; [|apply bytes_eqb_refl].
    unfold ip_names. apply in_flat_map. exists (wire_gname (GIP a)). split; [exact Hin|].
    destruct a; left; reflexivity.
Qed.

(* the strict rule: an empty subject comes with a critical SAN, in both forms of the criticality expression *)
Lemma subject_or_critical issuer now n c : made_from issuer now n c -> has_subject c || c_san_critical c = true.
Proof.
  intros M. unfold has_subject. rewrite (mf_cn _ _ _ _ M), (mf_crit _ _ _ _ M), (mf_org _ _ _ _ M). unfold valid_cn.
  destruct (n_cn n) as [v|]; [destruct (str_len v <? 64)%N; [reflexivity|]|];
    destruct crit; destruct (n_org n); reflexivity.
Qed.

Theorem verifies issuer serial now tz r c cs g :
  issue idna off exp guard crit issuer serial (now + tz) r = Ok c ->
  (off + tz <= 0)%Z -> (0 <= off + exp + tz)%Z ->
  ca_ok issuer now = true ->
  conv (requested r) = Ok g -> target_clean g = true ->
  x509_ok cs issuer c now (target_of g) = true.
Proof.
  intros Hi Hlo Hhi Hca Hg Hclean.
  apply issue_spec in Hi as [n [Hn M]].
  apply get_cert_names_spec in Hn as [_ [[g1 [Hg1 Hin]] [Hcn [Hne _]]]].
  rewrite Hg in Hg1. inversion Hg1; subst g1.
  pose proof M as [Hiss Hsig Hsans Hccn Hcrit Heku Hnb Hna Haki Horg].
  unfold x509_ok. rewrite !andb_true_iff. repeat split.
  - rewrite Hiss. apply N.eqb_refl.
  - rewrite Hsig. apply N.eqb_refl.
  - unfold akid_ok. rewrite Haki. destruct (ca_ski issuer); [apply bytes_eqb_refl | reflexivity].
  - exact Hca.
  - unfold zle3. rewrite Hnb, Hna. apply andb_true_iff. split; apply Z.leb_le; lia.
  - rewrite Heku. reflexivity.
  - rewrite Hsans. destruct (n_alt n); [congruence | reflexivity].
  - apply (subject_or_critical _ _ _ _ M).
  - apply name_match_member; [| eapply conv_not_other; exact Hg | exact Hclean].
    rewrite Hsans. apply in_map. exact Hin.
Qed.

(* the certificate names only identities taken from the request and the upstream certificate; so does any
   store whose entries were made by dummy_cert for their key (cache hits included) *)
Definition store_wf (st : store) : Prop :=
  forall k c, In (k, c) st ->
    c_sans c = map wire_gname (snd k)
    /\ (forall v, c_cn c = Some v -> fst k = Some v).

Lemma key_eqb_eq a b : key_eqb a b = true <-> a = b.
Proof.
  destruct a, b. unfold key_eqb. simpl.
  rewrite andb_true_iff, (option_eqb_eq _ bytes_eqb_eq), (list_eqb_eq _ gname_eqb_eq). intuition congruence.
Qed.

Lemma store_get_in k st c : store_get k st = Some c -> In (k, c) st.
Proof.
  induction st as [|[k' c'] st IH]; simpl; [discriminate|].
  destruct (key_eqb k' k) eqn:E.
  - intros H; inversion H; subst. apply key_eqb_eq in E. subst. left; reflexivity.
  - intros H. right. apply IH; exact H.
Qed.

Theorem served_from_any_store issuer serial now st r st' c :
  store_wf st ->
  issue_on idna off exp guard crit issuer serial now st r = Ok (st', c) ->
  store_wf st'
  /\ (forall g, In g (c_sans c) -> exists g0, g = wire_gname g0 /\ allowed r g0)
  /\ (forall v, c_cn c = Some v -> exists g0, In (wire_gname g0) (c_sans c) /\ allowed r g0 /\ v = str_value g0).
Proof.
  intros Hwf. unfold issue_on.
  destruct (get_cert_names idna guard serial r) as [n|e] eqn:En; simpl; [|discriminate].
  pose proof (get_cert_names_spec serial r n En) as [Hall [_ [Hcn _]]].
  unfold store_get_cert.
  assert (Hserve : forall c0, c_sans c0 = map wire_gname (n_alt n) -> (forall v, c_cn c0 = Some v -> n_cn n = Some v) ->
            (forall g, In g (c_sans c0) -> exists g0, g = wire_gname g0 /\ allowed r g0)
            /\ (forall v, c_cn c0 = Some v -> exists g0, In (wire_gname g0) (c_sans c0) /\ allowed r g0 /\ v = str_value g0)).
  { intros c0 Hs Hc. split.
    - intros g Hg. rewrite Hs in Hg. apply in_map_iff in Hg as [g0 [E Hin]].
      exists g0. split; [symmetry; exact E | apply Hall; exact Hin].
    - intros v Hv. apply Hc in Hv. rewrite Hcn in Hv. destruct (n_alt n) as [|x l] eqn:El; [discriminate|].
      inversion Hv; subst v. exists x. repeat split.
      + rewrite Hs. apply in_map. left; reflexivity.
      + apply Hall. left; reflexivity. }
  destruct (store_get (n_cn n, n_alt n) st) as [c0|] eqn:Eg.
  - intros H; inversion H; subst; clear H. split; [exact Hwf|].
    apply store_get_in in Eg. destruct (Hwf _ _ Eg) as [Hs Hc]. apply Hserve; assumption.
  - destruct (dummy_cert off exp crit issuer now n) as [c0|e] eqn:Ed; simpl; [|discriminate].
    intros H; inversion H; subst; clear H.
    apply dummy_cert_fields in Ed as [_ _ Hsans Hccn _ _ _ _ _ _].
    assert (Hc : forall v, c_cn c = Some v -> n_cn n = Some v).
    { intros v Hv. rewrite Hccn in Hv. destruct (valid_cn n); [exact Hv | discriminate]. }
    split; [|apply Hserve; assumption].
    intros k c1 Hin. apply in_app_or in Hin as [Hin|[Hin|[]]]; [apply Hwf; exact Hin|].
    inversion Hin; subst. split; assumption.
Qed.

(* issued by the CA, for server authentication, critical SAN when the subject is empty, AKI = issuer SKI *)
Theorem issued_by_ca issuer serial now r c :
  issue idna off exp guard crit issuer serial now r = Ok c ->
  c_issuer c = ca_subject issuer /\ c_signer c = ca_key issuer
  /\ In EKU_SERVER_AUTH (c_eku c)
  /\ c_sans c <> []
  /\ (has_subject c = false -> c_san_critical c = true)
  /\ (forall s, ca_ski issuer = Some s -> c_aki c = s)
  /\ c_nb c = (now + off)%Z /\ c_na c = (now + off + exp)%Z.
Proof.
  intros Hi. apply issue_spec in Hi as [n [Hn M]].
  apply get_cert_names_spec in Hn as [_ [_ [_ [Hne _]]]].
  pose proof M as [Hiss Hsig Hsans Hccn Hcrit Heku Hnb Hna Haki Horg].
  repeat split; try assumption.
  - rewrite Heku. left; reflexivity.
  - rewrite Hsans. destruct (n_alt n); [congruence | discriminate].
  - intros Hs. pose proof (subject_or_critical _ _ _ _ M) as H. rewrite Hs in H. exact H.
  - intros s Hs. rewrite Haki, Hs. reflexivity.
Qed.

(* RFC 5280 4.2.1.6 both ways -- the SAN is critical exactly when the subject is empty (repaired form) *)
Theorem san_criticality issuer serial now r c :
  crit = true ->
  issue idna off exp guard crit issuer serial now r = Ok c ->
  c_san_critical c = negb (has_subject c).
Proof.
  intros Hc Hi. apply issue_spec in Hi as [n [_ M]].
  unfold has_subject. rewrite (mf_cn _ _ _ _ M), (mf_crit _ _ _ _ M), (mf_org _ _ _ _ M), Hc. unfold valid_cn.
  destruct (n_cn n) as [v|]; [destruct (str_len v <? 64)%N|]; destruct (n_org n); reflexivity.
Qed.

Definition encodable (s : bytes) : Prop := exists g, conv s = Ok g.

Definition upstream_cn_ok (r : req) : Prop :=
  forall u cn, r_upstream_opt r = true -> r_upstream r = Some u -> opt_truthy (u_cn u) = Some cn -> encodable cn.

Lemma names_total serial r :
  encodable (requested r) -> (forall a, r_addr r = Some a -> encodable a) ->
  (guard = true \/ upstream_cn_ok r) ->
  exists n, get_cert_names idna guard serial r = Ok n.
Proof.
  intros [g1 H1] Ha Hup. unfold get_cert_names.
  assert (E : exists x, match r_upstream_opt r, r_upstream r with
                        | true, Some u => upstream_part idna guard serial u
                        | _, _ => Ok ([], None, None) end = Ok x).
  { destruct (r_upstream_opt r) eqn:Eo; [|eexists; reflexivity].
    destruct (r_upstream r) as [u|] eqn:Eu; [|eexists; reflexivity].
    unfold upstream_part. destruct (opt_truthy (u_cn u)) as [cn|] eqn:Ecn; simpl; [|eexists; reflexivity].
    destruct (conv cn) as [g|e] eqn:Eg; simpl; [eexists; reflexivity|].
    destruct Hup as [->|Hup]; [simpl; eexists; reflexivity|].
    destruct (Hup u cn Eo Eu Ecn) as [g Hg]. congruence. }
  destruct E as [[[alt0 org] crl] E]. rewrite E. simpl. rewrite H1. simpl.
  destruct (r_addr r) as [a|]; simpl; [|eexists; reflexivity].
  destruct (Ha a eq_refl) as [g2 H2]. rewrite H2. simpl. eexists; reflexivity.
Qed.

Theorem issues issuer serial now r :
  encodable (requested r) -> (forall a, r_addr r = Some a -> encodable a) ->
  (guard = true \/ upstream_cn_ok r) ->
  (forall n, get_cert_names idna guard serial r = Ok n ->
     n_cn n <> Some [] /\ (forall u, n_crl n = Some u -> is_ascii u = true)) ->
  exists c, issue idna off exp guard crit issuer serial now r = Ok c.
Proof.
  intros H1 Ha Hup Hn. destruct (names_total serial r H1 Ha Hup) as [n En].
  destruct (Hn n En) as [Hcn Hcrl].
  pose proof (get_cert_names_spec serial r n En) as [_ [_ [_ [_ Horg]]]].
  destruct (dummy_cert_total issuer now n Hcn Horg Hcrl) as [c Ec].
  exists c. unfold issue, issue_on. rewrite En. simpl. unfold store_get_cert. simpl. rewrite Ec. reflexivity.
Qed.

End Code.

(* the window contains the time of issue for every local clock within a day of UTC *)
Lemma validity_source : forall tz : Z,
  (-86400 <= tz <= 86400)%Z ->
  (VALIDITY_OFFSET + tz <= 0)%Z /\ (0 <= VALIDITY_OFFSET + CERT_EXPIRY + tz)%Z.
Proof. intros tz H. unfold VALIDITY_OFFSET, CERT_EXPIRY. lia. Qed.

Definition no_idna : bytes -> option bytes := fun _ => None.
Definition ca0 : ca := mkCa 1 1 (Some [x01; x02]) [x03] true true (-1000000)%Z 400000000%Z.

(* an upstream CN of 64 characters (legal in X.509): without the guard get_cert raises *)
Definition long_cn_req : req :=
  mkReq true (Some (B "example.com")) (B "127.0.0.1") (Some (B "example.com"))
        (Some (mkUcert (Some (repeat x78 64)) [GDNS (B "example.com")] None None)).

Definition sample_req : req :=
  mkReq true (Some (B "*.example.com")) (B "10.0.0.1") (Some (B "fe80::1%eth0"))
        (Some (mkUcert (Some (B "up.example")) [GDNS (B "*.up.example"); GIP (V4 16909060); GDNS (B "up.example")]
                       (Some (B "Org")) (Some (Some (B "http", B "crl.example"))))).

Definition sample_cert : cert :=
  mkCert 1 1 1 (Some (B "up.example")) (Some (B "Org"))
    [GDNS (B "up.example"); GDNS (B "*.up.example"); GIP (V4 16909060); GDNS (B "*.example.com");
     GIP (V6 338288524927261089654018896841347694593 None)]
    false [1%N] (-172800 + 3600)%Z (-172800 + 3600 + 17193600)%Z [x01; x02]
    (Some (B "http://crl.example/mitmproxy-5.crl")).

(* a name of 64 or more characters (no CN) together with an upstream organization: subject not empty *)
Definition long_name_org_req : req :=
  mkReq true (Some (repeat x78 63 ++ B ".example.com")) (B "127.0.0.1") None
        (Some (mkUcert None [] (Some (B "Org")) None)).

Lemma critical_with_subject_repaired :
  exists c, issue no_idna VALIDITY_OFFSET CERT_EXPIRY false true ca0 5 0 long_name_org_req = Ok c
            /\ has_subject c = true /\ c_san_critical c = false.
Proof. eexists. repeat split; vm_compute; reflexivity. Qed.
