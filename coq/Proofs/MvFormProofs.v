(* Proofs/MvFormProofs.v -- urlencoded_form on a whole message: for ANY prior header list the
   setter leaves exactly one plain form content-type, so the getter decodes what was written (C34). *)
From Coq Require Import List Bool NArith Lia.
From MV Require Import Base.Bytes Model.MvCommon Model.MvUrl Model.MvForm
  Proofs.MvCommonLemmas Proofs.MvUrlQuote.
Import ListNotations.

Lemma ct_after_set h old l : ct_of (fst (set_form_msg h old l)) = FORM_CT.
Proof.
  unfold set_form_msg, set_content, ct_of, header_get. cbn [fst].
  destruct (has_header TE_NAME (set_all CT_NAME [FORM_CT] h)); rewrite !get_all_set_all; reflexivity.
Qed.

Lemma urlencode_ascii l : forallb is_ascii (urlencode l) = true.
Proof. apply (forallb_sweep encchar); [vm_compute; reflexivity | apply urlencode_chars]. Qed.

Section FormMsg.
  (* Message.get_text(strict=False) as a function of the content-type header value and the body *)
  Variable get_text : bytes -> bytes -> bytes.
  (* contract: under the plain form content-type (no charset parameter) an ASCII body is its own text *)
  Hypothesis get_text_ascii : forall body, forallb is_ascii body = true -> get_text FORM_CT body = body.

  Theorem form_msg_roundtrip (h : fields) (old_text : option bytes) (l : pairs) :
    plain_mode old_text = true ->
    let m := set_form_msg h old_text l in
    get_form_msg (fst m) (get_text (ct_of (fst m)) (snd m)) = l.
  Proof.
    intros Hp m. unfold get_form_msg. subst m. rewrite ct_after_set.
    change (snd (set_form_msg h old_text l)) with (url_encode l old_text).
    replace (contains FORM_CT (lower FORM_CT)) with true by (vm_compute; reflexivity).
    rewrite (url_encode_plain l old_text Hp), get_text_ascii by apply urlencode_ascii.
    apply parse_qsl_urlencode.
  Qed.
End FormMsg.

Example get_text_contract_satisfiable :
  forall body, forallb is_ascii body = true -> (fun _ b : bytes => b) FORM_CT body = body.
Proof. reflexivity. Qed.

(* the prior header may carry an ASCII-incompatible charset and duplicates: still exactly one plain header after *)
Lemma form_msg_sample :
  let h := [(CT_NAME, FORM_CT ++ [x3b; x20; x63; x68; x61; x72; x73; x65; x74; x3d; x75; x74; x66; x2d; x31; x36]);
            ([x58], [x31]); ([x43; x6f; x6e; x74; x65; x6e; x74; x2d; x54; x79; x70; x65], [x74])] in
  fst (set_form_msg h None [([x61], [x20])]) = [(CT_NAME, FORM_CT); ([x58], [x31]); (CL_NAME, [x33])]
  /\ snd (set_form_msg h None [([x61], [x20])]) = [x61; x3d; x2b].
Proof. vm_compute. split; reflexivity. Qed.
