(* Proofs/FlowControl.v — intercepted flows are held; resume and kill release the hook exactly once. *)
From Coq Require Import List Bool Arith Lia.
From MV Require Import Model.LayerCore Model.FlowControl.
Import ListNotations.

(* all states of a flow, those that contradict a hypothesis on the hook's state dropped first *)
Ltac cases_fl f :=
  destruct f as [i l k r p n]; simpl in *; destruct p; try discriminate;
  destruct i, l, k, r as [|[|]]; simpl in *.

(* a hook suspended in wait_for_resume belongs to an intercepted flow whose event is clear:
   it is never stuck, Resume (and Kill, when killable) will release it *)
Definition finv (f : fl) : Prop :=
  hp f = HWaiting -> intercepted f = true /\ rev f = Ev false.

Lemma finv0 : finv fl0.
Proof. intros H; discriminate. Qed.

Lemma fstep_inv f o : finv f -> finv (fstep f o).
Proof.
  unfold finv. intros Hw. destruct o; cases_fl f; intros H; try discriminate;
    try (split; reflexivity); try (destruct (Hw eq_refl); split; congruence); try (apply Hw; exact H).
Qed.

Lemma frun_inv ops : forall f, finv f -> finv (frun f ops).
Proof. induction ops as [|o ops IH]; intros f H; simpl; [exact H|]. apply IH, fstep_inv, H. Qed.

Lemma held f o :
  hp f = HWaiting -> o <> Resume -> o <> Kill -> hp (fstep f o) = HWaiting.
Proof.
  intros H Hr Hk. destruct o; try contradiction; cases_fl f; try discriminate; reflexivity.
Qed.

Lemma done_absorbing f o : hp f = HDone -> hp (fstep f o) = HDone.
Proof. intros H. destruct o; cases_fl f; try discriminate; reflexivity. Qed.

Lemma completes_only_released f o :
  hook_done f = false -> hook_done (fstep f o) = true ->
  (o = LoopStep /\ hp f = HReleased) \/ (o = HookWait /\ hp f = HNotStarted /\ (intercepted f = false \/ rev f = Ev true)).
Proof.
  intros Hn Hd. destruct o; cases_fl f; try discriminate; auto.
Qed.

Lemma released_counted f o :
  hp f <> HReleased -> hp (fstep f o) = HReleased -> releases (fstep f o) = S (releases f) /\ (o = Resume \/ o = Kill).
Proof.
  intros Hn H. destruct o; cases_fl f; try discriminate; try congruence; split; auto.
Qed.

Lemma waiting_shape f : finv f -> hp f = HWaiting ->
  f = mkFl true (live f) (killed f) (Ev false) HWaiting (releases f).
Proof. intros Hi H. destruct (Hi H) as [Hx Hr]. destruct f. simpl in *. subst. reflexivity. Qed.

(* on that shape Resume and Kill are computations: the event is set, the waiter released, and the next loop
   step completes it *)
Theorem waiting_is_resumable ops :
  let f := frun fl0 ops in
  hp f = HWaiting ->
  intercepted f = true /\
  hp (fstep (fstep f Resume) LoopStep) = HDone /\
  (live f = true -> killed f = false ->
     let f' := fstep (fstep f Kill) LoopStep in hp f' = HDone /\ killed f' = true /\ live f' = false).
Proof.
  intros f H. rewrite (waiting_shape f (frun_inv ops fl0 finv0) H). simpl.
  split; [reflexivity|]. split; [reflexivity|]. intros -> ->. repeat split.
Qed.

(* the relay skeleton: nothing is sent before the hook completes; killed => never sent *)
Definition has_tag (t : nat) (out : list cmd) : bool := existsb (fun c => Nat.eqb (ctag c) t) out.

Lemma relay_holds me ctr k i :
  exists kont, process me (relay_handler ctr (Ext k i))
  = (Waiting ctr kont, [mkCmd ctr TAG_MSG_HOOK (Owned me)], [TPause ctr]) /\
  (forall v, Nat.odd v = true ->
     let '(_, out, _) := process me (kont (Some v)) in has_tag TAG_SEND out = false /\ has_tag TAG_ERR_HOOK out = true) /\
  (forall v, Nat.odd v = false ->
     let '(_, out, _) := process me (kont (Some v)) in
     out = [mkCmd (ctr + 1) TAG_SEND NotBlocking]).
Proof.
  eexists. split; [reflexivity|]. split; intros v Hv; simpl; rewrite Hv; simpl; [split; reflexivity | reflexivity].
Qed.
