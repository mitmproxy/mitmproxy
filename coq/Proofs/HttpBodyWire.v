(* Proofs/HttpBodyWire.v -- the bytes on the wire.
   (1) For a chunked message, the chunks mitmproxy writes for ANY list of data events (empty ones included), followed
       by the last-chunk, are read back by the RFC 9112 reference decoder (Model/Rfc9112.v) as exactly the
       concatenation of the data.  With send_data_unrepaired, the encoding before /repo d5b92a7b2, an empty data event
       ends the body early (witness).
   (2) The client is answered with an error page when a body is rejected -- unless an interim 100 Continue response
       is still recorded as the response of the HTTP/1 server connection (known finding; witness + guarded theorem). *)
From Coq Require Import List Bool NArith ZArith Lia.
From MV Require Import Base.Bytes Model.Http1Msg Model.Rfc9112 Proofs.Http1Chunks.
From MV Require Import Model.HttpBody Proofs.HttpBodyBase Proofs.HttpBodyLimit.
Import ListNotations.
Open Scope Z_scope.

Definition wire_chunks (send : bool -> bytes -> list bytes) (pieces : list bytes) : bytes :=
  concat (concat (map (send true) pieces)) ++ LAST_CHUNK.

Lemma send_data_chunked p : send_data true p = if nonempty p then [emit_chunk p] else [].
Proof.
  unfold send_data. destruct p as [|b r]; cbn [nonempty andb]; [reflexivity|].
  assert (N : nonempty (emit_chunk (b :: r)) = true).
  { unfold emit_chunk. destruct (hex_of_N (N.of_nat (length (b :: r)))) eqn:E; reflexivity. }
  rewrite N. reflexivity.
Qed.

(* empty data events write nothing, the others one chunk each *)
Lemma send_data_filter pieces :
  concat (concat (map (send_data true) pieces)) = concat (map emit_chunk (filter nonempty pieces))
  /\ concat (filter nonempty pieces) = concat pieces /\ Forall (fun c : bytes => c <> []) (filter nonempty pieces).
Proof.
  induction pieces as [|p r (A & B & C)]; [repeat split; constructor|].
  cbn [map concat filter]. rewrite concat_app, A, send_data_chunked.
  destruct p; cbn; rewrite ?app_nil_r; [auto|]. rewrite B. repeat split. constructor; [discriminate|exact C].
Qed.

Theorem wire_chunked_decodes (o : ref_opts) (pieces : list bytes) (rest : bytes) :
  read_body o BLChunked (wire_chunks send_data pieces ++ rest) = POk (concat pieces, [], rest).
Proof.
  unfold wire_chunks. destruct (send_data_filter pieces) as (A & B & C).
  rewrite A, <- app_assoc, body_reframe_read_body by exact C. rewrite B. reflexivity.
Qed.

(* the encoding before /repo d5b92a7b2: [b""; b"defg"] is read back as an empty body, and the bytes of
   the second chunk are left on the connection, to be parsed as the next message *)
Theorem wire_unrepaired_empty_chunk :
  exists pieces body rest,
    read_body (mkOpts false false false) BLChunked (wire_chunks send_data_unrepaired pieces) = POk (body, [], rest)
    /\ body <> concat pieces /\ rest <> [].
Proof.
  exists [[]; [x64; x65; x66; x67]]. eexists. eexists. split; [vm_compute; reflexivity|].
  split; discriminate.
Qed.

Fixpoint sent_to (p : peer) (t : list titem) : bytes :=
  match t with
  | [] => []
  | TSend q raw :: r =>
      match p, q with
      | Client, Client | Server, Server => raw ++ sent_to p r
      | _, _ => sent_to p r
      end
  | _ :: r => sent_to p r
  end.
Lemma sent_to_app p a b : sent_to p (a ++ b) = sent_to p a ++ sent_to p b.
Proof.
  induction a as [|x a IH]; [reflexivity|]. destruct x; cbn; auto.
  destruct p, p0; cbn; rewrite IH, ?app_assoc; reflexivity.
Qed.
Lemma sent_to_map_same p l : sent_to p (map (TSend p) l) = concat l.
Proof. induction l; cbn; auto. destruct p; rewrite IHl; reflexivity. Qed.

Section Wire.
Variable S : Type.
Variable fq fs : S -> bytes -> S * sres.
Variable cfg : config.

Notation wst := (wst S).
Notation exec_cmd := (exec_cmd S cfg).
Notation exec_cmds := (exec_cmds S cfg).

Definition framing_to (p : peer) (w : wst) : framing :=
  match p with Server => req_framing (hs S w) | Client => resp_fr S w end.

Lemma exec_data (p : peer) (w : wst) ps :
  exec_cmds w (map (fun c => CSend p (MData c)) ps)
  = (w, map (TSend p) (concat (map (send_data (is_chunked (framing_to p w))) ps))).
Proof.
  induction ps as [|d r IH]; [reflexivity|].
  destruct p; cbn [map HttpBody.exec_cmds HttpBody.exec_cmd]; rewrite IH; cbn [concat]; rewrite map_app; reflexivity.
Qed.

(* the end of a chunked message: the last-chunk, then whatever mark_done adds, which is never data *)
Lemma exec_eom (p : peer) (w : wst) :
  framing_to p w = FChunked ->
  sent_to p (snd (exec_cmd w (CSend p MEom))) = LAST_CHUNK.
Proof.
  intros F. destruct p; cbn [framing_to] in F; cbn [HttpBody.exec_cmd]; rewrite F; cbn [is_chunked send_eom map app].
  - unfold srv_mark_done. rewrite F.
    destruct (_ && _); cbn [is_until_close snd sent_to]; apply app_nil_r.
  - unfold cli_mark_done.
    destruct (_ && _); [destruct (is_until_close _)|]; cbn [snd sent_to]; apply app_nil_r.
Qed.

Lemma wire_stream_decodes (p : peer) (w : wst) (pieces : list bytes) o rest :
  framing_to p w = FChunked ->
  let '(w1, t1) := exec_cmds w (map (fun c => CSend p (MData c)) pieces) in
  let '(w2, t2) := exec_cmd w1 (CSend p MEom) in
  read_body o BLChunked (sent_to p (t1 ++ t2) ++ rest) = POk (concat pieces, [], rest).
Proof.
  intros F. rewrite exec_data, F. pose proof (exec_eom p w F) as E.
  destruct (exec_cmd w (CSend p MEom)) as [w2 t2]. cbn [snd] in E.
  rewrite sent_to_app, sent_to_map_same, E. apply (wire_chunked_decodes o pieces rest).
Qed.

Theorem client_error_response (w : wst) code :
  client_open S w = true -> srv_response S w = SrNone ->
  exists w', exec_cmd w (CSend Client (MErr code)) = (w', [TErrPage (status_of code); TClose Client])
             /\ client_open S w' = false.
Proof.
  intros O R. cbn [HttpBody.exec_cmd]. rewrite O, R. cbn. eexists; split; reflexivity.
Qed.

(* end to end, early case: a request head announcing more than the limit is answered 413 and the connection closed,
   whatever the options, callables and the Expect header *)
Theorem wire_early_reject (q0 s0 : S) L n e100 :
  parse_size (o_limit cfg) = PVal L -> 0 < n -> L < n ->
  exists w', wstep S fq fs cfg (winit S q0 s0) (WReqHead (FLen n) e100)
             = Some (w', [THook HRequestHeaders; THook HError; TErrPage 413; TClose Client])
    /\ client_open S w' = false /\ server_conn S w' = None
    /\ flow_error (hs S w') = true /\ flow_live (hs S w') = false.
Proof.
  intros HL Hn Hlt.
  destruct (early_reject_request S fq fs cfg L HL (init S q0 s0) n e100 eq_refl eq_refl Hn Hlt)
    as (s' & HE & C & E & LV & B).
  unfold wstep, winit. cbn [client_open rd_req negb].
  unfold make_body_reader, read_data. cbn [expected_size].
  replace (n =? -1) with false by (symmetry; apply Z.eqb_neq; lia).
  rewrite firstn_nil. change (blen []) with 0. cbn [nonempty].
  replace (n - 0 =? 0) with false by (symmetry; apply Z.eqb_neq; lia).
  cbn [app]. unfold set_rd_req. cbn [hs dropped rd_resp srv_response srv_req_done srv_resp_done cli_req_done
    cli_resp_done client_open server_conn cli_response].
  cbn [run_actions dropped hs]. rewrite HE. cbn [split_blocking is_blocking].
  cbn. eexists. split; [reflexivity|]. cbn. auto.
Qed.

End Wire.

(* the known finding: after 100 Continue the rejected request gets no error response *)
Theorem client_error_after_continue_refuted :
  exists cfg steps trace bufs w,
    wrun unit (fun q _ => (q, RB [])) (fun q _ => (q, RB [])) cfg (winit unit tt tt) steps = (trace, bufs, w, false)
    /\ In (THook HError) trace /\ flow_error (hs unit w) = true
    /\ In (TClose Client) trace
    /\ (forall z, ~ In (TErrPage z) trace).
Proof.
  exists (mkConfig (Some [x33]) None false None None true).
  exists [WReqHead FChunked true; WReqChunk [x61; x62]; WReqChunk [x63; x64]].
  eexists. eexists. eexists. split; [vm_compute; reflexivity|].
  cbn. repeat split; auto 10. intros z H. repeat (destruct H as [H|H]; [discriminate|]). exact H.
Qed.

(* concrete instances: parse_size values; a late rejection (limit 3, chunks ab|cd: 4 bytes held, third chunk
   swallowed); a late switch to streaming (threshold 2, chunks ab|c|d, store_streamed_bodies) *)
Lemma nonvacuous_examples :
  parse_size (Some [x31; x6b]) = PVal 1024
  /\ parse_size (Some [x20; x2d; x33; x6d]) = PVal (-3145728)
  /\ parse_size (Some [x31; x4b]) = PErr
  /\ (let cfg := mkConfig (Some [x33]) None false None None true in
      exists s out,
        run unit (fun q d => (q, RB d)) (fun q d => (q, RB d)) cfg (init unit tt tt)
            [ReqHeaders FChunked false; ReqData [x61; x62]; ReqData [x63; x64]; ReqData [x65]] = (s, out, false)
        /\ In (CSend Client (MErr ReqTooLarge)) out /\ blen (request_body_buf s) = 4)
  /\ (let cfg := mkConfig None (Some [x32]) true None None true in
      exists s out,
        run unit (fun q d => (q, RB d)) (fun q d => (q, RB d)) cfg (init unit tt tt)
            [ReqHeaders FChunked false; ReqData [x61; x62]; ReqData [x63]; ReqData [x64]; ReqEom] = (s, out, false)
        /\ data_to Server out = [[x61; x62; x63]; [x64]] /\ req_content s = Some [x61; x62; x63; x64]).
Proof.
  split; [vm_compute; reflexivity|]. split; [vm_compute; reflexivity|]. split; [vm_compute; reflexivity|].
  split.
  - eexists; eexists. split; [vm_compute; reflexivity|]. split; [cbn; auto 10|reflexivity].
  - eexists; eexists. split; [vm_compute; reflexivity|]. split; reflexivity.
Qed.
