(* Proofs/Http1Framing.v -- the generated validate_headers (Gen/BodySize.v) characterised: its loop computes the
   Transfer-Encoding / Content-Length value lists and rejects bad names and values; then what it accepts
   ([accepted_framing]), and how the reference parser reads an accepted Content-Length or Transfer-Encoding value. *)
From Coq Require Import List Bool NArith ZArith Lia.
From MV Require Import Base.Bytes Model.Http1Msg Model.BodySizePrelude Gen.BodySize Model.Rfc9112
  Proofs.DecOfN Proofs.Http1Lines Proofs.Http1Regex Proofs.Http1TeNorm Proofs.Http1Lower.
Import ListNotations.

Definition SET := _HTTP_1_1_TRANSFER_ENCODINGS.
Definition size_agrees (sz : option Z) (bl : body_len) : Prop :=
  match sz, bl with
  | None, BLChunked => True
  | Some z, BLUntilClose => z = (-1)%Z
  | Some z, BLZero => z = 0%Z
  | Some z, BLTunnel => z = 0%Z
  | Some z, BLLen n => z = Z.of_N n
  | _, _ => False
  end.

Definition bad_value (v : bytes) : bool := contains [x0d] v || contains [x0a] v || contains [x00] v.
Definition field_ok (f : header) : bool :=
  re_match_anchored _valid_header_name (fst f) && negb (bad_value (snd f)).

Definition vh_decide (m : message) (te cl : list bytes) : res unit :=
  if nonempty te && nonempty cl then ValueError
  else if nonempty te then
    if len_gt1 te then ValueError
    else if negb (is_http11 m) then ValueError
    else if is_response m && ((Z.leb 100 (status_code m) && Z.leb (status_code m) 199) || Z.eqb (status_code m) 204)
    then ValueError
    else bind (parse_transfer_encoding false (first_or_empty te))
           (fun t => if in_set t (firstn 4 SET) then Ok tt
                     else if in_set t (skipn 4 SET)
                          then (if is_request m then ValueError else Ok tt)
                          else OtherError)
  else if nonempty cl then
    if len_gt1 cl then ValueError else bind (parse_content_length false (first_or_empty cl)) (fun _ => Ok tt)
  else Ok tt.

Lemma get_all_cons key n v fs :
  get_all key ((n, v) :: fs) = if bytes_eqb (lower n) (lower key) then v :: get_all key fs else get_all key fs.
Proof. unfold get_all. simpl. destruct (bytes_eqb (lower n) (lower key)); reflexivity. Qed.

Lemma validate_headers_spec m :
  validate_headers m =
  if forallb field_ok (msg_headers m)
  then vh_decide m (get_all TRANSFER_ENCODING (msg_headers m)) (get_all CONTENT_LENGTH (msg_headers m))
  else ValueError.
Proof.
  unfold validate_headers.
  match goal with |- context [?f (msg_headers m) [] []] => set (loop := f) end.
  assert (H : forall fields cl te,
             loop fields cl te =
             if forallb field_ok fields
             then vh_decide m (te ++ get_all TRANSFER_ENCODING fields) (cl ++ get_all CONTENT_LENGTH fields)
             else ValueError).
  { induction fields as [|[n v] fs IH]; intros cl te.
    - simpl. rewrite !app_nil_r. reflexivity.
    - unfold loop at 1. cbv beta iota zeta. fold loop.
      rewrite !get_all_cons. cbn [forallb]. unfold field_ok at 1. cbn [fst snd].
      destruct (re_match_anchored _valid_header_name n); cbn [negb andb]; [|reflexivity].
      fold (bad_value v). destruct (bad_value v); cbn [negb andb]; [reflexivity|].
      unfold in_set, existsb. rewrite !orb_false_r.
      change (lower TRANSFER_ENCODING) with TRANSFER_ENCODING. change (lower CONTENT_LENGTH) with CONTENT_LENGTH.
      change [x74;x72;x61;x6e;x73;x66;x65;x72;x2d;x65;x6e;x63;x6f;x64;x69;x6e;x67] with TRANSFER_ENCODING.
      change [x63;x6f;x6e;x74;x65;x6e;x74;x2d;x6c;x65;x6e;x67;x74;x68] with CONTENT_LENGTH.
      destruct (bytes_eqb (lower n) TRANSFER_ENCODING) eqn:Et.
      + (* a name cannot be both *)
        apply bytes_eqb_eq in Et. rewrite Et. change (bytes_eqb TRANSFER_ENCODING CONTENT_LENGTH) with false.
        rewrite IH, <- app_assoc. reflexivity.
      + destruct (bytes_eqb (lower n) CONTENT_LENGTH); rewrite IH, <- ?app_assoc; reflexivity. }
  rewrite H. reflexivity.
Qed.

Lemma contains1 c s : contains [c] s = existsb (byte_eqb c) s.
Proof.
  induction s as [|x s IH]; simpl; auto. rewrite IH, andb_true_r. reflexivity.
Qed.

Lemma bad_value_clean v : bad_value v = negb (clean v).
Proof.
  unfold bad_value. rewrite !contains1. induction v as [|x v IH]; [reflexivity|].
  rewrite clean_cons, !negb_andb, !negb_involutive, <- IH. cbn [existsb].
  unfold is_cr_or_nul. rewrite (byte_eqb_sym x rCR), (byte_eqb_sym x x00). change rCR with x0d. change rLF with x0a.
  destruct (byte_eqb x0d x), (byte_eqb x0a x), (byte_eqb x00 x),
    (existsb (byte_eqb x0d) v), (existsb (byte_eqb x0a) v), (existsb (byte_eqb x00) v); reflexivity.
Qed.

Lemma not_bad_nolf v : bad_value v = false -> existsb (byte_eqb LF) v = false.
Proof.
  rewrite bad_value_clean. intros H. apply negb_false_iff, andb_true_iff in H as [_ H]. apply negb_true_iff, H.
Qed.

Lemma field_ok_value fs key v : forallb field_ok fs = true -> In v (get_all key fs) -> bad_value v = false.
Proof.
  intros H Hin. unfold get_all in Hin. apply in_map_iff in Hin as [f [<- Hf]]. apply filter_In in Hf as [Hf _].
  rewrite forallb_forall in H. apply H in Hf. unfold field_ok in Hf.
  apply andb_true_iff in Hf as [_ Hf]. apply negb_true_iff, Hf.
Qed.

Lemma digit_props b : is_digit b = true ->
  is_pyspace b = false /\ is_ows b = false /\ byte_eqb COMMA b = false /\ byte_eqb b x2d = false /\ byte_eqb b x2b = false.
Proof.
  assert (H : forall b, implb (is_digit b) (negb (is_pyspace b) && negb (is_ows b) && negb (byte_eqb COMMA b)
                                             && negb (byte_eqb b x2d) && negb (byte_eqb b x2b)) = true)
    by (apply forall_bytes; vm_compute; reflexivity).
  intros D. specialize (H b). rewrite D in H. simpl in H.
  repeat (apply andb_true_iff in H as [H ?]). repeat split; apply negb_true_iff; assumption.
Qed.

Lemma digits_none p s : (forall b, is_digit b = true -> p b = false) -> forallb is_digit s = true -> existsb p s = false.
Proof.
  intros Hp. induction s as [|x s IH]; simpl; auto. intros H. apply andb_true_iff in H as [A B].
  rewrite (Hp x A), (IH B). reflexivity.
Qed.

Lemma strip_nospace s : existsb is_pyspace s = false -> strip s = s.
Proof.
  intros H. unfold strip. replace (lstrip s) with s by (destruct s; simpl in *; [|apply orb_false_iff in H as [-> _]]; reflexivity).
  induction s as [|x s IH]; simpl in *; auto. apply orb_false_iff in H as [A B].
  rewrite (IH B), A. destruct s; reflexivity.
Qed.

Lemma trim_noows s : existsb is_ows s = false -> trim_ows s = s.
Proof.
  intros H. unfold trim_ows. replace (ltrim_ows s) with s by (destruct s; simpl in *; [|apply orb_false_iff in H as [-> _]]; reflexivity).
  induction s as [|x s IH]; simpl in *; auto. apply orb_false_iff in H as [A B].
  rewrite (IH B), A. destruct s; reflexivity.
Qed.

Lemma trim_digits s : forallb is_digit s = true -> trim_ows s = s.
Proof. intros H. apply trim_noows, (digits_none _ _ (fun b D => proj1 (proj2 (digit_props b D))) H). Qed.

Lemma int_digits_dec s : forall acc p, forallb is_digit s = true ->
  int_digits s acc p = match s with [] => if p then Some acc else None | _ => dec_value s acc end.
Proof.
  induction s as [|x s IH]; intros acc p H; simpl; auto.
  simpl in H. apply andb_true_iff in H as [A B]. rewrite A. rewrite (IH _ true B).
  destruct s; reflexivity.
Qed.

Lemma dec_value_digits s : forall acc, forallb is_digit s = true -> dec_value s acc = Some (dec_val s acc).
Proof.
  induction s as [|x s IH]; intros acc H; [reflexivity|].
  simpl in H. apply andb_true_iff in H as [A B]. cbn [dec_value dec_val]. rewrite A. apply IH, B.
Qed.

Lemma py_int_digits s n : s <> [] -> forallb is_digit s = true -> dec_value s 0%N = Some n ->
  py_int_res s = Ok (Z.of_N n).
Proof.
  intros Hne H Hn. unfold py_int_res.
  rewrite (strip_nospace s (digits_none _ _ (fun b D => proj1 (digit_props b D)) H)).
  destruct s as [|x s]; [congruence|].
  assert (A : is_digit x = true) by (simpl in H; apply andb_true_iff in H as [A _]; exact A).
  destruct (digit_props x A) as (_ & _ & _ & M & P).
  (* no sign (M, P rule out the two sign cases of the match): py_int reads the digits directly *)
  replace (py_int (x :: s)) with (match int_digits (x :: s) 0%N false with Some n => Some (Z.of_N n) | None => None end)
    by (destruct x; try reflexivity; discriminate).
  rewrite (int_digits_dec _ _ _ H), Hn. reflexivity.
Qed.

Lemma pcl_flag v : parse_content_length true v = parse_content_length false v.
Proof.
  unfold parse_content_length, re_match_anchored. rewrite ?cl_lang_str, ?cl_lang_bytes.
  destruct (drop_final_lf v); reflexivity.
Qed.

(* parse_content_length accepts exactly the canonical decimals (given no LF) and returns their value *)
Lemma pcl_ok v z : existsb (byte_eqb LF) v = false -> parse_content_length false v = Ok z ->
  canon_dec v = true /\ exists n, dec_value v 0%N = Some n /\ z = Z.of_N n.
Proof.
  intros Hlf H. unfold parse_content_length in H. cbv zeta in H.
  rewrite (re_match_anchored_nolf _ _ Hlf), cl_lang_bytes in H.
  destruct (canon_dec v) eqn:C; simpl in H; [|discriminate]. split; auto.
  destruct (canon_dec_digits _ C) as [Hne Hd].
  exists (dec_val v 0). split; [apply dec_value_digits, Hd|].
  rewrite (py_int_digits v _ Hne Hd (dec_value_digits v 0%N Hd)) in H. congruence.
Qed.

Lemma field_values_te fs : field_values r_te fs = get_all TRANSFER_ENCODING fs.
Proof. reflexivity. Qed.
Lemma field_values_cl fs : field_values r_cl fs = get_all CONTENT_LENGTH fs.
Proof. reflexivity. Qed.

Lemma ref_cl_single v n : v <> [] -> forallb is_digit v = true -> dec_value v 0%N = Some n ->
  match list_elements [v] with [] => None | es => match all_same_dec es None with Some k => Some (BLLen k) | None => None end end
  = Some (BLLen n).
Proof.
  intros Hne Hd Hn. rewrite list_elements_single.
  rewrite (split_comma_nocomma v [] (digits_none _ _ (fun b D => proj1 (proj2 (proj2 (digit_props b D)))) Hd)).
  cbn [rev app map]. rewrite (trim_digits _ Hd).
  destruct v as [|x v]; [congruence|].
  change (filter nonempty_b [x :: v]) with [x :: v].
  cbn [all_same_dec]. unfold parse_dec. rewrite Hn. reflexivity.
Qed.

(* one accepted value: the reference reads a non-empty coding list from it, whose last coding is chunked exactly
   for mitmproxy's first class, and the two classes are complementary *)
Definition set_entry_ok (t : bytes) : bool :=
  match coding_names (filter nonempty_b (map trim_ows (split_comma t []))) with
  | Some (n :: ns) => Bool.eqb (bytes_eqb (last (n :: ns) []) r_chunked) (in_set t (firstn 4 SET))
                      && Bool.eqb (negb (in_set t (firstn 4 SET))) (in_set t (skipn 4 SET))
  | _ => false
  end.

Lemma in_set_ok t : in_set t SET = true -> set_entry_ok t = true.
Proof.
  intros H. apply existsb_exists in H as [x [Hin E]]. apply bytes_eqb_eq in E. subst x.
  assert (S : forallb set_entry_ok SET = true) by (vm_compute; reflexivity).
  rewrite forallb_forall in S. apply S, Hin.
Qed.

Lemma pte_flag v : parse_transfer_encoding true v = parse_transfer_encoding false v.
Proof. unfold parse_transfer_encoding. destruct (isascii v); reflexivity. Qed.

Lemma pte_ok v t : parse_transfer_encoding false v = Ok t -> t = norm (lower v) /\ in_set t SET = true.
Proof.
  unfold parse_transfer_encoding. destruct (isascii v); cbn [negb]; [|discriminate]. cbv zeta.
  fold SET. change (re_sub_trim [(9%N, 9%N); (32%N, 32%N)] x2c [(9%N, 9%N); (32%N, 32%N)] [x2c] (lower v)) with (norm (lower v)).
  destruct (in_set (norm (lower v)) SET) eqn:E; cbn [negb]; [|discriminate].
  intros H. injection H as <-. auto.
Qed.

(* the reference reads the codings of an accepted Transfer-Encoding value exactly as mitmproxy classifies it *)
Lemma ref_te_single v t : parse_transfer_encoding false v = Ok t ->
  exists n ns, coding_names (list_elements [v]) = Some (n :: ns)
    /\ bytes_eqb (last (n :: ns) []) r_chunked = in_set t (firstn 4 SET)
    /\ in_set t (skipn 4 SET) = negb (in_set t (firstn 4 SET)).
Proof.
  intros H. destruct (pte_ok _ _ H) as [Ht Hs].
  pose proof (in_set_ok _ Hs) as K. unfold set_entry_ok in K.
  rewrite <- coding_names_elements_lower, list_elements_single, norm_same_elements, <- Ht.
  destruct (coding_names _) as [[|n ns]|]; try discriminate.
  apply andb_true_iff in K as [K1 K2]. apply eqb_prop in K1. apply eqb_prop in K2.
  exists n, ns. repeat split; auto.
Qed.

Inductive accepted_framing (m : message) : Prop :=
| AF_none : get_all TRANSFER_ENCODING (msg_headers m) = [] -> get_all CONTENT_LENGTH (msg_headers m) = [] -> accepted_framing m
| AF_cl v n : get_all TRANSFER_ENCODING (msg_headers m) = [] -> get_all CONTENT_LENGTH (msg_headers m) = [v] ->
    canon_dec v = true -> dec_value v 0%N = Some n -> parse_content_length false v = Ok (Z.of_N n) -> accepted_framing m
| AF_te v t : get_all TRANSFER_ENCODING (msg_headers m) = [v] -> get_all CONTENT_LENGTH (msg_headers m) = [] ->
    is_http11 m = true -> parse_transfer_encoding false v = Ok t ->
    (is_request m = true -> in_set t (firstn 4 SET) = true) ->
    (is_response m = true -> (Z.leb 100 (status_code m) && Z.leb (status_code m) 199) || Z.eqb (status_code m) 204 = false) ->
    accepted_framing m.

Lemma validate_accepts m : validate_headers m = Ok tt ->
  forallb field_ok (msg_headers m) = true /\ accepted_framing m.
Proof.
  rewrite validate_headers_spec. destruct (forallb field_ok (msg_headers m)) eqn:F; [|discriminate].
  intros H. split; auto. unfold vh_decide in H.
  destruct (get_all TRANSFER_ENCODING (msg_headers m)) as [|v te] eqn:Ete;
  destruct (get_all CONTENT_LENGTH (msg_headers m)) as [|c cl] eqn:Ecl; cbn [nonempty andb] in H; try discriminate.
  - apply AF_none; auto.
  - destruct cl; cbn [len_gt1] in H; [|discriminate]. cbn [first_or_empty] in H.
    destruct (parse_content_length false c) as [z| |] eqn:P; try discriminate.
    assert (B : bad_value c = false) by (apply (field_ok_value _ CONTENT_LENGTH _ F); rewrite Ecl; left; reflexivity).
    destruct (pcl_ok c z (not_bad_nolf _ B) P) as (C & n & Hn & ->).
    apply (AF_cl m c n); auto.
  - destruct te; cbn [len_gt1] in H; [|discriminate]. cbn [first_or_empty] in H.
    destruct (is_http11 m) eqn:V; cbn [negb] in H; [|discriminate].
    destruct (is_response m && ((100 <=? status_code m)%Z && (status_code m <=? 199)%Z || (status_code m =? 204)%Z)) eqn:S;
      [discriminate|].
    destruct (parse_transfer_encoding false v) as [t| |] eqn:P; try discriminate. cbn [bind] in H.
    apply (AF_te m v t); auto.
    + intros R. destruct (in_set t (firstn 4 SET)); auto.
      destruct (in_set t (skipn 4 SET)); [rewrite R in H|]; discriminate.
    + intros R. rewrite R in S. exact S.
Qed.
