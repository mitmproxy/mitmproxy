(* Proofs/ExportRaw.v -- the raw export (assemble_request of the cleaned request) is read back by the reference
   HTTP/1 parser of Model/Rfc9112.v as the same method, target, version, fields and body.  Built on the C01 lemmas. *)
From Coq Require Import List Bool NArith.
From MV Require Import Base.Bytes Model.Http1Msg Model.Rfc9112 Model.Export Proofs.Http1Lines Proofs.Http1Roundtrip
  Proofs.Http1Chunks.
Import ListNotations.

(* identity framing: the body is read with the length of the content (what cleanup_request writes into
   content-length; the statement does not derive the length from the head) *)
Theorem raw_request_reads_back_length o r c : Inv_req r -> send_chunked (rq_headers r) = false ->
  exists raw, raw_request r (Some c) [] = Ok raw
    /\ parse_request_head o raw = POk (rq_method r, req_target r, rq_version r, rq_headers r, c)
    /\ read_body o (BLLen (N.of_nat (length c))) c = POk (c, [], []).
Proof.
  intros I S. unfold raw_request, assemble_body. rewrite S. cbn [concat]. rewrite app_nil_r.
  eexists. split; [reflexivity|]. split.
  - apply head_roundtrip_request, I.
  - rewrite <- (app_nil_r c) at 2. apply body_reframe_length.
Qed.

(* chunked framing: a non-empty content is sent as one chunk and the last-chunk *)
Theorem raw_request_reads_back_chunked o r c : Inv_req r -> send_chunked (rq_headers r) = true -> c <> [] ->
  exists raw body, raw_request r (Some c) [] = Ok raw
    /\ parse_request_head o raw = POk (rq_method r, req_target r, rq_version r, rq_headers r, body)
    /\ read_body o BLChunked body = POk (c, [], []).
Proof.
  intros I S NE. unfold raw_request, assemble_body. rewrite S.
  destruct c as [|x c]; [contradiction|]. cbn [map concat]. rewrite app_nil_r.
  eexists. eexists. split; [reflexivity|]. split.
  - apply head_roundtrip_request, I.
  - pose proof (body_reframe_read_body o [x :: c] []) as H. cbn [map concat] in H.
    rewrite !app_nil_r in H. apply H. repeat constructor. discriminate.
Qed.

(* exports are pure: after any history of exports the flow is unchanged, and every output is the output of that
   exporter on the initial flow (so a raw export after curl/httpie exports reads back as the captured request) *)
Theorem exports_pure v p a s fs :
  snd (export_history v p a s fs) = s
  /\ fst (export_history v p a s fs) = map (fun f => fst (export_step v p a s f)) fs.
Proof.
  induction fs as [|f fs IH]; [split; reflexivity|].
  cbn [export_history map].
  assert (E : export_step v p a s f = (fst (export_step v p a s f), s)) by reflexivity.
  rewrite E at 1 2. clear E.
  destruct (export_history v p a s fs) as [os s2]. cbn [fst snd] in *. destruct IH as [IH1 IH2]. subst.
  split; reflexivity.
Qed.

(* a missing body is an error, never a truncated export *)
Lemma raw_request_missing_content r t : raw_request r None t = OtherError.
Proof. reflexivity. Qed.
