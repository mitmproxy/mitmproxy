(* Proofs/TnetRoundtrip.v -- load (dumps v) = mirror v for every well-formed value tree whose
   pop() frames the stack budget covers, and RecursionError if it does not; mirror reverses the
   item order of every dict (dumps writes dict items last-first; Python dict equality ignores
   order). Consequences: injectivity / prefix-freeness. *)
From Coq Require Import List Bool Arith NArith ZArith Lia Permutation.
From MV Require Import Base.Bytes Model.Tnet Proofs.ListFacts Proofs.TnetBase.
Import ListNotations.

Definition mirror_pair (f : tv -> tv) (p : tv * tv) : tv * tv := (f (fst p), f (snd p)).

Fixpoint mirror (v : tv) : tv :=
  match v with
  | TList l => TList (map mirror l)
  | TDict kv => TDict (rev (map (mirror_pair mirror) kv))
  | _ => v
  end.

(* nesting: number of pop() frames below the frame that parses v *)
Fixpoint height (v : tv) : nat :=
  match v with
  | TList l => S (fold_right (fun x acc => Nat.max (height x) acc) 0 l)
  | TDict kv => S (fold_right (fun p acc => Nat.max (Nat.max (height (fst p)) (height (snd p))) acc) 0 kv)
  | _ => 0
  end.

Lemma mirror_involutive v : mirror (mirror v) = v.
Proof.
  induction v using tv_ind2; try reflexivity.
  - cbn [mirror]. f_equal. rewrite map_map. induction H as [|x l Hx _ IH]; cbn [map]; congruence.
  - cbn [mirror]. f_equal. rewrite <- map_rev, rev_involutive, map_map.
    induction H as [|p kv [Hk Hv] _ IH]; cbn [map]; [reflexivity|].
    rewrite IH. unfold mirror_pair at 1 2. cbn [fst snd]. rewrite Hk, Hv. now destruct p.
Qed.

Lemma height_mirror v : height (mirror v) = height v.
Proof.
  induction v using tv_ind2; try reflexivity.
  - cbn [mirror height]. f_equal. induction H as [|x l Hx _ IH]; cbn [map fold_right]; congruence.
  - cbn [mirror height]. f_equal.
    assert (G : forall (l : list (tv * tv)) a,
      fold_right (fun p acc => Nat.max (Nat.max (height (fst p)) (height (snd p))) acc) a (rev l)
      = Nat.max a (fold_right (fun p acc => Nat.max (Nat.max (height (fst p)) (height (snd p))) acc) 0 l)).
    { induction l as [|p l IHl]; intros a; cbn [rev fold_right]; [lia|].
      rewrite fold_right_app. cbn [fold_right]. rewrite IHl. lia. }
    rewrite G. cbn [Nat.max].
    induction H as [|p kv [Hk Hv] _ IH]; cbn [map fold_right]; [reflexivity|].
    rewrite IH. unfold mirror_pair. cbn [fst snd]. now rewrite Hk, Hv.
Qed.

(* the pop() frames that parsing v takes, its own included. height is the simpler bound of the
   statements: it counts an empty container like one that holds scalars *)
Fixpoint frames (v : tv) : nat :=
  match v with
  | TList l => S (fold_right (fun x acc => Nat.max (frames x) acc) 0 l)
  | TDict kv => S (fold_right (fun p acc => Nat.max (Nat.max (frames (fst p)) (frames (snd p))) acc) 0 kv)
  | _ => 1
  end.

Lemma frames_le_height v : (frames v <= S (height v))%nat.
Proof.
  induction v using tv_ind2; cbn [frames height]; try lia; apply le_n_S.
  - induction H; cbn [fold_right]; lia.
  - induction H as [|p kv [Hk Hv] _ IH]; cbn [fold_right]; lia.
Qed.

Lemma max_leb a b d : (Nat.max a b <=? d)%nat = (a <=? d)%nat && (b <=? d)%nat.
Proof.
  destruct (Nat.leb_spec (Nat.max a b) d), (Nat.leb_spec a d), (Nat.leb_spec b d); reflexivity || lia.
Qed.

Lemma frames_list_leb l d :
  (frames (TList l) <=? S d)%nat = forallb (fun x => (frames x <=? d)%nat) l.
Proof.
  cbn [frames Nat.leb]. induction l as [|x l IH]; [reflexivity|]. cbn [fold_right forallb]. now rewrite max_leb, IH.
Qed.

(* over rev kv: the payload of a dict holds its items last-first, and so the loop meets them *)
Lemma frames_dict_leb kv d :
  (frames (TDict kv) <=? S d)%nat
  = forallb (fun p => (frames (fst p) <=? d)%nat && (frames (snd p) <=? d)%nat) (rev kv).
Proof.
  cbn [frames Nat.leb]. induction kv as [|p kv IH]; [reflexivity|]. cbn [fold_right rev].
  rewrite forallb_app, <- IH, !max_leb. cbn [forallb]. now rewrite andb_true_r, andb_comm.
Qed.

(* equality of Python values: dicts compare as unordered collections of items *)
Inductive tv_equiv : tv -> tv -> Prop :=
| eqv_null : tv_equiv TNull TNull
| eqv_bool b : tv_equiv (TBool b) (TBool b)
| eqv_int z : tv_equiv (TInt z) (TInt z)
| eqv_float t : tv_equiv (TFloat t) (TFloat t)
| eqv_bytes b : tv_equiv (TBytes b) (TBytes b)
| eqv_str s : tv_equiv (TStr s) (TStr s)
| eqv_list l l' : Forall2 tv_equiv l l' -> tv_equiv (TList l) (TList l')
| eqv_dict kv kv' kv'' :
    Forall2 (fun p q => tv_equiv (fst p) (fst q) /\ tv_equiv (snd p) (snd q)) kv kv' ->
    Permutation kv' kv'' -> tv_equiv (TDict kv) (TDict kv'').

Lemma mirror_equiv v : tv_equiv v (mirror v).
Proof.
  induction v using tv_ind2; try constructor.
  - induction H; cbn [map]; constructor; auto.
  - cbn [mirror]. apply eqv_dict with (kv' := map (mirror_pair mirror) kv); [|apply Permutation_rev].
    induction H as [|p kv [Hk Hv] _ IH]; cbn [map]; constructor; auto.
Qed.

(* parse_with on each tag: the eight byte comparisons compute *)
Section PW.
  Variable pyfloat : bytes -> option (bytes * option Z).
  Variable popf : bytes -> res (tv * bytes).
  Lemma pw_bytes d : parse_with pyfloat popf x2c d = Ok (TBytes d).
  Proof. reflexivity. Qed.
  Lemma pw_str d : parse_with pyfloat popf x3b d = if utf8_valid d then Ok (TStr d) else Exc ValueError.
  Proof. reflexivity. Qed.
  Lemma pw_int d : parse_with pyfloat popf x23 d = match py_int d with Some z => Ok (TInt z) | None => Exc ValueError end.
  Proof. reflexivity. Qed.
  Lemma pw_float d : parse_with pyfloat popf x5e d = match pyfloat d with Some (r, _) => Ok (TFloat r) | None => Exc ValueError end.
  Proof. reflexivity. Qed.
  Lemma pw_bool d : parse_with pyfloat popf x21 d =
    if bytes_eqb d s_true then Ok (TBool true) else if bytes_eqb d s_false then Ok (TBool false) else Exc ValueError.
  Proof. reflexivity. Qed.
  Lemma pw_null d : parse_with pyfloat popf x7e d = match d with [] => Ok TNull | _ => Exc ValueError end.
  Proof. reflexivity. Qed.
  Lemma pw_list d : parse_with pyfloat popf x5d d =
    match list_loop popf (length d) d with Ok l => Ok (TList l) | Exc e => Exc e | OutOfFuel => OutOfFuel end.
  Proof. reflexivity. Qed.
  Lemma pw_dict d : parse_with pyfloat popf x7d d =
    match dict_loop pyfloat popf (length d) d [] with Ok l => Ok (TDict l) | Exc e => Exc e | OutOfFuel => OutOfFuel end.
  Proof. reflexivity. Qed.
End PW.

(* the file-level reader: at most 12 length digits *)
Definition top_ok (v : tv) : Prop := (length (dec_N (blen (payload v))) <= 12)%nat.

Section RT.
  Variable pyfloat : bytes -> option (bytes * option Z).
  Notation key_eqb := (key_eqb pyfloat).

  (* keys pairwise different under Python equality (either direction) *)
  Fixpoint distinct_keys (ks : list tv) : Prop :=
    match ks with
    | [] => True
    | k :: r => Forall (fun k' => key_eqb k k' = false /\ key_eqb k' k = false) r /\ distinct_keys r
    end.

  (* well-formed = what tnetstring.dumps accepts and Python can hold:
     every length prefix and int has at most 4300 digits, floats carry their canonical repr,
     strs are valid UTF-8, dict keys are hashable and pairwise different *)
  Fixpoint wf (v : tv) : Prop :=
    len_ok (payload v) /\
    match v with
    | TInt z => int_ok z
    | TFloat tok => exists iv, pyfloat tok = Some (tok, iv)
    | TStr s => utf8_valid s = true
    | TList l => fold_right (fun x acc => wf x /\ acc) True l
    | TDict kv => fold_right (fun p acc => (wf (fst p) /\ wf (snd p)) /\ acc) True kv
                  /\ Forall (fun k => hashable k = true) (map fst kv)
                  /\ distinct_keys (map fst kv)
    | _ => True
    end.

  Lemma wf_len v : wf v -> len_ok (payload v).
  Proof. destruct v; cbn [wf]; tauto. Qed.

  Lemma wf_list_forall l : fold_right (fun x acc => wf x /\ acc) True l -> Forall wf l.
  Proof. induction l; cbn [fold_right]; intros; constructor; tauto. Qed.
  Lemma wf_dict_forall kv :
    fold_right (fun p acc => (wf (fst p) /\ wf (snd p)) /\ acc) True kv ->
    Forall (fun p => wf (fst p) /\ wf (snd p)) kv.
  Proof. induction kv; cbn [fold_right]; intros; constructor; tauto. Qed.

  Lemma hashable_mirror k : hashable k = true -> mirror k = k.
  Proof. destruct k; cbn; congruence. Qed.

  Lemma pop_frame d p ty rest : len_ok p ->
    pop pyfloat (S d) (frame p ty ++ rest) =
    match parse_with pyfloat (pop pyfloat d) ty p with
    | Ok v => Ok (v, rest) | Exc e => Exc e | OutOfFuel => OutOfFuel
    end.
  Proof.
    intros H. rewrite frame_app. cbn [pop]. rewrite (split_frame _ _ H), pop_slices_frame. reflexivity.
  Qed.

  Definition pops (popf : bytes -> res (tv * bytes)) (g : tv -> bool) (e : pyexc) (x : tv) : Prop :=
    forall rest, popf (dumps_spec x ++ rest) = if g x then Ok (mirror x, rest) else Exc e.

  Lemma list_loop_dumps popf g e l : forall n,
    Forall (pops popf g e) l -> (length (concat (map dumps_spec l)) <= n)%nat ->
    list_loop popf n (concat (map dumps_spec l)) = if forallb g l then Ok (map mirror l) else Exc e.
  Proof.
    induction l as [|x l IH]; intros n HF Hn; cbn [map concat forallb] in *.
    - destruct n; reflexivity.
    - inversion HF as [|? ? Hx Hl]; subst. rewrite app_length in Hn. pose proof (dumps_spec_length x).
      destruct n as [|n]; [lia|]. destruct (dumps_spec_digit x) as (c & r & Ex & _).
      rewrite Ex. cbn [app list_loop]. rewrite app_comm_cons, <- Ex, Hx.
      destruct (g x); [|reflexivity]. rewrite IH by (auto; lia). now destruct (forallb g l).
  Qed.

  Definition fresh (d : list (tv * tv)) (k : tv) : Prop := Forall (fun p => key_eqb (fst p) k = false) d.

  Lemma dict_replace_fresh d k v : fresh d k -> dict_replace pyfloat d k v = None.
  Proof.
    induction d as [|[k0 v0] d IH]; intros H; cbn [dict_replace]; [reflexivity|].
    inversion H as [|? ? H1 H2]; subst. cbn [fst] in H1. rewrite H1, IH; auto.
  Qed.

  (* insertion order of keys: each later key differs from every earlier one *)
  Fixpoint nocollide (ks : list tv) : Prop :=
    match ks with
    | [] => True
    | k :: r => Forall (fun k' => key_eqb k k' = false) r /\ nocollide r
    end.

  Lemma nocollide_fresh d k r : nocollide (map fst d ++ k :: r) -> fresh d k.
  Proof.
    induction d as [|p d IH]; cbn [map app nocollide]; intros H; constructor; [|tauto].
    destruct H as [H _]. apply Forall_app in H. exact (Forall_inv (proj2 H)).
  Qed.

  Lemma nocollide_snoc ks k : nocollide ks -> Forall (fun x => key_eqb x k = false) ks -> nocollide (ks ++ [k]).
  Proof.
    induction ks as [|x ks IH]; cbn [app nocollide]; [auto|]. intros [H1 H2] H. inversion H; subst.
    split; [apply Forall_app|]; auto.
  Qed.

  Lemma distinct_nocollide_rev ks : distinct_keys ks -> nocollide (rev ks).
  Proof.
    induction ks as [|k r IH]; cbn [distinct_keys rev]; intros H; [exact I|].
    apply nocollide_snoc; [tauto|]. apply Forall_rev. eapply Forall_impl; [|exact (proj1 H)]. tauto.
  Qed.

  Lemma dict_loop_dumps popf g e ps : forall n d,
    Forall (fun p => pops popf g e (fst p) /\ pops popf g e (snd p) /\ hashable (fst p) = true) ps ->
    nocollide (map fst d ++ map fst ps) ->
    (length (concat (map (enc_pair dumps_spec) ps)) <= n)%nat ->
    dict_loop pyfloat popf n (concat (map (enc_pair dumps_spec) ps)) d
    = if forallb (fun p => g (fst p) && g (snd p)) ps then Ok (d ++ map (mirror_pair mirror) ps) else Exc e.
  Proof.
    induction ps as [|p ps IH]; intros n d HF Hnc Hn; cbn [map concat forallb] in *.
    - rewrite app_nil_r. destruct n; reflexivity.
    - inversion HF as [|? ? (Hk & Hv & Hh) Hl]; subst.
      unfold enc_pair at 1 in Hn. unfold enc_pair at 1. rewrite !app_length in Hn. rewrite <- app_assoc.
      pose proof (dumps_spec_length (fst p)). destruct n as [|n]; [lia|].
      destruct (dumps_spec_digit (fst p)) as (c & r & Ex & _).
      rewrite Ex. cbn [app dict_loop]. rewrite app_comm_cons, <- Ex, Hk.
      destruct (g (fst p)); [|reflexivity]. rewrite Hv. destruct (g (snd p)); [|reflexivity]. unfold dict_set.
      rewrite (hashable_mirror _ Hh), Hh, dict_replace_fresh by exact (nocollide_fresh _ _ _ Hnc).
      rewrite IH; auto.
      + rewrite <- app_assoc. unfold mirror_pair at 2. now rewrite (hashable_mirror _ Hh).
      + now rewrite map_app, <- app_assoc.
      + lia.
  Qed.

  (* main lemma: pop reads back exactly one encoded value and leaves the rest, if the stack allows
     the frames it takes, and raises RecursionError if not *)
  Lemma pop_dumps v : wf v -> forall d rest,
    pop pyfloat d (dumps_spec v ++ rest)
    = if (frames v <=? d)%nat then Ok (mirror v, rest) else Exc RecursionError.
  Proof.
    induction v using tv_ind2; intros Hwf d rest; (destruct d as [|d]; [reflexivity|]);
      pose proof (wf_len _ Hwf) as Hlen; rewrite dumps_spec_frame, (pop_frame _ _ _ _ Hlen); cbn [tag payload].
    - now rewrite pw_null.
    - rewrite pw_bool. now destruct b.
    - rewrite pw_int. cbn [wf] in Hwf. rewrite py_int_dec_Z by tauto. reflexivity.
    - rewrite pw_float. cbn [wf] in Hwf. destruct Hwf as [_ [iv E]]. rewrite E. reflexivity.
    - now rewrite pw_bytes.
    - rewrite pw_str. cbn [wf] in Hwf. destruct Hwf as [_ E]. rewrite E. reflexivity.
    - rewrite pw_list. cbn [wf] in Hwf. destruct Hwf as [_ Hl]. apply wf_list_forall in Hl.
      rewrite (list_loop_dumps _ (fun x => (frames x <=? d)%nat) RecursionError), frames_list_leb.
      + now destruct (forallb _ l).
      + rewrite Forall_forall in *. intros x Hx rest0. apply H; auto.
      + lia.
    - rewrite pw_dict. cbn [wf] in Hwf. destruct Hwf as [_ (Hl & Hh & Hdk)]. apply wf_dict_forall in Hl.
      rewrite <- map_rev, (dict_loop_dumps _ (fun x => (frames x <=? d)%nat) RecursionError), frames_dict_leb.
      + cbn [app mirror]. rewrite map_rev. now destruct (forallb _ (rev kv)).
      + rewrite Forall_forall in *. intros p Hp. apply in_rev in Hp.
        destruct (H p Hp) as [IHk IHv]. destruct (Hl p Hp) as [Wk Wv].
        split; [intros rest0; apply IHk; auto | split; [intros rest0; apply IHv; auto | apply Hh; now apply in_map]].
      + cbn [map app]. rewrite map_rev. now apply distinct_nocollide_rev.
      + rewrite map_rev. lia.
  Qed.

  Lemma read_len_digits ds rest : forall cnt,
    Forall (fun c => is_digit c = true) ds -> (cnt + length ds <= 12)%nat ->
    read_len (ds ++ x3a :: rest) cnt = Some (ds, rest).
  Proof.
    induction ds as [|c ds IH]; intros cnt HF Hn; cbn [app read_len].
    - reflexivity.
    - inversion HF as [|? ? Hc Hr]; subst. rewrite Hc. cbn [length] in Hn.
      destruct (12 <? S cnt)%nat eqn:E; [apply Nat.ltb_lt in E; lia|].
      rewrite IH; auto. lia.
  Qed.

  Lemma takeN_app (p l : bytes) : takeN (blen p) (p ++ l) = p.
  Proof.
    unfold takeN, blen. rewrite app_length, N.min_l by lia. rewrite Nat2N.id. apply firstn_exact.
  Qed.
  Lemma dropN_app (p l : bytes) : dropN (blen p) (p ++ l) = l.
  Proof.
    unfold dropN, blen. rewrite app_length, N.min_l by lia. rewrite Nat2N.id. apply skipn_exact.
  Qed.

  Lemma load_prefix depth n body : (length (dec_N n) <= 12)%nat ->
    load pyfloat depth (dec_N n ++ x3a :: body) =
    match dropN n body with
    | [] => LExc IndexError
    | ty :: rest =>
        match parse pyfloat depth ty (takeN n body) with
        | Ok v => LValue v rest | Exc e => LExc e | OutOfFuel => LFuel
        end
    end.
  Proof.
    intros H12. pose proof (dec_N_digits n) as HF. pose proof (digits_val_dec_N n) as HV.
    destruct (dec_N n) as [|c r] eqn:Ed; [now apply dec_N_nonempty in Ed|].
    change ((c :: r) ++ x3a :: body) with (c :: (r ++ x3a :: body)). unfold load.
    change (c :: r ++ x3a :: body) with ((c :: r) ++ x3a :: body).
    rewrite read_len_digits by (auto; cbn [length] in *; lia). now rewrite HV.
  Qed.

  Lemma load_frame depth p ty rest : (length (dec_N (blen p)) <= 12)%nat ->
    load pyfloat depth (frame p ty ++ rest) =
    match parse pyfloat depth ty p with Ok v => LValue v rest | Exc e => LExc e | OutOfFuel => LFuel end.
  Proof. intros H12. now rewrite frame_app, load_prefix, takeN_app, dropN_app. Qed.

  (* the exact stack need of a record: load runs parse in its own frame *)
  Theorem load_dumps_frames v depth rest : wf v -> top_ok v ->
    load pyfloat depth (dumps v ++ rest)
    = if (frames v <=? S depth)%nat then LValue (mirror v) rest else LExc RecursionError.
  Proof.
    intros Hwf Htop. rewrite dumps_is_spec, dumps_spec_frame, load_frame by assumption.
    pose proof (pop_dumps v Hwf (S depth) []) as H.
    rewrite dumps_spec_frame, (pop_frame _ _ _ _ (wf_len _ Hwf)) in H. unfold parse.
    destruct (parse_with pyfloat (pop pyfloat depth) (tag v) (payload v)), (frames v <=? S depth)%nat; congruence.
  Qed.

  Theorem load_dumps v depth rest : wf v -> top_ok v -> (height v <= depth)%nat ->
    load pyfloat depth (dumps v ++ rest) = LValue (mirror v) rest.
  Proof.
    intros Hwf Htop Hd. rewrite load_dumps_frames by assumption.
    pose proof (frames_le_height v). now rewrite (proj2 (Nat.leb_le _ _)) by lia.
  Qed.

  Theorem loads_dumps v depth : wf v -> (height v < depth)%nat ->
    loads pyfloat depth (dumps v) = Ok (mirror v).
  Proof.
    intros Hwf Hd. unfold loads. rewrite dumps_is_spec, <- (app_nil_r (dumps_spec v)), pop_dumps by assumption.
    pose proof (frames_le_height v). now rewrite (proj2 (Nat.leb_le _ _)) by lia.
  Qed.

  Theorem dumps_prefix_free v1 v2 rest :
    wf v1 -> wf v2 -> dumps v2 = dumps v1 ++ rest -> v1 = v2 /\ rest = [].
  Proof.
    intros W1 W2 E.
    pose proof (pop_dumps v1 W1 (Nat.max (frames v1) (frames v2)) rest) as P1.
    pose proof (pop_dumps v2 W2 (Nat.max (frames v1) (frames v2)) []) as P2.
    rewrite (proj2 (Nat.leb_le _ _)) in P1 by lia. rewrite (proj2 (Nat.leb_le _ _)) in P2 by lia.
    rewrite app_nil_r, <- !dumps_is_spec, E in P2. rewrite <- dumps_is_spec in P1.
    rewrite P1 in P2. injection P2 as Em Er. split; [|exact Er].
    rewrite <- (mirror_involutive v1), <- (mirror_involutive v2). now rewrite Em.
  Qed.

  Corollary dumps_injective v1 v2 : wf v1 -> wf v2 -> dumps v1 = dumps v2 -> v1 = v2.
  Proof.
    intros W1 W2 E. apply (dumps_prefix_free v1 v2 []); auto. now rewrite app_nil_r.
  Qed.
End RT.
