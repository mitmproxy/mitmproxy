(* Proofs/ExportSh.v -- the commands built by curl_command / httpie_command (repaired variant of Model/Export.v),
   read by the bash model of Model/Sh.v: exactly one command, argv = the assembled arguments, body as documented. *)
From Coq Require Import List Bool NArith Lia.
From MV Require Import Base.Bytes Proofs.Radix Model.Http1Msg Model.Sh Model.Export Proofs.ShQuote.
Import ListNotations.

Lemma ocons_oapp c t o : ocons c (oapp t o) = oapp (c :: t) o.
Proof. destruct o; reflexivity. Qed.

Lemma hexval_hexd d : (d < 16)%N -> hexval (hexd d) = Some d.
Proof.
  intros H.
  assert (E : forallb (fun d => match hexval (hexd d) with Some v => N.eqb v d | None => false end)
                      (map N.of_nat (seq 0 16)) = true) by (vm_compute; reflexivity).
  apply (forall_below _ 16 E) in H. destruct (hexval (hexd d)); [apply N.eqb_eq in H; subst; reflexivity | discriminate].
Qed.

Lemma printf_body_hex h1 h2 X :
  printf_body (x5c :: x78 :: h1 :: h2 :: X)
  = match hexval h1, hexval h2 with
    | Some v1, Some v2 => ocons (Nb (v1 * 16 + v2)) (printf_body X)
    | Some v1, None => ocons (Nb v1) (printf_body (h2 :: X))
    | None, _ => None
    end.
Proof. reflexivity. Qed.

(* backslash x and two hex digits give the byte back, for every byte; the control bytes are written so *)
Lemma printf_body_ctrl c X : printf_body (ctrl_escape c ++ X) = ocons c (printf_body X).
Proof.
  pose proof (bN_lt c) as L. unfold ctrl_escape. cbn [app].
  rewrite printf_body_hex, !hexval_hexd by (apply N.mod_lt || apply N.div_lt_upper_bound; lia).
  rewrite N.mul_comm, <- N.div_mod, Nb_bN by lia. reflexivity.
Qed.

Lemma printf_body_plain c X : byte_eqb c x5c = false -> byte_eqb c x25 = false ->
  printf_body (c :: X) = ocons c (printf_body X).
Proof. intros A B. cbn [printf_body]. unfold BSLASH, PERCENT. rewrite A, B. reflexivity. Qed.

Lemma printf_body_escape t X :
  printf_body (flat_map (escape_char repaired) t ++ X) = oapp t (printf_body X).
Proof.
  induction t as [|c t IH].
  - simpl. destruct (printf_body X); reflexivity.
  - cbn [flat_map]. rewrite <- app_assoc. unfold escape_char at 1. cbn [fix_printf repaired andb].
    destruct (is_ctrl c) eqn:C.
    + rewrite printf_body_ctrl, IH. apply ocons_oapp.
    + destruct (byte_eqb c x5c) eqn:B.
      * apply byte_eqb_eq in B. subst c.
        change (printf_body ([x5c; x5c] ++ flat_map (escape_char repaired) t ++ X))
          with (ocons x5c (printf_body (flat_map (escape_char repaired) t ++ X))).
        rewrite IH. apply ocons_oapp.
      * destruct (byte_eqb c x25) eqn:P.
        -- apply byte_eqb_eq in P. subst c.
           change (printf_body ([x25; x25] ++ flat_map (escape_char repaired) t ++ X))
             with (ocons x25 (printf_body (flat_map (escape_char repaired) t ++ X))).
           rewrite IH. apply ocons_oapp.
        -- change ([c] ++ flat_map (escape_char repaired) t ++ X) with (c :: flat_map (escape_char repaired) t ++ X).
           rewrite printf_body_plain by assumption. rewrite IH. apply ocons_oapp.
Qed.

(* the repaired escaping is an exact inverse of the printf builtin *)
Theorem printf_escape_roundtrip t : printf_fmt (printf_escape repaired t) = Some t.
Proof.
  pose proof (printf_body_escape t []) as Hb. rewrite app_nil_r in Hb. cbn [printf_body oapp] in Hb.
  rewrite app_nil_r in Hb.
  unfold printf_escape. cbn [fix_printf repaired].
  destruct (flat_map (escape_char repaired) t) as [|c r] eqn:E.
  - cbn in Hb. cbn. exact Hb.
  - destruct (byte_eqb c x2d) eqn:D.
    + apply byte_eqb_eq in D. subst c.
      rewrite printf_body_plain in Hb by reflexivity.
      change (printf_fmt (DASH_ESC ++ r)) with (ocons x2d (printf_body r)). exact Hb.
    + unfold printf_fmt. unfold DASH. rewrite D. exact Hb.
Qed.

(* the original escaping is not: percent and backslash are read by printf *)
Definition body_100 : bytes := [x31; x30; x30; x25; x73; x0a; x01].
Lemma printf_escape_original_refuted :
  printf_fmt (printf_escape original body_100) = Some [x31; x30; x30; x0a; x01].
Proof. vm_compute. reflexivity. Qed.

Lemma escape_char_nonul v c : nonul (escape_char v c).
Proof.
  unfold nonul. destruct v as [fp fg].
  assert (H : forall c, forallb (fun x => negb (byte_eqb x NUL)) (escape_char (mkVar true fg) c)
                        && forallb (fun x => negb (byte_eqb x NUL)) (escape_char (mkVar false fg) c) = true)
    by (apply forall_bytes; vm_compute; reflexivity).
  specialize (H c). apply andb_true_iff in H as [T F]. destruct fp; assumption.
Qed.

Lemma nonul_app a b : nonul a -> nonul b -> nonul (a ++ b).
Proof. unfold nonul. intros A B. rewrite forallb_app, A, B. reflexivity. Qed.

Lemma flat_escape_nonul v t : nonul (flat_map (escape_char v) t).
Proof.
  induction t as [|c t IH]; [reflexivity|]. cbn [flat_map]. apply nonul_app; [apply escape_char_nonul | exact IH].
Qed.

Lemma printf_escape_nonul v t : nonul (printf_escape v t).
Proof.
  unfold printf_escape. pose proof (flat_escape_nonul v t) as F.
  destruct (fix_printf v); [|exact F].
  destruct (flat_map (escape_char v) t) as [|c r]; [exact F|].
  destruct (byte_eqb c x2d); [|exact F].
  unfold nonul in *. simpl in F. apply andb_true_iff in F as [_ F]. simpl. exact F.
Qed.

Lemma noctrl_nonul t : existsb is_ctrl t = false -> nonul t.
Proof.
  unfold nonul. induction t as [|c t IH]; intros H; [reflexivity|].
  simpl in H. apply orb_false_iff in H as [Hc Ht]. simpl. rewrite IH by exact Ht.
  destruct (byte_eqb c NUL) eqn:E; [|reflexivity].
  apply byte_eqb_eq in E. subst c. discriminate.
Qed.

Lemma run_subst_word W H P e out : nonul e -> printf_fmt e = Some out ->
  run (mkSt (mkLv U W None H P) None) (SUBST_OPEN ++ quote e ++ SUBST_CLOSE)
  = Some (mkSt (mkLv U W (Some (subst_trim out)) H P) None).
Proof.
  intros N F.
  change (SUBST_OPEN ++ quote e ++ SUBST_CLOSE) with ([x22; x24; x28] ++ (PRINTF ++ [x20] ++ quote e) ++ [x29; x22]).
  replace (PRINTF ++ [x20] ++ quote e) with (join_sp (map quote [PRINTF; e])) by (simpl; rewrite app_nil_r; reflexivity).
  (* dquote dollar paren opens the inner level; there printf and its format are two quoted arguments *)
  rewrite run_app. change (run (mkSt (mkLv U W None H P) None) [x22; x24; x28])
    with (Some (mkSt (mkLv DQ W (Some []) H P) (Some lv0))).
  cbv iota. rewrite run_app, (run_inner_lrun _ _ _ _ (lrun_join true None [PRINTF; e] ltac:(discriminate)
                                             ltac:(repeat constructor; exact N) [])).
  (* the closing paren runs the builtin, the closing dquote ends the quoted part of the word *)
  cbn [run]. unfold step at 1. cbn [inner outer].
  change (level_step true (after_args [] None [PRINTF; e]) x29) with (CloseSub (mkLv U [PRINTF; e] None None false)).
  cbn [ws]. unfold builtin. rewrite bytes_eqb_refl, F. reflexivity.
Qed.

Definition body_seen (t : bytes) : bytes := if existsb is_ctrl t then subst_trim t else t.

Lemma run_body W H P t c :
  request_content_for_console repaired (TextOk t) = XOk c ->
  run (mkSt (mkLv U W None H P) None) c = Some (mkSt (mkLv U W (Some (body_seen t)) H P) None).
Proof.
  intros E. unfold request_content_for_console in E. unfold body_seen.
  destruct (existsb is_ctrl t) eqn:C; injection E as <-.
  - apply run_subst_word; [apply printf_escape_nonul | apply printf_escape_roundtrip].
  - apply run_outer_lrun. apply lrun_quote. apply noctrl_nonul, C.
Qed.

Definition curl_body_args (r : xreq) : list bytes :=
  if x_has_content r then match x_text r with TextOk t => [OPT_D; body_seen t] | _ => [] end else [].

Definition httpie_stdin (r : xreq) : option bytes :=
  if x_has_content r then match x_text r with TextOk t => Some (body_seen t ++ [NL]) | _ => None end else None.

Lemma join_sp_snoc args a : args <> [] ->
  join_sp (map quote (args ++ [a])) = join_sp (map quote args) ++ [x20] ++ quote a.
Proof.
  induction args as [|b args IH]; intros NE; [contradiction|].
  destruct args as [|c args].
  - simpl. rewrite !app_nil_r. reflexivity.
  - change (join_sp (map quote ((b :: c :: args) ++ [a]))) with (quote b ++ [x20] ++ join_sp (map quote ((c :: args) ++ [a]))).
    rewrite IH by discriminate. cbn [map join_sp]. rewrite <- !app_assoc. reflexivity.
Qed.

(* the shape curl_command and httpie_command share: the quoted arguments and, when the request has content, a
   separator and the body word; both unfold to it by conversion (their literal separators re-associate) *)
Definition command_with_body (args : list bytes) (sep : bytes) (r : xreq) : xres bytes :=
  let command := join_sp (map quote args) in
  if x_has_content r
  then xbind (request_content_for_console repaired (x_text r)) (fun c => XOk (command ++ sep ++ c))
  else XOk command.

(* [sep] closes the last argument and leaves the shell at the start of a word, with words [W] and here-string
   flag [P]; the body becomes that word *)
Lemma command_with_body_runs args sep r cmd W P :
  command_with_body args sep r = XOk cmd ->
  args <> [] -> Forall nonul args -> cmd_name_ok (hd [] args) = true ->
  run (mkSt (after_args [] None args) None) sep = Some (mkSt (mkLv U W None None P) None) ->
  if x_has_content r
  then exists t, x_text r = TextOk t /\ sh_eval cmd = finish (mkSt (mkLv U W (Some (body_seen t)) None P) None)
  else sh_eval cmd = ShRun args None.
Proof.
  unfold command_with_body. intros E NE F OK S. destruct (x_has_content r).
  - destruct (x_text r) as [t| |]; try discriminate. exists t. split; [reflexivity|].
    destruct (request_content_for_console repaired (TextOk t)) as [c| | | |] eqn:RC; try discriminate.
    injection E as <-. unfold sh_eval, st0, lv0.
    rewrite run_app, (run_outer_lrun _ _ _ (lrun_join false None args NE F [])), run_app, S, (run_body _ _ _ t c RC).
    reflexivity.
  - injection E as <-. apply quote_join_roundtrip; assumption.
Qed.

Lemma finish_body W w P : W <> [] -> cmd_name_ok (hd [] W) = true ->
  finish (mkSt (mkLv U W (Some w) None P) None)
  = if P then ShRun W (Some (w ++ [NL])) else ShRun (W ++ [w]) None.
Proof.
  intros NE OK. destruct W as [|name rest]; [contradiction|]. cbn [hd] in OK.
  unfold finish. destruct P; cbn; rewrite OK; reflexivity.
Qed.

Lemma run_space_after_args args : args <> [] ->
  run (mkSt (after_args [] None args) None) [x20] = Some (mkSt (mkLv U args None None false) None).
Proof.
  intros NE. unfold after_args. cbn [run]. unfold step. cbn [inner outer].
  rewrite blank_step by reflexivity. cbn [app]. rewrite <- app_removelast_last by exact NE. reflexivity.
Qed.

Theorem curl_command_runs preserve addr r cmd :
  curl_command repaired preserve addr r = XOk cmd ->
  exists h, pop_headers (x_host r) (x_headers r) = XOk h /\
    (Forall nonul (curl_args repaired preserve addr r h) ->
     sh_eval cmd = ShRun (curl_args repaired preserve addr r h ++ curl_body_args r) None).
Proof.
  unfold curl_command. intros E.
  destruct (pop_headers (x_host r) (x_headers r)) as [h| | | |]; try discriminate.
  exists h. split; [reflexivity|]. intros F.
  set (args := curl_args repaired preserve addr r h) in *.
  assert (NE : args <> []) by discriminate.
  apply (command_with_body_runs args ([x20] ++ OPT_D ++ [x20]) r cmd (args ++ [OPT_D]) false) in E;
    [| exact NE | exact F | reflexivity | rewrite run_app, run_space_after_args by exact NE; reflexivity].
  unfold curl_body_args. destruct (x_has_content r).
  - destruct E as (t & -> & ->). rewrite finish_body, <- app_assoc by (discriminate || reflexivity). reflexivity.
  - rewrite app_nil_r. exact E.
Qed.

Theorem httpie_command_runs r cmd :
  httpie_command repaired r = XOk cmd ->
  exists h, pop_headers (x_host r) (x_headers r) = XOk h /\
    (Forall nonul (httpie_args r h) -> sh_eval cmd = ShRun (httpie_args r h) (httpie_stdin r)).
Proof.
  unfold httpie_command. intros E.
  destruct (pop_headers (x_host r) (x_headers r)) as [h| | | |]; try discriminate.
  exists h. split; [reflexivity|]. intros F.
  set (args := httpie_args r h) in *.
  assert (NE : args <> []) by discriminate.
  apply (command_with_body_runs args ([x20] ++ [x3c; x3c; x3c; x20]) r cmd args true) in E;
    [| exact NE | exact F | reflexivity | rewrite run_app, run_space_after_args by exact NE; reflexivity].
  unfold httpie_stdin. destruct (x_has_content r).
  - destruct E as (t & -> & ->). apply finish_body; [exact NE | reflexivity].
  - exact E.
Qed.

Lemma strip_trailing_nl_id t : last t x00 <> NL -> strip_trailing_nl t = t.
Proof.
  induction t as [|c t IH]; intros L; [reflexivity|].
  cbn [strip_trailing_nl]. destruct t as [|d t].
  - cbn. cbn in L. destruct (byte_eqb c NL) eqn:E; [|reflexivity].
    apply byte_eqb_eq in E. contradiction.
  - rewrite IH by exact L. reflexivity.
Qed.

Lemma filter_nonul_id t : nonul t -> filter (fun c => negb (byte_eqb c NUL)) t = t.
Proof.
  unfold nonul. induction t as [|c t IH]; intros N; [reflexivity|].
  simpl in N. apply andb_true_iff in N as [Nc Nt]. simpl. rewrite Nc, IH by exact Nt. reflexivity.
Qed.

Theorem body_exact_partial t :
  (existsb is_ctrl t = false \/ (nonul t /\ last t x00 <> NL)) -> body_seen t = t.
Proof.
  unfold body_seen, subst_trim. intros [-> | [N L]]; [reflexivity|].
  destruct (existsb is_ctrl t); [|reflexivity].
  rewrite filter_nonul_id by exact N. apply strip_trailing_nl_id, L.
Qed.

(* the two families in which it does not (kind: known findings) *)
Lemma body_trailing_newline_refuted : exists t, nonul t /\ body_seen t <> t.
Proof. exists [x61; x0a]. split; [reflexivity|]. vm_compute. discriminate. Qed.

Lemma body_nul_refuted : exists t, last t x00 <> NL /\ body_seen t <> t.
Proof. exists [x61; x00; x62]. split; vm_compute; discriminate. Qed.
