(* Proofs/Http1Seg.v -- segmentation independence of the HTTP/1 connection model (Model/Http1Seg.v with
   blank_loop = true), for every choice of the message-level parameter functions.
   1. cache irrelevance: step / run give the same result on buffers with the same data (buf_inv);
   2. termination: fuel_for is always enough (measure 2 * len(buf) + [state = read_body]);
   3. one step against appended data (M), then by induction on the measure: feeding a then x equals feeding a ++ x
      up to merging adjacent data events (flat) and up to the contents of the buffer of a closed connection. *)
From Coq Require Import List Bool NArith ZArith Arith Lia.
From MV Require Import Base.Bytes Model.Http1Seg Proofs.ListFacts Proofs.Http1SegBuf.
Import ListNotations.

Section P.
Variables Req Resp : Type.
Variable server_head : list bytes -> head_result Req.
Variable client_head : Req -> list bytes -> head_result Resp.
Variable is_connect : Req -> bool.
Variable after : role -> Req -> Resp -> after_done.
Variable trailer : list bytes -> trailer_result.

Notation conn := (Http1Seg.conn Req Resp).
Notation sres := (Http1Seg.sres Req Resp).
Notation rres := (Http1Seg.rres Req Resp).
Notation out := (Http1Seg.out Req Resp).
Notation make_pipe := (Http1Seg.make_pipe Req Resp).
Notation mark_done := (Http1Seg.mark_done Req Resp after).
Notation end_of_message := (Http1Seg.end_of_message Req Resp is_connect after).
Notation protocol_error := (Http1Seg.protocol_error Req Resp).
Notation crash := (Http1Seg.crash Req Resp).
Notation read_body := (Http1Seg.read_body Req Resp is_connect after trailer).
Notation read_headers := (Http1Seg.read_headers Req Resp server_head client_head true).
Notation step := (Http1Seg.step Req Resp server_head client_head is_connect after trailer true).
Notation run := (Http1Seg.run Req Resp server_head client_head is_connect after trailer true).
Notation handle_data := (Http1Seg.handle_data Req Resp server_head client_head is_connect after trailer true).
Notation sid_of := (Http1Seg.sid_of Req Resp).
Notation set_state := (Http1Seg.set_state Req Resp).
Notation set_reader := (Http1Seg.set_reader Req Resp).
Notation set_closed := (Http1Seg.set_closed Req Resp).

Inductive atom := AByte (sid : N) (b : byte) | AOther (o : out).

Definition flat1 (o : out) : list atom :=
  match o with
  | OData sid d => map (AByte sid) d
  | _ => [AOther o]
  end.
(* the output stream with adjacent data events of a stream merged: data as single bytes *)
Definition flat (l : list out) : list atom := flat_map flat1 l.

Lemma flat_app l1 l2 : flat (l1 ++ l2) = flat l1 ++ flat l2.
Proof. apply flat_map_app. Qed.

Lemma flat_data_app sid a b : flat [OData sid (a ++ b)] = flat [OData sid a; OData sid b].
Proof. simpl. rewrite map_app, !app_nil_r. reflexivity. Qed.

Definition beq (b1 b2 : rbuf) : Prop := b_data b1 = b_data b2.

Definition triple := (conn * rbuf * list out)%type.
Definition pre (o : list out) (t : triple) : triple := let '(c, b, o') := t in (c, b, o ++ o').

(* same end: the same connection object and buffered data, or both connections closed by the proxy *)
Definition fin_rel (c1 : conn) (b1 : rbuf) (c2 : conn) (b2 : rbuf) : Prop :=
  (c_closed c1 = true /\ c_closed c2 = true) \/ (c1 = c2 /\ beq b1 b2).

Definition tr_rel (t1 t2 : triple) : Prop :=
  let '(c1, b1, o1) := t1 in let '(c2, b2, o2) := t2 in fin_rel c1 b1 c2 b2 /\ flat o1 = flat o2.

Lemma tr_rel_refl t : tr_rel t t.
Proof. destruct t as [[c b] o]. split; [right; split; reflexivity|reflexivity]. Qed.

Lemma tr_rel_trans t1 t2 t3 : tr_rel t1 t2 -> tr_rel t2 t3 -> tr_rel t1 t3.
Proof.
  destruct t1 as [[c1 b1] o1], t2 as [[c2 b2] o2], t3 as [[c3 b3] o3]. unfold tr_rel, fin_rel, beq.
  intros [[[A B]|[A B]] E1] [[[C D]|[C D]] E2]; (split; [|congruence]); subst; auto.
  right. split; congruence.
Qed.

Lemma tr_rel_pre o t1 t2 : tr_rel t1 t2 -> tr_rel (pre o t1) (pre o t2).
Proof.
  destruct t1 as [[c1 b1] o1], t2 as [[c2 b2] o2]. unfold tr_rel, pre. intros [A B]. split; [exact A|].
  rewrite !flat_app. congruence.
Qed.

Lemma pre_pre o1 o2 t : pre o1 (pre o2 t) = pre (o1 ++ o2) t.
Proof. destruct t as [[c b] o]. simpl. rewrite app_assoc. reflexivity. Qed.

Lemma pre_nil t : pre [] t = t.
Proof. destruct t as [[c b] o]. reflexivity. Qed.

(* the same data, whatever the two caches hold, as long as they are valid *)
Definition same (b1 b2 : rbuf) : Prop := beq b1 b2 /\ buf_inv b1 /\ buf_inv b2.

Lemma same_refl b : buf_inv b -> same b b.
Proof. intros I. split; [reflexivity|split; exact I]. Qed.

Lemma same_add b1 b2 x : same b1 b2 -> same (buf_add b1 x) (buf_add b2 x).
Proof. intros (E & I1 & I2). split; [unfold beq; cbn; congruence|split; apply buf_inv_add; assumption]. Qed.

Lemma same_zero b : buf_inv b -> same (mkBuf (b_data b) 0 0) b.
Proof. intros I. split; [reflexivity|split; [apply buf_inv_zero|exact I]]. Qed.

Inductive same_res {A} : A * rbuf -> A * rbuf -> Prop :=
| SR r b1 b2 : same b1 b2 -> same_res (r, b1) (r, b2).

Inductive sres_eq : sres -> sres -> Prop :=
| SE_go c b1 b2 o : same b1 b2 -> sres_eq (Go c b1 o) (Go c b2 o)
| SE_stop c b1 b2 o : same b1 b2 -> sres_eq (Stop c b1 o) (Stop c b2 o).

Lemma at_most_cong b1 b2 n : same b1 b2 -> same_res (maybe_extract_at_most b1 n) (maybe_extract_at_most b2 n).
Proof.
  intros S. unfold maybe_extract_at_most. rewrite <- (proj1 S).
  destruct (splitN (b_data b1) n) as [[|a o] r]; constructor; [exact S|apply same_refl, buf_inv_zero].
Qed.

Lemma extract_cong {A} (op : rbuf -> option A * rbuf) cut b1 b2 :
  extracts op cut -> same b1 b2 -> same_res (op b1) (op b2).
Proof.
  intros E (Eq & I1 & I2). pose proof (E b1 I1) as E1. pose proof (E b2 I2) as E2. rewrite <- Eq in E2.
  destruct (cut (b_data b1)) as [[k r]|].
  - rewrite E1, E2. constructor. apply same_refl, buf_inv_zero.
  - destruct (op b1) as [r1 b1'], (op b2) as [r2 b2']. cbn in E1, E2. destruct E1 as (-> & D1 & J1), E2 as (-> & D2 & J2).
    constructor. split; [unfold beq; congruence|split; assumption].
Qed.

Definition lines_cong b1 b2 : same b1 b2 -> same_res (maybe_extract_lines b1) (maybe_extract_lines b2) :=
  extract_cong _ _ b1 b2 lines_extracts.

Lemma buf_bool_beq b1 b2 : beq b1 b2 -> buf_bool b1 = buf_bool b2.
Proof. unfold beq, buf_bool. intros ->. reflexivity. Qed.

Lemma buf_bool_true b : buf_bool b = true <-> b_data b <> [].
Proof. unfold buf_bool. destruct (b_data b); split; congruence. Qed.

(* make_pipe never continues: the connection is a tunnel, the buffer is emptied, what was buffered goes out lstripped *)
Lemma make_pipe_eq c b :
  make_pipe c b = Stop (set_state c Passthrough) (if buf_bool b then mkBuf [] 0 0 else b)
                       match lstrip_crlf (b_data b) with [] => [] | l => [OData (sid_of c) l] end.
Proof.
  unfold Http1Seg.make_pipe. destruct (buf_bool b) eqn:Eb.
  - rewrite (at_most_all b) by (apply buf_bool_true; exact Eb). destruct (lstrip_crlf (b_data b)); reflexivity.
  - unfold buf_bool in Eb. destruct (b_data b); [reflexivity|discriminate].
Qed.

Lemma make_pipe_cong c b1 b2 : same b1 b2 -> sres_eq (make_pipe c b1) (make_pipe c b2).
Proof.
  intros S. rewrite !make_pipe_eq, (proj1 S), (buf_bool_beq _ _ (proj1 S)). constructor.
  destruct (buf_bool b2); [apply same_refl, buf_inv_zero|exact S].
Qed.

Lemma mark_done_cong c b1 b2 rq rs : same b1 b2 -> sres_eq (mark_done c b1 rq rs) (mark_done c b2 rq rs).
Proof.
  intros S. unfold Http1Seg.mark_done. cbv zeta.
  set (c1 := Http1Seg.set_done_flags Req Resp c (c_request_done c || rq) (c_response_done c || rs)).
  destruct (c_request_done c1 && c_response_done c1).
  - destruct (c_request c1); [|constructor; exact S]. destruct (c_response c1); [|constructor; exact S].
    destruct (after (c_role c1) r r0); [apply make_pipe_cong; exact S|constructor; exact S|].
    rewrite (buf_bool_beq _ _ (proj1 S)). destruct (buf_bool b2); constructor; exact S.
  - destruct (c_role c1); match goal with |- context [if ?X then _ else _] => destruct X end; constructor; exact S.
Qed.

Lemma eom_cong c b1 b2 : same b1 b2 -> sres_eq (end_of_message c b1) (end_of_message c b2).
Proof.
  intros S. unfold Http1Seg.end_of_message. destruct (c_request c); [|constructor; exact S].
  destruct (mark_done_cong c b1 b2 (match c_role c with Server => true | Client => false end)
              (negb (match c_role c with Server => true | Client => false end)) S); constructor; assumption.
Qed.

Lemma read_body_cong c b1 b2 : same b1 b2 -> sres_eq (read_body c b1) (read_body c b2).
Proof.
  intros S. unfold Http1Seg.read_body, Http1Seg.protocol_error, Http1Seg.crash.
  destruct (c_reader c) as [rem|inc td tr|].
  - destruct (N.eqb rem 0); [apply eom_cong; exact S|].
    destruct (at_most_cong _ _ rem S) as [r b1' b2' S']. destruct r; constructor; exact S'.
  - destruct tr.
    + destruct (lines_cong _ _ S) as [r b1' b2' S']. destruct r as [[|l ls]|]; [apply eom_cong; exact S'| |constructor; exact S'].
      destruct (trailer (l :: ls)); constructor; exact S'.
    + destruct td as [|t0 td'].
      * destruct (N.eqb inc 0).
        -- destruct (extract_cong _ _ _ _ next_line_extracts S) as [r b1' b2' S']. destruct r as [line|]; [|constructor; exact S'].
           destruct (parse_chunk_header line); constructor; exact S'.
        -- destruct (at_most_cong _ _ inc S) as [r b1' b2' S']. destruct r; constructor; exact S'.
      * destruct (at_most_cong _ _ (N.of_nat (length (t0 :: td'))) S) as [r b1' b2' S'].
        destruct r as [d|]; [|constructor; exact S'].
        destruct (negb (is_prefix d (t0 :: td'))); [constructor; exact S'|].
        destruct (skipn (length d) (t0 :: td')); constructor; exact S'.
  - destruct (at_most_cong _ _ HTTP10_MAX S) as [r b1' b2' S']. destruct r; constructor; exact S'.
Qed.

Lemma read_headers_cong c b1 b2 : same b1 b2 -> sres_eq (read_headers c b1) (read_headers c b2).
Proof.
  intros S. unfold Http1Seg.read_headers, Http1Seg.crash. destruct (c_role c).
  - destruct (lines_cong _ _ S) as [r b1' b2' S']. destruct r as [[|l ls]|]; try (constructor; exact S').
    destruct (server_head (l :: ls)); constructor; exact S'.
  - destruct (c_request c) as [rq|]; [|constructor; exact S].
    destruct (lines_cong _ _ S) as [r b1' b2' S']. destruct r as [[|l ls]|]; try (constructor; exact S').
    destruct (client_head rq (l :: ls)); constructor; exact S'.
Qed.

Lemma step_cong c b1 b2 : same b1 b2 -> sres_eq (step c b1) (step c b2).
Proof.
  intros S. unfold Http1Seg.step. destruct (c_state c);
    [apply read_headers_cong|apply read_body_cong|constructor|constructor|constructor]; exact S.
Qed.

Lemma step_inv c b : buf_inv b ->
  match step c b with Go _ b' _ => buf_inv b' | Stop _ b' _ => buf_inv b' end.
Proof. intros I. destruct (step_cong c b b (same_refl b I)) as [? ? ? ? S|? ? ? ? S]; apply S. Qed.

Definition rres_eq (r1 r2 : rres) : Prop :=
  match r1, r2 with
  | Finished c1 b1 o1, Finished c2 b2 o2 => c1 = c2 /\ o1 = o2 /\ beq b1 b2 /\ buf_inv b1 /\ buf_inv b2
  | OutOfFuel, OutOfFuel => True
  | _, _ => False
  end.

Lemma run_same : forall f c b1 b2, same b1 b2 -> rres_eq (run f c b1) (run f c b2).
Proof.
  induction f as [|f IH]; intros c b1 b2 S; simpl; [exact I|].
  destruct (step_cong c b1 b2 S) as [c' b1' b2' o S'|c' b1' b2' o S']; simpl; [|auto].
  specialize (IH c' b1' b2' S'). unfold rres_eq in IH.
  destruct (run f c' b1'), (run f c' b2'); try contradiction; auto.
  destruct IH as (-> & -> & ?). simpl. auto.
Qed.

Definition mu (c : conn) (b : rbuf) : nat :=
  2 * length (b_data b) + match c_state c with ReadBody => 1 | _ => 0 end.

(* dmatches H: split on every match scrutinee in H, from the outside in, until H is contradictory or has none left;
   in the _go lemmas below H says that an activation returned Go, so only the Go branches survive *)
Ltac dmatch H := match type of H with context [match ?X with _ => _ end] => destruct X eqn:? end.
Ltac dmatches H := repeat (first [discriminate | dmatch H]).

Lemma mark_done_go c b rq rs c' b' o : mark_done c b rq rs = Go c' b' o ->
  b' = b /\ c_state c' = ReadHeaders /\ c_closed c' = c_closed c.
Proof.
  unfold Http1Seg.mark_done. cbv zeta. intros H.
  match type of H with context [if ?X then _ else _] => destruct X end.
  - match type of H with context [c_request ?X] => destruct (c_request X); [|discriminate] end.
    match type of H with context [c_response ?X] => destruct (c_response X); [|discriminate] end.
    match type of H with context [after ?A ?B ?C] => destruct (after A B C) end.
    + rewrite make_pipe_eq in H. discriminate.
    + discriminate.
    + destruct (buf_bool b); [|discriminate]. inversion H; subst. simpl. auto.
  - dmatches H.
Qed.

Lemma eom_go c b c' b' o : end_of_message c b = Go c' b' o ->
  b' = b /\ c_state c' = ReadHeaders /\ c_closed c' = c_closed c.
Proof.
  unfold Http1Seg.end_of_message. intros H. destruct (c_request c); [|discriminate].
  match type of H with context [mark_done ?C b ?A ?B] => destruct (mark_done C b A B) eqn:E end; [|discriminate].
  inversion H; subst. exact (mark_done_go _ _ _ _ _ _ _ E).
Qed.

Lemma read_body_go c b c' b' o : buf_inv b -> c_state c = ReadBody -> read_body c b = Go c' b' o ->
  mu c' b' < mu c b /\ c_closed c' = c_closed c /\ c_state c' <> Passthrough.
Proof.
  intros I S H. unfold mu. rewrite S. unfold Http1Seg.read_body, Http1Seg.protocol_error, Http1Seg.crash in H.
  dmatches H;
    repeat match goal with
           | E : maybe_extract_at_most _ _ = (Some _, _) |- _ => apply at_most_shrinks in E
           | E : maybe_extract_next_line _ = (Some _, _) |- _ => apply (extract_shrinks _ _ next_line_extracts next_line_cut_prefix _ _ _ I) in E
           | E : maybe_extract_lines _ = (Some _, _) |- _ => apply (extract_shrinks _ _ lines_extracts lines_cut_prefix _ _ _ I) in E
           end;
    first [ apply eom_go in H; destruct H as (Hb & Hs & Hc); subst b'; rewrite Hs, Hc; simpl
          | inversion H; subst; clear H; simpl; rewrite ?S ];
    (repeat split; try lia; try congruence; try discriminate).
Qed.

Lemma read_headers_go c b c' b' o : buf_inv b -> c_state c = ReadHeaders -> read_headers c b = Go c' b' o ->
  mu c' b' < mu c b /\ c_closed c' = c_closed c /\ c_state c' <> Passthrough.
Proof.
  intros I S H. unfold mu. rewrite S. unfold Http1Seg.read_headers, Http1Seg.crash in H.
  dmatches H; inversion H; subst; clear H; simpl; rewrite ?S;
    repeat match goal with
           | E : maybe_extract_lines _ = (Some _, _) |- _ => apply (extract_shrinks _ _ lines_extracts lines_cut_prefix _ _ _ I) in E
           end; (repeat split; try lia; try congruence; try discriminate).
Qed.

Lemma step_go c b c' b' o : buf_inv b -> step c b = Go c' b' o ->
  mu c' b' < mu c b /\ c_closed c' = c_closed c /\ c_state c' <> Passthrough.
Proof.
  intros I H. unfold Http1Seg.step in H. destruct (c_state c) eqn:S; try discriminate.
  - eapply read_headers_go; eauto.
  - eapply read_body_go; eauto.
Qed.

Lemma run_fuel : forall f1 f2 c b, buf_inv b -> mu c b < f1 -> mu c b < f2 ->
  run f1 c b = run f2 c b /\ run f1 c b <> OutOfFuel.
Proof.
  induction f1 as [|f1 IH]; intros [|f2] c b I H1 H2; try lia. simpl.
  pose proof (step_inv c b I) as J. destruct (step c b) as [c' b' o|c' b' o] eqn:E; [|split; [reflexivity|discriminate]].
  destruct (step_go _ _ _ _ _ I E) as (Hlt & _ & _).
  destruct (IH f2 c' b' J) as [<- Hne]; [lia|lia|]. split; [reflexivity|].
  destruct (run f1 c' b'); [discriminate|congruence].
Qed.

(* the result of running to the end, as a total function *)
Definition ev (c : conn) (b : rbuf) : triple :=
  match run (fuel_for b) c b with Finished c' b' o => (c', b', o) | OutOfFuel => (c, b, []) end.

Lemma fuel_enough c b : mu c b < fuel_for b.
Proof. unfold mu, fuel_for. destruct (c_state c); lia. Qed.

Lemma ev_run c b : buf_inv b -> forall f, mu c b < f -> run f c b = let '(c', b', o) := ev c b in Finished c' b' o.
Proof.
  intros I f Hf. unfold ev. destruct (run_fuel f (fuel_for b) c b I Hf (fuel_enough c b)) as [<- Hne].
  destruct (run f c b); [reflexivity|congruence].
Qed.

(* ev after a first activation with result r *)
Definition evK (r : sres) : triple :=
  match r with Go c b o => pre o (ev c b) | Stop c b o => (c, b, o) end.

Lemma ev_step c b : buf_inv b -> ev c b = evK (step c b).
Proof.
  intros I. pose proof (ev_run c b I (S (mu c b)) (Nat.lt_succ_diag_r _)) as H. simpl in H.
  pose proof (step_inv c b I) as J.
  destruct (step c b) as [c' b' o|c' b' o] eqn:E; simpl.
  - destruct (step_go _ _ _ _ _ I E) as (Hlt & _ & _).
    rewrite (ev_run c' b' J (mu c b)) in H by exact Hlt.
    destruct (ev c' b') as [[c1 b1] o1]. destruct (ev c b) as [[c2 b2] o2]. inversion H; subst. reflexivity.
  - destruct (ev c b) as [[c2 b2] o2]. inversion H; subst. reflexivity.
Qed.

Lemma ev_inv c b : buf_inv b -> let '(_, b', _) := ev c b in buf_inv b'.
Proof.
  intros I. unfold ev. pose proof (run_same (fuel_for b) c b b (same_refl b I)) as H. unfold rres_eq in H.
  destruct (run (fuel_for b) c b); [tauto|exact I].
Qed.

Lemma ev_cong c b1 b2 : same b1 b2 -> tr_rel (ev c b1) (ev c b2).
Proof.
  intros S. unfold ev. assert (F : fuel_for b1 = fuel_for b2) by (unfold fuel_for; rewrite (proj1 S); reflexivity).
  rewrite F. pose proof (run_same (fuel_for b2) c b1 b2 S) as H. unfold rres_eq in H.
  destruct (run (fuel_for b2) c b1), (run (fuel_for b2) c b2); try contradiction.
  - destruct H as (-> & -> & Hb & _). split; [right; split; auto|reflexivity].
  - split; [right; split; [reflexivity|apply S]|reflexivity].
Qed.

(* handle_data as a total function: also what the connection does with a further segment x after an activation
   that returned (Stop) *)
Definition hd (c : conn) (b : rbuf) (x : bytes) : triple :=
  if c_closed c then (c, b, [])
  else match c_state c with Passthrough => (c, b, [OData (sid_of c) x]) | _ => ev c (buf_add b x) end.

Lemma handle_data_hd c b d : buf_inv b -> handle_data c b d = let '(c', b', o) := hd c b d in Finished c' b' o.
Proof.
  intros I. unfold Http1Seg.handle_data, hd. destruct (c_closed c); [reflexivity|].
  pose proof (buf_inv_add b d I) as J.
  destruct (c_state c); try reflexivity; apply (ev_run c _ J); apply fuel_enough.
Qed.

Lemma hd_closed c b x : c_closed c = true -> hd c b x = (c, b, []).
Proof. unfold hd. intros ->. reflexivity. Qed.
Lemma hd_pass c b x : c_closed c = false -> c_state c = Passthrough -> hd c b x = (c, b, [OData (sid_of c) x]).
Proof. unfold hd. intros -> ->. reflexivity. Qed.
Lemma hd_live c b x : c_closed c = false -> c_state c <> Passthrough -> hd c b x = ev c (buf_add b x).
Proof. unfold hd. intros -> H. destruct (c_state c); congruence. Qed.

(* what the connection does with a further segment x after a first activation with result r: a Go runs on with x
   appended to the buffer, a Stop has returned, so x arrives as the next event (hd).  The _M lemmas relate
   evK (f (buf_add b x)) to K (f b) x for each activation f. *)
Definition K (r : sres) (x : bytes) : triple :=
  match r with Go c b o => pre o (ev c (buf_add b x)) | Stop c b o => pre o (hd c b x) end.

(* the one place where the code itself depends on the cut (finding): bytes following a switch to passthrough are
   lstripped only if already buffered *)
Definition ok_stop (c : conn) (x : bytes) : Prop :=
  c_state c = Passthrough -> lstrip_crlf x = x.
Definition guard (r : sres) (x : bytes) : Prop :=
  match r with Stop c _ _ => ok_stop c x | Go _ _ _ => True end.

Definition pre_s (o : list out) (r : sres) : sres :=
  match r with Go c b o' => Go c b (o ++ o') | Stop c b o' => Stop c b (o ++ o') end.

Lemma evK_pre_s o r : evK (pre_s o r) = pre o (evK r).
Proof. destruct r; simpl; [rewrite pre_pre|]; reflexivity. Qed.
Lemma K_pre_s o r x : K (pre_s o r) x = pre o (K r x).
Proof. destruct r; simpl; rewrite pre_pre; reflexivity. Qed.
Lemma guard_pre_s o r x : guard (pre_s o r) x = guard r x.
Proof. destruct r; reflexivity. Qed.

(* the three ways a Stop on b is matched by the run on b + x: the connection was closed (the buffers no longer
   matter); nothing was extracted, so the same activation is retried on b + x; the connection waits and only buffers *)
Lemma closed_pattern c' b bx o x : c_closed c' = true -> tr_rel (evK (Stop c' bx o)) (K (Stop c' b o) x).
Proof.
  intros H. simpl. unfold hd. rewrite H. simpl. rewrite app_nil_r. split; [left; auto|reflexivity].
Qed.

Lemma retry_pattern c b b0 x : same b b0 -> c_closed c = false -> c_state c <> Passthrough ->
  tr_rel (ev c (buf_add b x)) (K (Stop c b0 []) x).
Proof.
  intros S Hc Hs. simpl. unfold hd. rewrite Hc. rewrite pre_nil.
  pose proof (ev_cong c _ _ (same_add _ _ x S)) as T.
  destruct (c_state c); try exact T. congruence.
Qed.

Lemma quiet_pattern c' b bx o x : c_closed c' = false -> c_state c' = Wait -> bx = buf_add b x -> buf_inv b ->
  tr_rel (evK (Stop c' bx o)) (K (Stop c' b o) x).
Proof.
  intros Hc Hs -> I. simpl. unfold hd. rewrite Hc, Hs. rewrite (ev_step _ _ (buf_inv_add b x I)).
  unfold Http1Seg.step. rewrite Hs. simpl. rewrite app_nil_r. apply (tr_rel_refl (c', buf_add b x, o)).
Qed.

Lemma buf_bool_add b x : x <> [] -> buf_bool (buf_add b x) = true.
Proof. intros H. apply buf_bool_true. simpl. destruct (b_data b); simpl; congruence. Qed.

Lemma flat_data_opt sid l : flat match l with [] => [] | y :: t => [OData sid (y :: t)] end = map (AByte sid) l.
Proof. destruct l; [reflexivity|]. cbn. rewrite app_nil_r. reflexivity. Qed.

Lemma make_pipe_M c b x : buf_inv b -> x <> [] -> c_closed c = false -> lstrip_crlf x = x ->
  tr_rel (evK (make_pipe c (buf_add b x))) (K (make_pipe c b) x).
Proof.
  intros I Hx Hc Hl. rewrite !make_pipe_eq, (buf_bool_add b x Hx). cbn [evK K b_data buf_add].
  rewrite (hd_pass (set_state c Passthrough) _ x Hc eq_refl), (lstrip_app_fixed _ _ Hl). split.
  - right. split; [reflexivity|]. unfold beq, buf_bool. destruct (b_data b) eqn:Eb; [symmetry; exact Eb|reflexivity].
  - rewrite flat_app, !flat_data_opt, map_app. cbn. rewrite app_nil_r. reflexivity.
Qed.

(* mark_done as end_of_message calls it: the message of this connection's own direction is complete *)
Lemma mark_done_M c b x : buf_inv b -> x <> [] -> c_closed c = false ->
  let r := match c_role c with Server => true | Client => false end in
  guard (mark_done c b r (negb r)) x ->
  tr_rel (evK (mark_done c (buf_add b x) r (negb r))) (K (mark_done c b r (negb r)) x).
Proof.
  intros I Hx Hc r G. unfold Http1Seg.mark_done in *. cbv zeta in *.
  set (c1 := Http1Seg.set_done_flags Req Resp c (c_request_done c || r) (c_response_done c || negb r)) in *.
  assert (Hc1 : c_closed c1 = false) by exact Hc.
  destruct (c_request_done c1 && c_response_done c1) eqn:Eb.
  - destruct (c_request c1) as [request|]; [|apply closed_pattern; reflexivity].
    destruct (c_response c1) as [response|]; [|apply closed_pattern; reflexivity].
    destruct (after (c_role c1) request response).
    + apply make_pipe_M; auto. rewrite make_pipe_eq in G. apply G. reflexivity.
    + apply closed_pattern. reflexivity.
    + rewrite (buf_bool_add b x Hx). destruct (buf_bool b).
      * apply tr_rel_refl.
      * simpl. unfold hd. simpl. rewrite Hc. apply tr_rel_refl.
  - (* the other direction is still open: the connection waits *)
    assert (W : (if c_role c1 then c_request_done c1 && negb (c_response_done c1)
                 else c_response_done c1 && negb (c_request_done c1)) = true).
    { subst c1 r. cbn in Eb |- *. destruct (c_role c), (c_request_done c), (c_response_done c); cbn in Eb |- *; congruence. }
    destruct (c_role c1); rewrite W; eapply quiet_pattern; eauto.
Qed.

Lemma eom_unfold c b :
  end_of_message c b =
  match c_request c with
  | None => crash c b CrashAssert
  | Some request =>
      pre_s (if is_connect request then [] else [OEndOfMessage (sid_of c)])
            (mark_done c b (match c_role c with Server => true | Client => false end)
                       (negb (match c_role c with Server => true | Client => false end)))
  end.
Proof.
  unfold Http1Seg.end_of_message. destruct (c_request c); [|reflexivity].
  match goal with |- context [mark_done ?C b ?A ?B] => destruct (mark_done C b A B) end; reflexivity.
Qed.

Lemma eom_M c b x : buf_inv b -> x <> [] -> c_closed c = false ->
  guard (end_of_message c b) x ->
  tr_rel (evK (end_of_message c (buf_add b x))) (K (end_of_message c b) x).
Proof.
  intros I Hx Hc G. rewrite !eom_unfold in *. destruct (c_request c); [|apply closed_pattern; reflexivity].
  rewrite evK_pre_s, K_pre_s. rewrite guard_pre_s in G. apply tr_rel_pre.
  apply mark_done_M; auto.
Qed.

Definition lines_app b x r b' :
  buf_inv b -> maybe_extract_lines b = (Some r, b') -> maybe_extract_lines (buf_add b x) = (Some r, buf_add b' x) :=
  extract_app _ _ lines_extracts lines_cut_prefix b x r b'.

Lemma extract_retry {A} (op : rbuf -> option A * rbuf) cut b b' : extracts op cut -> buf_inv b -> op b = (None, b') -> same b b'.
Proof.
  intros E I H. destruct (extract_none _ _ E b b' I H) as [D J]. split; [unfold beq; congruence|split; assumption].
Qed.

Lemma at_most_data d n : maybe_extract_at_most (mkBuf d 0 0) n =
  match splitN d n with ([], _) => (None, mkBuf d 0 0) | (out, rest) => (Some out, mkBuf rest 0 0) end.
Proof. reflexivity. Qed.

Lemma read_headers_M c b x : buf_inv b -> c_closed c = false -> c_state c = ReadHeaders ->
  tr_rel (ev c (buf_add b x)) (K (read_headers c b) x).
Proof.
  intros I Hc Hs. pose proof (buf_inv_add b x I) as J.
  assert (Est : ev c (buf_add b x) = evK (read_headers c (buf_add b x))).
  { rewrite (ev_step _ _ J). unfold Http1Seg.step. rewrite Hs. reflexivity. }
  assert (Hnp : c_state c <> Passthrough) by congruence.
  unfold Http1Seg.read_headers, Http1Seg.crash in *. destruct (c_role c).
  - destruct (maybe_extract_lines b) as [[ls|] b'] eqn:E.
    + rewrite Est, (lines_app _ _ _ _ I E). destruct ls as [|l ls']; [apply tr_rel_refl|].
      destruct (server_head (l :: ls')); try (apply closed_pattern; reflexivity). apply tr_rel_refl.
    + apply retry_pattern; eauto using extract_retry, lines_extracts.
  - destruct (c_request c) as [request|]; [|rewrite Est; apply closed_pattern; reflexivity].
    destruct (maybe_extract_lines b) as [[ls|] b'] eqn:E.
    + rewrite Est, (lines_app _ _ _ _ I E). destruct ls as [|l ls']; [apply tr_rel_refl|].
      destruct (client_head request (l :: ls')); try (apply closed_pattern; reflexivity). apply tr_rel_refl.
    + apply retry_pattern; eauto using extract_retry, lines_extracts.
Qed.

Lemma ev_read_body c b : buf_inv b -> c_state c = ReadBody -> ev c b = evK (read_body c b).
Proof. intros I S. rewrite (ev_step _ _ I). unfold Http1Seg.step. rewrite S. reflexivity. Qed.

(* a section of the body read with maybe_extract_at_most: the readers mk m, m bytes of the section still to come *)
Lemma data_merge c b x n (mk : N -> reader) :
  buf_inv b -> x <> [] -> c_closed c = false -> c_state c = ReadBody -> c_reader c = mk n -> n <> 0%N ->
  (forall cc m bb, m <> 0%N -> c_reader cc = mk m ->
     read_body cc bb = match maybe_extract_at_most bb m with
                       | (None, b1) => Stop cc b1 []
                       | (Some d, b1) => Go (set_reader cc (mk (m - N.of_nat (length d))%N)) b1 (Http1Seg.data_out Req Resp cc d)
                       end) ->
  tr_rel (ev c (buf_add b x)) (K (read_body c b) x).
Proof.
  intros I Hx Hc S R Hn Hrb. pose proof (buf_inv_add b x I) as J. rewrite (Hrb c n b Hn R).
  destruct (maybe_extract_at_most b n) as [[a|] b'] eqn:E.
  2: { apply at_most_none in E. subst b'. apply retry_pattern; [apply same_refl, I|exact Hc|congruence]. }
  pose proof (at_most_inv b n I) as Ib'. rewrite E in Ib'. cbn [snd] in Ib'.
  rewrite (ev_read_body _ _ J S), (Hrb c n _ Hn R).
  destruct (at_most_app _ x _ _ _ Hx E) as [[Ea _]|(-> & Hlt & y & r & Es & Ea)]; rewrite Ea; cbn [evK K].
  - apply tr_rel_pre. apply ev_cong, (same_zero (buf_add b' x)), buf_inv_add, Ib'.
  - set (c1 := set_reader c (mk (n - N.of_nat (length a))%N)).
    assert (Hm : (n - N.of_nat (length a))%N <> 0%N) by lia.
    rewrite (ev_read_body c1 _ (buf_inv_add _ x Ib') S), (Hrb c1 _ _ Hm eq_refl).
    change (buf_add (mkBuf [] 0 0) x) with (mkBuf x 0 0). rewrite Es.
    cbn [evK]. rewrite pre_pre, app_length, Nat2N.inj_add, N.sub_add_distr.
    unfold Http1Seg.data_out.
    change (set_reader c1 ?r) with (set_reader c r).
    destruct (ev (set_reader c (mk (n - N.of_nat (length a) - N.of_nat (length y))%N)) r) as [[c3 b3] o3].
    cbn [pre]. split; [right; split; reflexivity|]. unfold flat. cbn [flat_map flat1 app].
    rewrite map_app, <- !app_assoc. reflexivity.
Qed.

(* read until EOF: everything buffered is passed on *)
Lemma http10_ev : forall n c b, length (b_data b) < n -> buf_inv b -> c_state c = ReadBody -> c_reader c = Http10Reader ->
  exists b' o, ev c b = (c, b', o) /\ b_data b' = [] /\ flat o = map (AByte (sid_of c)) (b_data b).
Proof.
  induction n as [|n IH]; intros c b Hl I S R; [lia|].
  rewrite (ev_read_body _ _ I S). unfold Http1Seg.read_body. rewrite R.
  destruct (maybe_extract_at_most b HTTP10_MAX) as [[d|] b1] eqn:E.
  - pose proof (at_most_shrinks _ _ _ _ E) as Hs. pose proof (at_most_inv b HTTP10_MAX I) as I1. rewrite E in I1. cbn [snd] in I1.
    destruct (IH c b1 ltac:(lia) I1 S R) as (b' & o & Ee & Hd & Hf).
    cbn [evK]. rewrite Ee. cbn [pre]. exists b', (Http1Seg.data_out Req Resp c d ++ o). split; [reflexivity|]. split; [exact Hd|].
    rewrite flat_app, Hf. unfold Http1Seg.data_out. cbn [flat flat_map flat1]. rewrite app_nil_r, <- map_app. f_equal.
    exact (proj2 (at_most_concat _ _ _ _ E)).
  - pose proof (at_most_none_data _ _ _ E ltac:(discriminate)) as Hd.
    apply at_most_none in E. subst b1. cbn [evK]. exists b, []. split; [reflexivity|].
    rewrite Hd. split; reflexivity.
Qed.

Lemma is_prefix_app d a td : is_prefix (d ++ a) td = is_prefix d td && is_prefix a (skipn (length d) td).
Proof.
  revert td; induction d as [|y d IH]; intros td; [reflexivity|]. destruct td as [|z td]; [reflexivity|].
  cbn. rewrite IH. apply andb_assoc.
Qed.

Lemma read_body_discard c b inc td : c_reader c = ChunkedReader inc td false -> td <> [] ->
  read_body c b = match maybe_extract_at_most b (N.of_nat (length td)) with
                  | (None, b1) => Stop c b1 []
                  | (Some d, b1) =>
                      if negb (is_prefix d td) then protocol_error c b1
                      else match skipn (length d) td with
                           | _ :: _ => Stop (set_reader c (ChunkedReader inc (skipn (length d) td) false)) b1 []
                           | [] => Go (set_reader c (ChunkedReader inc (skipn (length d) td) false)) b1 []
                           end
                  end.
Proof. intros R Hne. unfold Http1Seg.read_body. rewrite R. destruct td; [congruence|reflexivity]. Qed.

Lemma read_body_M c b x : buf_inv b -> x <> [] -> c_closed c = false -> c_state c = ReadBody ->
  guard (read_body c b) x ->
  tr_rel (ev c (buf_add b x)) (K (read_body c b) x).
Proof.
  intros I Hx Hc Hs G. pose proof (buf_inv_add b x I) as J.
  assert (Hnp : c_state c <> Passthrough) by congruence.
  pose proof (ev_read_body _ _ J Hs) as Est.
  destruct (c_reader c) as [rem|inc td tr|] eqn:R.
  - destruct (N.eqb rem 0) eqn:E0.
    + unfold Http1Seg.read_body in *. rewrite R, E0 in *. rewrite Est. apply eom_M; auto.
    + apply (data_merge c b x rem ContentLengthReader); auto; [apply N.eqb_neq, E0|].
      intros cc m bb Hm Rc. unfold Http1Seg.read_body. rewrite Rc, (proj2 (N.eqb_neq _ _) Hm). reflexivity.
  - destruct tr.
    + (* trailer section *)
      unfold Http1Seg.read_body, Http1Seg.protocol_error, Http1Seg.crash in *. rewrite R in *.
      destruct (maybe_extract_lines b) as [[ls|] b'] eqn:E.
      * rewrite Est, (lines_app _ _ _ _ I E). pose proof (extract_inv _ _ lines_extracts _ I) as I'. rewrite E in I'. cbn [snd] in I'.
        destruct ls as [|l ls']; [apply eom_M; auto|].
        destruct (trailer (l :: ls')); apply closed_pattern; reflexivity.
      * apply retry_pattern; eauto using extract_retry, lines_extracts.
    + destruct td as [|t0 td'].
      * destruct (N.eqb inc 0) eqn:E0.
        -- (* chunk header *)
           unfold Http1Seg.read_body, Http1Seg.protocol_error in *. rewrite R, E0 in *.
           destruct (maybe_extract_next_line b) as [[line|] b'] eqn:E.
           ++ rewrite Est, (extract_app _ _ next_line_extracts next_line_cut_prefix _ _ _ _ I E).
              destruct (parse_chunk_header line); [apply tr_rel_refl|apply closed_pattern; reflexivity].
           ++ apply retry_pattern; eauto using extract_retry, next_line_extracts.
        -- (* chunk data *)
           apply (data_merge c b x inc (fun m => ChunkedReader m (if N.eqb m 0 then CRLF else []) false)); auto.
           ++ destruct inc; [discriminate E0|exact R].
           ++ apply N.eqb_neq, E0.
           ++ intros cc m bb Hm Rc. unfold Http1Seg.read_body. rewrite Rc, (proj2 (N.eqb_neq _ _) Hm). reflexivity.
      * (* bytes_to_discard *)
        set (tdl := t0 :: td') in *.
        rewrite (read_body_discard c b _ tdl R ltac:(discriminate)).
        destruct (maybe_extract_at_most b (N.of_nat (length tdl))) as [[a|] b'] eqn:E.
        2: { apply at_most_none in E. subst b'. apply retry_pattern; auto using same_refl. }
        pose proof (at_most_inv b (N.of_nat (length tdl)) I) as Ib'. rewrite E in Ib'. cbn [snd] in Ib'.
        rewrite Est, (read_body_discard c _ _ tdl R ltac:(discriminate)).
        destruct (at_most_app _ x _ _ _ Hx E) as [[Ea Hn]|(-> & Hlt & y & r & Es & Ea)]; rewrite Ea.
        -- (* the whole section was buffered *)
           destruct (negb (is_prefix a tdl)); [apply closed_pattern; reflexivity|].
           rewrite skipn_all2 by lia. cbn [evK K]. apply tr_rel_pre.
           apply ev_cong, (same_zero (buf_add b' x)), buf_inv_add, Ib'.
        -- (* a is the whole buffer and a proper part of the section: the activation stops, the next one reads on *)
           rewrite is_prefix_app, app_length, <- skipn_skipn.
           destruct (is_prefix a tdl); cbn [negb andb]; [|apply closed_pattern; reflexivity].
           assert (Hlen : (N.of_nat (length tdl) - N.of_nat (length a))%N = N.of_nat (length (skipn (length a) tdl)))
             by (rewrite skipn_length; lia).
           destruct (skipn (length a) tdl) as [|s0 sk] eqn:Esk; [cbn [length] in Hlen; lia|].
           set (c1 := set_reader c (ChunkedReader inc (s0 :: sk) false)).
           cbn [K]. rewrite (hd_live c1 _ x Hc Hnp), pre_nil.
           rewrite (ev_read_body c1 _ (buf_inv_add _ x Ib') Hs), (read_body_discard c1 _ _ (s0 :: sk) eq_refl ltac:(discriminate)).
           change (buf_add (mkBuf [] 0 0) x) with (mkBuf x 0 0). rewrite <- Hlen, Es.
           destruct (negb (is_prefix y (s0 :: sk))); [split; [left; split; reflexivity|reflexivity]|].
           destruct (skipn (length y) (s0 :: sk)); apply tr_rel_refl.
  - assert (Hrb : read_body c b = match maybe_extract_at_most b HTTP10_MAX with
                                  | (None, b1) => Stop c b1 []
                                  | (Some d, b1) => Go c b1 (Http1Seg.data_out Req Resp c d)
                                  end) by (unfold Http1Seg.read_body; rewrite R; reflexivity).
    rewrite Hrb.
    destruct (http10_ev _ c (buf_add b x) (Nat.lt_succ_diag_r _) J Hs R) as (bx & ox & Eex & Hdx & Hfx).
    destruct (maybe_extract_at_most b HTTP10_MAX) as [[a|] b'] eqn:E.
    + pose proof (at_most_inv b HTTP10_MAX I) as Ib'. rewrite E in Ib'. cbn [snd] in Ib'.
      destruct (http10_ev _ c (buf_add b' x) (Nat.lt_succ_diag_r _) (buf_inv_add _ x Ib') Hs R) as (by' & oy & Eey & Hdy & Hfy).
      cbn [K]. rewrite Eex, Eey. cbn [pre]. split; [right; split; [reflexivity|unfold beq; congruence]|].
      rewrite flat_app, Hfx, Hfy. unfold Http1Seg.data_out. cbn [flat flat_map flat1 b_data buf_add]. rewrite app_nil_r, <- map_app. f_equal.
      rewrite app_assoc. f_equal. symmetry. exact (proj2 (at_most_concat _ _ _ _ E)).
    + apply at_most_none in E. subst b'. apply retry_pattern; auto using same_refl.
Qed.

Lemma step_M c b x : buf_inv b -> x <> [] -> c_closed c = false -> c_state c <> Passthrough ->
  guard (step c b) x -> tr_rel (ev c (buf_add b x)) (K (step c b) x).
Proof.
  intros I Hx Hc Hnp G. unfold Http1Seg.step in *. destruct (c_state c) eqn:S.
  - apply read_headers_M; auto.
  - apply read_body_M; auto.
  - cbn [K]. unfold hd. rewrite Hc, S, pre_nil. apply tr_rel_refl.
  - cbn [K]. unfold hd. rewrite Hc, S, pre_nil. apply tr_rel_refl.
  - congruence.
Qed.

Lemma feed_app_ev : forall n c b x, mu c b < n -> buf_inv b -> x <> [] -> c_closed c = false -> c_state c <> Passthrough ->
  (let '(c1, _, _) := ev c b in ok_stop c1 x) ->
  tr_rel (ev c (buf_add b x)) (let '(c1, b1, o1) := ev c b in pre o1 (hd c1 b1 x)).
Proof.
  induction n as [|n IH]; intros c b x Hm I Hx Hc Hnp G; [lia|].
  rewrite (ev_step c b I) in G |- *. pose proof (step_inv c b I) as J.
  pose proof (step_M c b x I Hx Hc Hnp) as M.
  destruct (step c b) as [c' b' o|c' b' o] eqn:E; cbn [evK guard K] in *.
  - destruct (step_go _ _ _ _ _ I E) as (Hlt & Hcl & Hst).
    specialize (IH c' b' x ltac:(lia) J Hx ltac:(congruence) Hst).
    destruct (ev c' b') as [[c1 b1] o1]. cbn [pre] in *. specialize (IH G).
    eapply tr_rel_trans; [exact (M Logic.I)|]. rewrite <- pre_pre. apply tr_rel_pre. exact IH.
  - exact (M G).
Qed.

Lemma hd_inv c b x : buf_inv b -> let '(_, b', _) := hd c b x in buf_inv b'.
Proof.
  intros I. unfold hd. destruct (c_closed c); [exact I|].
  destruct (c_state c); try exact I; apply ev_inv, buf_inv_add, I.
Qed.

Lemma buf_add_assoc b a x : buf_add b (a ++ x) = buf_add (buf_add b a) x.
Proof. unfold buf_add. cbn [b_data b_nls b_mls]. rewrite app_assoc. reflexivity. Qed.

(* the cut between two segments is harmless: not the place where the code depends on it (ok_stop) *)
Definition cut_ok (c c1 : conn) (x : bytes) : Prop :=
  c_closed c = false -> c_state c <> Passthrough -> ok_stop c1 x.

Theorem feed_app_hd c b a x : buf_inv b -> x <> [] ->
  (let '(c1, _, _) := hd c b a in cut_ok c c1 x) ->
  tr_rel (hd c b (a ++ x)) (let '(c1, b1, o1) := hd c b a in pre o1 (hd c1 b1 x)).
Proof.
  intros I Hx G. destruct (c_closed c) eqn:Hc.
  - rewrite !(hd_closed c b _ Hc). cbv beta iota zeta. rewrite ?(hd_closed c b _ Hc). cbn [pre app]. apply tr_rel_refl.
  - destruct (c_state c) eqn:S.
    5: { rewrite !(hd_pass c b _ Hc S). cbv beta iota zeta. rewrite ?(hd_pass c b _ Hc S). cbn [pre app].
         split; [right; split; reflexivity|]. apply flat_data_app. }
    all: assert (Hnp : c_state c <> Passthrough) by congruence;
      rewrite !(hd_live c b _ Hc Hnp) in *; rewrite buf_add_assoc;
      apply (feed_app_ev (Datatypes.S (mu c (buf_add b a)))); auto using buf_inv_add;
      destruct (ev c (buf_add b a)) as [[c1 b1] o1]; apply G; congruence.
Qed.

Fixpoint feed_all (c : conn) (b : rbuf) (segs : list bytes) : triple :=
  match segs with
  | [] => (c, b, [])
  | s :: rest => let '(c1, b1, o1) := hd c b s in pre o1 (feed_all c1 b1 rest)
  end.

Fixpoint cuts_ok (c : conn) (b : rbuf) (segs : list bytes) : Prop :=
  match segs with
  | [] => True
  | s :: rest => let '(c1, b1, _) := hd c b s in (rest <> [] -> cut_ok c c1 (concat rest)) /\ cuts_ok c1 b1 rest
  end.

Theorem any_segmentation : forall segs c b, buf_inv b -> Forall (fun s => s <> []) segs -> segs <> [] ->
  cuts_ok c b segs -> tr_rel (hd c b (concat segs)) (feed_all c b segs).
Proof.
  induction segs as [|s rest IH]; intros c b I Hne Hs G; [congruence|].
  inversion Hne as [|? ? Hs1 Hrest]; subst. cbn [concat feed_all cuts_ok] in *.
  pose proof (hd_inv c b s I) as J.
  destruct rest as [|s2 rest'].
  - cbn [concat feed_all]. rewrite app_nil_r. destruct (hd c b s) as [[c1 b1] o1]. cbn [pre]. rewrite app_nil_r. apply tr_rel_refl.
  - assert (Hx : concat (s2 :: rest') <> []).
    { inversion Hrest; subst. cbn [concat]. destruct s2; [congruence|discriminate]. }
    pose proof (feed_app_hd c b s (concat (s2 :: rest')) I Hx) as F.
    destruct (hd c b s) as [[c1 b1] o1]. destruct G as [G1 G2].
    eapply tr_rel_trans; [apply F, G1; discriminate|]. apply tr_rel_pre. apply IH; auto. discriminate.
Qed.

(* no parsing while the current flow is unfinished *)
Lemma wait_defers c b d : buf_inv b -> c_state c = Wait -> c_closed c = false -> hd c b d = (c, buf_add b d, []).
Proof.
  intros I S Hc. rewrite (hd_live c b d Hc) by congruence. rewrite (ev_step _ _ (buf_inv_add b d I)).
  unfold Http1Seg.step. rewrite S. reflexivity.
Qed.

Theorem feed_app_handle_data c b a x : buf_inv b -> x <> [] ->
  exists c1 b1 o1 c2 b2 o2 c3 b3 o3,
    handle_data c b a = Finished c1 b1 o1 /\ handle_data c1 b1 x = Finished c2 b2 o2 /\
    handle_data c b (a ++ x) = Finished c3 b3 o3 /\
    (cut_ok c c1 x -> fin_rel c3 b3 c2 b2 /\ flat o3 = flat (o1 ++ o2)).
Proof.
  intros I Hx. pose proof (feed_app_hd c b a x I Hx) as F. pose proof (hd_inv c b a I) as J.
  destruct (hd c b a) as [[c1 b1] o1] eqn:E1. destruct (hd c1 b1 x) as [[c2 b2] o2] eqn:E2.
  destruct (hd c b (a ++ x)) as [[c3 b3] o3] eqn:E3.
  exists c1, b1, o1, c2, b2, o2, c3, b3, o3.
  split; [rewrite (handle_data_hd c b a I), E1; reflexivity|].
  split; [rewrite (handle_data_hd c1 b1 x J), E2; reflexivity|].
  split; [rewrite (handle_data_hd c b (a ++ x) I), E3; reflexivity|].
  intros G. rewrite ?E1, ?E3 in F. cbv beta iota zeta in F. rewrite ?E2 in F. exact (F G).
Qed.

Fixpoint run_segments (c : conn) (b : rbuf) (segs : list bytes) : option triple :=
  match segs with
  | [] => Some (c, b, [])
  | s :: rest => match handle_data c b s with
                 | Finished c1 b1 o1 => option_map (pre o1) (run_segments c1 b1 rest)
                 | OutOfFuel => None
                 end
  end.

Lemma run_segments_feed_all : forall segs c b, buf_inv b -> run_segments c b segs = Some (feed_all c b segs).
Proof.
  induction segs as [|s rest IH]; intros c b I; [reflexivity|]. cbn [run_segments feed_all].
  rewrite (handle_data_hd c b s I). pose proof (hd_inv c b s I) as J. destruct (hd c b s) as [[c1 b1] o1].
  rewrite (IH c1 b1 J). reflexivity.
Qed.

Theorem any_segmentation_handle_data segs c b : buf_inv b -> Forall (fun s => s <> []) segs -> segs <> [] ->
  exists c2 b2 o2 c3 b3 o3,
    run_segments c b segs = Some (c2, b2, o2) /\ handle_data c b (concat segs) = Finished c3 b3 o3 /\
    (cuts_ok c b segs -> fin_rel c3 b3 c2 b2 /\ flat o3 = flat o2).
Proof.
  intros I Hne Hs. rewrite (run_segments_feed_all segs c b I), (handle_data_hd c b _ I).
  pose proof (any_segmentation segs c b I Hne Hs) as F.
  destruct (feed_all c b segs) as [[c2 b2] o2]. destruct (hd c b (concat segs)) as [[c3 b3] o3].
  exists c2, b2, o2, c3, b3, o3. repeat (split; [reflexivity|]). exact F.
Qed.

Theorem upgrade_end_of_message_flushes (c : conn) (b : rbuf) (sid : N) (rq : Req) (rs : Resp) (last half : bool) y ys :
  c_role c = Server -> c_sid c = Some sid -> c_request c = Some rq -> c_response c = Some rs ->
  c_request_done c = true -> after Server rq rs = MakePipe -> lstrip_crlf (b_data b) = y :: ys ->
  exists c' o, Http1Seg.handle_send Req Resp server_head client_head is_connect after trailer true c b
                 (SEndOfMessage sid last half) = Finished c' (mkBuf [] 0 0) (o ++ [OData sid (y :: ys)]) /\
               c_state c' = Passthrough /\ (o = [] \/ o = [OSendLastChunk]).
Proof.
  intros Hr Hs Hq Hp Hd Ha Hl.
  assert (Hne : b_data b <> []) by (intros E; rewrite E in Hl; discriminate).
  unfold Http1Seg.handle_send. rewrite Hr. unfold Http1Seg.sid_of at 1. rewrite Hs, N.eqb_refl. cbn [negb].
  rewrite Hq, Hp. unfold Http1Seg.mark_done. cbv zeta. cbn [c_request_done c_response_done c_request c_response c_role Http1Seg.set_done_flags].
  rewrite Hd, Hq, Hp, Hr, Ha. cbn [orb andb]. rewrite orb_true_r. cbn [andb].
  rewrite make_pipe_eq, Hl, (proj2 (buf_bool_true b) Hne). cbn [Http1Seg.continue].
  eexists _, (if last then [OSendLastChunk] else []). split.
  - unfold Http1Seg.sid_of. cbn [c_sid Http1Seg.set_state Http1Seg.set_done_flags]. rewrite Hs. destruct last; reflexivity.
  - split; [reflexivity|destruct last; auto].
Qed.

End P.
