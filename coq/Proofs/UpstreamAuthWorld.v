(* Proofs/UpstreamAuthWorld.v -- C24, any number of client connections sharing one UpstreamAuth instance:
   the invariant over histories and the main theorems. *)
From Coq Require Import List Bool NArith.
From MV Require Import Base.Bytes Model.UpstreamAuth Proofs.UpstreamAuthStep.
Import ListNotations.
Open Scope N_scope.

Definition wevent_clean (cred : bytes) (e : wevent) : Prop :=
  match e with WEv _ ev => event_clean cred ev | _ => True end.

Definition wleaky (ws : wstate) (e : wevent) : bool :=
  match e with
  | WEv c ev => match lookup c ws.(ws_conns) with Some st => leaky st ev | None => false end
  | _ => false
  end.

(* no event of the history is wleaky in the state it is processed in *)
Fixpoint wsafe (cfg : config) (ws : wstate) (es : list wevent) : bool :=
  match es with
  | [] => true
  | e :: r => negb (wleaky ws e) && wsafe cfg (fst (wstep cfg ws e)) r
  end.

Lemma lookup_app_none c l x v : lookup c l = None -> lookup x (l ++ [(c, v)]) = if c =? x then Some v else lookup x l.
Proof.
  induction l as [|[k w] r IH]; cbn; intros H.
  - reflexivity.
  - destruct (k =? c) eqn:E; [discriminate|]. destruct (k =? x) eqn:E2.
    + apply N.eqb_eq in E2. subst x. rewrite N.eqb_sym, E. reflexivity.
    + apply IH. assumption.
Qed.

Lemma lookup_update c v l x : lookup c l <> None -> lookup x (update c v l) = if c =? x then Some v else lookup x l.
Proof.
  induction l as [|[k w] r IH]; cbn; intros H.
  - contradiction.
  - destruct (k =? c) eqn:E; cbn.
    + apply N.eqb_eq in E. subst k. destruct (c =? x); reflexivity.
    + destruct (k =? x) eqn:E2.
      * apply N.eqb_eq in E2. subst x. rewrite N.eqb_sym, E. reflexivity.
      * apply IH. assumption.
Qed.

(* per client connection id: a known connection satisfies inv, and with c_fixed it is in the tunnelled set
   exactly when a CONNECT of it was accepted; an unknown id is not in the set *)
Definition winv (cfg : config) (ws : wstate) : Prop :=
  forall c,
    match lookup c ws.(ws_conns) with
    | Some st => inv st /\ (cfg.(c_fixed) = true -> st.(cs_tunnel) = true -> mem c ws.(ws_set) = true)
                 /\ (mem c ws.(ws_set) = true -> st.(cs_tunnel) = true)
    | None => mem c ws.(ws_set) = false
    end.

Lemma winv_init cfg : winv cfg ws_init.
Proof. intros c. reflexivity. Qed.

Lemma winv_at cfg ws c st : winv cfg ws -> lookup c ws.(ws_conns) = Some st ->
  inv st /\ (cfg.(c_fixed) = true -> st.(cs_tunnel) = true -> mem c ws.(ws_set) = true)
  /\ (mem c ws.(ws_set) = true -> st.(cs_tunnel) = true).
Proof. intros Hw El. specialize (Hw c). rewrite El in Hw. exact Hw. Qed.

Lemma wstep_inv cfg ws e ws' wr : winv cfg ws -> wstep cfg ws e = (ws', wr) -> winv cfg ws'.
Proof.
  intros Hw H x. pose proof (Hw x) as Hx.
  destruct e as [c pm|c ev|opt|c]; cbn [wstep] in H.
  - destruct (lookup c (ws_conns ws)) eqn:El; inversion H; subst; cbn [ws_conns ws_set]; [exact Hx|].
    rewrite (lookup_app_none _ _ _ _ El). destruct (N.eqb_spec c x) as [->|Hne]; [|exact Hx].
    rewrite El in Hx. destruct (inv_init cfg pm) as (H1 & H2 & _). rewrite H2.
    split; [exact H1|]. split; [discriminate|congruence].
  - destruct (lookup c (ws_conns ws)) as [st|] eqn:El; [|inversion H; subst; exact Hx].
    destruct (step (with_auth cfg (ws_auth ws)) (mem c (ws_set ws)) st ev) as [[st' w1] conn] eqn:Es.
    inversion H; subst; clear H. cbn [ws_conns ws_set].
    destruct (winv_at _ _ _ _ Hw El) as (Hi & Hm & Hm2).
    destruct (proj1 (step_spec _ _ _ _ _ _ _ Hi Es)) as (Hi' & _ & Ht).
    rewrite lookup_update by (rewrite El; discriminate).
    destruct (N.eqb_spec c x) as [->|Hne].
    + (* the connection that moved: it enters the set when http_connected fired *)
      split; [exact Hi'|]. rewrite Ht.
      destruct (conn && c_fixed cfg) eqn:Ec; unfold mem; cbn [existsb]; rewrite ?N.eqb_refl.
      * apply andb_true_iff in Ec. destruct Ec as [-> _]. rewrite orb_true_r. auto.
      * split; [|intros M; rewrite (Hm2 M); reflexivity].
        intros Hf Htt. rewrite Hf, andb_true_r in Ec. subst conn. rewrite orb_false_r in Htt. auto.
    + replace (mem x (if conn && c_fixed cfg then c :: ws_set ws else ws_set ws)) with (mem x (ws_set ws)); [exact Hx|].
      destruct (conn && c_fixed cfg); [|reflexivity]. unfold mem. cbn [existsb].
      rewrite (proj2 (N.eqb_neq x c)) by auto. reflexivity.
  - (* configure: neither the set nor any connection changes *)
    inversion H; subst. exact Hx.
  - destruct (lookup c (ws_conns ws)) as [st|] eqn:El; inversion H; subst; cbn [ws_conns ws_set]; [|exact Hx].
    rewrite lookup_update by (rewrite El; discriminate).
    destruct (N.eqb_spec c x) as [->|Hne]; [|exact Hx]. rewrite El in Hx. exact Hx.
Qed.

Lemma wrun_inv cfg : forall es ws, winv cfg ws -> winv cfg (fst (wrun cfg ws es)).
Proof.
  induction es as [|e r IH]; intros ws Hw; cbn [wrun]; [exact Hw|].
  destruct (wstep cfg ws e) as [ws1 w1] eqn:E1. specialize (IH ws1 (wstep_inv _ _ _ _ _ Hw E1)).
  destruct (wrun cfg ws1 r) as [ws2 w2]. exact IH.
Qed.

(* only events of live client connections write anything: the writes of a world step are those of one client step *)
Lemma wstep_writes cfg ws e ws' wr c w :
  wstep cfg ws e = (ws', wr) -> In (c, w) wr ->
  exists ev st st' w1 conn,
    e = WEv c ev /\ lookup c ws.(ws_conns) = Some st
    /\ step (with_auth cfg (ws_auth ws)) (mem c (ws_set ws)) st ev = (st', w1, conn) /\ In w w1.
Proof.
  intros H Hin. destruct e as [c0 pm|c0 ev|opt|c0]; cbn [wstep] in H;
    [| |inversion H; subst; destruct Hin|destruct (lookup c0 (ws_conns ws)); inversion H; subst; destruct Hin].
  - destruct (lookup c0 (ws_conns ws)); inversion H; subst; destruct Hin.
  - destruct (lookup c0 (ws_conns ws)) as [st|] eqn:El; [|inversion H; subst; destruct Hin].
    destruct (step (with_auth cfg (ws_auth ws)) (mem c0 (ws_set ws)) st ev) as [[st' w1] conn] eqn:Es.
    inversion H; subst. apply in_map_iff in Hin. destruct Hin as (w' & Hw' & Hin). inversion Hw'; subst.
    exists ev, st, st', w1, conn. auto.
Qed.

Lemma wstep_sound cfg cred ws e ws' wr c w :
  winv cfg ws -> wevent_clean cred e ->
  (cfg.(c_fixed) = true \/ wleaky ws e = false) ->
  wstep cfg ws e = (ws', wr) -> In (c, w) wr -> carries cred w.(w_fields) -> good w.
Proof.
  intros Hw Hcl Hsafe H Hin Hcar.
  destruct (wstep_writes _ _ _ _ _ _ _ H Hin) as (ev & st & st' & w1 & conn & -> & El & Es & Hin1).
  destruct (winv_at _ _ _ _ Hw El) as (Hi & Hm & _).
  eapply step_sound; try eassumption.
  destruct Hsafe as [Hf|Hl].
  - destruct (cs_tunnel st) eqn:Et.
    + left. cbn. rewrite Hf, (Hm Hf eq_refl). reflexivity.
    + right. left. reflexivity.
  - right. right. cbn in Hl. rewrite El in Hl. assumption.
Qed.

(* Main theorem (C24_sound, C24_sound_partial are its instances at ws_init).  For every history on any number of client
   connections in any modes, upstream_auth changing at any point (WConfigure), with c_fixed or on wsafe histories, and
   for EVERY value cred that no client sent: a head that carries cred is good.  (A header value that no client sent can
   only have been put there by the addon, so this covers every credential configured at any time.) *)
Lemma wrun_sound cfg cred :
  forall es ws, winv cfg ws -> Forall (wevent_clean cred) es ->
  (cfg.(c_fixed) = true \/ wsafe cfg ws es = true) ->
  forall c w, In (c, w) (snd (wrun cfg ws es)) -> carries cred w.(w_fields) -> good w.
Proof.
  induction es as [|e r IH]; intros ws Hw Hcl Hsafe c w Hin Hcar; cbn [wrun] in Hin.
  - destruct Hin.
  - destruct (wstep cfg ws e) as [ws1 w1] eqn:E1. destruct (wrun cfg ws1 r) as [ws2 w2] eqn:E2.
    cbn [snd] in Hin. inversion Hcl; subst.
    (* the guard of the history is the guard of its first event and of the rest *)
    assert (Hs2 : (c_fixed cfg = true \/ wleaky ws e = false) /\ (c_fixed cfg = true \/ wsafe cfg ws1 r = true)).
    { destruct Hsafe as [Hf|Hs]; [split; left; exact Hf|]. cbn [wsafe] in Hs. rewrite E1 in Hs.
      apply andb_true_iff in Hs. destruct Hs as [Hl Hr]. apply negb_true_iff in Hl. split; right; assumption. }
    apply in_app_or in Hin. destruct Hin as [Hin|Hin].
    + eapply wstep_sound; try eassumption. apply Hs2.
    + apply (IH ws1) with (c := c); try assumption; [eapply wstep_inv; eassumption | apply Hs2 | rewrite E2; assumption].
Qed.

(* good implies: never for regular, transparent or SOCKS5 clients *)
Lemma good_modes w : good w -> is_upstream w.(w_pm) || is_reverse w.(w_pm) = true.
Proof.
  intros [(_ & _ & H & _)|(_ & t & tls & H & _)].
  - rewrite H. reflexivity.
  - rewrite H. reflexivity.
Qed.

(* good implies: never inside a tunnel *)
Lemma good_not_tunnelled w : good w -> w.(w_via) && w.(w_tunnelled) = false.
Proof.
  intros [(H1 & H2 & _)|(H1 & _)].
  - rewrite H1, H2. reflexivity.
  - rewrite H1. reflexivity.
Qed.

Definition cred0 : bytes := basic_prefix ++ b64encode [x75;x3a;x70].          (* Basic dTpw *)
Definition proxy0 : addr := ([x75;x70], 3128).                                   (* up:3128 *)
Definition origin0 : addr := ([x65;x2e;x63;x6f;x6d], 80).                        (* e.com:80 *)
Definition cfg0 (fixed : bool) : config :=
  {| c_auth := None; c_send_host := true; c_eager := true; c_fixed := fixed |}.
Definition opt0 : option (list N) := Some [117; 58; 112].                       (* upstream_auth = u:p *)
(* upstream mode, upstream_auth set first: a plain request, CONNECT e.com:80, then a plain-HTTP request through the tunnel *)
Definition history0 : list wevent :=
  [WConfigure opt0;
   WOpen 0 (PUpstream proxy0);
   WEv 0 (EReq (Some (false, origin0)) (Some origin0) [(HOST, fst origin0)] true);
   WEv 0 (EConnect origin0 false true);
   WEv 0 (EReq None (Some origin0) [(HOST, fst origin0)] true)].
(* the CONNECT is accepted while upstream_auth is unset, the option is set afterwards, then a request in the tunnel *)
Definition history1 : list wevent :=
  [WOpen 0 (PUpstream proxy0);
   WEv 0 (EConnect origin0 false true);
   WConfigure opt0;
   WEv 0 (EReq None (Some origin0) [(HOST, fst origin0)] true)].

Definition carriesb (cred : bytes) (fs : list field) : bool := existsb (fun f => bytes_eqb (snd f) cred) fs.
Lemma carriesb_true cred fs : carriesb cred fs = true -> carries cred fs.
Proof.
  unfold carriesb. rewrite existsb_exists. intros [[k v] [Hin He]]. cbn in He. apply bytes_eqb_eq in He. subst v.
  exists k. assumption.
Qed.
Lemma carriesb_false cred fs : carriesb cred fs = false -> ~ carries cred fs.
Proof.
  intros H [k Hk]. assert (carriesb cred fs = true); [|congruence].
  unfold carriesb. rewrite existsb_exists. exists (k, cred). split; [assumption|]. cbn. apply bytes_eqb_refl.
Qed.

Lemma histories_clean : Forall (wevent_clean cred0) history0 /\ Forall (wevent_clean cred0) history1.
Proof.
  split; repeat constructor; cbn; intros k v [H|[]]; inversion H; subst; intros E; vm_compute in E; discriminate.
Qed.

(* c_fixed = false: the third head of history0 carries the configured credential and is delivered through the tunnel to the origin *)
Theorem refuted : exists cfg cred es c w,
  cfg.(c_fixed) = false /\ (fst (wrun cfg ws_init es)).(ws_auth) = Some cred /\ Forall (wevent_clean cred) es
  /\ In (c, w) (snd (wrun cfg ws_init es)) /\ carries cred w.(w_fields)
  /\ w.(w_via) = true /\ w.(w_tunnelled) = true /\ w.(w_kind) = WRequest.
Proof.
  exists (cfg0 false), cred0, history0, 0.
  destruct (nth_error (snd (wrun (cfg0 false) ws_init history0)) 2) as [[c w]|] eqn:E; [|vm_compute in E; discriminate].
  exists w. assert (Hin := nth_error_In _ _ E). vm_compute in E. inversion E; subst c w.
  split; [reflexivity|]. split; [vm_compute; reflexivity|]. split; [exact (proj1 histories_clean)|]. split; [exact Hin|].
  split; [apply carriesb_true; vm_compute; reflexivity|]. repeat split.
Qed.

Lemma parse_shape s v : parse_upstream_auth s = POk v ->
  exists b, utf8_encode s = Some b /\ v = basic_prefix ++ b64encode b /\ truthy (Some v) = Some v.
Proof.
  unfold parse_upstream_auth. destruct (negb (has_dotplus_colon s)); [discriminate|].
  destruct (utf8_encode s) as [b|]; [|discriminate]. intros H. inversion H; subst. exists b. repeat split.
Qed.
