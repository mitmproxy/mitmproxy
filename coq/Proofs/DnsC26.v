(* Proofs/DnsC26.v -- forwarding = pack_message after unpack.  On well-formed messages within the
   guard of the wire round trip (wf_msg, rdata_guard) the plain wire form is a fixed point of
   forwarding; TCP framing adds the length prefix and nothing else.  The example messages of Props/C26.v. *)
From Coq Require Import List Bool Arith NArith.
From MV Require Import Base.Bytes Model.DnsNames Model.DnsMessage Model.DnsRef
  Proofs.DnsMessageRT.
Import ListNotations.

Lemma forward_plain m : wf_msg m -> Forall rdata_guard (all_rrs m) ->
  forward_udp (msgwire m) = Ok (msgwire m).
Proof.
  intros Hwf G. destruct (message_roundtrip m Hwf G) as [P U].
  unfold forward_udp. rewrite U. cbn [bind]. unfold pack_message. rewrite P. reflexivity.
Qed.

Lemma forward_decoded b b' : forward_udp b = Ok b' ->
  exists m, DnsMessage.unpack b = Ok m /\ packed m = Ok b' /\
    (wf_msg m -> Forall rdata_guard (all_rrs m) ->
     b' = msgwire m /\ DnsMessage.unpack b' = Ok m /\ forward_udp b' = Ok b').
Proof.
  unfold forward_udp. destruct (DnsMessage.unpack b) as [m|e] eqn:U; [|discriminate].
  cbn [bind]. unfold pack_message. destruct (packed m) as [p|e] eqn:P; [|discriminate].
  cbn [bind]. intros [= <-]. exists m. split; [reflexivity|]. split; [exact P|]. intros Hwf G.
  destruct (message_roundtrip m Hwf G) as [P' U']. assert (p = msgwire m) by congruence. subst p.
  split; [reflexivity|]. split; [exact U' | apply forward_plain; assumption].
Qed.

(* response for example.com TXT: owner name compressed (c0 0c), data 02 c0 0c, a two-byte string that looks
   like a pointer *)
Definition txt_compressed : bytes :=
  [x00;x01;x81;x80;x00;x01;x00;x01;x00;x00;x00;x00;x07;x65;x78;x61;x6d;x70;x6c;x65;x03;x63;x6f;x6d;x00;
   x00;x10;x00;x01;xc0;x0c;x00;x10;x00;x01;x00;x00;x00;x05;x00;x03;x02;xc0;x0c].

(* www.example.com A?: CNAME cdn + pointer to example.com, MX 10 Mail + the same pointer *)
Definition cname_mx_compressed : bytes :=
  [x00;x01;x81;x80;x00;x01;x00;x02;x00;x00;x00;x00;x03;x77;x77;x77;x07;x65;x78;x61;x6d;x70;x6c;x65;x03;
   x63;x6f;x6d;x00;x00;x01;x00;x01;xc0;x0c;x00;x05;x00;x01;x00;x00;x00;x3c;x00;x06;x03;x63;x64;x6e;xc0;
   x10;xc0;x29;x00;x0f;x00;x01;x00;x00;x00;x3c;x00;x09;x00;x0a;x04;x4d;x61;x69;x6c;xc0;x10].

(* SOA for shop.example.org: MNAME ns1.dns-provider.net, RNAME hostmaster + a pointer into the MNAME of the SAME rdata *)
Definition soa_intra_rdata : bytes :=
  [x00;x07;x81;x80;x00;x01;x00;x01;x00;x00;x00;x00;x04;x73;x68;x6f;x70;x07;x65;x78;x61;x6d;x70;x6c;x65;x03;x6f;x72;x67;x00;
   x00;x06;x00;x01;xc0;x0c;x00;x06;x00;x01;x00;x00;x0e;x10;x00;x37;x03;x6e;x73;x31;x0c;x64;x6e;x73;x2d;x70;x72;x6f;x76;x69;
   x64;x65;x72;x03;x6e;x65;x74;x00;x0a;x68;x6f;x73;x74;x6d;x61;x73;x74;x65;x72;xc0;x32;x78;xa3;xf1;x75;x00;x00;x1c;x20;x00;
   x00;x0e;x10;x00;x12;x75;x00;x00;x00;x01;x2c].

Lemma tcp_frame_is_udp msg f : forward_tcp_frame msg = Ok f ->
  exists b, forward_udp msg = Ok b /\ f = put_u16be (N.of_nat (length b)) ++ b.
Proof.
  unfold forward_tcp_frame, forward_udp. destruct (DnsMessage.unpack msg) as [m|e]; [|discriminate].
  cbn [bind]. unfold pack_message. destruct (packed m) as [p|e]; [|discriminate]. cbn [bind].
  unfold pack_u16. destruct (N.of_nat (length p) <? 65536)%N; [|discriminate]. cbn [bind].
  intros [= <-]. exists p. split; reflexivity.
Qed.

Lemma tcp_stream_app a b : forward_tcp_stream (a ++ b) =
  match forward_tcp_stream a, forward_tcp_stream b with Some x, Some y => Some (x ++ y) | _, _ => None end.
Proof.
  induction a as [|m a IH]; cbn [app forward_tcp_stream].
  - destruct (forward_tcp_stream b); reflexivity.
  - rewrite IH. destruct (forward_tcp_frame m); [|reflexivity].
    destruct (forward_tcp_stream a); [|reflexivity]. destruct (forward_tcp_stream b); [|reflexivity].
    rewrite app_assoc. reflexivity.
Qed.
