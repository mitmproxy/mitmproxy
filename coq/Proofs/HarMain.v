(* Proofs/HarMain.v -- C41: the whole file (make_har, then FlowReader over the entries), a concrete library that
   satisfies the contracts (so the theorem is not vacuous), and the sample exchanges on which Props/C41.v
   evaluates the refutations of the unguarded statement. *)
From Coq Require Import List Bool NArith Lia.
From MV Require Import Base.Bytes Model.Headers Proofs.HeadersLaws Gen.HarTables Model.Har Proofs.HarBase Proofs.HarRoundtrip.
Import ListNotations.

(* the HTTP flows that have a response, in order *)
Fixpoint exchanges (flows : list flow) : list (request * response) :=
  match flows with
  | [] => []
  | HttpFlow rq (Some r) :: rest => (rq, r) :: exchanges rest
  | _ :: rest => exchanges rest
  end.

Definition contracts (L : lib) : Prop :=
  (forall v, l_encode L v IDENTITY = Ok v)
  /\ (forall b, exists s, l_b64enc L b = Ok (VS s) /\ l_b64dec L s = Ok (VB b))
  /\ (forall b, l_enc_se L (l_dec_se L b) = Ok (VB b)).

Definition flow_okF (L : lib) (se : bool) (f : flow) : Prop :=
  match f with
  | HttpFlow rq (Some r) => flow_ok L se rq r
  | HttpFlow _ None => False
  | OtherFlow => True
  end.

Theorem roundtrip_har L se flows : contracts L -> Forall (flow_okF L se) flows ->
  exists es imported,
    make_har L flows = Ok es
    /\ import_har se L es = (imported, Clean)
    /\ Forall2 (fun x i => same_exchange L (fst x) (snd x) i) (exchanges flows) imported.
Proof.
  intros (C1 & C2 & C3). induction 1 as [|f flows Hf _ IH].
  - exists [], []. repeat split. constructor.
  - destruct IH as (es & imps & Hm & Hi & Hall).
    destruct f as [rq [r|]|]; cbn [flow_okF] in Hf.
    + destruct (roundtrip_flow L se C1 C2 C3 rq r Hf) as (e & i & He & Hr & Hs).
      exists (e :: es), (i :: imps). cbn [make_har exchanges import_har]. rewrite He. cbn [bind]. rewrite Hm. cbn [bind].
      split; [reflexivity|]. rewrite Hr, Hi. split; [reflexivity|]. constructor; [exact Hs|exact Hall].
    + destruct Hf.
    + exists es, imps. cbn [make_har exchanges]. split; [exact Hm|]. split; [exact Hi|exact Hall].
Qed.

Definition latin (b : bytes) : str := map bN b.
Definition unlatin (s : str) : bytes := map Nb s.
Lemma unlatin_latin b : unlatin (latin b) = b.
Proof. unfold unlatin, latin. rewrite map_map. induction b as [|x b IH]; [reflexivity|]. cbn [map]. rewrite Nb_bN, IH. reflexivity. Qed.

Definition GZIP : bytes := [x67;x7a;x69;x70].
Definition LATIN1 : bytes := [x6c;x61;x74;x69;x6e;x2d;x31].
Definition is_coding (e : bytes) : bool := bytes_eqb e IDENTITY || bytes_eqb e GZIP.

(* latin-1 as the only charset, a content coding that does nothing, latin-1 as stand-in for base64 *)
Definition toy : lib :=
  mkLib (fun v e => if is_coding e then Ok v else match v with VB b => Ok (VS (latin b)) | VS _ => EOther end)
        (fun v e => if is_coding e then Ok v else match v with VS s => Ok (VB (unlatin s)) | VB _ => EOther end)
        (fun _ _ => LATIN1)
        (fun b => Ok (VS (latin b)))
        (fun s => Ok (VB (unlatin s)))
        (fun b => Ok (forallb (fun x => (bN x <? 128)%N) b))
        latin
        (fun s => Ok (VB (unlatin s)))
        (fun u => Ok ([x61], u))
        (fun ct => ct)
        (fun a => a)
        (fun hh => (hh, None))
        (fun scheme host port path => latin (scheme ++ [x3a;x2f;x2f] ++ host ++ path)).

Lemma toy_contracts : contracts toy.
Proof.
  split; [|split].
  - intros v. reflexivity.
  - intros b. exists (latin b). cbn. rewrite unlatin_latin. split; reflexivity.
  - intros b. cbn. rewrite unlatin_latin. reflexivity.
Qed.

Definition H (k v : bytes) : field := (k, v).
(* POST /p with a JSON-ish body, answered 200 with a text body; several headers each.  The request's
   Content-Length (9) is deliberately wrong for its 2-byte body: the importer rewrites it (C41_nonvacuous) *)
Definition sample_rq (ver : bytes) : request :=
  mkRequest [x50;x4f;x53;x54] S_HTTP [x61] 80 [x2f;x70] [] ver
            [H [x48;x6f;x73;x74] [x61]; H [x43;x6f;x6e;x74;x65;x6e;x74;x2d;x4c;x65;x6e;x67;x74;x68] [x39];
             H [x41;x63;x63;x65;x70;x74] [x2a;x2f;x2a]]
            (Some [x7b;x7d]).
Definition sample_resp (ver : bytes) (hs : list field) : response :=
  mkResponse 200 ver hs (Some [x6f;x6b]).
Definition CL2 : field := H K_CL [x32].
Definition SERVER : field := H [x53;x65;x72;x76;x65;x72] [x78].

Lemma sample_ok : flow_ok toy false (sample_rq V11) (sample_resp V3 [SERVER; CL2]).
Proof.
  unfold flow_ok.
  split; [left; reflexivity|]. split; [right; right; reflexivity|].
  split; [repeat constructor; right; reflexivity|]. split; [repeat constructor; right; reflexivity|].
  split; [reflexivity|].
  split; [exists [x61]; split; [reflexivity|right; reflexivity]|].
  split; [reflexivity|].
  split.
  { exists [x7b;x7d]. split; [reflexivity|]. split; [reflexivity|]. exists [123;125]%N. split; reflexivity. }
  split; [reflexivity|]. split; [right; reflexivity|].
  right. split; [right; reflexivity|]. left. split; [reflexivity|]. exists [111;107]%N. split; reflexivity.
Qed.

(* The HTTP flows of the list handed to the exporter, in list order. *)
Fixpoint http_flows (flows : list flow) : list (request * option response) :=
  match flows with
  | [] => []
  | HttpFlow rq rs :: rest => (rq, rs) :: http_flows rest
  | OtherFlow :: rest => http_flows rest
  end.

(* make_har walks the list it is given, front to back: whenever the export succeeds, entry number i is the entry of
   the i-th HTTP flow of that list.  Nothing else about the flows (creation or start times, completion order)
   has any influence: the model has no such input. *)
Lemma entry_order L flows es : make_har L flows = Ok es ->
  Forall2 (fun x e => flow_entry L (fst x) (snd x) = Ok e) (http_flows flows) es.
Proof.
  revert es. induction flows as [|f flows IH]; intros es Hm.
  - cbn in Hm. inversion Hm. constructor.
  - destruct f as [rq rs|]; cbn [make_har http_flows] in *.
    + destruct (flow_entry L rq rs) as [e| | |] eqn:He; cbn [bind] in Hm; try discriminate Hm.
      destruct (make_har L flows) as [es'| | |] eqn:Hr; cbn [bind] in Hm; try discriminate Hm.
      inversion Hm; subst es. constructor; [exact He|]. apply IH. reflexivity.
    + apply IH. exact Hm.
Qed.

Lemma make_har_app L fs1 fs2 es1 es2 :
  make_har L fs1 = Ok es1 -> make_har L fs2 = Ok es2 -> make_har L (fs1 ++ fs2) = Ok (es1 ++ es2).
Proof.
  revert es1. induction fs1 as [|f fs1 IH]; intros es1 H1 H2.
  - cbn in H1. inversion H1. exact H2.
  - destruct f as [rq rs|]; cbn [make_har app] in *.
    + destruct (flow_entry L rq rs) as [e| | |]; cbn [bind] in *; try discriminate H1.
      destruct (make_har L fs1) as [es'| | |]; cbn [bind] in *; try discriminate H1.
      inversion H1; subst es1. rewrite (IH es' eq_refl H2). reflexivity.
    + apply IH; assumption.
Qed.

(* the reader keeps the order of the entries: the i-th imported flow is the import of the i-th entry *)
Lemma import_order se L es imported st : import_har se L es = (imported, st) ->
  Forall2 (fun e i => request_to_flow se L e = Ok i) (firstn (length imported) es) imported.
Proof.
  revert imported st. induction es as [|e es IH]; intros imported st H.
  - cbn in H. inversion H. constructor.
  - cbn [import_har] in H. destruct (request_to_flow se L e) as [i| | |] eqn:Hr; [|inversion H; constructor ..].
    destruct (import_har se L es) as [fs st'] eqn:Hi. inversion H; subst. cbn [length firstn].
    constructor; [exact Hr|]. eapply IH. reflexivity.
Qed.
