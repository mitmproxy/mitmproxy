(* Proofs/AlpnC18.v — lemmas about the TRANSLATED alpn_select_callback (Gen/AlpnSelect.v) and
   the hand model of its surroundings (Model/Alpn.v).  All statements are for arbitrary byte
   strings and lists (no bound); the finite class sweep at the end states the same clauses in
   boolean form over the table the harness enumerates, and follows from them. *)
From Coq Require Import List Bool Arith.
From MV Require Import Base.Bytes Model.AlpnPrelude Gen.AlpnSelect Model.Alpn Proofs.ListFacts.
Import ListNotations.

Lemma py_in_In x l : py_in x l = true <-> In x l.
Proof. apply (existsb_eqb_In _ bytes_eqb_eq). Qed.

Lemma py_in_not_In x l : py_in x l = false <-> ~ In x l.
Proof. rewrite <- py_in_In. symmetry. apply not_true_iff_false. Qed.

Lemma result_eqb_eq a b : result_eqb a b = true <-> a = b.
Proof.
  destruct a as [x| |], b as [y| |]; cbn [result_eqb]; try (split; [discriminate|congruence]); try tauto.
  rewrite bytes_eqb_eq. split; congruence.
Qed.

Lemma py_for_first l body k r :
  py_for l body k = r ->
  (exists pre x post, l = pre ++ x :: post /\ (forall y, In y pre -> body y = None) /\ body x = Some r)
  \/ ((forall y, In y l -> body y = None) /\ k = r).
Proof.
  induction l as [|a l IH]; cbn [py_for]; intros Hr.
  - right. split; [intros y []|exact Hr].
  - destruct (body a) as [r0|] eqn:Ea.
    + left. exists [], a, l. subst r0. repeat split; [intros y []|exact Ea].
    + destruct (IH Hr) as [[pre [x [post [El [Hpre Hx]]]]]|[Hall Hk]].
      * left. exists (a :: pre), x, post. subst l. repeat split; [|exact Hx].
        intros y [->|Hy]; [exact Ea|exact (Hpre y Hy)].
      * right. split; [|exact Hk]. intros y [->|Hy]; [exact Ea|exact (Hall y Hy)].
Qed.

Definition default_choice (h : bool) (options : list bytes) : result :=
  py_for options
    (fun x => if py_in x (if h then HTTP_ALPNS else HTTP1_ALPNS) then Some (Sel x) else None)
    NO_OVERLAPPING_PROTOCOLS.

Lemma callback_unfold ad options :
  alpn_select_callback ad options =
  match client_alpn ad with
  | Some a => if py_in a options then Sel a else NO_OVERLAPPING_PROTOCOLS
  | None =>
      if py_truthy_opt (server_alpn ad) && py_in_opt (server_alpn ad) options
      then py_ret_opt (server_alpn ad)
      else if py_eq_opt (server_alpn ad) [] then NO_OVERLAPPING_PROTOCOLS
           else default_choice (http2 ad) options
  end.
Proof. reflexivity. Qed.

Lemma default_choice_spec h options r :
  default_choice h options = r ->
  (exists pre p post, options = pre ++ p :: post /\ r = Sel p
      /\ In p (if h then HTTP_ALPNS else HTTP1_ALPNS)
      /\ forall y, In y pre -> ~ In y (if h then HTTP_ALPNS else HTTP1_ALPNS))
  \/ (r = NO_OVERLAPPING_PROTOCOLS /\ forall y, In y options -> ~ In y (if h then HTTP_ALPNS else HTTP1_ALPNS)).
Proof.
  unfold default_choice. intros Hr. apply py_for_first in Hr.
  destruct Hr as [[pre [x [post [El [Hpre Hx]]]]]|[Hall Hk]].
  - left. exists pre, x, post.
    destruct (py_in x (if h then HTTP_ALPNS else HTTP1_ALPNS)) eqn:Ex; [|discriminate].
    injection Hx as <-. apply py_in_In in Ex. repeat split; [exact El|exact Ex|].
    intros y Hy Hin. specialize (Hpre y Hy). apply py_in_In in Hin. rewrite Hin in Hpre. discriminate.
  - right. split; [symmetry; exact Hk|].
    intros y Hy Hin. specialize (Hall y Hy). apply py_in_In in Hin. rewrite Hin in Hall. discriminate.
Qed.

Lemma default_choice_sel h options p :
  default_choice h options = Sel p -> In p options /\ In p (if h then HTTP_ALPNS else HTTP1_ALPNS).
Proof.
  intros Hs. apply default_choice_spec in Hs.
  destruct Hs as [[pre [q [post [El [Er [Hq _]]]]]]|[Er _]]; [|discriminate].
  injection Er as ->. subst options. split; [apply in_or_app; right; left; reflexivity|exact Hq].
Qed.

(* where a result can come from: the preset client protocol, the upstream protocol when the client
   offers it, nothing, or the first known offer *)
Lemma callback_cases ad options :
  (exists a, client_alpn ad = Some a
     /\ alpn_select_callback ad options = if py_in a options then Sel a else NO_OVERLAPPING_PROTOCOLS)
  \/ (exists s, server_alpn ad = Some s /\ In s options /\ alpn_select_callback ad options = Sel s)
  \/ alpn_select_callback ad options = NO_OVERLAPPING_PROTOCOLS
  \/ alpn_select_callback ad options = default_choice (http2 ad) options.
Proof.
  rewrite callback_unfold. destruct (client_alpn ad) as [a|]; [left; exists a; split; reflexivity|right].
  destruct (server_alpn ad) as [s|]; cbn [py_truthy_opt py_in_opt py_ret_opt py_eq_opt andb]; [|right; right; reflexivity].
  destruct (py_truthy_bytes s && py_in s options) eqn:E.
  - left. exists s. apply andb_true_iff in E. repeat split. apply py_in_In, E.
  - right. destruct (bytes_eqb s []); [left|right]; reflexivity.
Qed.

Lemma selected_offered ad options p :
  alpn_select_callback ad options = Sel p -> In p options.
Proof.
  destruct (callback_cases ad options) as [[a [_ E]]|[[s [_ [Hin E]]]|[E|E]]]; rewrite E; intros Hs.
  - destruct (py_in a options) eqn:Ea; [|discriminate]. injection Hs as <-. apply py_in_In, Ea.
  - injection Hs as <-. exact Hin.
  - discriminate.
  - apply (default_choice_sel _ _ _ Hs).
Qed.

(* the callback never hands Python None to pyOpenSSL *)
Lemma never_none ad options : alpn_select_callback ad options <> RetNone.
Proof.
  destruct (callback_cases ad options) as [[a [_ E]]|[[s [_ [_ E]]]|[E|E]]]; rewrite E; try discriminate.
  - destruct (py_in a options); discriminate.
  - intros Hs. apply default_choice_spec in Hs.
    destruct Hs as [[pre [q [post [_ [Er _]]]]]|[Er _]]; discriminate.
Qed.

Lemma client_alpn_exact ad options a :
  client_alpn ad = Some a ->
  (In a options -> alpn_select_callback ad options = Sel a)
  /\ (~ In a options -> alpn_select_callback ad options = NO_OVERLAPPING_PROTOCOLS).
Proof.
  intros Hc. rewrite callback_unfold, Hc. split; intros Hin.
  - apply py_in_In in Hin. rewrite Hin. reflexivity.
  - apply py_in_not_In in Hin. rewrite Hin. reflexivity.
Qed.

Lemma client_alpn_only ad options a :
  client_alpn ad = Some a ->
  alpn_select_callback ad options = Sel a \/ alpn_select_callback ad options = NO_OVERLAPPING_PROTOCOLS.
Proof.
  intros Hc. destruct (client_alpn_exact ad options a Hc) as [H1 H2].
  destruct (py_in a options) eqn:E.
  - left. apply H1. apply py_in_In. exact E.
  - right. apply H2. apply py_in_not_In. exact E.
Qed.

(* secure web proxy outer connection: whenever the hook's test fires, only http/1.1 *)
Lemma secure_web_proxy_outer fixed layers ca sa h options :
  is_outer fixed layers = true ->
  let r := alpn_select_callback (tls_start_client_app_data fixed layers ca sa h) options in
  r = Sel lit_http11 \/ r = NO_OVERLAPPING_PROTOCOLS.
Proof.
  intros E. cbv zeta. apply client_alpn_only. unfold tls_start_client_app_data. rewrite E. reflexivity.
Qed.

(* the earlier test (is_outer false, len(layers) == 2) fires on the two-layer stack of the unit test ... *)
Lemma outer_orig_two_layers k1 : is_outer false [LHttpProxy; k1] = true.
Proof. reflexivity. Qed.

(* ... but NOT on the stack NextLayer really builds for a secure web proxy
   (HttpProxy, ClientTLSLayer, HttpLayer): h2 is selected on the outer connection *)
Lemma secure_web_proxy_real_stack_orig_refuted :
  exists options,
    is_outer false [LHttpProxy; LClientTLS; LOther] = false
    /\ alpn_select_callback (tls_start_client_app_data false [LHttpProxy; LClientTLS; LOther] None None true) options
       = Sel lit_h2.
Proof. exists [lit_h2; lit_http11]. split; reflexivity. Qed.

(* the test of /repo (is_outer true) fires on every stack that starts with HttpProxy and has no ClientTLSLayer
   beyond index 1 (the TLS layer being started is the one directly on the proxy mode) ... *)
Lemma outer_fixed_real_stack k1 rest :
  existsb is_client_tls rest = false -> is_outer true (LHttpProxy :: k1 :: rest) = true.
Proof. intros E. cbn. rewrite E. reflexivity. Qed.

(* ... and not on a tunnelled (inner) connection, whose stack has a later ClientTLSLayer,
   nor in any other proxy mode *)
Lemma outer_fixed_not_inner k0 k1 rest :
  existsb is_client_tls rest = true \/ k0 <> LHttpProxy -> is_outer true (k0 :: k1 :: rest) = false.
Proof.
  intros [E|E]; cbn.
  - rewrite E. apply andb_false_r.
  - destruct k0; try reflexivity. congruence.
Qed.

Lemma app_data_not_outer fixed layers ca sa h :
  is_outer fixed layers = false ->
  tls_start_client_app_data fixed layers ca sa h = {| client_alpn := ca; server_alpn := sa; http2 := h |}.
Proof. intros E. unfold tls_start_client_app_data. rewrite E. reflexivity. Qed.

(* a second client TLS layer on the same connection starts from a clean ALPN state: the generated
   reset list contains alpn and alpn_offers *)
Lemma nested_reset st :
  c_tls st = true ->
  c_alpn (client_tls_layer_init st) = None
  /\ c_alpn_offers (client_tls_layer_init st) = []
  /\ c_tls (client_tls_layer_init st) = true.
Proof.
  intros E. unfold client_tls_layer_init. rewrite E. cbn [c_alpn c_alpn_offers c_tls].
  repeat split; vm_compute; reflexivity.
Qed.

Lemma first_layer_keeps st :
  c_tls st = false ->
  client_tls_layer_init st = {| c_tls := true; c_alpn := c_alpn st; c_alpn_offers := c_alpn_offers st |}.
Proof. intros E. unfold client_tls_layer_init. rewrite E. reflexivity. Qed.

Lemma offers_falsy_pre pre offers h :
  py_truthy_offers pre = false ->
  tls_start_server_offers pre offers h = tls_start_server_offers None offers h.
Proof. intros E. unfold tls_start_server_offers. rewrite E. reflexivity. Qed.

(* what tls_start_server offers upstream when no addon preset the offers *)
Lemma upstream_offers_spec offers h p :
  In p (tls_start_server_offers None offers h) <-> In p offers /\ (h = false -> p <> lit_h2).
Proof.
  unfold tls_start_server_offers. cbn [py_truthy_offers negb].
  destruct offers as [|o offers].
  - cbn. tauto.
  - cbn [py_truthy_offers]. destruct h.
    + split; [intros Hin; split; [exact Hin|discriminate]|tauto].
    + rewrite filter_In. split.
      * intros [Hin E]. split; [exact Hin|]. intros _ ->. rewrite bytes_eqb_refl in E. discriminate.
      * intros [Hin Hne]. split; [exact Hin|].
        destruct (bytes_eqb p lit_h2) eqn:E; [|reflexivity].
        apply bytes_eqb_eq in E. exfalso. exact (Hne eq_refl E).
Qed.

Lemma upstream_offers_pre pre offers h p :
  py_truthy_offers pre = false ->
  (In p (tls_start_server_offers pre offers h) <-> In p offers /\ (h = false -> p <> lit_h2)).
Proof. intros E. rewrite (offers_falsy_pre pre offers h E). exact (upstream_offers_spec offers h p). Qed.

(* Reachability hypothesis of the system-level clauses: the upstream protocol recorded in
   server.alpn is either unknown (None), or nothing was negotiated (empty string), or it is a member
   of the offer list that tls_start_server derived from THE SAME client offers under THE SAME http2
   flag (OpenSSL only accepts a server selection that it offered). *)
Definition reach (offers : list bytes) (h : bool) (s : option bytes) : Prop :=
  match s with
  | None => True
  | Some [] => True
  | Some p => In p (tls_start_server_offers None offers h)
  end.

Definition reach_b (offers : list bytes) (h : bool) (s : option bytes) : bool :=
  match s with
  | None => true
  | Some [] => true
  | Some p => py_in p (tls_start_server_offers None offers h)
  end.

Lemma reach_b_spec offers h s : reach_b offers h s = true <-> reach offers h s.
Proof.
  destruct s as [[|b s]|]; cbn [reach reach_b]; try tauto. apply py_in_In.
Qed.

Lemma reach_some offers h p :
  reach offers h (Some p) -> p = [] \/ (In p offers /\ (h = false -> p <> lit_h2)).
Proof. intros Hr. destruct p; [left; reflexivity|right]. apply upstream_offers_spec. exact Hr. Qed.

Lemma upstream_known ad options s :
  client_alpn ad = None -> server_alpn ad = Some s -> reach options (http2 ad) (Some s) ->
  (alpn_select_callback ad options = Sel s \/ alpn_select_callback ad options = NO_OVERLAPPING_PROTOCOLS)
  /\ (s <> [] -> alpn_select_callback ad options = Sel s)
  /\ (s = [] -> alpn_select_callback ad options = NO_OVERLAPPING_PROTOCOLS).
Proof.
  intros Hc Hs Hr. rewrite callback_unfold, Hc, Hs.
  cbn [py_truthy_opt py_in_opt py_ret_opt py_eq_opt].
  destruct (reach_some _ _ _ Hr) as [->|[Hin _]].
  - split; [right; reflexivity|split; [congruence|reflexivity]].
  - apply py_in_In in Hin. rewrite Hin. destruct s as [|b s]; cbn [py_truthy_bytes andb bytes_eqb].
    + split; [right; reflexivity|split; [congruence|reflexivity]].
    + split; [left; reflexivity|split; [reflexivity|discriminate]].
Qed.

Lemma h2_not_http1 : ~ In lit_h2 HTTP1_ALPNS.
Proof. apply py_in_not_In. vm_compute. reflexivity. Qed.

Lemma no_h2_when_disabled ad options :
  http2 ad = false ->
  (client_alpn ad = None \/ client_alpn ad = Some lit_http11) ->
  reach options false (server_alpn ad) ->
  alpn_select_callback ad options <> Sel lit_h2.
Proof.
  intros Hh Hc Hr.
  destruct (callback_cases ad options) as [[a [Ha E]]|[[s [Hs [_ E]]]|[E|E]]]; rewrite E; intros Hsel.
  - destruct Hc as [Hc|Hc]; rewrite Hc in Ha; [discriminate|]. injection Ha as <-.
    destruct (py_in lit_http11 options); discriminate.
  - injection Hsel as ->. rewrite Hs in Hr.
    destruct (reach_some _ _ _ Hr) as [E0|[_ Hne]]; [discriminate|exact (Hne eq_refl eq_refl)].
  - discriminate.
  - rewrite Hh in Hsel. exact (h2_not_http1 (proj2 (default_choice_sel _ _ _ Hsel))).
Qed.

(* the AppData that tls_start_client builds when client.alpn is still unset (ClientTLSLayer resets it) *)
Lemma no_h2_when_disabled_system fixed layers sa options :
  reach options false sa ->
  alpn_select_callback (tls_start_client_app_data fixed layers None sa false) options <> Sel lit_h2.
Proof.
  intros Hr. apply no_h2_when_disabled; [reflexivity| |exact Hr].
  unfold tls_start_client_app_data. cbn [client_alpn].
  destruct (is_outer fixed layers); [right|left]; reflexivity.
Qed.

(* clauses 2 and 3 on the AppData of a connection that is not a secure-web-proxy outer one and
   has no client protocol preset *)
Lemma known_not_outer fixed layers h options s :
  is_outer fixed layers = false -> reach options h (Some s) ->
  let r := alpn_select_callback (tls_start_client_app_data fixed layers None (Some s) h) options in
  (r = Sel s \/ r = NO_OVERLAPPING_PROTOCOLS)
  /\ (s <> [] -> r = Sel s) /\ (s = [] -> r = NO_OVERLAPPING_PROTOCOLS)
  /\ (h = false -> r <> Sel lit_h2).
Proof.
  intros Eo Hr. cbv zeta. rewrite (app_data_not_outer fixed layers None (Some s) h Eo).
  set (ad := {| client_alpn := None; server_alpn := Some s; http2 := h |}).
  destruct (upstream_known ad options s eq_refl eq_refl Hr) as [H0 [H1 H2]].
  repeat split; [exact H0|exact H1|exact H2|].
  intros ->. apply no_h2_when_disabled; [reflexivity|left; reflexivity|exact Hr].
Qed.

Lemma end_to_end (upstream_select : list bytes -> bytes) :
  (forall l, upstream_select l = [] \/ In (upstream_select l) l) ->
  forall fixed layers h options pre,
    is_outer fixed layers = false -> py_truthy_offers pre = false ->
    let s := upstream_select (tls_start_server_offers pre options h) in
    let r := alpn_select_callback (tls_start_client_app_data fixed layers None (Some s) h) options in
    (s <> [] -> r = Sel s) /\ (s = [] -> r = NO_OVERLAPPING_PROTOCOLS)
    /\ (h = false -> r <> Sel lit_h2).
Proof.
  intros Hsel fixed layers h options pre Hn Hpre. cbv zeta.
  rewrite (offers_falsy_pre pre options h Hpre).
  set (s := upstream_select (tls_start_server_offers None options h)).
  apply (known_not_outer fixed layers h options s Hn).
  destruct (Hsel (tls_start_server_offers None options h)) as [E|Hin].
  - fold s in E. rewrite E. exact I.
  - fold s in Hin. destruct s; [exact I|exact Hin].
Qed.

(* Outer TLS is established on the client connection (c_tls, any stale alpn/alpn_offers), then the inner
   ClientTLSLayer is constructed and tls_start_client runs for the tunnelled connection (a stack the
   secure-web-proxy test does not fire on) with a known, reachable upstream protocol. *)
Lemma nested_upstream_known st fixed layers h options s :
  c_tls st = true -> is_outer fixed layers = false -> reach options h (Some s) ->
  let r := alpn_select_callback
             (tls_start_client_app_data fixed layers (c_alpn (client_tls_layer_init st)) (Some s) h) options in
  (r = Sel s \/ r = NO_OVERLAPPING_PROTOCOLS)
  /\ (s <> [] -> r = Sel s) /\ (s = [] -> r = NO_OVERLAPPING_PROTOCOLS)
  /\ (h = false -> r <> Sel lit_h2).
Proof.
  intros Et Eo Hr. destruct (nested_reset st Et) as [Ea _]. rewrite Ea.
  exact (known_not_outer fixed layers h options s Eo Hr).
Qed.

Definition stale_outer_state : client_tls_state :=
  {| c_tls := true; c_alpn := Some lit_http11; c_alpn_offers := [lit_http11] |}.
Definition inner_stack : list layer_kind := [LHttpProxy; LClientTLS; LOther; LOther; LClientTLS].

Lemma nested_nonvacuous :
  is_outer false inner_stack = false /\ is_outer true inner_stack = false
  /\ reach [lit_h2; lit_http11] true (Some lit_h2)
  /\ alpn_select_callback
       (tls_start_client_app_data false inner_stack (c_alpn (client_tls_layer_init stale_outer_state)) (Some lit_h2) true)
       [lit_h2; lit_http11] = Sel lit_h2
  /\ alpn_select_callback
       (tls_start_client_app_data false inner_stack (c_alpn stale_outer_state) (Some lit_h2) true)
       [lit_h2; lit_http11] = Sel lit_http11.
Proof. repeat split; vm_compute; auto. Qed.

Lemma default_first_match ad options :
  client_alpn ad = None -> server_alpn ad = None ->
  let known := if http2 ad then HTTP_ALPNS else HTTP1_ALPNS in
  (exists pre p post, options = pre ++ p :: post /\ alpn_select_callback ad options = Sel p
      /\ In p known /\ forall y, In y pre -> ~ In y known)
  \/ (alpn_select_callback ad options = NO_OVERLAPPING_PROTOCOLS /\ forall y, In y options -> ~ In y known).
Proof.
  intros Hc Hs. cbv zeta. rewrite callback_unfold, Hc, Hs.
  cbn [py_truthy_opt py_in_opt py_eq_opt andb].
  apply default_choice_spec. reflexivity.
Qed.

Definition ad_h2_known (h : bool) : AppData :=
  {| client_alpn := None; server_alpn := Some lit_h2; http2 := h |}.

Lemma upstream_clause_needs_reach :
  exists ad options s, client_alpn ad = None /\ server_alpn ad = Some s
    /\ alpn_select_callback ad options <> Sel s
    /\ alpn_select_callback ad options <> NO_OVERLAPPING_PROTOCOLS.
Proof.
  exists (ad_h2_known true), [lit_http11], lit_h2.
  repeat split; vm_compute; discriminate.
Qed.

Lemma http2_clause_needs_reach :
  exists ad options, http2 ad = false /\ client_alpn ad = None
    /\ alpn_select_callback ad options = Sel lit_h2.
Proof. exists (ad_h2_known false), [lit_h2; lit_http11]. repeat split. Qed.

Lemma nonvacuous :
  reach [lit_h2; lit_http11] true (Some lit_h2)
  /\ alpn_select_callback (tls_start_client_app_data false [LHttpProxy; LOther; LOther; LClientTLS] None (Some lit_h2) true) [lit_h2; lit_http11] = Sel lit_h2
  /\ tls_start_server_offers None [lit_h2; lit_http11] false = [lit_http11]
  /\ reach [lit_h2; lit_http11] false (Some lit_http11)
  /\ alpn_select_callback (tls_start_client_app_data false [LHttpProxy; LOther; LOther; LClientTLS] None (Some lit_http11) false) [lit_h2; lit_http11] = Sel lit_http11
  /\ alpn_select_callback (tls_start_client_app_data false [LHttpProxy; LClientTLS] None None true) [lit_h2; lit_http11] = Sel lit_http11.
Proof. repeat split; vm_compute; auto. Qed.

(* the protocol classes the harness sweeps: h2, h3, http/1.1, http/1.0, http/0.9 (the members of HTTP_ALPNS,
   spelled out) and h2c, which stands for any protocol mitmproxy does not know *)
Definition classes : list bytes :=
  [lit_h2; [x68;x33]; lit_http11; [x68;x74;x74;x70;x2f;x31;x2e;x30]; [x68;x74;x74;x70;x2f;x30;x2e;x39]; [x68;x32;x63]].

Fixpoint lists_upto (n : nat) : list (list bytes) :=
  match n with
  | O => [[]]
  | S k => [] :: flat_map (fun l => map (fun c => c :: l) classes) (lists_upto k)
  end.

Definition is_or_none (r : result) (p : bytes) : bool :=
  result_eqb r (Sel p) || result_eqb r NO_OVERLAPPING_PROTOCOLS.

(* the conjuncts: clause 1 and never None; a preset client_alpn is the only choice (core of clause 4); then,
   under reach_b, clause 2, and clause 3 under the hypotheses of no_h2_when_disabled (http2 off, client_alpn
   unset or http/1.1) *)
Definition clauses_b (offers : list bytes) (s c : option bytes) (h : bool) : bool :=
  let r := alpn_select_callback {| client_alpn := c; server_alpn := s; http2 := h |} offers in
  match r with Sel p => py_in p offers | NO_OVERLAPPING_PROTOCOLS => true | RetNone => false end
  && match c with Some a => is_or_none r a | None => true end
  && (negb (reach_b offers h s)
      || (match c, s with None, Some p => is_or_none r p | _, _ => true end
          && (h || negb (py_is_none c || py_eq_opt c lit_http11) || negb (result_eqb r (Sel lit_h2))))).

Definition sweep (n : nat) : bool :=
  forallb (fun offers =>
    forallb (fun s =>
      forallb (fun c =>
        forallb (fun h => clauses_b offers s c h) [true; false])
        (None :: map Some classes))
      (None :: Some [] :: map Some classes))
    (lists_upto n).

Lemma is_or_none_true r p : r = Sel p \/ r = NO_OVERLAPPING_PROTOCOLS -> is_or_none r p = true.
Proof. unfold is_or_none. intros [->| ->]; rewrite (proj2 (result_eqb_eq _ _) eq_refl); [|apply orb_true_r]; reflexivity. Qed.

Lemma clauses_b_true offers s c h : clauses_b offers s c h = true.
Proof.
  unfold clauses_b. set (ad := {| client_alpn := c; server_alpn := s; http2 := h |}). cbv zeta.
  apply andb_true_iff; split; [apply andb_true_iff; split|].
  - destruct (alpn_select_callback ad offers) as [p| |] eqn:Er; [|reflexivity|].
    + apply py_in_In. exact (selected_offered ad offers p Er).
    + destruct (never_none ad offers Er).
  - destruct c as [a|]; [|reflexivity]. apply is_or_none_true. exact (client_alpn_only ad offers a eq_refl).
  - destruct (reach_b offers h s) eqn:Hr; [cbn [negb orb]|reflexivity]. apply reach_b_spec in Hr.
    apply andb_true_iff; split.
    + destruct c as [a|]; [reflexivity|]. destruct s as [p|]; [|reflexivity].
      apply is_or_none_true. exact (proj1 (upstream_known ad offers p eq_refl eq_refl Hr)).
    + destruct h; [reflexivity|]. cbn [orb].
      destruct (py_is_none c || py_eq_opt c lit_http11) eqn:Hc; [cbn [negb orb]|reflexivity].
      apply negb_true_iff, not_true_iff_false. intros E. apply result_eqb_eq in E.
      apply (no_h2_when_disabled ad offers eq_refl); [|exact Hr|exact E].
      destruct c as [a|]; [right|left; reflexivity].
      cbn in Hc. apply bytes_eqb_eq in Hc. subst a. reflexivity.
Qed.

Lemma sweep_true n : sweep n = true.
Proof.
  unfold sweep. apply forallb_forall. intros offers _. apply forallb_forall. intros s _.
  apply forallb_forall. intros c _. apply forallb_forall. intros h _. apply clauses_b_true.
Qed.

Lemma sweep_4 : length (lists_upto 4) = 1555 /\ sweep 4 = true.
Proof. split; [vm_compute; reflexivity|apply sweep_true]. Qed.
