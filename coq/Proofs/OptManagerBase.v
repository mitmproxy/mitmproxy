(* Proofs/OptManagerBase.v -- basic facts about Model/OptManager.v: Python ==, dict helpers, name sets,
   the typed invariant, and the exact shape of what a .changed signal appends to the log. *)
From Coq Require Import List Bool NArith ZArith Lia.
From MV Require Import Base.Bytes Model.OptManager Proofs.EqbIff.
Import ListNotations.

Lemma item_eqb_iff a b : item_eqb a b = true <-> a = b.
Proof.
  destruct a, b; simpl; rewrite ?bytes_eqb_eq, ?N.eqb_eq; split; intros H; try discriminate; congruence.
Qed.

Lemma py_eq_refl v : py_eq v v = true.
Proof.
  destruct v; simpl; try reflexivity.
  - apply Bool.eqb_reflx.
  - apply Z.eqb_refl.
  - apply bytes_eqb_refl.
  - rewrite Bool.eqb_reflx; simpl. apply (list_eqb_eq item_eqb item_eqb_iff). reflexivity.
  - apply N.eqb_refl.
Qed.

(* the only values that are == without being identical are a bool and the int 0/1 *)
Definition bool_int_mix (a b : val) : Prop :=
  (exists x, a = VBool x /\ b = VInt (Z.b2z x)) \/ (exists x, a = VInt (Z.b2z x) /\ b = VBool x).

Lemma py_eq_spec a b : py_eq a b = true -> a = b \/ bool_int_mix a b.
Proof.
  destruct a, b; simpl; intros H; try discriminate.
  - now left.
  - left; f_equal; now apply Bool.eqb_prop.
  - right; left; exists b0; apply Z.eqb_eq in H; now subst.
  - right; right; exists b; apply Z.eqb_eq in H; now subst.
  - left; apply Z.eqb_eq in H; now subst.
  - left; apply bytes_eqb_eq in H; now subst.
  - apply andb_true_iff in H as [H1 H2]. left. apply Bool.eqb_prop in H1.
    apply (list_eqb_eq item_eqb item_eqb_iff) in H2. now subst.
  - left; apply N.eqb_eq in H; now subst.
Qed.

Lemma dget_dset_same {A} k (v : A) d : dget k (dset k v d) = Some v.
Proof.
  induction d as [|[k' v'] t IH]; simpl.
  - now rewrite N.eqb_refl.
  - destruct (N.eqb k k') eqn:E; simpl; rewrite ?N.eqb_refl, ?E; auto.
Qed.

Lemma dget_dset_other {A} k n (v : A) d : n <> k -> dget n (dset k v d) = dget n d.
Proof.
  intros Hn. apply N.eqb_neq in Hn. induction d as [|[k' v'] t IH]; simpl; [rewrite Hn; reflexivity|].
  destruct (N.eqb k k') eqn:E; simpl; [|rewrite IH; reflexivity].
  apply N.eqb_eq in E. subst k'. rewrite Hn. reflexivity.
Qed.

Lemma dget_dmap {A B} (f : A -> B) k d : dget k (dmap f d) = option_map f (dget k d).
Proof.
  induction d as [|[k' v'] t IH]; simpl; [reflexivity|].
  destruct (N.eqb k k'); simpl; auto.
Qed.

Lemma dget_In {A} k (v : A) d : dget k d = Some v -> In (k, v) d.
Proof.
  induction d as [|[k' v'] t IH]; simpl; [discriminate|].
  destruct (N.eqb k k') eqn:E; intros H.
  - apply N.eqb_eq in E; inversion H; subst; now left.
  - right; auto.
Qed.

Lemma dget_app {A} k (a b : list (name * A)) :
  dget k (a ++ b) = match dget k a with Some v => Some v | None => dget k b end.
Proof.
  induction a as [|[k' v'] t IH]; simpl; [reflexivity|].
  destruct (N.eqb k k'); auto.
Qed.

Lemma map_fst_dmap {A B} (f : A -> B) d : map fst (dmap f d) = map fst d.
Proof. unfold dmap; rewrite map_map; simpl; reflexivity. Qed.

Lemma map_fst_dset_mem {A} k (v : A) d : dmem k d = true -> map fst (dset k v d) = map fst d.
Proof.
  unfold dmem. induction d as [|[k' v'] t IH]; simpl; [discriminate|].
  destruct (N.eqb k k') eqn:E; simpl; intros H.
  - apply N.eqb_eq in E; now subst.
  - f_equal; auto.
Qed.

Lemma sins_In x y l : In y (sins x l) <-> y = x \/ In y l.
Proof.
  induction l as [|z t IH]; simpl.
  - intuition.
  - destruct (N.ltb x z) eqn:E1; simpl; [intuition|].
    destruct (N.eqb x z) eqn:E2; simpl.
    + apply N.eqb_eq in E2; subst; intuition.
    + rewrite IH; intuition.
Qed.

Lemma set_of_In y l : In y (set_of l) <-> In y l.
Proof.
  induction l as [|x t IH]; simpl; [reflexivity|].
  rewrite sins_In, IH; intuition.
Qed.

(* set_of builds a strictly ascending list *)
Definition lt_all (x : name) (l : list name) : Prop := Forall (fun y => (x < y)%N) l.
Fixpoint ssorted (l : list name) : Prop :=
  match l with [] => True | x :: t => lt_all x t /\ ssorted t end.

Lemma sins_sorted x l : ssorted l -> ssorted (sins x l).
Proof.
  induction l as [|z t IH]; simpl; intros H.
  - split; [constructor | exact I].
  - destruct H as [Hz Ht].
    destruct (N.ltb x z) eqn:E1.
    + apply N.ltb_lt in E1. simpl; split; [|split; assumption].
      constructor; [assumption|]. unfold lt_all in *. rewrite Forall_forall in *.
      intros y Hy. specialize (Hz y Hy). lia.
    + destruct (N.eqb x z) eqn:E2; [simpl; split; assumption|].
      apply N.ltb_ge in E1. apply N.eqb_neq in E2.
      simpl; split; [|apply IH; assumption].
      unfold lt_all in *. rewrite Forall_forall in *. intros y Hy.
      apply sins_In in Hy as [->|Hy]; [lia | auto].
Qed.

Lemma set_of_sorted l : ssorted (set_of l).
Proof. induction l as [|x t IH]; simpl; [exact I | apply sins_sorted, IH]. Qed.

Lemma ssorted_NoDup l : ssorted l -> NoDup l.
Proof.
  induction l as [|x t IH]; simpl; intros H; constructor.
  - destruct H as [H _]. unfold lt_all in H. rewrite Forall_forall in H.
    intros Hin. specialize (H x Hin). lia.
  - apply IH, H.
Qed.

Definition typed_opt (o : opt) : Prop :=
  check_option_type (odefault o) (otype o) = true
  /\ (forall v, ovalue o = Some v -> check_option_type v (otype o) = true).
Definition typed_opts (d : list (name * opt)) : Prop := Forall (fun p => typed_opt (snd p)) d.
Definition wf (s : state) : Prop := typed_opts (options s).

Lemma typed_current o : typed_opt o -> check_option_type (current o) (otype o) = true.
Proof. intros [H1 H2]. unfold current. destruct (ovalue o) eqn:E; auto. Qed.

Lemma typed_dget d k o : typed_opts d -> dget k d = Some o -> typed_opt o.
Proof.
  intros H E. apply dget_In in E. unfold typed_opts in H. rewrite Forall_forall in H.
  exact (H _ E).
Qed.

Lemma typed_dset d k o : typed_opts d -> typed_opt o -> typed_opts (dset k o d).
Proof.
  intros H Ho. induction d as [|[k' v'] t IH]; simpl.
  - constructor; [exact Ho | constructor].
  - inversion H as [|? ? H1 H2]; subst. destruct (N.eqb k k').
    + constructor; [exact Ho | exact H2].
    + constructor; [exact H1 | apply IH, H2].
Qed.

Lemma typed_dmap f d : (forall o, typed_opt o -> typed_opt (f o)) -> typed_opts d -> typed_opts (dmap f d).
Proof.
  intros Hf H. unfold typed_opts, dmap in *. rewrite Forall_forall in *.
  intros p Hp. apply in_map_iff in Hp as [q [<- Hq]]. simpl. apply Hf, H, Hq.
Qed.

Lemma typed_set_value o v : typed_opt o -> check_option_type v (otype o) = true -> typed_opt (set_value o v).
Proof. intros [H1 H2] Hv. split; simpl; [exact H1|]. intros w E; inversion E; now subst. Qed.

Lemma typed_reset o : typed_opt o -> typed_opt (reset_opt o).
Proof. intros [H1 H2]. split; simpl; [exact H1 | intros v E; discriminate E]. Qed.

Lemma typed_deepcopy o : typed_opt o -> typed_opt (deepcopy_opt o).
Proof.
  intros H. split; simpl; [exact (proj1 H)|].
  destruct (has_changed o); [|intros w E; discriminate E].
  intros w E; inversion E; subst. now apply typed_current.
Qed.

(* what one update may change: same names, types, defaults; values == *)
Definition same_value (o o' : opt) : Prop :=
  otype o' = otype o /\ odefault o' = odefault o /\ py_eq (current o) (current o') = true.
Definition restored (d d' : list (name * opt)) : Prop :=
  Forall2 (fun p p' => fst p' = fst p /\ same_value (snd p) (snd p')) d d'.

Lemma same_value_refl o : same_value o o.
Proof. repeat split; apply py_eq_refl. Qed.

Lemma restored_refl d : restored d d.
Proof. induction d; constructor; auto. split; [reflexivity | apply same_value_refl]. Qed.

Lemma same_value_deepcopy o : same_value o (deepcopy_opt o).
Proof.
  repeat split; simpl. unfold current at 2; simpl.
  destruct (has_changed o) eqn:E; [apply py_eq_refl|].
  unfold has_changed in E. now apply negb_false_iff in E.
Qed.

Lemma restored_deepcopy d : restored d (dmap deepcopy_opt d).
Proof.
  induction d as [|[k o] t IH]; simpl; constructor; auto.
  split; [reflexivity | apply same_value_deepcopy].
Qed.

Definition ev_listener (e : event) : option N :=
  match e with Notified l _ _ _ => Some l | Errored => None end.
Definition ev_ok (e : event) : bool := match e with Notified _ _ _ KReject => false | _ => true end.
Definition ev_nested (e : event) : bool := match e with Notified _ _ _ KNested => true | _ => false end.
(* e is a notification showing the option values sn together with the updated-set u *)
Definition shows (sn : snap) (u : list name) (e : event) : Prop :=
  exists l k, e = Notified l sn u k.
Fixpoint listeners (evs : list event) : list N :=
  match evs with
  | [] => []
  | Notified l _ _ _ :: t => l :: listeners t
  | Errored :: t => listeners t
  end.

(* what the listener l saw most recently (log is newest first) *)
Fixpoint last_seen (l : N) (lg : list event) : option snap :=
  match lg with
  | [] => None
  | Notified l' sn _ _ :: t => if N.eqb l l' then Some sn else last_seen l t
  | Errored :: t => last_seen l t
  end.

Lemma listeners_app a b : listeners (a ++ b) = listeners a ++ listeners b.
Proof.
  induction a as [|e t IH]; simpl; [reflexivity|].
  destruct e; simpl; now rewrite IH.
Qed.

Lemma last_seen_app_shows l sn u a b :
  Forall (shows sn u) a -> In l (listeners a) -> last_seen l (a ++ b) = Some sn.
Proof.
  induction a as [|e t IH]; simpl; intros H Hin; [contradiction|].
  inversion H as [|? ? He Ht]; subst. destruct He as [l' [ok ->]]. simpl in *.
  destruct (N.eqb l l') eqn:E; [reflexivity|].
  destruct Hin as [->|Hin]; [now rewrite N.eqb_refl in E | auto].
Qed.

Section Signals.
  Variable behave : N -> state -> list name -> reaction.
  Variable nested : list (name * val) -> state -> state * result.

  Definition non_reentrant : Prop := forall l s u kw, behave l s u <> Nested kw.

  (* the four fields that a send to such listeners leaves alone (notify_spec says it with the state written out) *)
  Definition same_static (s s' : state) : Prop :=
    options s' = options s /\ deferred s' = deferred s
    /\ subscriptions s' = subscriptions s /\ receivers s' = receivers s.

  Lemma same_static_refl s : same_static s s.
  Proof. repeat split. Qed.

  (* a send to such listeners only adds to the log.  The events of one send, newest first: every one shows the values
     at the time of the send and the same updated-set, and was logged by one of ls; if the send returns, exactly the
     listeners ls were called, in order, and all accepted; otherwise it raises OptionsError and the newest event is
     the refusal *)
  Lemma notify_spec (NR : non_reentrant) ls : forall u s s' r,
    notify behave nested ls u s = (s', r) ->
    exists evs, s' = mkState (options s) (deferred s) (subscriptions s) (receivers s) (evs ++ log s)
      /\ Forall (shows (snapshot (options s)) u) evs
      /\ incl (listeners evs) ls
      /\ match r with
         | NOk => rev (listeners evs) = ls /\ forallb ev_ok evs = true
         | NRaised e => e = EOptionsError /\ forallb ev_ok evs = false
         end.
  Proof.
    induction ls as [|l t IH]; simpl; intros u s s' r H.
    - inversion H; subst. exists []. split; [destruct s'; reflexivity|].
      split; [constructor|]. split; [intros x [] | split; reflexivity].
    - destruct (behave l s u) as [| |kw] eqn:B.
      + apply IH in H as (evs & -> & Hsh & Hin & Hr).
        exists (evs ++ [Notified l (snapshot (options s)) u KAccept]). simpl in *.
        split; [rewrite <- app_assoc; reflexivity|].
        split; [apply Forall_app; split; [exact Hsh | constructor; [now exists l, KAccept | constructor]]|].
        rewrite listeners_app, forallb_app, rev_app_distr, andb_true_r. simpl. split.
        * intros x Hx. apply in_app_or in Hx as [Hx|[<-|[]]]; [right; apply Hin, Hx | left; reflexivity].
        * destruct r; [destruct Hr as [-> Hr]; split; [reflexivity | exact Hr] | exact Hr].
      + inversion H; subst; clear H.
        exists [Notified l (snapshot (options s)) u KReject]. simpl.
        split; [reflexivity|].
        split; [constructor; [now exists l, KReject | constructor]|].
        split; [intros x [<-|[]]; left; reflexivity | split; reflexivity].
      + exfalso. exact (NR l s u kw B).
  Qed.
End Signals.
