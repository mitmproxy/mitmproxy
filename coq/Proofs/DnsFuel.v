(* Proofs/DnsFuel.v -- decoding is total: the fuel of the model is never exhausted (pointer
   chains and loops included), and the only error classes a decoder can produce are
   EStruct (struct.error), EAce (outside the modelled IDNA fragment) and, from the pack()
   call inside decompress_from_record_data, EValue / EUnicode. *)
From Coq Require Import List Bool Arith NArith ZArith Lia.
From MV Require Import Base.Bytes Model.DnsNames Model.DnsMessage.
Import ListNotations.

Definition parse_err (e : pyexc) : Prop := e = EStruct \/ e = EAce.
Definition decode_err (e : pyexc) : Prop := e = EStruct \/ e = EAce \/ e = EValue \/ e = EUnicode.

Lemma parse_decode e : parse_err e -> decode_err e.
Proof. unfold parse_err, decode_err. tauto. Qed.

Lemma byte_at_spec buf off :
  match byte_at buf off with Some _ => off < length buf | None => length buf <= off end.
Proof.
  unfold byte_at. pose proof (skipn_length off buf) as L.
  destruct (skipn off buf); cbn [length] in L; lia.
Qed.

Lemma idna_decode_err l e : idna_decode l = Err e -> parse_err e.
Proof.
  unfold idna_decode, parse_err. destruct (has_ace l); [intros [= <-]; auto|].
  destruct (forallb is_ascii l); [discriminate|intros [= <-]; auto].
Qed.

Lemma label_facts acc buf off :
  match unpack_label_into acc buf off with
  | Ok (_, n) => 1 <= n /\ off + n <= length buf
  | Err e => parse_err e
  end.
Proof.
  unfold unpack_label_into. pose proof (byte_at_spec buf off) as B.
  destruct (byte_at buf off); [|left; reflexivity].
  destruct (64 <=? _); [left; reflexivity|]. destruct (_ =? 0); [lia|].
  destruct (length buf <? _) eqn:E; [left; reflexivity|]. apply Nat.ltb_ge in E.
  destruct (idna_decode _) eqn:D; [lia|eapply idna_decode_err, D].
Qed.

Lemma scan_facts fuel : forall buf off acc, 1 <= fuel -> length buf < fuel + off ->
  match scan_labels fuel buf off acc with
  | SErr e => parse_err e
  | SEnd _ off' => off < off'
  | SPtr _ poff => off <= poff /\ poff < length buf
  end.
Proof.
  induction fuel as [|f IH]; intros buf off acc H1 Hf; [lia|]. cbn [scan_labels].
  pose proof (byte_at_spec buf off) as Hlt.
  destruct (byte_at buf off) as [b|]; [|left; reflexivity].
  destruct (is_ptr b); [lia|].
  pose proof (label_facts acc buf off) as U.
  destruct (unpack_label_into acc buf off) as [[ls n]|e]; [destruct U as [Hn Hle]|exact U].
  destruct (bN b =? 0)%N; [lia|].
  specialize (IH buf (off + n) ls ltac:(lia) ltac:(lia)).
  destruct (scan_labels f buf (off + n) ls); [exact IH|lia|lia].
Qed.

(* free offsets: the measure for the pointer recursion *)
Definition is_free (c : cache) (o : nat) : bool :=
  match lookup o c with None => true | Some _ => false end.
Definition free (buf : bytes) (c : cache) : nat := length (filter (is_free c) (seq 0 (length buf))).
(* c' marks at least the offsets c marks *)
Definition ext (c c' : cache) : Prop := forall o, is_free c' o = true -> is_free c o = true.

Lemma filter_le (P Q : nat -> bool) l : (forall x, Q x = true -> P x = true) ->
  length (filter Q l) <= length (filter P l).
Proof.
  intros H. induction l as [|x l IH]; [reflexivity|]. cbn [filter].
  destruct (Q x) eqn:Eq; [rewrite (H x Eq); cbn [length]; lia|].
  destruct (P x); cbn [length]; lia.
Qed.

Lemma filter_lt (P Q : nat -> bool) l x : (forall y, Q y = true -> P y = true) ->
  In x l -> P x = true -> Q x = false -> length (filter Q l) < length (filter P l).
Proof.
  intros H. induction l as [|y l IH]; intros Hin Px Qx; [destruct Hin|]. cbn [filter].
  destruct Hin as [->|Hin].
  - rewrite Px, Qx. cbn [length]. pose proof (filter_le P Q l H). lia.
  - specialize (IH Hin Px Qx). destruct (Q y) eqn:Eq; [rewrite (H y Eq); cbn [length]; lia|].
    destruct (P y); cbn [length]; lia.
Qed.

Lemma free_ext buf c c' : ext c c' -> free buf c' <= free buf c.
Proof. intros H. apply filter_le, H. Qed.

Lemma free_bound buf c : free buf c <= length buf.
Proof.
  unfold free. rewrite <- (seq_length (length buf) 0) at 2.
  induction (seq 0 (length buf)) as [|x l IH]; [reflexivity|]. cbn [filter].
  destruct (is_free c x); cbn [length]; lia.
Qed.

Lemma is_free_cons c k v o : is_free ((k, v) :: c) o = negb (k =? o) && is_free c o.
Proof. unfold is_free. cbn [lookup]. destruct (k =? o); reflexivity. Qed.

Lemma ext_cons c k v : ext c ((k, v) :: c).
Proof. intros o. rewrite is_free_cons. intros H. apply andb_true_iff in H. tauto. Qed.

Lemma free_mark buf c off v : lookup off c = None -> off < length buf ->
  free buf ((off, v) :: c) < free buf c.
Proof.
  intros L H. unfold free. apply (filter_lt _ _ _ off).
  - apply ext_cons.
  - apply in_seq. lia.
  - unfold is_free. rewrite L. reflexivity.
  - rewrite is_free_cons, Nat.eqb_refl. reflexivity.
Qed.

(* every cached result has a positive size: that is what makes decompress_loop advance when it takes a
   name from the cache (data_offset + rr_name_len), so that its fuel suffices *)
Definition cache_pos (c : cache) : Prop := forall o n l, lookup o c = Some (Some (n, l)) -> 1 <= l.

Lemma cache_pos_cons c k v : cache_pos c ->
  match v with Some (_, l) => 1 <= l | None => True end -> cache_pos ((k, v) :: c).
Proof.
  intros Hc Hv o n l. cbn [lookup]. destruct (k =? o); [|apply Hc].
  intros [= ->]. exact Hv.
Qed.

Definition fwc_post (rc : result (name * nat) * cache) : Prop :=
  match fst rc with
  | Ok (_, l) => 1 <= l
  | Err e => parse_err e
  end /\ cache_pos (snd rc).

Lemma fwc_facts buf fuel : forall off c, free buf c < fuel -> cache_pos c ->
  fwc_post (unpack_from_with_compression fuel buf off c).
Proof.
  induction fuel as [|f IH]; intros off c Hf Hc; [lia|]. cbn [unpack_from_with_compression].
  destruct (lookup off c) as [[[n l]|]|] eqn:L.
  - split; [exact (Hc _ _ _ L)|exact Hc].
  - split; [left; reflexivity|exact Hc].
  - assert (Hc1 : cache_pos ((off, None) :: c)) by (apply cache_pos_cons; [exact Hc|exact I]).
    pose proof (scan_facts (S (length buf)) buf off [] ltac:(lia) ltac:(lia)) as Sc.
    destruct (scan_labels (S (length buf)) buf off []) as [e|ls off'|ls poff].
    + split; [exact Sc|exact Hc1].
    + split; [cbn; lia|]. apply cache_pos_cons; [exact Hc1|lia].
    + destruct (u16_at buf poff) as [p|]; [|split; [left; reflexivity|exact Hc1]].
      assert (Hf1 : free buf ((off, None) :: c) < f).
      { pose proof (free_mark buf c off None L ltac:(lia)). lia. }
      specialize (IH (ptr_target p) _ Hf1 Hc1).
      destruct (unpack_from_with_compression f buf (ptr_target p) ((off, None) :: c))
        as [[[label l2]|e] c2]; destruct IH as (R & P2); cbn [fst snd] in *.
      * split; [cbn; lia|]. apply cache_pos_cons; [exact P2|lia].
      * split; [exact R|exact P2].
Qed.

Lemma fwc_top buf off c : cache_pos c -> fwc_post (unpack_fwc buf off c).
Proof. intros H. apply fwc_facts; [|exact H]. pose proof (free_bound buf c). lia. Qed.

Lemma pack_err n e : pack n = Err e -> e = EAce \/ e = EValue \/ e = EUnicode.
Proof.
  unfold pack. destruct n as [|c n']; [discriminate|]. generalize (split_dot (c :: n')).
  intros parts. induction parts as [|p r IH]; cbn [pack_parts]; [discriminate|].
  unfold idna_encode. destruct p as [|x p'].
  - cbn. intros [= <-]. auto.
  - destruct (negb _); [intros [= <-]; auto|]. destruct (64 <=? length (x :: p')); [intros [= <-]; auto|].
    destruct (length (x :: p') =? 0); [intros [= <-]; auto|].
    destruct (64 <=? length (x :: p')); [intros [= <-]; auto|].
    destruct (pack_parts r); [discriminate|]. intros [= <-]. apply IH. reflexivity.
Qed.

Definition dec_post (rc : result bytes * cache) : Prop :=
  match fst rc with Ok _ => True | Err e => decode_err e end /\ cache_pos (snd rc).

Lemma decompress_loop_facts buf off end_data fuel : end_data <= length buf ->
  forall c data i s, cache_pos c -> 1 <= fuel -> end_data - off < fuel + i ->
  dec_post (decompress_loop fuel buf off end_data c data i s).
Proof.
  intros He. induction fuel as [|f IH]; intros c data i s Hc H1 Hf.
  - exfalso. lia.
  - cbn [decompress_loop]. destruct (i <? end_data - off) eqn:E; [|split; [exact I|exact Hc]].
    apply Nat.ltb_lt in E.
    pose proof (byte_at_spec buf (off + i)) as B.
    destruct (byte_at buf (off + i)) as [b|]; [|lia].
    destruct (is_ptr b); [|apply IH; [exact Hc|lia|lia]].
    pose proof (fwc_top buf (off + i) c Hc) as (R & P).
    destruct (unpack_fwc buf (off + i) c) as [[[nm l]|e] c']; cbn [fst snd] in *.
    + destruct (pack nm) eqn:Pk.
      * apply IH; [exact P|lia|lia].
      * split; [|exact P]. cbn. unfold decode_err. destruct (pack_err _ _ Pk) as [->|[->| ->]]; auto.
    + destruct e; try (split; [apply parse_decode; exact R|exact P]).
      apply IH; [exact P|lia|lia].
Qed.

Lemma decompress_facts buf off end_data c : end_data <= length buf -> cache_pos c ->
  dec_post (decompress_from_record_data buf off end_data c).
Proof.
  intros He Hc. unfold decompress_from_record_data.
  apply decompress_loop_facts; [exact He|exact Hc|lia|lia].
Qed.

Lemma unpack_domain_name_facts buf off c : cache_pos c ->
  match unpack_domain_name buf off c with
  | (Ok _, c') => cache_pos c'
  | (Err e, _) => parse_err e
  end.
Proof.
  intros Hc. unfold unpack_domain_name. pose proof (fwc_top buf off c Hc) as (R & P).
  destruct (unpack_fwc buf off c) as [[[n l]|e] c']; cbn [fst snd] in *; assumption.
Qed.

Lemma unpack_questions_facts count : forall buf off c, cache_pos c ->
  match unpack_questions count buf off c with
  | Ok (_, _, c') => cache_pos c'
  | Err e => parse_err e
  end.
Proof.
  induction count as [|k IH]; intros buf off c Hc; cbn [unpack_questions]; [exact Hc|].
  pose proof (unpack_domain_name_facts buf off c Hc) as D.
  destruct (unpack_domain_name buf off c) as [[[n off1]|e] c1]; [|exact D].
  destruct (skipn off1 buf) as [|t1 [|t2 [|c1b [|c2b tl]]]]; try (left; reflexivity).
  specialize (IH buf (off1 + 4) c1 D).
  destruct (unpack_questions k buf (off1 + 4) c1) as [[[qs o2] c2]|e]; exact IH.
Qed.

(* generic in the error class E produced by decompress_from_record_data on this buffer *)
Section Message.
Variable buf : bytes.
Variable E : pyexc -> Prop.
Hypothesis HE : forall e, parse_err e -> E e.
Hypothesis Hdec : forall off end_data c, end_data <= length buf -> cache_pos c ->
  match decompress_from_record_data buf off end_data c with
  | (Ok _, c') => cache_pos c'
  | (Err e, _) => E e
  end.

Lemma unpack_rrs_facts count : forall off c, cache_pos c ->
  match unpack_rrs count buf off c with
  | Ok (_, _, c') => cache_pos c'
  | Err e => E e
  end.
Proof.
  induction count as [|k IH]; intros off c Hc; cbn [unpack_rrs]; [exact Hc|].
  pose proof (unpack_domain_name_facts buf off c Hc) as D.
  destruct (unpack_domain_name buf off c) as [[[n off1]|e] c1]; [|apply HE, D].
  destruct (skipn off1 buf) as [|t1 [|t2 [|k1 [|k2 [|l1 [|l2 [|l3 [|l4 [|d1 [|d2 tl]]]]]]]]]];
    try (apply HE; left; reflexivity).
  destruct (length buf <? _) eqn:El; [apply HE; left; reflexivity|]. apply Nat.ltb_ge in El.
  destruct (record_data_can_have_compression (u16be t1 t2)).
  - pose proof (Hdec (off1 + 10) _ c1 El D) as R.
    destruct (decompress_from_record_data buf (off1 + 10) _ c1) as [[data|e] c2]; [|exact R].
    specialize (IH (off1 + 10 + N.to_nat (u16be d1 d2)) c2 R).
    destruct (unpack_rrs k buf _ c2) as [[[rs o3] c3]|e]; exact IH.
  - specialize (IH (off1 + 10 + N.to_nat (u16be d1 d2)) c1 D).
    destruct (unpack_rrs k buf _ c1) as [[[rs o3] c3]|e]; exact IH.
Qed.

Lemma unpack_total_gen :
  match DnsMessage.unpack buf with Ok _ => True | Err e => E e end.
Proof.
  unfold DnsMessage.unpack, DnsMessage.unpack_from.
  destruct (skipn 0 buf) as [|i1 [|i2 [|f1 [|f2 [|q1 [|q2 [|a1 [|a2 [|n1 [|n2 [|x1 [|x2 tl]]]]]]]]]]]];
    try (apply HE; left; reflexivity).
  pose proof (unpack_questions_facts (N.to_nat (u16be q1 q2)) buf (0 + 12) [] ltac:(intros o n l; discriminate)) as Q.
  destruct (unpack_questions _ buf (0 + 12) []) as [[[qs o1] c1]|e]; [|apply HE, Q].
  pose proof (unpack_rrs_facts (N.to_nat (u16be a1 a2)) o1 c1 Q) as A.
  destruct (unpack_rrs _ buf o1 c1) as [[[ans o2] c2]|e]; [|exact A].
  pose proof (unpack_rrs_facts (N.to_nat (u16be n1 n2)) o2 c2 A) as NS.
  destruct (unpack_rrs _ buf o2 c2) as [[[aut o3] c3]|e]; [|exact NS].
  pose proof (unpack_rrs_facts (N.to_nat (u16be x1 x2)) o3 c3 NS) as X.
  destruct (unpack_rrs _ buf o3 c3) as [[[add o4] c4]|e]; [|exact X].
  destruct (o4 =? length buf); [exact I|apply HE; left; reflexivity].
Qed.
End Message.

Theorem unpack_total buf :
  match DnsMessage.unpack buf with Ok _ => True | Err e => decode_err e end.
Proof.
  apply (unpack_total_gen buf decode_err parse_decode). intros off end_data c He Hc.
  pose proof (decompress_facts buf off end_data c He Hc) as (R & P).
  destruct (decompress_from_record_data buf off end_data c) as [[d|e] c']; assumption.
Qed.

(* a buffer without any byte >= 0xC0: pack() is never reached, only parse errors remain *)
Definition no_ptr_bytes (buf : bytes) : bool := forallb (fun b => negb (is_ptr b)) buf.

Lemma byte_at_in buf off b : byte_at buf off = Some b -> In b buf.
Proof.
  unfold byte_at. destruct (skipn off buf) eqn:Es; [discriminate|]. intros [= ->].
  rewrite <- (firstn_skipn off buf), Es. apply in_or_app. right. left. reflexivity.
Qed.

Lemma decompress_loop_plain buf off end_data c data : no_ptr_bytes buf = true ->
  forall fuel i s, exists r, decompress_loop fuel buf off end_data c data i s = (r, c)
    /\ (r = Ok data \/ r = Err EFuel \/ r = Err EIndex).
Proof.
  intros Hn. induction fuel as [|f IH]; intros i s; cbn [decompress_loop]; [eauto|].
  destruct (i <? end_data - off); [|eauto].
  destruct (byte_at buf (off + i)) eqn:B; [|eauto].
  apply byte_at_in in B. unfold no_ptr_bytes in Hn. rewrite forallb_forall in Hn.
  specialize (Hn _ B). apply negb_true_iff in Hn. rewrite Hn. apply IH.
Qed.

Theorem unpack_total_plain buf : no_ptr_bytes buf = true ->
  match DnsMessage.unpack buf with Ok _ => True | Err e => parse_err e end.
Proof.
  intros Hn. apply (unpack_total_gen buf parse_err (fun e H => H)). intros off end_data c He Hc.
  pose proof (decompress_facts buf off end_data c He Hc) as (R & P).
  unfold decompress_from_record_data in *.
  destruct (decompress_loop_plain buf off end_data c (firstn (end_data - off) (skipn off buf)) Hn
              (S (length buf)) 0 0%Z) as (r & Er & Hr).
  rewrite Er in *. cbn [fst snd] in *.
  destruct Hr as [->|[->| ->]]; [exact P| |]; unfold decode_err in R;
    destruct R as [R|[R|[R|R]]]; discriminate.
Qed.
