(* Proofs/QuicDemuxRun.v -- the structural invariant holds in every reachable state of the
   RawQuicLayer model, for every child behaviour and every schedule of events. *)
From Coq Require Import NArith Arith List Bool Lia.
From MV Require Import Base.Bytes Model.QuicIdsPrelude Gen.QuicIds Model.QuicDemux
  Proofs.QuicIds Proofs.QuicDemuxCore Proofs.QuicDemuxInv.
Import ListNotations.
Open Scope N_scope.

Section Run.
Variable C : Type.
Variable child_step : C -> connst * connst -> cevent -> C * list ccmd.
Variable new_child : nat -> C.
Notation state := (state C).
Notation slayer := (slayer C).
Notation has_id := (has_id C).
Notation Inv := (Inv C).

Lemma emit_cases w L o (st : state) :
  emit C w L o st = st \/ emit C w L o st = push C o st \/
  exists L' to id d code, o = OSend L' to id d true /\ emit C w L o st = push C (OReset L' to id code) st.
Proof.
  unfold emit. destruct w; destruct o; auto.
  - destruct fin; auto. destruct (nth_error (layers st) L); auto.
    destruct (_ && _); auto. right; right. do 5 eexists; eauto.
  - destruct (is_empty d); auto.
Qed.

Lemma Inv_emit w L o st : Inv st -> target C st o -> Inv (emit C w L o st).
Proof.
  intros H T. destruct (emit_cases w L o st) as [E|[E|(L' & to & id & d & code & -> & E)]]; rewrite E; auto.
  - apply Inv_push; auto.
  - apply Inv_push; auto.
Qed.

Lemma has_id_open st L l id : nth_error (layers st) L = Some l -> sid l = None ->
  forall L' s x, has_id (open_server_stream C L id st) L' s x <-> has_id st L' s x \/ (L' = L /\ s = Sv /\ x = id).
Proof.
  intros Hl Hs L' s x. unfold has_id, open_server_stream, upd_layer. cbn [layers with_layers]. rewrite nth_upd.
  destruct (Nat.eqb_spec L L') as [<-|Hne]; [|split; [auto | intros [H|(E & _)]; [exact H | congruence]]].
  rewrite Hl. cbn. split.
  - intros (l' & [= <-] & H). destruct s; cbn in H; [left; exists l; auto | right; inversion H; auto].
  - intros [(l' & [= <-] & H)|(_ & -> & ->)]; (eexists; split; [reflexivity|]); [|reflexivity].
    destruct s; cbn in *; [exact H | congruence].
Qed.

Lemma has_id_app st st' l0 : layers st' = layers st ++ [l0] -> sid l0 = None ->
  forall L' s x, has_id st' L' s x <-> has_id st L' s x \/ (L' = length (layers st) /\ s = Cl /\ x = cid l0).
Proof.
  intros E Hs L' s x. unfold has_id. rewrite E. destruct (Nat.lt_ge_cases L' (length (layers st))) as [Hlt|Hge].
  - rewrite nth_error_app1 by auto. split; [auto | intros [H|(-> & _)]; [exact H | lia]].
  - rewrite nth_error_app2 by auto. split.
    + intros (l' & E' & H). destruct (L' - length (layers st))%nat as [|[|n]] eqn:D; cbn in E'; try discriminate.
      inversion E'; subst l'. right. destruct s; cbn in H; [inversion H; split; [lia | auto] | congruence].
    + intros [(l' & E' & _)|(-> & -> & ->)]; [apply nth_error_None in Hge; congruence|].
      rewrite Nat.sub_diag. eexists; split; reflexivity.
Qed.

Lemma Inv_open st L l id nx : Inv st -> nth_error (layers st) L = Some l -> sid l = None ->
  get_next_available_stream_id (next_ids st) true (stream_is_unidirectional (cid l)) = Some (id, nx) ->
  Inv (let st1 := open_server_stream C L id (with_next C nx st) in
       with_server_ids C (dict_set id L (server_ids st1)) st1).
Proof.
  intros [HA HN] Hl Hs Hg.
  destruct (alloc_inv _ _ _ id nx (inv_cnt _ _ HA) Hg) as (Hok & Hid & Hm & Hb & Ho).
  assert (Hc : has_id st L Cl (cid l)) by (exists l; auto).
  assert (Hev : cid l mod 2 = 0).
  { apply (HN L _ Hc). intros sv (l' & E & H). cbn in H. congruence. }
  rewrite (class_even_open _ Hev) in *.
  assert (Hide : id mod 2 = 0) by (apply even_of_mod4; rewrite Hm; apply even_of_mod4; auto).
  pose proof (has_id_open (with_next C nx st) L l id Hl Hs) as Hch.
  cbn zeta. set (st' := with_server_ids C _ _).
  split.
  - apply (IdsOk_bind C (with_next C nx st) st' L Sv id (IdsOk_bump C st _ _ _ _ HA Hg) Hch); try reflexivity.
    + cbn. rewrite length_upd. auto.
    + intros L' H. pose proof (inv_fresh _ _ HA L' Sv id H Hide) as Hlt. rewrite Hm, <- Hid in Hlt. lia.
    + intros x H. rewrite (has_id_fun C _ _ _ _ _ H Hc). exact Hm.
    + intros _. cbn [next_ids with_next]. rewrite Hm, Hb. lia.
  - intros L' c H1 H2. apply Hch in H1. destruct H1 as [H1|(_ & X & _)]; [|discriminate].
    apply (HN L' c H1). intros sv H. apply (H2 sv), Hch. auto.
Qed.

Lemma Inv_etc fuel w L ev st : Inv st -> Inv (etc C child_step fuel w L ev st).
Proof.
  apply (etc_P C child_step Inv w L).
  - intros; apply Inv_upd; auto; apply keeps_set_cst.
  - intros; apply Inv_upd; auto; apply keeps_set_conn.
  - intros; apply Inv_upd; auto; apply keeps_set_conn.
  - intros s e H _. apply Inv_fail, H.
  - intros s l n H Hl. apply Inv_emit; auto. cbn. apply nth_error_Some. congruence.
  - intros s l sd id d H Hl Hi _. apply Inv_emit; auto. exists l; auto.
  - intros s l sd id H Hl Hi _. apply Inv_emit; [apply Inv_upd; auto; apply keeps_set_conn|].
    apply has_id_upd; [apply keeps_set_conn | exists l; auto].
  - intros s l sd id H Hl Hi. apply Inv_emit; auto. exists l; auto.
  - intros; eapply Inv_open; eauto.
Qed.

Lemma upd_nth_last (ls : list slayer) f x : upd_nth C (length ls) f (ls ++ [x]) = ls ++ [f x].
Proof. induction ls as [|y t IH]; cbn; [reflexivity | f_equal; auto]. Qed.

Lemma create_shape from id st L st2 : create_layer C new_child from id st = Some (L, st2) ->
  L = length (layers st) /\ outs st2 = outs st /\ err st2 = err st /\
  (exists l', layers st2 = layers st ++ [l']) /\
  dict_get id (match from with Cl => client_ids st2 | Sv => server_ids st2 end) = Some L.
Proof.
  unfold create_layer. destruct from.
  - intros [= <- <-]. cbn. rewrite dict_get_set, N.eqb_refl. eauto 6.
  - destruct (get_next_available_stream_id _ _ _) as [[c nx]|]; [|discriminate]. intros [= <- <-]. cbn.
    rewrite dict_get_set, N.eqb_refl. repeat split; auto. eexists. apply upd_nth_last.
Qed.

Lemma Inv_create from id st L st2 : Inv st ->
  dict_get id (match from with Cl => client_ids st | Sv => server_ids st end) = None ->
  negb (Bool.eqb (stream_is_client_initiated id) (is_cl from)) = false ->
  create_layer C new_child from id st = Some (L, st2) -> Inv st2.
Proof.
  intros [HA HN] Eg Ei Ec. unfold create_layer in Ec.
  apply negb_false_iff, eqb_prop in Ei. rewrite client_initiated_spec in Ei.
  assert (Hno : forall L', ~ has_id st L' from id).
  { intros L' H. apply (inv_map _ _ HA) in H. congruence. }
  assert (Hend : forall s x, ~ has_id st (length (layers st)) s x).
  { intros s x H. apply has_id_lt in H. lia. }
  set (n := length (layers st)) in *.
  destruct from; cbn [is_cl] in Ei.
  - (* the client opens a stream: one new layer under the event's id *)
    apply N.eqb_eq in Ei. inversion Ec; subst L st2; clear Ec.
    match goal with |- Inv ?s => pose proof (has_id_app st s _ eq_refl eq_refl) as Hch end. cbn [cid] in Hch.
    split.
    + apply (IdsOk_bind C st _ n Cl id HA Hch); try reflexivity; auto.
      * cbn. rewrite app_length. lia.
      * intros x H. destruct (Hend _ _ H).
      * unfold ours. lia.
    + intros L' c H1 H2. apply Hch in H1. destruct H1 as [H1|(_ & _ & ->)]; [|exact Ei].
      apply (HN L' c H1). intros sv H. apply (H2 sv), Hch. auto.
  - (* the server opens a stream: a new layer under an allocated client id, then the event's id as its server id *)
    assert (Hodd : id mod 2 = 1).
    { destruct (id mod 2 =? 0) eqn:E; [discriminate|]. apply N.eqb_neq in E.
      assert (Hlt2 : id mod 2 < 2) by (apply N.mod_lt; lia). remember (id mod 2) as r. clear Heqr. lia. }
    destruct (get_next_available_stream_id _ _ _) as [[c nx]|] eqn:Ea; [|discriminate].
    destruct (alloc_inv _ _ _ c nx (inv_cnt _ _ HA) Ea) as (Hok & Hid & Hm & Hb & Ho).
    rewrite (class_odd_open _ Hodd) in *.
    assert (Hco : c mod 2 = 1) by (apply odd_of_mod4; rewrite Hm; apply odd_of_mod4; auto).
    inversion Ec; subst L st2; clear Ec.
    set (l0 := mkLayer c None (init_cconn c) closed_conn (new_child n)).
    set (st1 := with_client_ids C (dict_set c n (client_ids st)) (with_layers C (layers st ++ [l0]) (with_next C nx st))).
    pose proof (has_id_app (with_next C nx st) st1 l0 eq_refl eq_refl) as Hch1. cbn [cid l0] in Hch1.
    assert (Hl1 : nth_error (layers st1) n = Some l0).
    { cbn. rewrite nth_error_app2 by (unfold n; lia). unfold n. rewrite Nat.sub_diag. reflexivity. }
    pose proof (has_id_open st1 n l0 id Hl1 eq_refl) as Hch2.
    assert (HA1 : IdsOk C st1).
    { apply (IdsOk_bind C (with_next C nx st) st1 n Cl c (IdsOk_bump C st _ _ _ _ HA Ea) Hch1); try reflexivity.
      - cbn. rewrite app_length. lia.
      - intros L' H. pose proof (inv_fresh _ _ HA L' Cl c H Hco) as Hlt. rewrite Hm, <- Hid in Hlt. lia.
      - intros x H. destruct (Hend _ _ H).
      - intros _. cbn [next_ids with_next]. rewrite Hm, Hb. lia. }
    set (st2 := with_server_ids C _ _).
    split.
    + apply (IdsOk_bind C st1 st2 n Sv id HA1 Hch2); try reflexivity.
      * cbn. rewrite length_upd. auto.
      * intros L' H. apply Hch1 in H. destruct H as [H|(_ & X & _)]; [destruct (Hno _ H) | discriminate].
      * intros x H. apply Hch1 in H. destruct H as [H|(_ & _ & ->)]; [destruct (Hend _ _ H) | congruence].
      * unfold ours. lia.
    + intros L' x H1 H2. apply Hch2 in H1. destruct H1 as [H1|(_ & X & _)]; [|discriminate].
      apply Hch1 in H1. destruct H1 as [H1|(-> & _)].
      * apply (HN L' x H1). intros sv H. apply (H2 sv), Hch2. left. apply Hch1. auto.
      * destruct (H2 id). apply Hch2. auto.
Qed.

Lemma Inv_step st ev : Inv st -> Inv (step C child_step new_child st ev).
Proof.
  apply (step_keeps C child_step new_child Inv (fun _ => False)).
  - intros e [].
  - intros e st0 _. apply Inv_fail.
  - intros L s g st0 _ H. apply Inv_upd; [apply keeps_set_conn | exact H].
  - intros; apply Inv_etc; assumption.
  - intros from id st0 L st2 H A B E. eapply Inv_create; eauto.
  - intros s code st0 H. apply Inv_push; cbn; auto.
  - intros c s d st0. apply Inv_roots.
  - intros from id c _ [].
Qed.

Lemma Inv_init : Inv (init_state).
Proof.
  assert (No : forall L s id, ~ has_id init_state L s id) by (intros [|?] s id (l & E & _); discriminate).
  split; [constructor; cbn|].
  - apply counters_ok_init.
  - intros s k L. split; [destruct s; discriminate | intros H; destruct (No _ _ _ H)].
  - intros L c sv H. destruct (No _ _ _ H).
  - intros L s id H. destruct (No _ _ _ H).
  - constructor.
  - intros L c H. destruct (No _ _ _ H).
Qed.

Theorem Inv_run evs : Inv (run C child_step new_child evs).
Proof.
  unfold run. generalize (Inv_init). generalize (init_state : state).
  induction evs as [|e t IH]; intros st H; cbn; auto. apply IH, Inv_step, H.
Qed.

End Run.
