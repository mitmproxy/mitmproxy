(* Proofs/SaveInv.v -- C39: the invariant of the Save addon along any history without shutdown:
   the state is regular (stream open iff save_stream_file is set, on that path, with the filter
   in force; current_path in step) and active_flows is exactly the set of flows that started
   while saving was active and have not completed or been flushed since. *)
From Coq Require Import List Bool NArith Permutation.
From MV Require Import Model.SavePrelude Gen.SaveHooks Model.Save Proofs.SaveSpec.
Import ListNotations.
Open Scope N_scope.

Local Arguments N.eqb : simpl never.

Lemma memN_In : forall i l, memN i l = true <-> In i l.
Proof.
  induction l as [|x r IH]; cbn; [split; [discriminate|tauto]|].
  rewrite orb_true_iff, IH, N.eqb_eq. tauto.
Qed.
Lemma memN_addN : forall i j l, memN i (addN j l) = (j =? i) || memN i l.
Proof.
  intros. unfold addN. destruct (memN j l) eqn:E; [|reflexivity].
  destruct (j =? i) eqn:Eji; [|reflexivity]. apply N.eqb_eq in Eji. subst. cbn. exact E.
Qed.
Lemma In_addN : forall i j l, In i (addN j l) <-> i = j \/ In i l.
Proof.
  intros. unfold addN. destruct (memN j l) eqn:E.
  - apply memN_In in E. split; [tauto|]. intros [->|H]; assumption.
  - cbn. split; intros [H|H]; auto.
Qed.
Lemma NoDup_addN : forall j l, NoDup l -> NoDup (addN j l).
Proof.
  intros. unfold addN. destruct (memN j l) eqn:E; [assumption|].
  constructor; [|assumption]. intro Hin. apply memN_In in Hin. congruence.
Qed.
Lemma In_removeN : forall i j l, In i (removeN j l) <-> i <> j /\ In i l.
Proof.
  induction l as [|x r IH]; cbn; [tauto|].
  destruct (x =? j) eqn:E.
  - apply N.eqb_eq in E. subst. rewrite IH. split; [tauto|]. intros [Hn [H|H]]; [congruence|tauto].
  - apply N.eqb_neq in E. cbn. rewrite IH. split.
    + intros [H|H]; [subst; tauto|tauto].
    + tauto.
Qed.
Lemma NoDup_removeN : forall j l, NoDup l -> NoDup (removeN j l).
Proof.
  induction 1 as [|x r Hx Hr IH]; cbn; [constructor|].
  destruct (x =? j); [assumption|]. constructor; [|assumption].
  rewrite In_removeN. tauto.
Qed.
Lemma insertN_perm : forall i l, Permutation (i :: l) (insertN i l).
Proof.
  induction l as [|x r IH]; cbn; [apply Permutation_refl|].
  destruct (i <=? x); [apply Permutation_refl|].
  eapply perm_trans; [apply perm_swap|]. apply perm_skip. exact IH.
Qed.
Lemma sortN_perm : forall l, Permutation l (sortN l).
Proof.
  induction l as [|x r IH]; cbn; [constructor|].
  eapply perm_trans; [apply perm_skip; exact IH|]. apply insertN_perm.
Qed.
Lemma In_sortN : forall i l, In i (sortN l) <-> In i l.
Proof.
  intros. split; apply Permutation_in; [apply Permutation_sym|]; apply sortN_perm.
Qed.
Lemma NoDup_sortN : forall l, NoDup l -> NoDup (sortN l).
Proof. intros. eapply Permutation_NoDup; [apply sortN_perm|assumption]. Qed.

(* the flows on which a hook of the given kind (sets_resp / sets_err) has fired *)
Definition upd_set (sets : hook -> bool) (r : list N) (e : event) : list N :=
  match e with Hook h i => if sets h then addN i r else r | _ => r end.
Definition set_l (sets : hook -> bool) (pre : list event) := fold_left (upd_set sets) pre [].

Lemma file_after_snoc : forall pre e, file_after (pre ++ [e]) = upd_file (file_after pre) e.
Proof. intros. unfold file_after. rewrite fold_left_app. reflexivity. Qed.
Lemma filter_after_snoc : forall pre e, filter_after (pre ++ [e]) = upd_filter (filter_after pre) e.
Proof. intros. unfold filter_after. rewrite fold_left_app. reflexivity. Qed.
Lemma set_l_snoc : forall sets pre e, set_l sets (pre ++ [e]) = upd_set sets (set_l sets pre) e.
Proof. intros. unfold set_l. rewrite fold_left_app. reflexivity. Qed.

Lemma set_l_has : forall sets pre i,
  memN i (set_l sets pre)
  = existsb (fun e => match e with Hook h j => sets h && (j =? i) | _ => false end) pre.
Proof.
  induction pre as [|e pre IH] using rev_ind; intro i; [reflexivity|].
  rewrite set_l_snoc, existsb_app, <- IH.
  destruct e as [h j| |]; cbn; rewrite ?orb_false_r; try reflexivity.
  destruct (sets h); cbn; rewrite ?orb_false_r; [|reflexivity].
  rewrite memN_addN. apply orb_comm.
Qed.
Lemma snap_env_after : forall infos pre i,
  snap_env infos (set_l sets_resp pre) (set_l sets_err pre) i = snap_after infos pre i.
Proof. intros. unfold snap_env, snap_after. rewrite !set_l_has. reflexivity. Qed.

(* the option never holds a path that cannot be opened *)
Lemma file_after_ok : forall pre a p, file_after pre = Some (a, p) -> p =? bad_path = false.
Proof.
  induction pre as [|e pre IH] using rev_ind; intros a p H; [discriminate|].
  rewrite file_after_snoc in H. destruct e as [h j|uf ufl|]; cbn in H; try (eapply IH; eassumption).
  destruct uf as [v|]; [|eapply IH; eassumption].
  destruct (accepted (Some v) ufl) eqn:Ea; [|eapply IH; eassumption].
  subst v. unfold accepted, file_bad in Ea. apply andb_true_iff in Ea. destruct Ea as [Ea _].
  apply negb_true_iff in Ea. exact Ea.
Qed.

Lemma open_snoc : forall infos pre e i,
  open_after infos (pre ++ [e]) i <->
  match e with Hook h j => j = i /\ is_start h = true /\ saving_after pre <> None | _ => False end
  \/ (open_after infos pre i /\ closes infos i e = false).
Proof.
  intros infos pre e i. split.
  - intros (a & h & b & Heq & Hs & Hsav & Hb).
    destruct b as [|x b'] using rev_ind.
    + left. assert (Hx : pre ++ [e] = a ++ [Hook h i]) by exact Heq.
      apply app_inj_tail in Hx. destruct Hx as [-> ->]. auto.
    + clear IHb'. right.
      assert (Hx : pre ++ [e] = (a ++ Hook h i :: b') ++ [x]).
      { rewrite Heq. rewrite <- app_assoc. reflexivity. }
      apply app_inj_tail in Hx. destruct Hx as [-> ->].
      apply Forall_app in Hb. destruct Hb as [Hb' Hx]. inversion Hx; subst.
      split; [|assumption]. exists a, h, b'. auto.
  - intros [H | [(a & h & b & -> & Hs & Hsav & Hb) Hc]].
    + destruct e as [h j| |]; [|destruct H|destruct H]. destruct H as (-> & Hs & Hsav).
      exists pre, h, []. repeat split; auto.
    + exists a, h, (b ++ [e]). repeat split; auto.
      * rewrite <- app_assoc. reflexivity.
      * apply Forall_app. split; [assumption|]. constructor; [assumption|constructor].
Qed.
Lemma open_nil : forall infos i, ~ open_after infos [] i.
Proof. intros infos i (a & h & b & H & _). destruct a; discriminate. Qed.

Lemma start_not_completion : forall h ws, is_start h = true -> is_completion h ws = false.
Proof. intros h ws H. destruct h; try discriminate H; reflexivity. Qed.

(* an option change read as one decision: accepted or not *)
Lemma upd_file_configure : forall cur uf ufl,
  upd_file cur (Configure uf ufl) = if accepted uf ufl then match uf with Some v => v | None => cur end else cur.
Proof. intros cur [v|] ufl; [|destruct (accepted None ufl)]; reflexivity. Qed.
Lemma upd_filter_configure : forall cur uf ufl,
  upd_filter cur (Configure uf ufl)
  = if accepted uf ufl then match ufl with Some v => flt_of v | None => cur end else cur.
Proof. intros cur uf [v|]; [|destruct (accepted uf None)]; reflexivity. Qed.
Lemma stops_configure : forall uf ufl,
  stops (Configure uf ufl) = accepted uf ufl && match uf with Some None => true | _ => false end.
Proof. intros [[[a p]|]|] ufl; cbn; rewrite ?andb_false_r, ?andb_true_r; reflexivity. Qed.

Definition Inv (infos : list finfo) (pre : list event) (s : st) : Prop :=
  exists act,
    s = regular (file_after pre) (filter_after pre) act (set_l sets_resp pre) (set_l sets_err pre)
    /\ NoDup act
    /\ (forall i, In i act <-> open_after infos pre i)
    /\ (file_after pre = None -> act = []).

Lemma inv_init : forall infos, Inv infos [] init.
Proof.
  intro infos. exists []. repeat split; try constructor; try tauto.
  - intros [].
  - intro H. exfalso. eapply open_nil; eassumption.
Qed.

Lemma saving_file : forall pre, saving_after pre <> None <-> file_after pre <> None.
Proof. intro pre. unfold saving_after. destruct (file_after pre); cbn; split; congruence. Qed.

Lemma inv_step : forall infos pre s e,
  Inv infos pre s -> e <> Done -> (rotate_open_first = true \/ no_bad_switch e) ->
  Inv infos (pre ++ [e]) (fst (fst (step infos s e))).
Proof.
  intros infos pre s e (act & -> & Hnd & Hact & Hnone) Hne Hg.
  destruct e as [h i|uf ufl|]; [| |congruence].
  - (* a hook: flow i joins the set at a start and leaves it at a completion *)
    rewrite step_hook_regular. cbn [fst]. unfold Inv.
    rewrite file_after_snoc, filter_after_snoc, !set_l_snoc. cbn [upd_file upd_filter upd_set].
    eexists. split; [reflexivity|].
    assert (Hop : forall j, open_after infos (pre ++ [Hook h i]) j <->
      (i = j /\ is_start h = true /\ file_after pre <> None)
      \/ (In j act /\ (i =? j) && is_completion h (f_ws (info infos j)) = false)).
    { intro j. rewrite open_snoc, Hact, saving_file. reflexivity. }
    destruct (file_after pre) as [[a p]|] eqn:Ef.
    + split; [|split; [|discriminate]].
      * destruct (is_start h); [apply NoDup_addN|destruct (is_completion _ _); [apply NoDup_removeN|]]; exact Hnd.
      * intro j. rewrite Hop.
        destruct (is_start h) eqn:Es; [|destruct (is_completion h (f_ws (info infos i))) eqn:Ec].
        -- rewrite In_addN, (start_not_completion h _ Es), andb_false_r. intuition congruence.
        -- rewrite In_removeN. destruct (N.eqb_spec i j) as [<-|Hn]; [rewrite Ec|]; cbn; intuition congruence.
        -- destruct (N.eqb_spec i j) as [<-|Hn]; [rewrite Ec|]; cbn; intuition congruence.
    + rewrite (Hnone eq_refl) in *. split; [constructor|]. split; [|reflexivity].
      intro j. rewrite Hop. cbn. intuition congruence.
  - (* an option change: the set is kept, or emptied when saving stops *)
    cbn [step]. rewrite (do_configure_regular infos _ _ _ _ _ uf ufl Hnone (file_after_ok pre) Hg). unfold Inv.
    rewrite file_after_snoc, filter_after_snoc, !set_l_snoc, upd_file_configure, upd_filter_configure.
    cbn [upd_set].
    assert (Hop : forall j, open_after infos (pre ++ [Configure uf ufl]) j <->
                            In j act /\ stops (Configure uf ufl) = false).
    { intro j. rewrite open_snoc, Hact. unfold closes. rewrite orb_false_r. tauto. }
    rewrite stops_configure in Hop.
    destruct (accepted uf ufl); cbn [fst andb] in *; eexists; (split; [reflexivity|]).
    + split; [|split].
      * destruct (match uf with Some v => v | None => file_after pre end); [exact Hnd | constructor].
      * intro j. rewrite Hop. destruct uf as [[v|]|]; cbn; [tauto | intuition discriminate |].
        destruct (file_after pre); [tauto | rewrite (Hnone eq_refl); cbn; tauto].
      * destruct (match uf with Some v => v | None => file_after pre end); [discriminate | reflexivity].
    + split; [exact Hnd|]. split; [|exact Hnone]. intro j. rewrite Hop. tauto.
Qed.

Lemma run_app : forall infos a s b, run infos s (a ++ b) = run infos (run infos s a) b.
Proof. induction a as [|e a IH]; intros; cbn; [reflexivity|apply IH]. Qed.
Lemma run_snoc : forall infos pre s e,
  run infos s (pre ++ [e]) = fst (fst (step infos (run infos s pre) e)).
Proof. intros. rewrite run_app. reflexivity. Qed.

Lemma switch_safe_app : forall a b, switch_safe (a ++ b) -> switch_safe a /\ switch_safe b.
Proof.
  intros a b [H|H]; [split; left; assumption|].
  apply Forall_app in H. destruct H. split; right; assumption.
Qed.

Lemma inv_run : forall infos pre,
  no_done pre -> switch_safe pre -> Inv infos pre (run infos init pre).
Proof.
  intros infos pre. induction pre as [|e pre IH] using rev_ind; intros Hnd Hs; [apply inv_init|].
  rewrite run_snoc. apply Forall_app in Hnd. destruct Hnd as [Hnd He]. inversion He; subst.
  apply switch_safe_app in Hs. destruct Hs as [Hs1 Hs2].
  apply inv_step; [apply IH; assumption|assumption|].
  destruct Hs2 as [H|H]; [left; assumption|right; inversion H; assumption].
Qed.
