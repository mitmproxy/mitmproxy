(* Proofs/Socks5Exact.v -- RFC 1928 / 1929 message encoders and what the Socks5Proxy
   model does on streams built from them: exact decoding on acceptance, the error
   replies on rejection; conversely the shape of an arbitrary buffer (incomplete, rejected,
   or an encoded message and a rest).  Stated on the unsplit stream; Proofs/Socks5Seg.v and
   Proofs/Socks5Main.v lift them to every segmentation. *)
From Coq Require Import List Bool Arith NArith Lia.
From MV Require Import Base.Bytes Model.Socks5 Proofs.ListFacts.
Import ListNotations.

Definition len_byte (l : bytes) : byte := Nb (N.of_nat (length l)).

Definition enc_greeting (methods : bytes) : bytes := x05 :: len_byte methods :: methods.
Definition enc_auth (ver : byte) (u p : bytes) : bytes := ver :: len_byte u :: u ++ len_byte p :: p.

Inductive addr := A4 (a b c d : byte) | A6 (raw : bytes) | ADom (name : bytes).
Definition addr_wf (a : addr) : Prop :=
  match a with A4 _ _ _ _ => True | A6 raw => length raw = 16 | ADom n => length n <= 255 end.
Definition enc_addr (a : addr) : bytes :=
  match a with
  | A4 a b c d => [x01; a; b; c; d]
  | A6 raw => x04 :: raw
  | ADom n => x03 :: len_byte n :: n
  end.
Definition enc_request (a : addr) (hi lo : byte) : bytes :=
  [x05; x01; x00] ++ enc_addr a ++ [hi; lo].

(* the destination a request denotes, as the model represents hosts *)
Definition host_of (a : addr) : host :=
  match a with
  | A4 a b c d => HText (dotted a b c d)
  | A6 raw => HV6 raw
  | ADom n => HText (decode_ascii_replace n)
  end.

Definition required (c : cfg) : byte := if proxyauth c then x02 else x00.
Definition next_state (c : cfg) : bytes -> obs -> st :=
  if proxyauth c then state_auth c else state_connect c.

Lemma add_sub_l n m : n + m - n = m.
Proof. lia. Qed.

Lemma blen_len_byte l : length l <= 255 -> blen (len_byte l) = length l.
Proof.
  intros H. unfold blen, len_byte. rewrite bN_Nb by lia. apply Nat2N.id.
Qed.

Lemma len_byte_blen (n : byte) (l : bytes) : length l = blen n -> len_byte l = n.
Proof.
  intros H. unfold len_byte. rewrite H. unfold blen. rewrite N2Nat.id. apply Nb_bN.
Qed.

Lemma blen_le n : blen n <= 255.
Proof. unfold blen. pose proof (bN_lt n). lia. Qed.

(* cons forms: the state functions on a buffer whose head is exposed *)
Lemma greet_cons c v n r o :
  state_greet c (v :: n :: r) o =
  if negb (byte_eqb v SOCKS5_VERSION) then socks_err o None
  else if length r <? blen n then (Greet (v :: n :: r), o)
  else if negb (existsb (byte_eqb (required c)) (firstn (blen n) r)) then
         socks_err o (Some SOCKS5_METHOD_NO_ACCEPTABLE_METHODS)
  else next_state c (skipn (blen n) r) (send o [SOCKS5_VERSION; required c]).
Proof.
  unfold state_greet, next_state, required, slice. rewrite add_sub_l.
  destruct (proxyauth c); reflexivity.
Qed.

(* with an empty r both sides wait; otherwise the length tests agree by computation *)
Lemma auth_cons c v ul r o :
  state_auth c (v :: ul :: r) o =
  if length r <? 1 + blen ul then (Auth (v :: ul :: r), o)
  else
    let pl := nth (blen ul) r x00 in
    let t := skipn (1 + blen ul) r in
    if length r <? 1 + blen ul + blen pl then (Auth (v :: ul :: r), o)
    else
      let user := firstn (blen ul) r in
      let password := firstn (blen pl) t in
      let o1 := set_creds o user password in
      if negb (authok c user password) then socks_err (send o1 [x01; x01]) None
      else state_connect c (skipn (blen pl) t) (send o1 [x01; x00]).
Proof.
  destruct r as [|x r]; [reflexivity|].
  unfold state_auth, slice. rewrite !add_sub_l, skipn_skipn. reflexivity.
Qed.

Lemma greet_step c methods rest o :
  length methods <= 255 ->
  state_greet c (enc_greeting methods ++ rest) o =
  if existsb (byte_eqb (required c)) methods then next_state c rest (send o [x05; required c])
  else socks_err o (Some xff).
Proof.
  intros Hl. unfold enc_greeting. cbn [app]. rewrite greet_cons.
  rewrite blen_len_byte by exact Hl. rewrite byte_eqb_refl. cbn [negb].
  rewrite (proj2 (Nat.ltb_ge _ _)) by (rewrite app_length; lia).
  rewrite firstn_exact, skipn_exact. destruct (existsb _ methods); reflexivity.
Qed.

Lemma greet_accept c methods rest o :
  length methods <= 255 -> In (required c) methods ->
  state_greet c (enc_greeting methods ++ rest) o = next_state c rest (send o [x05; required c]).
Proof. intros Hl Hin. rewrite greet_step by exact Hl. apply (existsb_eqb_In _ byte_eqb_eq) in Hin. rewrite Hin. reflexivity. Qed.

Lemma greet_reject_methods c methods rest o :
  length methods <= 255 -> ~ In (required c) methods ->
  state_greet c (enc_greeting methods ++ rest) o = socks_err o (Some xff).
Proof.
  intros Hl Hin. rewrite greet_step by exact Hl.
  destruct (existsb _ methods) eqn:E; [apply (existsb_eqb_In _ byte_eqb_eq) in E; contradiction|reflexivity].
Qed.

Lemma greet_reject_version c v n rest o :
  v <> x05 -> state_greet c (v :: n :: rest) o = socks_err o None.
Proof.
  intros H. rewrite greet_cons. apply byte_eqb_neq in H. unfold SOCKS5_VERSION. rewrite H.
  reflexivity.
Qed.

(* username/password sub-negotiation (RFC 1929); VER is not inspected *)
Lemma auth_step c ver u p rest o :
  length u <= 255 -> length p <= 255 ->
  state_auth c (enc_auth ver u p ++ rest) o =
  if authok c u p then state_connect c rest (send (set_creds o u p) [x01; x00])
  else socks_err (send (set_creds o u p) [x01; x01]) None.
Proof.
  intros Hu Hp. unfold enc_auth. cbn [app]. rewrite <- app_assoc. cbn [app].
  rewrite auth_cons, blen_len_byte, nth_middle by exact Hu. cbv zeta.
  rewrite blen_len_byte, skipn_S_exact, !firstn_exact, skipn_exact by exact Hp.
  rewrite !(proj2 (Nat.ltb_ge _ _)) by (rewrite app_length; cbn [length]; rewrite app_length; lia).
  destruct (authok c u p); reflexivity.
Qed.

Lemma greet_auth_step c methods ver u p rest o :
  proxyauth c = true -> length methods <= 255 -> In x02 methods -> length u <= 255 -> length p <= 255 ->
  state_greet c (enc_greeting methods ++ enc_auth ver u p ++ rest) o =
  let o1 := set_creds (send o [x05; x02]) u p in
  if authok c u p then state_connect c rest (send o1 [x01; x00]) else socks_err (send o1 [x01; x01]) None.
Proof.
  intros Hpa Hl Hin Hu Hp. rewrite greet_accept by (unfold required; rewrite ?Hpa; assumption).
  unfold next_state, required. rewrite Hpa. apply auth_step; assumption.
Qed.

Lemma connect_cons c b0 b1 b2 atyp b4 r o :
  state_connect c (b0 :: b1 :: b2 :: atyp :: b4 :: r) o =
  let buf := b0 :: b1 :: b2 :: atyp :: b4 :: r in
  if negb (bytes_eqb [b0; b1; b2] [x05; x01; x00]) then
    socks_err o (Some SOCKS5_REP_COMMAND_NOT_SUPPORTED)
  else
    match message_len atyp buf with
    | None => socks_err o (Some SOCKS5_REP_ADDRESS_TYPE_NOT_SUPPORTED)
    | Some ml =>
      if length buf <? ml then (Connect buf, o)
      else
        match parse_host atyp (firstn ml buf) with
        | None => (Crashed, o)
        | Some h =>
          match unpack_H (skipn (length (firstn ml buf) - 2) (firstn ml buf)) with
          | None => (Crashed, o)
          | Some port => connect_finish c o h port (skipn ml buf)
          end
        end
    end.
Proof. reflexivity. Qed.

Lemma connect_cons_dom c n (r : bytes) o :
  state_connect c (x05 :: x01 :: x00 :: x03 :: n :: r) o =
  if length r <? blen n + 2 then (Connect (x05 :: x01 :: x00 :: x03 :: n :: r), o)
  else
    let msg := firstn (4 + 1 + blen n + 2) (x05 :: x01 :: x00 :: x03 :: n :: r) in
    match unpack_H (skipn (length msg - 2) msg) with
    | None => (Crashed, o)
    | Some port =>
        connect_finish c o (HText (decode_ascii_replace (slice 5 (length msg - 2) msg))) port
                       (skipn (blen n + 2) r)
    end.
Proof. reflexivity. Qed.

(* for connect_accept, domain name case: in the five head bytes followed by name ++ [hi; lo] the last two
   bytes are the port, and what lies between them and the head is the name *)
Lemma tail2 (a b c d e : byte) (name : bytes) hi lo :
  skipn (length (a :: b :: c :: d :: e :: name ++ [hi; lo]) - 2) (a :: b :: c :: d :: e :: name ++ [hi; lo])
  = [hi; lo].
Proof.
  replace (length (a :: b :: c :: d :: e :: name ++ [hi; lo]) - 2) with (length (a :: b :: c :: d :: e :: name))
    by (cbn [length]; rewrite app_length; cbn [length]; lia).
  apply (skipn_exact (a :: b :: c :: d :: e :: name)).
Qed.

Lemma mid5 (a b c d e : byte) (name : bytes) hi lo :
  slice 5 (length (a :: b :: c :: d :: e :: name ++ [hi; lo]) - 2)
          (a :: b :: c :: d :: e :: name ++ [hi; lo]) = name.
Proof.
  unfold slice. cbn [length]. rewrite app_length. cbn [length].
  replace (S (S (S (S (S (length name + 2))))) - 2 - 5) with (length name) by lia.
  cbn [skipn]. apply firstn_exact.
Qed.

Lemma connect_accept c a hi lo trailing o :
  addr_wf a ->
  state_connect c (enc_request a hi lo ++ trailing) o
  = connect_finish c o (host_of a) (u16be hi lo) trailing.
Proof.
  intros Hwf. destruct a as [a b c0 d | raw | name].
  - reflexivity.
  - cbn [addr_wf] in Hwf.
    do 16 (destruct raw as [|? raw]; [discriminate Hwf|]).
    destruct raw; [|discriminate Hwf]. reflexivity.
  - cbn [addr_wf] in Hwf. unfold enc_request, enc_addr, host_of. cbn [app].
    rewrite connect_cons_dom, blen_len_byte by exact Hwf.
    (* the message is the five head bytes and q = name ++ [hi; lo] *)
    change (4 + 1 + length name + 2) with (5 + (length name + 2)).
    replace (length name + 2) with (length (name ++ [hi; lo])) by (rewrite app_length; reflexivity).
    cbn [Nat.add firstn]. rewrite firstn_exact, skipn_exact.
    rewrite (proj2 (Nat.ltb_ge _ _)) by (rewrite !app_length; lia).
    cbv zeta. rewrite mid5, tail2. reflexivity.
Qed.

Lemma connect_reject_header c b0 b1 b2 b3 b4 rest o :
  [b0; b1; b2] <> [x05; x01; x00] ->
  state_connect c (b0 :: b1 :: b2 :: b3 :: b4 :: rest) o
  = socks_err o (Some SOCKS5_REP_COMMAND_NOT_SUPPORTED).
Proof.
  intros H. rewrite connect_cons. cbv zeta.
  destruct (bytes_eqb _ _) eqn:E; [apply bytes_eqb_eq in E; contradiction|reflexivity].
Qed.

Lemma connect_reject_atyp c atyp b4 rest o :
  atyp <> x01 -> atyp <> x03 -> atyp <> x04 ->
  state_connect c (x05 :: x01 :: x00 :: atyp :: b4 :: rest) o
  = socks_err o (Some SOCKS5_REP_ADDRESS_TYPE_NOT_SUPPORTED).
Proof.
  intros H1 H3 H4. apply byte_eqb_neq in H1, H3, H4. rewrite connect_cons.
  unfold message_len, SOCKS5_ATYP_IPV4_ADDRESS, SOCKS5_ATYP_IPV6_ADDRESS, SOCKS5_ATYP_DOMAINNAME.
  cbv zeta. rewrite H1, H4, H3. reflexivity.
Qed.

Lemma skipn_cons_nth (l : bytes) k : k < length l -> skipn k l = nth k l x00 :: skipn (S k) l.
Proof.
  revert l. induction k as [|k IH]; intros [|x l] H; cbn [length] in H; try lia.
  - reflexivity.
  - cbn [skipn nth]. apply IH. lia.
Qed.

(* The shape of a buffer, per parser: it is incomplete and the parser waits, or it is rejected whatever
   follows, or it is an encoded message followed by a rest.  What the parser does in the third case is greet_step /
   auth_step / connect_accept. *)
Lemma greet_shape x :
  (forall c o, state_greet c x o = (Greet x, o))
  \/ (forall c o b, state_greet c (x ++ b) o = socks_err o None)
  \/ (exists methods rest, x = enc_greeting methods ++ rest /\ length methods <= 255).
Proof.
  destruct x as [|v [|n r]]; try (left; intros c o; reflexivity).
  destruct (byte_eqb v x05) eqn:E1.
  2:{ right; left. intros c o b. apply greet_reject_version, byte_eqb_neq, E1. }
  apply byte_eqb_eq in E1. subst v. destruct (length r <? blen n) eqn:E2.
  { left. intros c o. rewrite greet_cons, E2. reflexivity. }
  apply Nat.ltb_ge in E2. right; right. exists (firstn (blen n) r), (skipn (blen n) r).
  assert (Ln : length (firstn (blen n) r) = blen n) by (apply firstn_length_le; exact E2).
  split; [|rewrite Ln; apply blen_le].
  unfold enc_greeting. rewrite (len_byte_blen n) by exact Ln. cbn [app]. rewrite firstn_skipn. reflexivity.
Qed.

Lemma auth_shape x :
  (forall c o, state_auth c x o = (Auth x, o))
  \/ (exists ver u p rest, x = enc_auth ver u p ++ rest /\ length u <= 255 /\ length p <= 255).
Proof.
  destruct x as [|v [|ul r]]; try (left; intros c o; reflexivity).
  destruct (length r <? 1 + blen ul) eqn:E1.
  { left. intros c o. rewrite auth_cons, E1. reflexivity. }
  set (pl := nth (blen ul) r x00). destruct (length r <? 1 + blen ul + blen pl) eqn:E2.
  { left. intros c o. rewrite auth_cons, E1. cbv zeta. fold pl. rewrite E2. reflexivity. }
  apply Nat.ltb_ge in E1, E2. right.
  exists v, (firstn (blen ul) r), (firstn (blen pl) (skipn (1 + blen ul) r)), (skipn (blen pl) (skipn (1 + blen ul) r)).
  assert (Lu : length (firstn (blen ul) r) = blen ul) by (apply firstn_length_le; lia).
  assert (Lp : length (firstn (blen pl) (skipn (1 + blen ul) r)) = blen pl)
    by (apply firstn_length_le; rewrite skipn_length; lia).
  split; [|split; [rewrite Lu|rewrite Lp]; apply blen_le].
  unfold enc_auth. rewrite (len_byte_blen ul), (len_byte_blen pl) by assumption.
  cbn [app]. rewrite <- app_assoc. cbn [app]. rewrite firstn_skipn.
  unfold pl. change (1 + blen ul) with (S (blen ul)).
  rewrite <- (skipn_cons_nth r (blen ul)) by lia. rewrite firstn_skipn. reflexivity.
Qed.

Lemma connect_shape x :
  (forall c o, state_connect c x o = (Connect x, o))
  \/ (exists code, forall c o b, state_connect c (x ++ b) o = socks_err o (Some code))
  \/ (exists a hi lo trailing, x = enc_request a hi lo ++ trailing /\ addr_wf a).
Proof.
  destruct x as [|b0 [|b1 [|b2 [|atyp [|b4 r]]]]]; try (left; intros c o; reflexivity).
  destruct (bytes_eqb [b0; b1; b2] [x05; x01; x00]) eqn:E2.
  2:{ right; left. exists SOCKS5_REP_COMMAND_NOT_SUPPORTED. intros c o b. apply connect_reject_header.
      intros E. injection E as -> -> ->. discriminate E2. }
  apply bytes_eqb_eq in E2. injection E2 as -> -> ->.
  destruct (byte_eqb atyp x01) eqn:A1.
  { apply byte_eqb_eq in A1. subst atyp.
    destruct r as [|b5 [|b6 [|b7 [|hi [|lo trailing]]]]]; try (left; intros c o; reflexivity).
    right; right. exists (A4 b4 b5 b6 b7), hi, lo, trailing. split; [reflexivity|exact I]. }
  destruct (byte_eqb atyp x04) eqn:A4.
  { apply byte_eqb_eq in A4. subst atyp.
    destruct r as [|a1 [|a2 [|a3 [|a4 [|a5 [|a6 [|a7 [|a8 [|a9 [|a10 [|a11 [|a12 [|a13 [|a14
                  [|a15 [|hi [|lo trailing]]]]]]]]]]]]]]]]]; try (left; intros c o; reflexivity).
    right; right.
    exists (A6 [b4; a1; a2; a3; a4; a5; a6; a7; a8; a9; a10; a11; a12; a13; a14; a15]), hi, lo, trailing.
    split; reflexivity. }
  destruct (byte_eqb atyp x03) eqn:A3.
  2:{ right; left. exists SOCKS5_REP_ADDRESS_TYPE_NOT_SUPPORTED. intros c o b.
      apply connect_reject_atyp; apply byte_eqb_neq; assumption. }
  apply byte_eqb_eq in A3. subst atyp. destruct (length r <? blen b4 + 2) eqn:E4.
  { left. intros c o. rewrite connect_cons_dom, E4. reflexivity. }
  apply Nat.ltb_ge in E4. right; right.
  pose proof (firstn_skipn (blen b4) r) as Hr.
  rewrite (skipn_cons_nth r (blen b4)), (skipn_cons_nth r (S (blen b4))) in Hr by lia.
  exists (ADom (firstn (blen b4) r)), (nth (blen b4) r x00), (nth (S (blen b4)) r x00), (skipn (S (S (blen b4))) r).
  assert (Ln : length (firstn (blen b4) r) = blen b4) by (apply firstn_length_le; lia).
  split; [|cbn [addr_wf]; rewrite Ln; apply blen_le].
  unfold enc_request, enc_addr. rewrite (len_byte_blen b4) by exact Ln.
  cbn [app]. rewrite <- app_assoc. cbn [app]. rewrite Hr. reflexivity.
Qed.

Definition all_ascii (s : bytes) : Prop := forall b, In b s -> (bN b < 128)%N.

Lemma decode_ascii_exact s : all_ascii s -> decode_ascii_replace s = s.
Proof.
  unfold all_ascii, decode_ascii_replace. induction s as [|b s IH]; intros H; cbn [flat_map].
  - reflexivity.
  - assert (Hb : (bN b < 128)%N) by (apply H; left; reflexivity).
    apply N.ltb_lt in Hb. rewrite Hb. cbn [app]. f_equal. apply IH.
    intros x Hx. apply H. right. exact Hx.
Qed.

(* decode(ascii, replace) is lossy: two different requested names, one destination *)
Lemma decode_ascii_lossy : decode_ascii_replace [x80] = decode_ascii_replace [x81] /\ [x80] <> [x81].
Proof. split; [reflexivity | discriminate]. Qed.

(* dotted-quad text determines the four bytes: parse it back *)
Fixpoint parse_dec (acc : N) (s : bytes) : N * bytes :=
  match s with
  | d :: r => if is_digit d then parse_dec (acc * 10 + (bN d - 48))%N r else (acc, s)
  | [] => (acc, [])
  end.

Definition parse_dotted (s : bytes) : option (byte * byte * byte * byte) :=
  let '(a, r1) := parse_dec 0 s in
  match r1 with
  | x2e :: r1 =>
    let '(b, r2) := parse_dec 0 r1 in
    match r2 with
    | x2e :: r2 =>
      let '(c, r3) := parse_dec 0 r2 in
      match r3 with
      | x2e :: r3 =>
        let '(d, r4) := parse_dec 0 r3 in
        match r4 with [] => Some (Nb a, Nb b, Nb c, Nb d) | _ => None end
      | _ => None
      end
    | _ => None
    end
  | _ => None
  end.

(* both by enumeration of the 256 values of the byte *)
Lemma parse_dec_dot a r : parse_dec 0 (dec_of_N (bN a) ++ DOT :: r) = (bN a, DOT :: r).
Proof. destruct a; reflexivity. Qed.

Lemma parse_dec_end a : parse_dec 0 (dec_of_N (bN a)) = (bN a, []).
Proof. destruct a; reflexivity. Qed.

Lemma parse_dotted_dotted a b c d : parse_dotted (dotted a b c d) = Some (a, b, c, d).
Proof.
  unfold parse_dotted, dotted.
  rewrite parse_dec_dot. unfold DOT at 1.
  rewrite parse_dec_dot. unfold DOT at 1.
  rewrite parse_dec_dot. unfold DOT at 1.
  rewrite parse_dec_end. rewrite !Nb_bN. reflexivity.
Qed.

Lemma dotted_injective a b c d a' b' c' d' :
  dotted a b c d = dotted a' b' c' d' -> (a, b, c, d) = (a', b', c', d').
Proof.
  intros H. apply (f_equal parse_dotted) in H. rewrite !parse_dotted_dotted in H.
  injection H as -> -> -> ->. reflexivity.
Qed.
