(* Proofs/HttpRoutingBase.v -- basic facts for C08: decidable equalities of the routing vocabulary, the
   meaning of the regenerated predicate connection_spec_matches, heap / dict / waiting-list lemmas. *)
From Coq Require Import NArith List Bool.
From MV Require Import Base.Bytes Model.HttpRoutingBase Gen.ConnSpec Model.HttpRouting Proofs.EqbIff.
Import ListNotations.
Open Scope N_scope.

Lemma addr_eqb_eq a b : addr_eqb a b = true <-> a = b.
Proof.
  destruct a as [h p], b as [h' p']; unfold addr_eqb; cbn [fst snd].
  rewrite andb_true_iff, bytes_eqb_eq, N.eqb_eq. split.
  - intros [-> ->]; reflexivity.
  - intros E; inversion E; auto.
Qed.

Lemma via_eqb_eq a b : via_eqb a b = true <-> a = b.
Proof.
  unfold via_eqb. apply option_eqb_eq. intros [s x] [s' y]; cbn [fst snd].
  rewrite andb_true_iff, bytes_eqb_eq, addr_eqb_eq. split.
  - intros [-> ->]; reflexivity.
  - intros E; inversion E; auto.
Qed.

Lemma transport_eqb_eq a b : transport_eqb a b = true <-> a = b.
Proof. destruct a, b; cbn; split; congruence. Qed.

Lemma connected_iff k : connected k = true <-> c_state k = Open.
Proof. unfold connected. destruct (c_state k); cbn; split; congruence. Qed.

(* what the regenerated predicate means *)
Definition spec_eq (g : get_cmd) (k : conn) : Prop :=
  c_server k = true /\ c_address k = Some (g_address g) /\ c_tls k = g_tls g /\ c_via k = g_via g /\ c_tp k = g_tp g.

Lemma matches_iff g k : connection_spec_matches g k = true <-> spec_eq g k.
Proof.
  unfold connection_spec_matches, spec_eq, eq_address, eq_tls, eq_via, eq_transport_protocol.
  rewrite !andb_true_iff, (option_eqb_eq addr_eqb addr_eqb_eq), Bool.eqb_true_iff, via_eqb_eq, transport_eqb_eq.
  split.
  - intros [[[[H1 H2] H3] H4] H5]. repeat split; auto.
  - intros (H1 & H2 & H3 & H4 & H5). repeat split; auto.
Qed.

Lemma new_server_spec g : spec_eq g (new_server g).
Proof. unfold spec_eq, new_server; cbn. repeat split; reflexivity. Qed.

Lemma dest_of_flow_spec host port scheme via tp :
  let g := dest_of_flow host port scheme via tp in
  g_address g = (host, port) /\ (g_tls g = true <-> scheme = https_scheme) /\ g_via g = via /\ g_tp g = tp.
Proof.
  cbn. repeat split; try reflexivity.
  - intros H. apply bytes_eqb_eq in H. exact H.
  - intros ->. reflexivity.
Qed.

Lemma hget_hset_same h c k : hget (hset h c k) c = k.
Proof.
  induction h as [|[c' k'] r IH]; cbn.
  - rewrite N.eqb_refl; reflexivity.
  - destruct (N.eqb c c') eqn:E; cbn; rewrite ?N.eqb_refl, ?E; auto.
Qed.

Lemma hget_hset_other h c c' k : c' <> c -> hget (hset h c k) c' = hget h c'.
Proof.
  intros D. apply N.eqb_neq in D. induction h as [|[c0 k0] r IH]; cbn; [rewrite D; reflexivity|].
  destruct (N.eqb c c0) eqn:E; cbn; [|rewrite IH; reflexivity].
  apply N.eqb_eq in E; subst c0. rewrite D. reflexivity.
Qed.

Lemma handler_of_dict_set_same l c h : handler_of (dict_set l c h) c = h.
Proof.
  induction l as [|[c' h'] r IH]; cbn.
  - rewrite N.eqb_refl; reflexivity.
  - destruct (N.eqb c c') eqn:E; cbn; rewrite ?N.eqb_refl, ?E; auto.
Qed.

Lemma handler_of_dict_set_other l c c' h : c' <> c -> handler_of (dict_set l c h) c' = handler_of l c'.
Proof.
  intros D. apply N.eqb_neq in D. induction l as [|[c0 h0] r IH]; cbn; [rewrite D; reflexivity|].
  destruct (N.eqb c c0) eqn:E; cbn; [|rewrite IH; reflexivity].
  apply N.eqb_eq in E; subst c0. rewrite D. reflexivity.
Qed.

Lemma has_key_In {A} (l : list (N * A)) c : has_key l c = true <-> exists x, In (c, x) l.
Proof.
  induction l as [|[c' x'] r IH]; cbn.
  - split; [discriminate | intros [x []]].
  - rewrite orb_true_iff, IH, N.eqb_eq. split.
    + intros [-> | [x H]]; eauto.
    + intros [x [E | H]]; [inversion E; auto | eauto].
Qed.

Definition all_waiting (Q : N -> waiter -> Prop) (w : list (N * list waiter)) : Prop :=
  forall c ws x, In (c, ws) w -> In x ws -> Q c x.

Lemma all_waiting_add Q w c x : all_waiting Q w -> Q c x -> all_waiting Q (waiting_add w c x).
Proof.
  intros HW HQ. induction w as [|[c' ws'] r IH]; cbn.
  - intros c0 ws0 x0 [E | []] Hx; inversion E; subst. destruct Hx as [<- | []]; exact HQ.
  - assert (HR : all_waiting Q r) by (intros c0 ws0 x0 H1 H2; eapply HW; [right; exact H1 | exact H2]).
    destruct (N.eqb c c') eqn:E.
    + apply N.eqb_eq in E; subst c'.
      intros c0 ws0 x0 [E0 | H1] Hx.
      * inversion E0; subst. apply in_app_or in Hx. destruct Hx as [Hx | [<- | []]]; auto.
        eapply HW; [left; reflexivity | exact Hx].
      * eapply HW; [right; exact H1 | exact Hx].
    + intros c0 ws0 x0 [E0 | H1] Hx.
      * inversion E0; subst. eapply HW; [left; reflexivity | exact Hx].
      * eapply IH; eauto.
Qed.

Lemma waiting_add_keys w c x c0 : has_key (waiting_add w c x) c0 = true -> c0 = c \/ has_key w c0 = true.
Proof.
  induction w as [|[c' ws'] r IH]; cbn.
  - rewrite orb_false_r, N.eqb_eq; auto.
  - destruct (N.eqb c c') eqn:E; cbn; rewrite !orb_true_iff; intros [H | H]; auto.
    destruct (IH H); auto.
Qed.

Lemma waiting_pop_spec w l ws w' :
  waiting_pop w l = Some (ws, w') ->
  In (l, ws) w /\ (forall c x, In (c, x) w' -> In (c, x) w).
Proof.
  revert ws w'. induction w as [|[c' ws'] r IH]; cbn; intros ws w' H; [discriminate|].
  destruct (N.eqb l c') eqn:E.
  - apply N.eqb_eq in E; subst c'. inversion H; subst. split; auto.
  - destruct (waiting_pop r l) as [[x r']|] eqn:EP; [|discriminate].
    inversion H; subst. destruct (IH _ _ eq_refl) as [H1 H2]. split; auto.
    intros c x0 [E0 | H3]; [left; exact E0 | right; auto].
Qed.

Lemma all_waiting_pop Q w l ws w' :
  all_waiting Q w -> waiting_pop w l = Some (ws, w') ->
  (forall x, In x ws -> Q l x) /\ all_waiting Q w'.
Proof.
  intros HW HP. destruct (waiting_pop_spec _ _ _ _ HP) as [H1 H2]. split.
  - intros x Hx. eapply HW; eauto.
  - intros c ws0 x H3 Hx. eapply HW; eauto.
Qed.

Lemma waiting_pop_keys w l ws w' c :
  waiting_pop w l = Some (ws, w') -> has_key w' c = true -> has_key w c = true.
Proof.
  intros HP H. apply has_key_In in H. destruct H as [x H]. apply has_key_In. exists x.
  destruct (waiting_pop_spec _ _ _ _ HP) as [_ H2]. auto.
Qed.

Lemma all_waiting_weaken (Q Q' : N -> waiter -> Prop) w :
  (forall c x, has_key w c = true -> Q c x -> Q' c x) -> all_waiting Q w -> all_waiting Q' w.
Proof.
  intros HQ HW c ws x H1 H2. apply HQ; [apply has_key_In; eauto | eapply HW; eauto].
Qed.
