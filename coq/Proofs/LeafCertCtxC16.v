(* Proofs/LeafCertCtxC16.v -- the chain presented after cert-store reloads (Model/LeafCertCtx.v). *)
From Coq Require Import List Bool Arith NArith Lia.
From MV Require Import Model.LeafCertCtx.
Import ListNotations.
Local Open Scope N_scope.

(* every cached context was created for a dhparams object that already exists, and the ones created for
   the current store's object hold the chain that store was loaded from *)
Definition Inv (s : st) : Prop :=
  store_dh s < next_dh s
  /\ forall k c, In (k, c) (cache s) -> snd k < next_dh s /\ (snd k = store_dh s -> c = store_ca s).

Lemma lookup_in k c v : lookup k c = Some v -> exists k', In (k', v) c /\ snd k' = snd k.
Proof.
  induction c as [|[k' v'] r IH]; simpl; [discriminate|].
  destruct (key_eqb k' k) eqn:E.
  - intros H; inversion H; subst. exists k'. split; [left; reflexivity|].
    unfold key_eqb in E. apply andb_true_iff in E as [_ E]. apply N.eqb_eq in E. exact E.
  - intros H. destruct (IH H) as [k'' [Hin Hs]]. exists k''. split; [right; exact Hin | exact Hs].
Qed.

Lemma remove_nth_in {A} i (l : list A) x : In x (remove_nth i l) -> In x l.
Proof.
  revert i; induction l as [|y l IH]; intros i H; simpl in *; [destruct i; exact H|].
  destruct i; [right; exact H|]. destruct H as [H|H]; [left; exact H | right; eapply IH; exact H].
Qed.

Lemma init_inv : Inv init.
Proof. split; [reflexivity | intros k c []]. Qed.

(* one step: if its handshake (when it is one) found file and store in step, the invariant is kept and the
   presented chain is complete *)
Lemma step_ok s o :
  Inv s -> (forall x, snd (step false s o) = Some x -> synced x = true) ->
  Inv (fst (step false s o)) /\ forall x, snd (step false s o) = Some x -> complete x = true.
Proof.
  intros [Hlt Hc] Hs. destruct o as [c| |k|i]; simpl in *.
  - split; [split; assumption | discriminate].
  - split; [|discriminate]. split; simpl; [lia|].
    intros k c Hin. destruct (Hc k c Hin) as [H1 _]. split; [lia | intros E; lia].
  - destruct (lookup (k, store_dh s) (cache s)) as [c|] eqn:El; simpl in *.
    + split; [split; assumption|]. intros x [= <-]. apply N.eqb_eq.
      apply lookup_in in El as [k' [Hin Hk]]. apply (Hc k' c Hin). exact Hk.
    + assert (Hsync : file s = store_ca s) by (apply N.eqb_eq, (Hs _ eq_refl)).
      split; [|intros x [= <-]; apply N.eqb_eq; exact Hsync].
      split; simpl; [exact Hlt|]. intros k0 c0 [[= <- <-]|Hin]; [|apply Hc; exact Hin].
      split; [exact Hlt | intros _; exact Hsync].
  - split; [|discriminate]. split; simpl; [exact Hlt|].
    intros k c Hin. apply Hc. eapply remove_nth_in; exact Hin.
Qed.

Lemma all_complete_from s ops :
  Inv s ->
  (forall x, In x (run false s ops) -> synced x = true) ->
  forall x, In x (run false s ops) -> complete x = true.
Proof.
  revert s; induction ops as [|o ops IH]; intros s I Hs x Hx; simpl in *; [contradiction|].
  pose proof (step_ok s o I) as H. destruct (step false s o) as [s' [y|]]; simpl in *.
  - destruct H as [I' Hy]; [intros z [= <-]; apply Hs; left; reflexivity|].
    destruct Hx as [<-|Hx]; [apply Hy; reflexivity|].
    apply (IH s' I'); [intros z Hz; apply Hs; right; exact Hz | exact Hx].
  - destruct H as [I' _]; [discriminate|]. apply (IH s' I'); assumption.
Qed.

(* a fresh dhparams object per reload: every handshake presents the chain of the store that issued the leaf,
   for every history in which clients connect only while the CA file is the one the store was loaded from *)
Theorem presented_chain_fresh ops :
  (forall x, In x (run false init ops) -> synced x = true) ->
  forall x, In x (run false init ops) -> complete x = true.
Proof. apply all_complete_from. exact init_inv. Qed.

(* the CA file rewritten in place and reloaded, twice, with a handshake after each reload; with a fresh dhparams
   object per reload both handshakes present complete chains (Props/C16.v runs the same history with one shared
   object per path, where the cache key does not change on reload and the chain breaks) *)
Definition rotation : list op := [Rewrite 1; Reload; Handshake 0; Rewrite 2; Reload; Handshake 0].

Lemma fresh_dh_rotation :
  run false init rotation = [mkShown true 1 1; mkShown true 2 2].
Proof. vm_compute. reflexivity. Qed.

