(* Proofs/HttpBodyRelay.v -- streamed bodies are relayed exactly: for every stream callable (any state-passing
   function), the data events sent to the peer are the callable's output for each received chunk, in order,
   followed by its output for the final empty flush; the flow keeps exactly those bytes iff store_streamed_bodies.
   Proved from any state in which the message is being streamed, by induction over the received chunks with the
   one-event lemmas of HttpBodySteps.v.  Also: the late switch to streaming flushes the buffered bytes as one data
   event. *)
From Coq Require Import List Bool NArith ZArith Lia.
From MV Require Import Base.Bytes Model.HttpBody Proofs.HttpBodyBase Proofs.HttpBodySteps.
Import ListNotations.
Open Scope Z_scope.

Lemma server_content_map_data l :
  server_content (map (fun c => CSend Server (MData c)) l) = map (fun c => CSend Server (MData c)) l.
Proof. unfold server_content. induction l; cbn; congruence. Qed.
Lemma client_content_map_data l :
  client_content (map (fun c => CSend Client (MData c)) l) = map (fun c => CSend Client (MData c)) l.
Proof. unfold client_content. induction l; cbn; congruence. Qed.

Section Relay.
Variable S : Type.
Variable fq fs : S -> bytes -> S * sres.
Variable cfg : config.

Notation st := (st S).
Notation handle_event := (handle_event S fq fs cfg).
Notation run := (run S fq fs cfg).

(* what a callable makes of a list of received chunks, threading its private state: the chunks to send *)
Fixpoint run_callable (f : S -> bytes -> S * sres) (q : S) (ds : list bytes) : S * list bytes :=
  match ds with
  | [] => (q, [])
  | d :: r =>
      let '(q1, res) := f q d in
      let '(q2, out) := run_callable f q1 r in
      (q2, data_chunks res ++ out)
  end.
(* ... including the final call with b"" when the message ends *)
Definition transformed (f : S -> bytes -> S * sres) (q : S) (ds : list bytes) : list bytes :=
  let '(q1, out) := run_callable f q ds in out ++ flush_chunks (snd (f q1 [])).

(* the chunks the peer must be sent for received chunks ds, given message.stream *)
Definition expected_pieces (a : sattr) (f : S -> bytes -> S * sres) (q : S) (ds : list bytes) : list bytes :=
  match a with SCall => transformed f q ds | _ => ds end.

Lemma expected_pieces_cons a f q d ds :
  expected_pieces a f q (d :: ds) =
  match a with SCall => data_chunks (snd (f q d)) | _ => [d] end
  ++ expected_pieces a f (match a with SCall => fst (f q d) | _ => q end) ds.
Proof.
  destruct a; try reflexivity.
  unfold expected_pieces, transformed. cbn [run_callable]. destruct (f q d) as [q1 res]. cbn [fst snd].
  destruct (run_callable f q1 ds) as [q2 out]. rewrite app_assoc. reflexivity.
Qed.

Lemma data_to_server_tail tl :
  tl = [] \/ tl = [CDrop; CSend Client MEom] ->
  data_to Server ([CHook HRequest; CSend Server MEom] ++ tl) = [].
Proof. intros [->| ->]; reflexivity. Qed.

Lemma stream_request_relay_from (ds : list bytes) : forall s : st,
  client_state s = Streaming ->
  let pieces := expected_pieces (req_stream s) fq (fq_st s) ds in
  exists s' out,
    run s (map ReqData ds ++ [ReqEom]) = (s', out, false)
    /\ data_to Server out = pieces
    /\ server_content out = map (fun c => CSend Server (MData c)) pieces ++ [CSend Server MEom]
    /\ client_state s' = Done
    /\ req_content s' = (if o_store cfg then Some (request_body_buf s ++ concat pieces) else req_content s)
    /\ request_body_buf s' = (if o_store cfg then [] else request_body_buf s).
Proof.
  induction ds as [|d ds IH]; intros s Hc; cbn [map app HttpBody.run].
  - destruct (stream_request_eom S fq fs cfg s Hc) as (s' & HE & C & RC & RB & _). rewrite HE.
    exists s'. eexists. split; [reflexivity|]. rewrite app_nil_r.
    split; [|split; [|auto]].
    + rewrite data_to_app, data_to_map_same.
      destruct (req_stream s), (hstate_eqb (server_state s) Done); cbn; rewrite ?app_nil_r; reflexivity.
    + rewrite server_content_app, server_content_map_data.
      destruct (req_stream s), (hstate_eqb (server_state s) Done); reflexivity.
  - destruct (stream_request_data S fq fs cfg s d Hc) as (s1 & HE & C1 & B1 & A1 & R1 & Q1 & _). rewrite HE.
    destruct (IH s1 C1) as (s' & out & R & D & SC & C & RC & RB). rewrite R.
    rewrite A1, Q1, B1, R1 in *. rewrite expected_pieces_cons.
    exists s'. eexists. split; [reflexivity|].
    rewrite data_to_app, data_to_map_same, D, server_content_app, server_content_map_data, SC, map_app, <- app_assoc.
    repeat (split; [reflexivity || assumption|]).
    destruct (o_store cfg); rewrite ?concat_app, ?app_assoc; auto.
Qed.

Lemma stream_response_relay_from (ds : list bytes) : forall s : st,
  server_state s = Streaming ->
  let pieces := expected_pieces (resp_stream s) fs (fs_st s) ds in
  exists s' out,
    run s (map RespData ds ++ [RespEom]) = (s', out, false)
    /\ data_to Client out = pieces
    /\ client_content out = map (fun c => CSend Client (MData c)) pieces
                             ++ (if hstate_eqb (client_state s) Done then [CSend Client MEom] else [])
    /\ server_state s' = Done
    /\ resp_content s' = (if o_store cfg then Some (response_body_buf s ++ concat pieces) else resp_content s)
    /\ response_body_buf s' = (if o_store cfg then [] else response_body_buf s).
Proof.
  induction ds as [|d ds IH]; intros s Hc; cbn [map app HttpBody.run].
  - destruct (stream_response_eom S fq fs cfg s Hc) as (s' & HE & C & RC & RB & _). rewrite HE.
    exists s'. eexists. split; [reflexivity|]. rewrite app_nil_r.
    split; [|split; [|auto]].
    + rewrite data_to_app, data_to_map_same.
      destruct (resp_stream s), (hstate_eqb (client_state s) Done); cbn; rewrite ?app_nil_r; reflexivity.
    + rewrite client_content_app, client_content_map_data.
      destruct (resp_stream s), (hstate_eqb (client_state s) Done); reflexivity.
  - destruct (stream_response_data S fq fs cfg s d Hc) as (s1 & HE & C1 & B1 & A1 & R1 & Q1 & K1 & _). rewrite HE.
    destruct (IH s1 C1) as (s' & out & R & D & SC & C & RC & RB). rewrite R.
    rewrite A1, Q1, B1, R1, K1 in *. rewrite expected_pieces_cons.
    exists s'. eexists. split; [reflexivity|].
    rewrite data_to_app, data_to_map_same, D, client_content_app, client_content_map_data, SC, map_app, <- app_assoc.
    repeat (split; [reflexivity || assumption|]).
    destruct (o_store cfg); rewrite ?concat_app, ?app_assoc; auto.
Qed.

(* the late switch: once the buffered bytes exceed stream_large_bodies (and not body_size_limit), the stream
   connects, sends the head and flushes everything buffered so far as one data event; nothing is duplicated *)
Theorem late_switch_request (s : st) d T :
  client_state s = Consume -> c_ok cfg = true ->
  parse_size (o_stream cfg) = PVal T -> 0 <= T -> T < blen (request_body_buf s ++ d) ->
  parse_size (o_limit cfg) <> PErr -> over (parse_size (o_limit cfg)) (blen (request_body_buf s ++ d)) = false ->
  exists s', handle_event s (ReqData d)
             = Some (s', [CGetConn; CSend Server (MHeaders false); CSend Server (MData (request_body_buf s ++ d))])
    /\ client_state s' = Streaming /\ req_stream s' = STrue
    /\ request_body_buf s' = (if o_store cfg then request_body_buf s ++ d else []).
Proof.
  intros Hc OK PT T0 TL NE OV. unfold HttpBody.handle_event. cbn [is_request_event]. rewrite Hc.
  unfold state_consume_request_body, HttpBody.check_body_size.
  assert (N : nonempty (request_body_buf s ++ d) = true) by (apply blen_pos_nonempty; lia).
  rewrite (parse_size_val_truthy _ _ PT). cbn [orb negb andb request_body_buf set_reqbuf]. rewrite N.
  replace (blen (request_body_buf s ++ d) <=? 0) with false by (symmetry; apply Z.leb_gt; lia).
  rewrite PT. replace (T <? blen (request_body_buf s ++ d)) with true by (symmetry; apply Z.ltb_lt; lia).
  destruct (parse_size (o_limit cfg)) as [| |l]; [|congruence|cbn in OV; rewrite OV];
    rewrite switch_to_stream_req by exact N; rewrite OK; cbn zeta;
    eexists; (split; [reflexivity|]); destruct (o_store cfg); cbn; auto.
Qed.

(* a whole chunked request from the initial state, an addon installing a stream callable in requestheaders:
   whatever the size options are, the server is sent exactly the callable's output, and the flow keeps it iff
   store_streamed_bodies *)
Theorem stream_request_end_to_end q0 s0 e100 (ds : list bytes) :
  p_req cfg = Some SCall -> c_ok cfg = true ->
  let pieces := transformed fq q0 ds in
  exists s' out,
    run (init S q0 s0) (ReqHeaders FChunked e100 :: map ReqData ds ++ [ReqEom]) = (s', out, false)
    /\ data_to Server out = pieces
    /\ server_content out = CSend Server (MHeaders false)
                             :: map (fun c => CSend Server (MData c)) pieces ++ [CSend Server MEom]
    /\ client_state s' = Done
    /\ req_content s' = (if o_store cfg then Some (concat pieces) else None)
    /\ request_body_buf s' = [].
Proof.
  intros PQ OK pieces. subst pieces.
  assert (HE : handle_event (init S q0 s0) (ReqHeaders FChunked e100)
               = Some (mkSt Streaming WaitHeaders [] [] FChunked None SCall SFalse q0 s0 None None false true,
                       CHook HRequestHeaders :: (if e100 then [CSend Client MContinue] else [])
                       ++ [CGetConn; CSend Server (MHeaders false)])).
  { unfold HttpBody.handle_event, state_wait_for_request_headers, HttpBody.check_body_size, hook_requestheaders,
      start_request_stream, make_server_connection, init.
    rewrite PQ, OK. cbn [is_request_event client_state end_stream_of expected_size].
    destruct (negb (opt_truthy (o_stream cfg) || opt_truthy (o_limit cfg))); reflexivity. }
  cbn [HttpBody.run]. rewrite HE.
  destruct (stream_request_relay_from ds
              (mkSt Streaming WaitHeaders [] [] FChunked None SCall SFalse q0 s0 None None false true) eq_refl)
    as (s' & out & R & D & SC & C & RC & RB).
  cbn [expected_pieces] in *. rewrite R.
  eexists; eexists. split; [reflexivity|].
  split; [destruct e100; cbn [app data_to]; exact D|].
  split; [destruct e100; unfold server_content in *; cbn [app filter is_server_content]; rewrite SC; reflexivity|].
  split; [exact C|]. split; [rewrite RC; reflexivity|].
  rewrite RB; destruct (o_store cfg); reflexivity.
Qed.

End Relay.
