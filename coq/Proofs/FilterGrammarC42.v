(* Proofs/FilterGrammarC42.v -- concrete witnesses: the documented renderings outside the guard of the main
   theorem on which the grammar deviates, and a non-trivial instance inside the guard. *)
From Coq Require Import List.
From MV Require Import Base.Bytes Gen.FlowFilterAtoms Model.FilterGrammar.
Import ListNotations.

Definition uq : expr := EAtom (EUnary [x71]).
Definition us : expr := EAtom (EUnary [x73]).
Definition ua : expr := EAtom (EUnary [x61]).
Definition sty (j : bool) (k : qstyle) (nk : bool) (a b : style) : style := Sty [] nk k j [] [] a b.

(* not (q s) with juxtaposition: rendered with the parentheses the documented precedence requires *)
Definition e_group : expr := ENot (EAnd uq us).
Definition st_group : style := sty false (QEsc false) false (sty true (QEsc false) false SNil SNil) SNil.

(* q | s a  where  s a  is a juxtaposition: documented as q | (s & a) *)
Definition e_or : expr := EOr uq (EAnd us ua).
Definition st_or : style := sty false (QEsc false) false SNil (sty true (QEsc false) false SNil SNil).
Definition rho_q (a : atom) : bool := match a with AUnary [x71] => true | _ => false end.

(* ~u with backslash-d written between quotes without doubling the backslash *)
Definition e_raw : expr := EAtom (ERex [x75] [x5c; x64]).
Definition st_raw : style := sty false (QRaw false) false SNil SNil.
Definition rho_d (a : atom) : bool := match a with ARex _ [x5c; x64] => true | _ => false end.

(* inside the guard: (!~q | a-space-b quoted) ~c 0200  with odd spacing *)
Definition e_ok : expr :=
  EAnd (EOr (ENot uq) (EAtom (ERex [x75] [x61; x20; x62]))) (EAtom (EInt [x63] [x30; x32; x30; x30])).
Definition st_ok : style :=
  Sty [] false QBare true [WLf] []
      (Sty [] false QBare false [] [WTab] (sty false QBare false SNil SNil) (sty false (QEsc true) true SNil SNil))
      (sty false QBare false SNil SNil).
