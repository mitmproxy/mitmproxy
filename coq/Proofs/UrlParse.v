(* Proofs/UrlParse.v -- url.parse inverts url.unparse on well-formed destinations:
   the urllib splitter, the hostname/port accessors and the validity checks all see
   exactly the components the URL was built from. *)
From Coq Require Import List Bool Arith NArith ZArith Lia.
From MV Require Import Base.Bytes Model.Url Proofs.ListFacts Proofs.UrlLemmas Proofs.UrlDec.
Import ListNotations.

(* what may stand in the netloc (nl_char), a host (host_char), the path and after (path_char), the :port
   tail that hostport appends (pt_char) *)
Definition nl_char (b : byte) : bool :=
  negb (is_delim b) && negb (unsafe b) && is_ascii b && negb (byte_eqb b cAT).
Definition host_char (b : byte) : bool := nl_char b && negb (byte_eqb b cRBR).
Definition path_char (b : byte) : bool := is_ascii b && negb (unsafe b).
Definition pt_char (b : byte) : bool := is_digit b || byte_eqb b cCOLON.

Definition port_tail (s : bytes) (p : Z) : bytes :=
  match default_port s with
  | Some d => if (d =? p)%Z then [] else cCOLON :: dec_of_Z p
  | None => cCOLON :: dec_of_Z p
  end.

Lemma hostport_eq s h p : hostport s h p = bracket h ++ port_tail s p.
Proof.
  unfold hostport, port_tail.
  destruct (default_port s) as [d|]; [destruct (d =? p)%Z|]; rewrite ?app_nil_r; reflexivity.
Qed.

(* what url.parse makes of the text after the authority *)
Definition reparse_path (p : bytes) : bytes :=
  let '(p1, q, f) := split_fq p in
  let '(pp, params) := split_params_of s_http p1 in
  let full := unparse_path pp params q f in
  if starts_with [cSLASH] full then full else cSLASH :: full.

Definition http_scheme (s : bytes) : Prop := s = s_http \/ s = s_https.

Definition wf_path (path : bytes) : Prop :=
  starts_with [cSLASH] path = true /\ forallb path_char path = true /\ reparse_path path = path.

(* the classes are conjunctions: text in one of them is text in each conjunct *)
Lemma nl_chars l : forallb nl_char l = true ->
  forallb (fun b => negb (is_delim b)) l = true /\ forallb (fun b => negb (unsafe b)) l = true
  /\ all_ascii l = true.
Proof. unfold nl_char, all_ascii. rewrite !forallb_andb, !andb_true_iff. tauto. Qed.

Lemma host_chars l : forallb host_char l = true -> forallb nl_char l = true.
Proof. unfold host_char. rewrite forallb_andb, andb_true_iff. tauto. Qed.

Lemma path_chars l : forallb path_char l = true ->
  all_ascii l = true /\ forallb (fun b => negb (unsafe b)) l = true.
Proof. unfold path_char, all_ascii. rewrite forallb_andb, andb_true_iff. tauto. Qed.

Lemma pt_char_tail s p : (0 <= p)%Z -> forallb pt_char (port_tail s p) = true.
Proof.
  intros Hp. destruct (dec_of_Z_spec p Hp) as (F & _ & _).
  assert (forallb pt_char (cCOLON :: dec_of_Z p) = true) as H.
  { unfold pt_char. rewrite forallb_forall in *. intros b [<- | Hb]; [reflexivity|]. rewrite (F b Hb). reflexivity. }
  unfold port_tail. destruct (default_port s) as [d|]; [destruct (d =? p)%Z|]; auto.
Qed.

Lemma port_tail_nl s p : (0 <= p)%Z -> forallb nl_char (port_tail s p) = true.
Proof. intros Hp. apply (forallb_sweep pt_char nl_char); [vm_compute; reflexivity | apply pt_char_tail, Hp]. Qed.

Lemma hostport_ascii s h p : all_ascii h = true -> (0 <= p)%Z -> all_ascii (hostport s h p) = true.
Proof.
  intros Ah Hp. destruct (nl_chars _ (port_tail_nl s p Hp)) as (_ & _ & Ap).
  rewrite hostport_eq, all_ascii_app, Ap, andb_true_r.
  unfold bracket. destruct (mem cCOLON h && negb (starts_with [cLBR] h)); [|exact Ah].
  simpl. rewrite all_ascii_app, Ah. reflexivity.
Qed.

Lemma mem_false_of (P : byte -> bool) c l :
  P c = false -> forallb P l = true -> mem c l = false.
Proof.
  intros Hc H. induction l as [|x l IH]; simpl in *; [reflexivity|].
  apply andb_true_iff in H as [H1 H2]. rewrite (IH H2), orb_false_r.
  destruct (byte_eqb c x) eqn:E; [|reflexivity]. apply byte_eqb_eq in E. subst. congruence.
Qed.

Section WithCodec.
Variable ace : bytes -> option str.
Variable uenc : str -> option bytes.

(* a destination whose URL spelling url.parse reads back unchanged *)
Record wf_dest (s h : bytes) (p : Z) : Prop := {
  wf_scheme : http_scheme s;
  wf_nonempty : h <> [];
  wf_chars : forallb host_char h = true;
  wf_br : if mem cCOLON h
          then starts_with [cLBR] h = false /\ check_bracketed_host h = true
          else mem cLBR h = false;
  wf_lower : lower (fst (fst (partition cPCT h))) = fst (fst (partition cPCT h));
  wf_enc : label_len_ok (split cDOT h) = true;
  wf_valid : is_valid_host_b ace h = true;
  wf_port : (1 <= p <= 65535)%Z
}.

Section Dest.
Variables (s h : bytes) (p : Z).
Hypothesis WF : wf_dest s h p.

Let pt := port_tail s p.

Lemma pt_chars : forallb pt_char pt = true.
Proof. apply pt_char_tail. destruct WF. lia. Qed.

Lemma pt_nl : forallb nl_char pt = true.
Proof. apply port_tail_nl. destruct WF. lia. Qed.

Lemma h_nl : forallb nl_char h = true.
Proof. apply host_chars, WF. Qed.

Lemma h_no c : host_char c = false -> mem c h = false.
Proof. intros Hc. apply (mem_false_of host_char); [exact Hc | apply WF]. Qed.

Lemma pt_no c : pt_char c = false -> mem c pt = false.
Proof. intros Hc. apply (mem_false_of pt_char); [exact Hc | apply pt_chars]. Qed.

(* the two spellings: a literal with colons is bracketed, anything else is written as it is *)
Lemma hp_cases :
  (mem cCOLON h = true /\ hostport s h p = cLBR :: h ++ cRBR :: pt /\ check_bracketed_host h = true)
  \/ (mem cCOLON h = false /\ hostport s h p = h ++ pt /\ mem cLBR h = false).
Proof.
  pose proof (wf_br _ _ _ WF) as B. rewrite hostport_eq. fold pt. unfold bracket.
  destruct (mem cCOLON h) eqn:E.
  - destruct B as [B1 B2]. rewrite B1. left. cbn [andb negb app]. rewrite <- app_assoc. auto.
  - right. auto.
Qed.

Lemma hp_nl : forallb nl_char (hostport s h p) = true.
Proof.
  destruct hp_cases as [(_ & -> & _) | (_ & -> & _)]; cbn [forallb]; rewrite forallb_app, h_nl; cbn [forallb];
    rewrite pt_nl; reflexivity.
Qed.

Lemma hp_netloc_ok : netloc_ok (hostport s h p) = true.
Proof.
  unfold netloc_ok, bracketed_host. destruct hp_cases as [(_ & -> & C) | (_ & -> & NB)].
  - assert (mem cRBR (cLBR :: h ++ cRBR :: pt) = true) as M2
      by (rewrite mem_cons, mem_app, mem_cons, byte_eqb_refl, !orb_true_r; reflexivity).
    change (mem cLBR (cLBR :: h ++ cRBR :: pt)) with true. rewrite M2. cbv beta iota delta [xorb].
    change (partition cLBR (cLBR :: h ++ cRBR :: pt)) with (@nil byte, true, h ++ cRBR :: pt).
    cbv beta iota delta [snd].
    rewrite partition_app by (apply h_no; reflexivity).
    cbv beta iota delta [fst]. exact C.
  - rewrite !mem_app, NB, (h_no cRBR) by reflexivity.
    rewrite (pt_no cLBR), (pt_no cRBR) by reflexivity. reflexivity.
Qed.

Definition port_text : option bytes := if is_nil pt then None else Some (dec_of_Z p).

Lemma pt_cases : (pt = [] /\ port_text = None) \/ (pt = cCOLON :: dec_of_Z p /\ port_text = Some (dec_of_Z p)).
Proof.
  unfold port_text, pt, port_tail.
  destruct (default_port s) as [d|]; [destruct (d =? p)%Z|]; simpl; auto.
Qed.

Lemma hp_hostinfo : hostinfo (hostport s h p) = (h, port_text).
Proof.
  assert (dec_of_Z p <> []) as DNE by (apply dec_of_Z_spec; destruct WF; lia).
  unfold hostinfo.
  rewrite (rpartition_notin _ _ (mem_false_of nl_char cAT _ eq_refl hp_nl)).
  destruct hp_cases as [(_ & -> & _) | (NC & -> & NB)].
  - change (partition cLBR (cLBR :: h ++ cRBR :: pt)) with (@nil byte, true, h ++ cRBR :: pt).
    cbv iota beta. rewrite partition_app by (apply h_no; reflexivity).
    destruct pt_cases as [[-> ->] | [-> ->]].
    + reflexivity.
    + change (partition cCOLON (cCOLON :: dec_of_Z p)) with (@nil byte, true, dec_of_Z p).
      cbv iota beta. destruct (dec_of_Z p); [congruence | reflexivity].
  - assert (mem cLBR (h ++ pt) = false) as NB2.
    { rewrite mem_app, NB, (pt_no cLBR) by reflexivity. reflexivity. }
    rewrite (partition_notin _ _ NB2). cbv iota beta.
    destruct pt_cases as [[-> ->] | [-> ->]].
    + rewrite app_nil_r, (partition_notin _ _ NC). reflexivity.
    + rewrite (partition_app _ _ _ NC). destruct (dec_of_Z p); [congruence | reflexivity].
Qed.

Lemma hp_hostname : hostname (hostport s h p) = Some h.
Proof.
  unfold hostname. rewrite hp_hostinfo. cbn [fst].
  destruct (is_nil h) eqn:N; [apply is_nil_true in N; destruct WF; congruence|].
  pose proof (wf_lower _ _ _ WF) as L.
  destruct (partition cPCT h) as [[a pc] zone] eqn:P. cbn [fst] in L. rewrite L.
  destruct (partition_spec _ _ _ _ _ P) as (_ & S & _). rewrite S at 1. reflexivity.
Qed.

Lemma hp_port_of :
  port_of (hostport s h p) = Some (if is_nil pt then None else Some (Z.to_N p)).
Proof.
  unfold port_of. rewrite hp_hostinfo. cbn [snd]. unfold port_text.
  destruct (is_nil pt); [reflexivity|].
  assert (0 <= p)%Z as Hp by (destruct WF; lia).
  destruct (dec_of_Z_spec p Hp) as (F & _ & V). rewrite F.
  assert (dec_value (dec_of_Z p) = Z.to_N p) as V' by (rewrite <- V at 2; rewrite N2Z.id; reflexivity).
  rewrite V'. assert (Z.to_N p <= 65535)%N as B by (destruct WF; lia).
  apply N.leb_le in B. rewrite B. reflexivity.
Qed.

End Dest.
End WithCodec.

Lemma split_scheme_http s rest : http_scheme s -> split_scheme (s ++ cCOLON :: rest) = (s, rest).
Proof.
  intros [-> | ->]; unfold split_scheme; rewrite partition_app by reflexivity; reflexivity.
Qed.

Lemma split_params_https p1 : split_params_of s_https p1 = split_params_of s_http p1.
Proof. reflexivity. Qed.

Lemma split_params_scheme s p1 : http_scheme s -> split_params_of s p1 = split_params_of s_http p1.
Proof. intros [-> | ->]; [reflexivity | apply split_params_https]. Qed.

Lemma starts_slash path : starts_with [cSLASH] path = true -> exists t, path = cSLASH :: t.
Proof.
  destruct path as [|c t]; simpl; [discriminate|]. rewrite andb_true_r. intros H.
  apply byte_eqb_eq in H. subst. eauto.
Qed.

Lemma urlsplit_build s nl path :
  http_scheme s -> forallb nl_char nl = true -> netloc_ok nl = true ->
  starts_with [cSLASH] path = true -> forallb path_char path = true ->
  urlsplit (s ++ s_sep ++ nl ++ path) =
  let '(p1, q, f) := split_fq path in Some (s, nl, p1, q, f).
Proof.
  intros Hs Hnl Hok Hsl Hpc. unfold urlsplit.
  destruct (nl_chars _ Hnl) as (Nd & Nu & _). destruct (path_chars _ Hpc) as [_ Pu].
  assert (lstrip_c0 (s ++ s_sep ++ nl ++ path) = s ++ s_sep ++ nl ++ path) as E1
    by (destruct Hs as [-> | ->]; reflexivity).
  rewrite E1.
  assert (remove_unsafe (s ++ s_sep ++ nl ++ path) = s ++ s_sep ++ nl ++ path) as E2.
  { apply filter_id. rewrite !forallb_app, Nu, Pu. destruct Hs as [-> | ->]; reflexivity. }
  rewrite E2.
  change (s ++ s_sep ++ nl ++ path) with (s ++ cCOLON :: (cSLASH :: cSLASH :: nl ++ path)).
  rewrite (split_scheme_http _ _ Hs).
  change (urlsplit_rest s (cSLASH :: cSLASH :: nl ++ path)) with
    (let '(netloc, rest') := span (fun b => negb (is_delim b)) (nl ++ path) in
     if netloc_ok netloc then let '(p, q, f) := split_fq rest' in Some (s, netloc, p, q, f) else None).
  rewrite span_app.
  - rewrite Hok. reflexivity.
  - exact Nd.
  - destruct (starts_slash _ Hsl) as [t ->]. reflexivity.
Qed.

Section Roundtrip.
Variable ace : bytes -> option str.
Variable uenc : str -> option bytes.

Theorem parse_unparse s h p path :
  wf_dest ace s h p -> wf_path path ->
  parse ace uenc (unparse s h p path) = Some (s, h, p, path).
Proof.
  intros WF (Hsl & Hpc & Hre).
  pose proof (wf_scheme _ _ _ _ WF) as Hs.
  destruct (nl_chars _ (h_nl ace _ _ _ WF)) as (_ & _ & Ah).
  destruct (nl_chars _ (hp_nl ace _ _ _ WF)) as (_ & _ & Ahp). destruct (path_chars _ Hpc) as [Ap _].
  unfold parse, unparse.
  assert (all_ascii (s ++ s_sep ++ hostport s h p ++ path) = true) as AA.
  { rewrite !all_ascii_app, Ahp, Ap. destruct Hs as [-> | ->]; reflexivity. }
  rewrite AA. cbn [negb]. unfold urlparse.
  rewrite (urlsplit_build s (hostport s h p) path Hs (hp_nl ace _ _ _ WF) (hp_netloc_ok ace _ _ _ WF) Hsl Hpc).
  unfold reparse_path in Hre.
  destruct (split_fq path) as [[p1 q] f].
  rewrite (split_params_scheme s p1 Hs). destruct (split_params_of s_http p1) as [pp params].
  rewrite (hp_hostname ace _ _ _ WF).
  assert (idna_encode uenc h = Some h) as IE.
  { unfold idna_encode. destruct (is_nil h) eqn:N; [apply is_nil_true in N; destruct WF; congruence|].
    rewrite Ah, (wf_enc _ _ _ _ WF). reflexivity. }
  rewrite IE, (hp_port_of ace _ _ _ WF), Hre, (wf_valid _ _ _ _ WF).
  pose proof (wf_port _ _ _ _ WF) as Hp.
  f_equal. f_equal. f_equal.
  (* the default port of the scheme is what parse fills in, and what port_tail leaves out *)
  assert (default_port s = Some (Z.of_N (if bytes_eqb s s_https then 443 else 80))) as DP
    by (destruct Hs as [-> | ->]; reflexivity).
  unfold port_tail. rewrite DP.
  destruct (Z.of_N (if bytes_eqb s s_https then 443 else 80) =? p)%Z eqn:E; cbn [is_nil].
  - apply Z.eqb_eq, E.
  - destruct (Z.to_N p =? 0)%N eqn:E0; [apply N.eqb_eq in E0; lia | apply Z2N.id; lia].
Qed.

End Roundtrip.
