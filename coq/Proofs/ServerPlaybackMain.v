(* Proofs/ServerPlaybackMain.v -- what the request hook does under the index invariant
   (request_hook_spec) and what follows over histories of load / add / clear / request /
   option-change operations: the invariant is reachable, accounting, recording order. *)
From Coq Require Import NArith List Bool Permutation Sorted.
From MV Require Import Base.Bytes Model.ServerPlayback Proofs.ServerPlaybackKey Proofs.ServerPlaybackMap.
Import ListNotations.

(* what the hook does with a request for which next_flow found nothing *)
Definition unmatched_action (o : options) : outcome :=
  if o_kill_extra o || (match o_extra o with EKill => true | _ => false end) then Killed
  else match o_extra o with ECode c => Status c | _ => Forward end.

Lemma request_hook_empty o rq : request_hook o rq [] = (Forward, []).
Proof. reflexivity. Qed.

Definition matches (o : options) (rq : request) (r : recording) : Prop :=
  _hash o (rec_req r) = _hash o rq.

Definition live (o : options) (rq : request) (m : flowmap) : Prop :=
  exists r, In r (pending m) /\ rec_has_resp r = true /\ matches o rq r.

Definition served_list (x : outcome) : list recording :=
  match x with Served r => [r] | _ => [] end.

(* the answer to a request that is not served; replay is inactive while nothing is pending *)
Definition unserved (o : options) (m : flowmap) : outcome :=
  if nonempty m then unmatched_action o else Forward.

Lemma unserved_spec o m : match unserved o m with Served _ | Raised => False | _ => True end.
Proof.
  unfold unserved, unmatched_action. destruct (nonempty m); [|exact I].
  destruct (o_kill_extra o || match o_extra o with EKill => true | _ => false end); [exact I|].
  destruct (o_extra o); exact I.
Qed.

Lemma request_hook_next o rq m :
  request_hook o rq m =
    (match fst (next_flow o rq m) with
     | NfFlow r => Served r | NfNone => unserved o m | NfIndexError => Raised end,
     snd (next_flow o rq m)).
Proof.
  unfold request_hook, unserved, unmatched_action. destruct m; [reflexivity|]. simpl nonempty. cbv iota.
  destruct (next_flow o rq (p :: m)) as [[r| |] m2]; simpl; try reflexivity.
  destruct (o_kill_extra o || match o_extra o with EKill => true | _ => false end); [reflexivity|].
  destruct (o_extra o); reflexivity.
Qed.

(* The bucket of the request key is a run of response-less recordings, then the served one if
   any, then what stays in the bucket; without reuse everything before [rest] leaves flowmap. *)
Lemma request_hook_spec o rq m :
  Inv o m ->
  exists x rest sk,
    request_hook o rq m =
      (match x with Some r => Served r | None => unserved o m end,
       if reuse_on o then m else fm_shrink (_hash o rq) rest m)
    /\ bucket (_hash o rq) m = sk ++ olist x ++ rest
    /\ Forall noresp sk
    /\ match x with Some r => rec_has_resp r = true | None => rest = [] end.
Proof.
  intro I. rewrite request_hook_next, (next_flow_eq o rq m I). simpl.
  destruct (pop_loop_spec (bucket (_hash o rq) m)) as [sk P].
  destruct (pop_loop (bucket (_hash o rq) m)) as [x rest].
  exists x, rest, sk. split; [destruct x; reflexivity | exact P].
Qed.

Lemma Inv_step s x : Inv (st_opts s) (st_map s) ->
  Inv (st_opts (fst (step s x))) (st_map (fst (step s x))).
Proof.
  intro H. destruct x as [fs|fs| |rq|upd]; simpl.
  - apply Inv_load_flows.
  - apply Inv_add_flows. exact H.
  - apply Inv_nil.
  - destruct (request_hook_spec (st_opts s) rq (st_map s) H) as (y & rest & sk & N & El & _). rewrite N. simpl.
    destruct (reuse_on (st_opts s)); [exact H|]. apply Inv_fm_shrink; [exact H|].
    rewrite El, app_assoc. apply incl_appr, incl_refl.
  - pose proof (Inv_configure (st_opts s) upd (st_map s) H) as H2.
    destruct (configure (st_opts s) upd (st_map s)); exact H2.
Qed.

Lemma Inv_final : forall h s, Inv (st_opts s) (st_map s) ->
  Inv (st_opts (final s h)) (st_map (final s h)).
Proof.
  induction h as [|x h IH]; intros s H; simpl; [exact H|].
  apply IH. apply Inv_step. exact H.
Qed.

Lemma Inv_reachable o0 h : Inv (st_opts (final (init o0) h)) (st_map (final (init o0) h)).
Proof. apply Inv_final. apply Inv_nil. Qed.

Lemma served_matches o rq m r m2 :
  Inv o m -> request_hook o rq m = (Served r, m2) ->
  In r (pending m) /\ rec_has_resp r = true /\ matches o rq r.
Proof.
  intros I E. destruct (request_hook_spec o rq m I) as (x & rest & sk & N & El & _ & R).
  rewrite N in E. destruct x as [r2|].
  - injection E as <- _. assert (Hin : In r2 (bucket (_hash o rq) m)) by (rewrite El; apply in_elt).
    apply (in_bucket o) in Hin; [|exact I]. tauto.
  - injection E as E _. pose proof (unserved_spec o m) as U. rewrite E in U. destruct U.
Qed.

Lemma request_decision o rq m :
  Inv o m ->
  (m = [] -> fst (request_hook o rq m) = Forward) /\
  (m <> [] -> (live o rq m -> exists r, fst (request_hook o rq m) = Served r) /\
              (~ live o rq m -> fst (request_hook o rq m) = unmatched_action o)).
Proof.
  intro I. split; [intros ->; reflexivity|]. intro Hne.
  destruct (request_hook_spec o rq m I) as (x & rest & sk & N & El & Fsk & R). rewrite N. simpl fst.
  destruct x as [r|].
  - split; [intros _; exists r; reflexivity|]. intro NL. destruct NL. exists r.
    exact (served_matches _ _ _ _ _ I N).
  - split; [|unfold unserved; destruct m; [contradiction | reflexivity]].
    intros [r [Hp [Hr Hm]]]. subst rest.
    assert (Hin : In r (bucket (_hash o rq) m)) by (apply (in_bucket o); auto).
    rewrite El, app_nil_r in Hin. rewrite Forall_forall in Fsk. specialize (Fsk r Hin). unfold noresp in Fsk.
    congruence.
Qed.

Lemma no_index_error o rq m : Inv o m -> fst (request_hook o rq m) <> Raised.
Proof.
  intros I. destruct (request_hook_spec o rq m I) as (x & rest & sk & N & _). rewrite N. simpl.
  destruct x; [discriminate|]. intro E. pose proof (unserved_spec o m) as U. rewrite E in U. exact U.
Qed.

(* with reuse every branch of next_flow hands the flowmap back *)
Lemma reuse_keeps_map o rq m : reuse_on o = true -> snd (request_hook o rq m) = m.
Proof.
  intro R. rewrite request_hook_next. unfold next_flow, reuse_on in *. simpl. rewrite R.
  destruct (fm_find (_hash o rq) m) as [l|]; [destruct (find rec_has_resp l)|]; reflexivity.
Qed.

Lemma reuse_every_time s rq : reuse_on (st_opts s) = true ->
  forall n, run s (repeat (ORequest rq) n)
            = repeat (s, Some (fst (request_hook (st_opts s) rq (st_map s)))) n.
Proof.
  destruct s as [o m]. simpl. intros R. induction n as [|n IH]; [reflexivity|].
  simpl. pose proof (reuse_keeps_map o rq m R) as K.
  destruct (request_hook o rq m) as [out m2]. simpl in *. subst m2. rewrite IH. reflexivity.
Qed.

Lemma request_pop o rq m :
  Inv o m -> reuse_on o = false ->
  exists sk, Forall (fun x => noresp x /\ matches o rq x) sk /\
    Permutation (pending m)
                (sk ++ served_list (fst (request_hook o rq m)) ++ pending (snd (request_hook o rq m))).
Proof.
  intros I R. destruct (request_hook_spec o rq m I) as (x & rest & sk & N & El & Fsk & Hx).
  rewrite N, R. simpl fst. simpl snd. exists sk. split.
  - rewrite Forall_forall in *. intros y Hy. split; [exact (Fsk y Hy)|].
    apply (in_bucket o m (_hash o rq) y I). rewrite El. apply in_or_app. left. exact Hy.
  - rewrite fm_shrink_pending by (rewrite El, app_assoc; apply incl_appr, incl_refl).
    rewrite (pending_bucket (_hash o rq) m), El, <- !app_assoc.
    replace (served_list match x with Some r => Served r | None => unserved o m end) with (olist x);
      [reflexivity|].
    destruct x; [reflexivity|]. pose proof (unserved_spec o m) as U. destruct (unserved o m); try reflexivity; destruct U.
Qed.

Definition https (fs : list flow) : list recording :=
  flat_map (fun f => match f with FHttp r => [r] | FOther => [] end) fs.

Lemma https_map_FHttp l : https (map FHttp l) = l.
Proof. unfold https. induction l as [|r l IH]; simpl; [reflexivity|]. rewrite IH. reflexivity. Qed.

Lemma add_flows_pending o : forall fs m,
  Permutation (pending (add_flows o fs m)) (pending m ++ https fs).
Proof.
  unfold add_flows. induction fs as [|f fs IH]; intro m; simpl.
  - rewrite app_nil_r. reflexivity.
  - rewrite IH. destruct f as [r|]; simpl.
    + rewrite (fm_add_pending _ r m), <- app_assoc. reflexivity.
    + reflexivity.
Qed.

Lemma load_flows_pending o fs : Permutation (pending (load_flows o fs)) (https fs).
Proof. unfold load_flows. rewrite add_flows_pending. reflexivity. Qed.

Lemma configure_conserves s upd :
  Permutation (pending (st_map (fst (step s (OConfigure upd))))) (pending (st_map s)).
Proof.
  simpl. unfold configure, recompute_hashes. destruct (existsb in_hash_options upd); simpl; [|reflexivity].
  rewrite load_flows_pending, https_map_FHttp. reflexivity.
Qed.

(* every recording handed to replay.server / replay.server.add *)
Definition loaded (h : list op) : list recording :=
  flat_map (fun x => match x with OLoad fs | OAdd fs => https fs | _ => [] end) h.

(* recordings served by requests handled while reuse was off *)
Fixpoint served_pop (s : state) (h : list op) : list recording :=
  match h with
  | [] => []
  | x :: rest =>
      (match snd (step s x) with
       | Some (Served r) => if reuse_on (st_opts s) then [] else [r]
       | _ => []
       end) ++ served_pop (fst (step s x)) rest
  end.

(* recordings thrown away by replay.server (which replaces the list) and replay.server.stop *)
Fixpoint discarded (s : state) (h : list op) : list recording :=
  match h with
  | [] => []
  | x :: rest =>
      (match x with OLoad _ | OClear => pending (st_map s) | _ => [] end)
      ++ discarded (fst (step s x)) rest
  end.

Lemma Permutation_app_past2 {A} (a x y z : list A) : Permutation (a ++ x ++ y ++ z) (x ++ y ++ (a ++ z)).
Proof.
  rewrite (Permutation_app_swap_app a x). apply Permutation_app_head.
  apply Permutation_app_swap_app.
Qed.

Lemma accounting : forall h s,
  Inv (st_opts s) (st_map s) ->
  exists skipped, Forall noresp skipped /\
    Permutation (pending (st_map s) ++ loaded h)
                (served_pop s h ++ skipped ++ discarded s h ++ pending (st_map (final s h))).
Proof.
  induction h as [|x h IH]; intros s I.
  - exists []. simpl. rewrite app_nil_r. split; [constructor | reflexivity].
  - (* P accounts for the rest of the history from the state after x; each case adds what x moves *)
    destruct (IH (fst (step s x)) (Inv_step s x I)) as [sk [Fsk P]].
    change (final s (x :: h)) with (final (fst (step s x)) h).
    simpl served_pop. simpl discarded. unfold loaded in *. simpl flat_map.
    destruct x as [fs|fs| |rq|upd].
    + exists sk. split; [exact Fsk|]. simpl in P. simpl.
      rewrite (load_flows_pending (st_opts s) fs) in P.
      rewrite <- app_assoc, P. apply Permutation_app_past2.
    + exists sk. split; [exact Fsk|]. simpl in P. simpl.
      rewrite (add_flows_pending (st_opts s) fs (st_map s)) in P.
      rewrite app_assoc. exact P.
    + exists sk. split; [exact Fsk|]. simpl in P. simpl. rewrite <- app_assoc.
      rewrite P. apply Permutation_app_past2.
    + simpl in P. simpl.
      pose proof (request_pop (st_opts s) rq (st_map s) I) as RP.
      pose proof (reuse_keeps_map (st_opts s) rq (st_map s)) as RK.
      destruct (request_hook (st_opts s) rq (st_map s)) as [out m2]. simpl in *.
      destruct (reuse_on (st_opts s)).
      * rewrite (RK eq_refl) in *. exists sk. split; [exact Fsk|].
        destruct out; simpl; exact P.
      * destruct (RP eq_refl) as [sk1 [Fsk1 P1]]. exists (sk1 ++ sk). split.
        { apply Forall_app. split; [|exact Fsk]. exact (Forall_impl _ (fun y Hy => proj1 Hy) Fsk1). }
        change (match out with Served r => [r] | _ => [] end) with (served_list out).
        rewrite P1, <- !app_assoc, P, (Permutation_app_swap_app sk1 (served_list out)).
        apply Permutation_app_head, Permutation_app_swap_app.
    + simpl in P. simpl. pose proof (configure_conserves s upd) as C. simpl in C.
      destruct (configure (st_opts s) upd (st_map s)) as [o2 m2]. simpl in *.
      exists sk. split; [exact Fsk|]. rewrite <- C. exact P.
Qed.

Definition ids (l : list recording) : list N := map rec_id l.

Lemma NoDup_app_l {A} (a b : list A) : NoDup (a ++ b) -> NoDup a.
Proof.
  induction a as [|x a IH]; simpl; intro H; [constructor|].
  inversion H as [|? ? Hn H2]; subst. constructor; [|auto].
  intro Hin. apply Hn. apply in_or_app. left. exact Hin.
Qed.

Lemma served_once h s :
  Inv (st_opts s) (st_map s) ->
  NoDup (ids (pending (st_map s) ++ loaded h)) -> NoDup (ids (served_pop s h)).
Proof.
  intros I ND. destruct (accounting h s I) as [sk [_ P]].
  apply (Permutation_map rec_id) in P. unfold ids in *.
  apply (Permutation_NoDup P) in ND. rewrite map_app in ND. exact (NoDup_app_l _ _ ND).
Qed.

(* every bucket is in recording order *)
Definition BSorted (m : flowmap) : Prop :=
  forall k l, In (k, l) m -> StronglySorted N.lt (ids l).

Lemma ss_app_iff (a b : list N) :
  StronglySorted N.lt (a ++ b) <->
  StronglySorted N.lt a /\ StronglySorted N.lt b /\ (forall x y, In x a -> In y b -> (x < y)%N).
Proof.
  induction a as [|z a IH]; simpl.
  - split; [intro H; repeat split; [constructor | exact H | intros x y []] | tauto].
  - split.
    + intro H. inversion H as [|? ? H2 F]; subst. apply IH in H2. destruct H2 as [Sa [Sb Hab]].
      rewrite Forall_app in F. destruct F as [Fa Fb]. rewrite Forall_forall in Fb.
      repeat split; [constructor; assumption | exact Sb | intros x y [<-|Hx] Hy; auto].
    + intros [Sa [Sb Hab]]. inversion Sa as [|? ? Sa2 Fa]; subst. constructor; [apply IH; auto|].
      apply Forall_app. split; [exact Fa|]. apply Forall_forall. intros y Hy. apply Hab; [left; reflexivity | exact Hy].
Qed.

Lemma BSorted_fm_add k r m :
  BSorted m -> (forall x, In x (pending m) -> (rec_id x < rec_id r)%N) -> BSorted (fm_add k r m).
Proof.
  intros B H k2 l2 Hin. destruct (fm_add_bucket _ _ _ _ _ Hin) as [H2|E]; [exact (B _ _ H2)|].
  injection E as -> ->. unfold ids. rewrite map_app. apply ss_app_iff. repeat split.
  - destruct (bucket k m) as [|x l] eqn:Eb; [constructor|]. rewrite <- Eb.
    apply (B k), (bucket_in k m x). rewrite Eb. left. reflexivity.
  - repeat constructor.
  - intros y i Hy [<-|[]]. apply in_map_iff in Hy. destruct Hy as [x [<- Hx]]. apply H.
    apply in_pending. exists k, (bucket k m). split; [exact (bucket_in _ _ _ Hx) | exact Hx].
Qed.

Lemma BSorted_add_flows o : forall fs m,
  BSorted m -> StronglySorted N.lt (ids (https fs)) ->
  (forall x i, In x (pending m) -> In i (ids (https fs)) -> (rec_id x < i)%N) ->
  BSorted (add_flows o fs m).
Proof.
  unfold add_flows. induction fs as [|f fs IH]; intros m B S H; simpl; [exact B|].
  destruct f as [r|]; simpl in *; [|apply IH; assumption].
  inversion S as [|? ? S2 F]; subst. apply IH; [|exact S2|].
  - apply BSorted_fm_add; [exact B|]. intros x Hx. apply (H x); [exact Hx | left; reflexivity].
  - intros x i Hx Hi. apply (Permutation_in _ (fm_add_pending _ r m)) in Hx.
    apply in_app_or in Hx. destruct Hx as [Hx|[<-|[]]].
    + apply (H x); [exact Hx | right; exact Hi].
    + rewrite Forall_forall in F. exact (F i Hi).
Qed.

Lemma BSorted_nil : BSorted [].
Proof. intros k l []. Qed.

Lemma BSorted_fm_shrink k sk rest m :
  BSorted m -> bucket k m = sk ++ rest -> BSorted (fm_shrink k rest m).
Proof.
  intros B El k2 l2 H. destruct (fm_shrink_bucket _ _ _ _ _ H) as [H2|[E Hne]]; [exact (B _ _ H2)|].
  injection E as -> ->. destruct rest as [|x rest]; [contradiction|].
  assert (Hb : In (k, bucket k m) m) by (apply (bucket_in k m x); rewrite El; apply in_elt).
  apply B in Hb. rewrite El in Hb. unfold ids in Hb. rewrite map_app in Hb.
  apply ss_app_iff in Hb. tauto.
Qed.

(* the served recording is the earliest pending one that matches and has a response *)
Definition earliest_served (s : state) (rq : request) : Prop :=
  forall r m2, request_hook (st_opts s) rq (st_map s) = (Served r, m2) ->
  forall r2, In r2 (pending (st_map s)) -> rec_has_resp r2 = true -> matches (st_opts s) rq r2 ->
  (rec_id r <= rec_id r2)%N.

(* r2 sits in the bucket of the request key: not among the skipped ones, so it is the served
   recording or comes after it in the sorted bucket *)
Lemma served_earliest s rq :
  Inv (st_opts s) (st_map s) -> BSorted (st_map s) -> earliest_served s rq.
Proof.
  destruct s as [o m]. intros I B r m2 E r2 Hp R2 M2. simpl in *.
  assert (Hin : In r2 (bucket (_hash o rq) m)) by (apply (in_bucket o); auto).
  destruct (request_hook_spec o rq m I) as (x & rest & sk & N & El & Fsk & _).
  rewrite N in E. destruct x as [r3|].
  - injection E as <- _.
    pose proof (B _ _ (bucket_in _ _ _ Hin)) as Sl. rewrite El in Sl. unfold ids in Sl.
    rewrite map_app in Sl. apply ss_app_iff in Sl. destruct Sl as [_ [Sl _]].
    simpl in Sl. inversion Sl as [|? ? _ Fl]; subst. rewrite Forall_forall in Fl.
    rewrite El in Hin. apply in_app_or in Hin. destruct Hin as [Hin|[<-|Hin]].
    + rewrite Forall_forall in Fsk. specialize (Fsk r2 Hin). unfold noresp in Fsk. congruence.
    + apply N.le_refl.
    + apply N.lt_le_incl, Fl, in_map, Hin.
  - injection E as E _. pose proof (unserved_spec o m) as U. rewrite E in U. destruct U.
Qed.

Definition hist_ids (h : list op) : list N := ids (loaded h).

(* the recording numbers are the recording order: they increase along the history *)
Definition recorded_in_order (h : list op) : Prop := StronglySorted N.lt (hist_ids h).

(* every re-index (an update naming a hash option) starts from a flowmap whose buckets, read in
   dict order, are in recording order -- the complement of the known finding reindex-order *)
Fixpoint reindex_sorted (s : state) (h : list op) : Prop :=
  match h with
  | [] => True
  | x :: rest =>
      (match x with
       | OConfigure upd =>
           existsb in_hash_options upd = true -> StronglySorted N.lt (ids (pending (st_map s)))
       | _ => True
       end) /\ reindex_sorted (fst (step s x)) rest
  end.

Lemma hist_ids_cons x h :
  hist_ids (x :: h) = ids (match x with OLoad fs | OAdd fs => https fs | _ => [] end) ++ hist_ids h.
Proof. unfold hist_ids, loaded, ids. simpl. rewrite map_app. reflexivity. Qed.

Lemma BSorted_final : forall h s,
  Inv (st_opts s) (st_map s) -> BSorted (st_map s) ->
  (forall x i, In x (pending (st_map s)) -> In i (hist_ids h) -> (rec_id x < i)%N) ->
  recorded_in_order h -> reindex_sorted s h ->
  BSorted (st_map (final s h)).
Proof.
  induction h as [|x h IH]; intros s I B Hb RO RS; [exact B|].
  change (final s (x :: h)) with (final (fst (step s x)) h).
  destruct RS as [RS1 RS2]. unfold recorded_in_order in RO. rewrite hist_ids_cons in RO, Hb.
  apply ss_app_iff in RO. destruct RO as [RO1 [RO2 RO3]].
  apply IH; [apply Inv_step; exact I | | | exact RO2 | exact RS2].
  - destruct x as [fs|fs| |rq|upd]; simpl.
    + apply BSorted_add_flows; [apply BSorted_nil | exact RO1 | intros x i []].
    + apply BSorted_add_flows; [exact B | exact RO1 |].
      intros x i Hx Hi. apply (Hb x); [exact Hx | apply in_or_app; left; exact Hi].
    + apply BSorted_nil.
    + destruct (request_hook_spec (st_opts s) rq (st_map s) I) as (y & rest & sk & N & El & _). rewrite N. simpl.
      destruct (reuse_on (st_opts s)); [exact B|]. rewrite app_assoc in El. exact (BSorted_fm_shrink _ _ _ _ B El).
    + unfold configure. destruct (existsb in_hash_options upd) eqn:E; simpl.
      * apply BSorted_add_flows; [apply BSorted_nil | rewrite https_map_FHttp; exact (RS1 eq_refl) | intros x i []].
      * exact B.
  - (* what is pending after x was pending before or was loaded by x *)
    intros y i Hy Hi. destruct (accounting [x] s I) as [sk [_ P]].
    assert (Hy2 : In y (pending (st_map s) ++ loaded [x])).
    { apply (Permutation_in y (Permutation_sym P)). do 3 (apply in_or_app; right). exact Hy. }
    clear Hy. apply in_app_or in Hy2. destruct Hy2 as [Hy|Hy].
    + apply (Hb y i Hy). apply in_or_app. right. exact Hi.
    + apply RO3; [|exact Hi]. unfold loaded in Hy. simpl in Hy. rewrite app_nil_r in Hy. apply in_map, Hy.
Qed.

Theorem earliest_from h s rq :
  Inv (st_opts s) (st_map s) -> BSorted (st_map s) ->
  (forall x i, In x (pending (st_map s)) -> In i (hist_ids h) -> (rec_id x < i)%N) ->
  recorded_in_order h -> reindex_sorted s h -> earliest_served (final s h) rq.
Proof.
  intros I B Hb RO RS. apply served_earliest; [apply Inv_final; exact I | apply BSorted_final; assumption].
Qed.

Fixpoint no_reindex (h : list op) : Prop :=
  match h with
  | [] => True
  | OConfigure upd :: rest => existsb in_hash_options upd = false /\ no_reindex rest
  | _ :: rest => no_reindex rest
  end.

Lemma no_reindex_sorted : forall h s, no_reindex h -> reindex_sorted s h.
Proof.
  induction h as [|x h IH]; intros s H; simpl; [exact I|].
  destruct x; simpl in H; try (split; [exact I | apply IH; exact H]).
  destruct H as [E H]. split; [rewrite E; discriminate | apply IH; exact H].
Qed.
