(* Proofs/StrutilsPipeline.v — the literal pipeline (repr, then the two regex
   rewrites) equals the per-byte escaping [escape_direct].  The regex scanner works on
   maximal backslash runs that cross byte boundaries; the invariant is that the run
   pending at a token boundary always has even length. *)
From Coq Require Import List Bool Arith NArith Lia.
From MV Require Import Base.Bytes Model.Strutils.
Import ListNotations.

Definition nb (c : byte) : bool := negb (byte_eqb c BSL).

(* token shapes produced by repr_byte and preserved by the rewrites *)
Definition tok_ok (t : bytes) : bool :=
  match t with
  | c1 :: c2 :: tail =>
    if byte_eqb c1 BSL then
      (if byte_eqb c2 BSL then match tail with [] => true | _ => false end
       else forallb nb tail)
    else forallb nb t
  | _ => forallb nb t
  end.

(* what one regex rewrite does to one token: backslash + target character becomes the replacement *)
Definition rewr (tgt : rewrite_target) (t : bytes) : bytes :=
  match t with
  | c1 :: c2 :: tail =>
    if byte_eqb c1 BSL && nb c2 then
      match tgt c2 with Some d => d :: tail | None => t end
    else t
  | _ => t
  end.

(* a replacement is never a backslash, so rewritten tokens keep a token shape *)
Definition tgt_ok (tgt : rewrite_target) : Prop := forall c d, tgt c = Some d -> nb d = true.

Lemma repeat_snoc {A} (x : A) n l : repeat x n ++ x :: l = repeat x (S n) ++ l.
Proof. induction n as [|n IH]; simpl; [reflexivity|]. rewrite IH. reflexivity. Qed.

Lemma resub_plain tgt tail rest :
  forallb nb tail = true -> resub tgt O (tail ++ rest) = tail ++ resub tgt O rest.
Proof.
  induction tail as [|c tail IH]; intros H; [reflexivity|].
  simpl in H. apply andb_true_iff in H as [Hc Ht].
  cbn [app resub]. unfold nb in Hc. apply negb_true_iff in Hc. rewrite Hc.
  destruct (tgt c); cbn [Nat.odd repeat app]; rewrite IH by exact Ht; reflexivity.
Qed.

Lemma resub_plain_n tgt t rest n :
  t <> [] -> forallb nb t = true -> Nat.even n = true ->
  resub tgt n (t ++ rest) = repeat BSL n ++ t ++ resub tgt O rest.
Proof.
  intros Hne H Hn. destruct t as [|c t]; [contradiction|].
  cbn [forallb] in H. apply andb_true_iff in H as [Hc Ht].
  cbn [app resub]. unfold nb in Hc. apply negb_true_iff in Hc. rewrite Hc.
  unfold Nat.odd. rewrite Hn, resub_plain by exact Ht.
  destruct (tgt c); reflexivity.
Qed.

Lemma resub_tokens tgt toks :
  Forall (fun t => tok_ok t = true) toks ->
  forall n, Nat.even n = true ->
  resub tgt n (concat toks) = repeat BSL n ++ concat (map (rewr tgt) toks).
Proof.
  induction 1 as [|t toks Ht _ IH]; intros n Hn; cbn [concat map].
  - rewrite app_nil_r. reflexivity.
  - (* a token without backslash is copied, after the pending run *)
    assert (Hplain : t <> [] -> forallb nb t = true -> rewr tgt t = t ->
              resub tgt n (t ++ concat toks) = repeat BSL n ++ rewr tgt t ++ concat (map (rewr tgt) toks)).
    { intros Hne Hnb ->. rewrite (resub_plain_n tgt t _ n Hne Hnb Hn), (IH 0) by reflexivity. reflexivity. }
    destruct t as [|c1 [|c2 tail]]; [apply IH, Hn | apply Hplain; [discriminate | exact Ht | reflexivity] |].
    cbn [tok_ok] in Ht. destruct (byte_eqb c1 BSL) eqn:E1;
      [|apply Hplain; [discriminate | exact Ht | cbn [rewr]; rewrite E1; reflexivity]].
    apply byte_eqb_eq in E1. subst c1. cbn [rewr app resub]. unfold nb at 1. rewrite byte_eqb_refl.
    destruct (byte_eqb c2 BSL) eqn:E2; cbn [negb andb].
    + (* backslash backslash: the run grows by two *)
      destruct tail; [|discriminate]. apply byte_eqb_eq in E2. subst c2. cbn [app].
      rewrite (IH (S (S n))) by (rewrite Nat.even_succ_succ; exact Hn).
      rewrite !repeat_snoc. reflexivity.
    + (* backslash, c2, plain tail: the run is now odd, so a target c2 swallows its last backslash *)
      assert (E : resub tgt 0 (tail ++ concat toks) = tail ++ concat (map (rewr tgt) toks)).
      { rewrite resub_plain by exact Ht. f_equal. apply (IH 0). reflexivity. }
      destruct (tgt c2) as [d|].
      * rewrite Nat.odd_succ, Hn. cbn [Nat.sub]. rewrite Nat.sub_0_r, E. reflexivity.
      * rewrite E, <- repeat_snoc. reflexivity.
Qed.

Lemma resub_tokens0 tgt toks :
  Forall (fun t => tok_ok t = true) toks -> resub tgt 0 (concat toks) = concat (map (rewr tgt) toks).
Proof. intro H. apply (resub_tokens tgt toks H 0). reflexivity. Qed.

Lemma rewr_ok tgt t : tgt_ok tgt -> tok_ok t = true -> tok_ok (rewr tgt t) = true.
Proof.
  intros Htgt Ht. destruct t as [|c1 [|c2 tail]]; [exact Ht | exact Ht |].
  cbn [rewr]. destruct (byte_eqb c1 BSL && nb c2) eqn:E; [|exact Ht].
  destruct (tgt c2) as [d|] eqn:Ed; [|exact Ht].
  apply andb_true_iff in E as [E1 E2]. apply Htgt in Ed.
  cbn [tok_ok] in Ht. rewrite E1 in Ht. unfold nb in E2. apply negb_true_iff in E2. rewrite E2 in Ht.
  assert (Hall : forallb nb (d :: tail) = true) by (cbn [forallb]; rewrite Ed, Ht; reflexivity).
  destruct tail as [|c3 tail']; [exact Hall|].
  cbn [tok_ok]. unfold nb in Ed. apply negb_true_iff in Ed. rewrite Ed. exact Hall.
Qed.

Lemma tgt_quote_ok : tgt_ok tgt_quote.
Proof. intros c d. unfold tgt_quote. destruct (byte_eqb c SQ); intros [=<-]; reflexivity. Qed.

(* not needed below: the spacing rewrite is the last stage, nothing scans its output *)
Lemma tgt_spacing_ok : tgt_ok tgt_spacing.
Proof.
  intros c d. unfold tgt_spacing.
  destruct (byte_eqb c x6e); [intros [=<-]; reflexivity|].
  destruct (byte_eqb c x72); [intros [=<-]; reflexivity|].
  destruct (byte_eqb c x74); [intros [=<-]; reflexivity|discriminate].
Qed.

Lemma repr_byte_ok b : tok_ok (repr_byte b) = true.
Proof. revert b. apply forall_bytes. vm_compute. reflexivity. Qed.

Definition stage (ks eq : bool) (b : byte) : bytes :=
  let t0 := repr_byte b in
  let t1 := if eq then t0 else rewr tgt_quote t0 in
  if ks then rewr tgt_spacing t1 else t1.

Lemma stage_esc_byte ks eq b : bytes_eqb (stage ks eq b) (esc_byte ks eq b) = true.
Proof. revert b. apply forall_bytes. destruct ks, eq; vm_compute; reflexivity. Qed.

Lemma Forall_map_ok {A} (f : A -> bytes) (l : list A) :
  (forall a, tok_ok (f a) = true) -> Forall (fun t => tok_ok t = true) (map f l).
Proof. intros H. apply Forall_forall. intros t Hin. apply in_map_iff in Hin as [a [<- _]]. apply H. Qed.

Lemma pipeline_stage data ks eq :
  bytes_to_escaped_str data ks eq = concat (map (stage ks eq) data).
Proof.
  pose proof (Forall_map_ok repr_byte data repr_byte_ok) as H0.
  assert (Hq : Forall (fun t => tok_ok t = true) (map (rewr tgt_quote) (map repr_byte data))).
  { rewrite map_map. apply Forall_map_ok. intros b. apply rewr_ok; [apply tgt_quote_ok | apply repr_byte_ok]. }
  pose proof (resub_tokens0 tgt_quote _ H0) as Eq0.
  pose proof (resub_tokens0 tgt_spacing _ H0) as Es0.
  pose proof (resub_tokens0 tgt_spacing _ Hq) as Esq.
  pose proof (flat_map_concat_map repr_byte data : py_repr_body data = concat (map repr_byte data)) as Er.
  unfold bytes_to_escaped_str, stage. rewrite Er.
  destruct eq, ks; cbv beta iota zeta; rewrite ?Eq0, ?Es0, ?Esq, ?map_map; reflexivity.
Qed.

Theorem pipeline_is_direct data ks eq :
  bytes_to_escaped_str data ks eq = escape_direct data ks eq.
Proof.
  rewrite pipeline_stage. unfold escape_direct. rewrite flat_map_concat_map.
  f_equal. apply map_ext. intros b. apply bytes_eqb_eq, stage_esc_byte.
Qed.
