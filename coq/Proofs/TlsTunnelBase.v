(* Proofs/TlsTunnelBase.v -- a small relational program logic for the monad of
   Model/TlsTunnel.v, and the invariants that need no assumption on the record layer:
   ConnectionClosed(conn) reaches the child at most once, and the tunnel queue is replayed
   in order, each event once.  Everything holds for every record layer, every child layer,
   every configuration and every fuel. *)
From Coq Require Import List Bool Arith NArith Lia.
From MV Require Import Base.Bytes Model.TlsTunnel.
Import ListNotations.

Lemma child_closes_app c a b : child_closes c (a ++ b) = child_closes c a + child_closes c b.
Proof. unfold child_closes. rewrite filter_app, app_length. reflexivity. Qed.
Lemma drops_app a b : drops (a ++ b) = drops a + drops b.
Proof. unfold drops. rewrite filter_app, app_length. reflexivity. Qed.
Lemma replayed_app a b : replayed (a ++ b) = replayed a ++ replayed b.
Proof. apply flat_map_app. Qed.
Lemma child_data_app c a b : child_data c (a ++ b) = child_data c a ++ child_data c b.
Proof. apply flat_map_app. Qed.
Lemma child_sends_app c a b : child_sends c (a ++ b) = child_sends c a ++ child_sends c b.
Proof. apply flat_map_app. Qed.
Lemma sent_wire_app c a b : sent_wire c (a ++ b) = sent_wire c a ++ sent_wire c b.
Proof. apply flat_map_app. Qed.
Lemma tunnel_data_app c a b : tunnel_data c (a ++ b) = tunnel_data c a ++ tunnel_data c b.
Proof. apply flat_map_app. Qed.
Lemma conn_eqb_refl c : conn_eqb c c = true.
Proof. destruct c; reflexivity. Qed.
Lemma conn_eqb_eq a b : conn_eqb a b = true <-> a = b.
Proof. destruct a, b; simpl; split; congruence. Qed.
Lemma tstate_eqb_eq a b : tstate_eqb a b = true <-> a = b.
Proof. destruct a, b; simpl; split; congruence. Qed.

Section Base.
  Variable R : Type.
  Variable bio_write : R -> bytes -> R.
  Variable recv : R -> R * recv_res.
  Variable bio_read : R -> R * option bytes.
  Variable sendall : R -> bytes -> R * send_res.
  Variable do_handshake : R -> R * hs_res.
  Variable parse_hello : bytes -> hello_res.
  Variable CS : Type.
  Variable child : CS -> event -> CS * list cmd * bool.
  Variable cf : cfg.

  Notation ST := (st R CS).
  Notation MM := (M R CS).
  Notation Bind := (bind R CS).
  Notation Ret := (ret R CS).

  Definition stt {A} (x : option A * ST * list titem) : ST := snd (fst x).
  Definition trc {A} (x : option A * ST * list titem) : list titem := snd x.
  Definition val {A} (x : option A * ST * list titem) : option A := fst (fst x).

  Definition okv {A} (x : option A * ST * list titem) : bool :=
    match val x with Some _ => true | None => false end.

  (* start state, whether the handler returned normally, final state, trace *)
  Definition Rel := ST -> bool -> ST -> list titem -> Prop.
  Definition sat {A} (F : Rel) (m : MM A) : Prop := forall s, F s (okv (m s)) (stt (m s)) (trc (m s)).

  Lemma sat_bind {A B} (F1 F2 F3 : Rel) (m : MM A) (f : A -> MM B) :
    sat F1 m -> (forall a, sat F2 (f a)) ->
    (forall s s1 t1, F1 s false s1 t1 -> F3 s false s1 t1) ->
    (forall s s1 b s2 t1 t2, F1 s true s1 t1 -> F2 s1 b s2 t2 -> F3 s b s2 (t1 ++ t2)) ->
    sat F3 (Bind m f).
  Proof.
    intros H1 H2 Hc Ht s. unfold bind. specialize (H1 s).
    destruct (m s) as [[[a|] s1] t1]; cbn [okv val stt trc fst snd] in *.
    - specialize (H2 a s1). destruct (f a s1) as [[b s2] t2]; cbn [okv val stt trc fst snd] in *. eauto.
    - eauto.
  Qed.

  Definition good (F : Rel) : Prop :=
    (forall s, F s true s []) /\
    (forall s s1 b s2 t1 t2, F s true s1 t1 -> F s1 b s2 t2 -> F s b s2 (t1 ++ t2)).

  Lemma sat_seq {A B} (F : Rel) (m : MM A) (f : A -> MM B) :
    good F -> sat F m -> (forall a, sat F (f a)) -> sat F (Bind m f).
  Proof. intros [_ Ht] H1 H2. eapply sat_bind; eauto. Qed.
  Lemma sat_ret {A} (F : Rel) (a : A) : good F -> sat F (Ret a).
  Proof. intros [Hr _] s. apply Hr. Qed.
  Lemma bind_get_eq {B} (f : ST -> MM B) s : Bind (get R CS) f s = f s s.
  Proof. unfold bind, get. destruct (f s s) as [[b s2] t2]. reflexivity. Qed.
  Lemma sat_get_any {B} (F : Rel) (f : ST -> MM B) :
    (forall s0, sat F (f s0)) -> sat F (Bind (get R CS) f).
  Proof. intros H s. rewrite bind_get_eq. apply H. Qed.
  Lemma bind_modify_eq {B} (g : ST -> ST) (f : unit -> MM B) s : Bind (modify R CS g) f s = f tt (g s).
  Proof. unfold bind, modify. destruct (f tt (g s)) as [[b s2] t2]. reflexivity. Qed.
  Lemma bind_some_eq {A B} (m : MM A) (f : A -> MM B) s a s1 t1 :
    m s = (Some a, s1, t1) -> Bind m f s = let '(b, s2, t2) := f a s1 in (b, s2, t1 ++ t2).
  Proof. intros H. unfold bind. rewrite H. reflexivity. Qed.
  Lemma bind_none_eq {A B} (m : MM A) (f : A -> MM B) s s1 t1 :
    m s = (None, s1, t1) -> Bind m f s = (None, s1, t1).
  Proof. intros H. unfold bind. rewrite H. reflexivity. Qed.
  Lemma bind_emit_eq {B} t (f : unit -> MM B) s :
    Bind (emit R CS t) f s = let '(b, s2, t2) := f tt s in (b, s2, t :: t2).
  Proof. reflexivity. Qed.
  Lemma bind_tls_op_eq {A B} (op : R -> R * A) (f : A -> MM B) s :
    has_tls s = true -> Bind (tls_op R CS op) f s = f (snd (op (tls s))) (set_tls R CS (fst (op (tls s))) s).
  Proof.
    intros H. unfold bind, tls_op. rewrite H. destruct (op (tls s)) as [r a]. cbn [fst snd].
    destruct (f a (set_tls R CS r s)) as [[b s2] t2]. reflexivity.
  Qed.
  Lemma sat_when (F : Rel) b m : good F -> sat F m -> sat F (when R CS b m).
  Proof. intros G H. destruct b; simpl; [exact H | apply sat_ret; exact G]. Qed.
  Lemma sat_iter {A} (F : Rel) (f : A -> MM unit) l :
    good F -> (forall x, sat F (f x)) -> sat F (iter R CS f l).
  Proof.
    intros G H. induction l as [|x l IH]; simpl.
    - apply sat_ret; exact G.
    - apply sat_seq; auto.
  Qed.
  Lemma sat_weaken {A} (F G : Rel) (m : MM A) :
    (forall s b s' t, F s b s' t -> G s b s' t) -> sat F m -> sat G m.
  Proof. intros H Hm s. apply H, Hm. Qed.

  (* ConnectionClosed(conn) reaches the child at most once: every dispatch is paid for by an EClose
     waiting in the tunnel queue or by the one credit that close_sent = false stands for *)
  Definition is_close (e : event) : bool :=
    match e with EClose c => conn_eqb c (me cf) | _ => false end.
  Definition qclose (q : list event) : nat := length (filter is_close q).
  Definition credit (s : ST) : nat := if close_sent s then 0 else 1.
  Notation closes := (child_closes (me cf)).
  Definition b2n (b : bool) : nat := if b then 1 else 0.

  Lemma qclose_app a b : qclose (a ++ b) = qclose a + qclose b.
  Proof. unfold qclose. rewrite filter_app, app_length. reflexivity. Qed.

  (* what code below _handle_event (event_to_child, _handle_command, ...) may do; k is what the caller pays
     for: the event it hands down, if that is a close.  The second clause is there for the replay: a replayed
     event stays in the queue until set_queue [], so Replay below gets qclose (replayed tr) as extra budget,
     and only because the closes waiting in the queue never get fewer does emptying the queue give it back
     (finish_tail_at_event). *)
  Definition Below (k : nat) : Rel := fun s ok s' tr =>
    closes tr + qclose (queue s') + credit s' <= qclose (queue s) + credit s + k
    /\ qclose (queue s) <= qclose (queue s')
    /\ replayed tr = []
    /\ (ok = false -> crashed s' <> None).

  Lemma Below_comp a b s s1 ok s2 t1 t2 : Below a s true s1 t1 -> Below b s1 ok s2 t2 -> Below (a + b) s ok s2 (t1 ++ t2).
  Proof.
    intros (H1 & Q1 & R1 & _) (H2 & Q2 & R2 & C2). unfold Below. rewrite child_closes_app, replayed_app, R1, R2.
    repeat split; auto; lia.
  Qed.
  Lemma Below_frame s ok s' tr :
    queue s' = queue s -> close_sent s' = close_sent s ->
    closes tr = 0 -> replayed tr = [] -> (ok = false -> crashed s' <> None) -> Below 0 s ok s' tr.
  Proof.
    intros Q C Cl Rp Cr. unfold Below, credit. rewrite Q, C, Cl. repeat split; auto; lia.
  Qed.
  Lemma Below_refl s : Below 0 s true s [].
  Proof. apply Below_frame; auto. discriminate. Qed.
  Lemma Below_good : good (Below 0).
  Proof. split; [apply Below_refl | intros; change 0 with (0 + 0); eapply Below_comp; eauto]. Qed.

  Ltac frame := apply Below_frame; try reflexivity; try discriminate.

  Lemma emit_below t :
    (match t with TChild _ | TReplay _ => false | _ => true end) = true -> sat (Below 0) (emit R CS t).
  Proof. intros H s. unfold emit; cbn [okv val stt trc fst snd]. frame; destruct t; try discriminate; reflexivity. Qed.
  Lemma raise_below {A} k : sat (Below 0) (@raise R CS A k).
  Proof. intros s. unfold raise; cbn [okv val stt trc fst snd]. frame. Qed.
  Lemma tls_op_below {A} (op : R -> R * A) : sat (Below 0) (tls_op R CS op).
  Proof.
    intros s. unfold tls_op. destruct (has_tls s).
    - destruct (op (tls s)) as [r a]; cbn [okv val stt trc fst snd]. frame.
    - apply raise_below.
  Qed.
  Lemma pop_open_reply_below : sat (Below 0) (pop_open_reply R CS).
  Proof. intros s. unfold pop_open_reply. destruct (open_replies s); cbn [okv val stt trc fst snd]; frame. Qed.

  Lemma modify_frame_below (f : ST -> ST) :
    (forall s, queue (f s) = queue s) -> (forall s, close_sent (f s) = close_sent s) -> sat (Below 0) (modify R CS f).
  Proof. intros Q C s. unfold modify; cbn [okv val stt trc fst snd]. apply Below_frame; auto. discriminate. Qed.

  (* one rule per shape of a handler body; the goals `repeat step` leaves are the calls of other handlers (and
     the updates of queue or close_sent), in the order of the code *)
  Ltac step :=
    match goal with
    | |- sat (Below 0) (bind _ _ (get _ _) _) => apply sat_get_any; intro
    | |- sat (Below 0) (bind _ _ _ _) => apply sat_seq; [exact Below_good| |intro]
    | |- sat (Below 0) (ret _ _ _) => apply sat_ret; exact Below_good
    | |- sat (Below 0) (when _ _ _ _) => apply sat_when; [exact Below_good|]
    | |- sat (Below 0) (iter _ _ _ _) => apply sat_iter; [exact Below_good|intro]
    | |- sat (Below 0) (emit _ _ _) => apply emit_below; reflexivity
    | |- sat (Below 0) (raise _ _ _) => apply raise_below
    | |- sat (Below 0) (tls_op _ _ _) => apply tls_op_below
    | |- sat (Below 0) (tls_bio_write _ _ _ _) => apply tls_op_below
    | |- sat (Below 0) (pop_open_reply _ _) => apply pop_open_reply_below
    | |- sat (Below 0) (modify _ _ _) => apply modify_frame_below; reflexivity
    | |- sat (Below 0) (if ?b then _ else _) => destruct b
    | |- sat (Below 0) (match ?x with _ => _ end) => destruct x
    end.

  Lemma tls_interact_below n : sat (Below 0) (tls_interact R bio_read CS cf n).
  Proof. induction n as [|n IH]; cbn [tls_interact]; repeat step. exact IH. Qed.
  Lemma recv_loop_below n acc : sat (Below 0) (recv_loop R recv CS n acc).
  Proof. revert acc; induction n as [|n IH]; intro acc; cbn [recv_loop]; repeat step. apply IH. Qed.

  Section Nested.
    Variable etc : event -> MM unit.
    Hypothesis etc_below : forall e, sat (Below (b2n (is_close e))) (etc e).

    Lemma etc_below0 e : is_close e = false -> sat (Below 0) (etc e).
    Proof. intros H. generalize (etc_below e). rewrite H. auto. Qed.

    (* the close_sent guard of receive_data / receive_close *)
    Definition guarded_close : MM unit :=
      Bind (get R CS) (fun s => if close_sent s then Ret tt
             else Bind (modify R CS (set_close_sent R CS true)) (fun _ => etc (EClose (me cf)))).
    Lemma guarded_close_below : sat (Below 0) guarded_close.
    Proof.
      intros s. unfold guarded_close. rewrite bind_get_eq. destruct (close_sent s) eqn:Hc.
      - apply Below_refl.
      - rewrite bind_modify_eq. generalize (etc_below (EClose (me cf)) (set_close_sent R CS true s)).
        unfold is_close; rewrite conn_eqb_refl. unfold Below, credit at 2 4, b2n. simpl.
        rewrite Hc. intros (H & Q & Rp & C). repeat split; auto. lia.
    Qed.

    (* the guard first: step would take it apart and forget that close_sent s = false *)
    Ltac nstep := first [ apply guarded_close_below | step ].

    Lemma receive_data_below d : sat (Below 0) (receive_data R bio_write recv bio_read CS cf etc d).
    Proof.
      unfold receive_data. repeat nstep.
      - apply recv_loop_below.
      - apply tls_interact_below.
      - apply etc_below0. reflexivity.
    Qed.

    Lemma receive_close_below : sat (Below 0) (receive_close R CS cf etc).
    Proof. apply guarded_close_below. Qed.

    Lemma send_data_below d : sat (Below 0) (send_data R bio_read sendall CS cf d).
    Proof. unfold send_data. repeat step. all: apply tls_interact_below. Qed.

    Lemma start_tls_below : sat (Below 0) (start_tls R CS cf).
    Proof. unfold start_tls. repeat step. Qed.

    Lemma tls_rhd_below d : sat (Below 0) (tls_receive_handshake_data R bio_write recv bio_read do_handshake CS cf etc d).
    Proof.
      unfold tls_receive_handshake_data. repeat step.
      - apply receive_data_below.
      - apply tls_interact_below.
    Qed.

    Lemma start_handshake_below : sat (Below 0) (start_handshake R bio_write recv bio_read do_handshake CS cf etc).
    Proof.
      unfold start_handshake. repeat step.
      - apply start_tls_below.
      - apply tls_rhd_below.
    Qed.

    Lemma handle_command_below c :
      sat (Below 0) (handle_command R bio_write recv bio_read sendall do_handshake CS cf etc c).
    Proof.
      unfold handle_command. destruct c; repeat step.
      - apply send_data_below.
      - apply etc_below0; reflexivity.
      - apply start_handshake_below.
    Qed.
  End Nested.

  Notation ETC := (event_to_child R bio_write recv bio_read sendall do_handshake CS child cf).

  Lemma call_child_below e : sat (Below (b2n (is_close e))) (call_child R CS child e).
  Proof.
    intros s. unfold call_child. destruct (child (cstate s) e) as [[cs cmds] r]; cbn [okv val stt trc fst snd].
    unfold Below, child_closes. cbn [filter]. simpl.
    assert (Hc : (match e with EClose c' => conn_eqb c' (me cf) | _ => false end) = is_close e) by reflexivity.
    repeat split; auto; try discriminate.
    rewrite Hc. unfold credit. simpl. destruct (is_close e); simpl; lia.
  Qed.

  Lemma Below0_k k {A} (m : MM A) : sat (Below 0) m -> sat (Below k) m.
  Proof. apply sat_weaken. intros s b s' t (H & Q & Rp & C). repeat split; auto. lia. Qed.

  Lemma enqueue_below e : sat (Below (b2n (is_close e))) (modify R CS (fun s => set_queue R CS (queue s ++ [e]) s)).
  Proof.
    intros s. unfold modify; cbn [okv val stt trc fst snd]. unfold Below; simpl. rewrite qclose_app.
    repeat split; auto; try discriminate; [|lia].
    unfold qclose at 2, credit. simpl. destruct (is_close e); simpl; lia.
  Qed.

  Lemma etc_below_all n e : sat (Below (b2n (is_close e))) (ETC n e).
  Proof.
    revert e; induction n as [|n IH]; intro e; cbn [event_to_child]; apply sat_get_any; intro s0.
    all: destruct (errored s0); [apply Below0_k, sat_ret, Below_good|].
    all: destruct (tstate_eqb (tunnel_state s0) ESTABLISHING && negb (reply_to s0)); [apply enqueue_below|].
    - apply Below0_k, raise_below.
    - eapply sat_bind with (F1 := Below (b2n (is_close e))) (F2 := Below 0).
      + apply call_child_below.
      + intro cr. repeat step. apply handle_command_below. exact IH.
      + auto.
      + intros. replace (b2n (is_close e)) with (b2n (is_close e) + 0) by lia. eapply Below_comp; eauto.
  Qed.

  Notation ETOP := (etc_top R bio_write recv bio_read sendall do_handshake CS child cf).
  Lemma etc_top_below e : sat (Below (b2n (is_close e))) (ETOP e).
  Proof. apply etc_below_all. Qed.
  Lemma etc_top_below0 e : is_close e = false -> sat (Below 0) (ETOP e).
  Proof. intros H. generalize (etc_top_below e). rewrite H. auto. Qed.

  (* _handle_event: after an escaped exception only the bound on the dispatches is left *)
  Definition AtEvent : Rel := fun s ok s' tr =>
    closes tr + (if ok then qclose (queue s') + credit s' else 0) <= qclose (queue s) + credit s
    /\ (ok = false -> crashed s' <> None).
  Lemma AtEvent_good : good AtEvent.
  Proof.
    split; unfold AtEvent.
    - intros; change (closes []) with 0; split; [lia | discriminate].
    - intros s s1 b s2 t1 t2 [H1 _] [H2 C2]. rewrite child_closes_app. split; [destruct b; lia | exact C2].
  Qed.
  Lemma sat_below_at_event {A} (m : MM A) : sat (Below 0) m -> sat AtEvent m.
  Proof. apply sat_weaken. intros s b s' t (H & _ & _ & C). split; [destruct b; lia | exact C]. Qed.
  Lemma modify_at_event (f : ST -> ST) :
    (forall s, queue (f s) = queue s) -> (forall s, close_sent (f s) = close_sent s) -> sat AtEvent (modify R CS f).
  Proof. intros Q C. apply sat_below_at_event, modify_frame_below; assumption. Qed.

  Definition replay_one (e : event) : MM unit := Bind (emit R CS (TReplay e)) (fun _ => ETOP e).
  Definition Replay (q : list event) : Rel := fun s ok s' tr =>
    closes tr + qclose (queue s') + credit s' <= qclose (queue s) + credit s + qclose (replayed tr)
    /\ qclose (queue s) <= qclose (queue s')
    /\ (ok = true -> replayed tr = q)
    /\ (exists rest, q = replayed tr ++ rest)
    /\ (ok = false -> crashed s' <> None).
  Lemma replay_one_ok e : sat (Replay [e]) (replay_one e).
  Proof.
    intros s. unfold replay_one, bind, emit. generalize (etc_top_below e s).
    destruct (ETOP e s) as [[v s'] t]; cbn [okv val stt trc fst snd app].
    intros (H & Q & Rp & C). unfold Replay. simpl replayed. rewrite Rp. repeat split; auto.
    - unfold child_closes in *. cbn [filter]. unfold qclose at 3. simpl filter.
      destruct (is_close e); simpl in *; lia.
    - exists []. reflexivity.
  Qed.
  Lemma replay_all_ok q : sat (Replay q) (iter R CS replay_one q).
  Proof.
    induction q as [|e q IH]; cbn [iter].
    - intros s. cbn [okv val stt trc fst snd ret]. unfold Replay. repeat split; auto; try discriminate.
      + simpl. lia.
      + exists []. reflexivity.
    - eapply sat_bind; [apply replay_one_ok | intros _; exact IH | |].
      + intros s s1 t1 (H & Q & Rp & [rest Rs] & C). unfold Replay. repeat split; auto; try discriminate.
        exists (rest ++ q). rewrite app_assoc, <- Rs. reflexivity.
      + intros s s1 b s2 t1 t2 (H1 & Q1 & Rp1 & _ & _) (H2 & Q2 & Rp2 & [rest Rs] & C2).
        unfold Replay. rewrite replayed_app, (Rp1 eq_refl) in *. repeat split; auto.
        * change (e :: replayed t2) with ([e] ++ replayed t2). rewrite child_closes_app, qclose_app. lia.
        * lia.
        * intros Hb. rewrite (Rp2 Hb). reflexivity.
        * exists rest. simpl. rewrite <- Rs. reflexivity.
  Qed.

  Notation HF := (handshake_finished R bio_write recv bio_read sendall do_handshake CS child cf).

  (* the second half of _handshake_finished *)
  Definition finish_tail (err : bool) : MM unit :=
    Bind (get R CS) (fun s =>
      if reply_to s then Bind (ETOP (EOpened (me cf) err)) (fun _ => modify R CS (set_reply_to R CS false))
      else Bind (iter R CS replay_one (queue s)) (fun _ => modify R CS (set_queue R CS []))).

  (* the queue is replayed in order, each event once (unless an exception escapes meanwhile) *)
  Definition AtEventReplay : Rel := fun s ok s' tr =>
    AtEvent s ok s' tr /\
    (reply_to s = false -> (ok = true -> replayed tr = queue s /\ queue s' = []) /\ exists rest, queue s = replayed tr ++ rest).

  Lemma finish_tail_at_event err : sat AtEventReplay (finish_tail err).
  Proof.
    intros s. unfold finish_tail. rewrite bind_get_eq. destruct (reply_to s) eqn:Hr.
    - split; [|intro; congruence]. apply sat_seq; [exact AtEvent_good| |intro].
      + apply sat_below_at_event, etc_top_below0. reflexivity.
      + apply modify_at_event; reflexivity.
    - generalize (replay_all_ok (queue s) s). unfold bind.
      destruct (iter R CS replay_one (queue s) s) as [[[u|] s1] t1]; cbn [okv val stt trc fst snd app modify].
      + intros (H & Q & Rp & Rs & C). rewrite app_nil_r. unfold AtEventReplay, AtEvent, credit in *. simpl.
        rewrite (Rp eq_refl) in H. change (qclose []) with 0.
        repeat split; auto; try discriminate; lia.
      + intros (H & Q & Rp & [rest Rs] & C). unfold AtEventReplay, AtEvent.
        assert (qclose (queue s) = qclose (replayed t1) + qclose rest) by (rewrite Rs at 1; apply qclose_app).
        repeat split; auto; try discriminate; try lia. exists rest; exact Rs.
  Qed.

  Lemma handshake_finished_eq err :
    HF err = Bind (modify R CS (set_tunnel_state R CS (if err then CLOSED else OPEN))) (fun _ => finish_tail err).
  Proof. reflexivity. Qed.

  Lemma handshake_finished_at_event err : sat AtEvent (HF err).
  Proof.
    rewrite handshake_finished_eq. apply sat_seq; [exact AtEvent_good| |intro].
    - apply modify_at_event; reflexivity.
    - eapply sat_weaken; [|apply finish_tail_at_event]. intros s b s' t [H _]. exact H.
  Qed.

  Lemma on_handshake_error_below err : sat (Below 0) (on_handshake_error R CS cf err).
  Proof. unfold on_handshake_error. destruct (me cf); repeat step. Qed.

  Lemma receive_handshake_data_below d :
    sat (Below 0) (receive_handshake_data R bio_write recv bio_read do_handshake parse_hello CS cf ETOP d).
  Proof.
    unfold receive_handshake_data. destruct (me cf).
    - repeat step.
      + apply tls_rhd_below, etc_top_below.
      + apply start_tls_below.
      + apply tls_rhd_below, etc_top_below.
    - apply tls_rhd_below. exact etc_top_below.
  Qed.

  Notation HE := (handle_event R bio_write recv bio_read sendall do_handshake parse_hello CS child cf).

  Lemma handle_event_at_event e : sat AtEvent (HE e).
  Proof.
    assert (Pass : forall e0, is_close e0 = false -> sat AtEvent (ETOP e0))
      by (intros; apply sat_below_at_event, etc_top_below0; assumption).
    assert (Failed : forall err, sat AtEvent (Bind (on_handshake_error R CS cf err) (fun _ => HF true)))
      by (intro; apply sat_seq; [exact AtEvent_good | apply sat_below_at_event, on_handshake_error_below | intro; apply handshake_finished_at_event]).
    unfold handle_event. destruct e as [|c d|c|c err|t]; try (apply Pass; reflexivity).
    - apply sat_seq; [exact AtEvent_good| |intro; apply Pass; reflexivity].
      apply sat_when; [exact AtEvent_good|]. apply sat_seq; [exact AtEvent_good| |intro].
      + apply modify_at_event; reflexivity.
      + apply sat_below_at_event, start_handshake_below. exact etc_top_below.
    - destruct (conn_eqb c (me cf)) eqn:Hc; [|apply Pass; reflexivity].
      apply sat_get_any; intro s0. destruct (tstate_eqb (tunnel_state s0) ESTABLISHING).
      + apply sat_seq; [exact AtEvent_good| |intro de].
        * apply sat_below_at_event, receive_handshake_data_below.
        * destruct (snd de); [apply Failed | apply sat_when; [exact AtEvent_good | apply handshake_finished_at_event]].
      + apply sat_below_at_event, receive_data_below. exact etc_top_below.
    - destruct (conn_eqb c (me cf)) eqn:Hc; [|apply Pass; exact Hc].
      apply sat_get_any; intro s0. apply sat_seq; [exact AtEvent_good| |intro].
      + destruct (tstate_eqb (tunnel_state s0) OPEN); [apply sat_below_at_event, receive_close_below; exact etc_top_below|].
        destruct (tstate_eqb (tunnel_state s0) ESTABLISHING); [apply Failed | apply sat_ret, AtEvent_good].
      + apply modify_at_event; reflexivity.
  Qed.

  Notation STEP := (step R bio_write recv bio_read sendall do_handshake parse_hello CS child cf).
  Notation RUN := (run R bio_write recv bio_read sendall do_handshake parse_hello CS child cf).

  Definition potential (s : ST) : nat :=
    match crashed s with None => qclose (queue s) + credit s | Some _ => 0 end.

  Lemma step_closes s e : closes (snd (STEP s e)) + potential (fst (STEP s e)) <= potential s.
  Proof.
    unfold step, potential. destruct (crashed s) eqn:Hc.
    - simpl. rewrite Hc. lia.
    - generalize (handle_event_at_event e s). destruct (HE e s) as [[v s'] t]; cbn [okv val stt trc fst snd].
      intros [H C]. destruct v; simpl in *.
      + destruct (crashed s'); lia.
      + destruct (crashed s'); [lia | exfalso; apply C; reflexivity].
  Qed.

  Lemma run_closes evs : forall s, closes (snd (RUN s evs)) + potential (fst (RUN s evs)) <= potential s.
  Proof.
    induction evs as [|e evs IH]; intro s; cbn [run].
    - simpl. lia.
    - generalize (step_closes s e). destruct (STEP s e) as [s1 t1]; cbn [fst snd].
      generalize (IH s1). destruct (RUN s1 evs) as [s2 t2]; cbn [fst snd]. rewrite child_closes_app. lia.
  Qed.

  (* ConnectionClosed(conn) is given to the child at most once, whatever the record layer,
     the child and the environment do *)
  Theorem close_at_most_once r replies cs evs :
    child_closes (me cf) (snd (RUN (init r replies cs) evs)) <= 1.
  Proof.
    generalize (run_closes evs (init r replies cs)). change (potential (init r replies cs)) with 1.
    lia.
  Qed.

  (* _handshake_finished replays the queued events in order, each once *)
  Theorem replay_in_order err s :
    reply_to s = false ->
    let x := HF err s in
    (okv x = true -> replayed (trc x) = queue s /\ queue (stt x) = []) /\
    exists rest, queue s = replayed (trc x) ++ rest.
  Proof.
    intros Hr. rewrite handshake_finished_eq, bind_modify_eq. cbv zeta.
    destruct (finish_tail_at_event err (set_tunnel_state R CS (if err then CLOSED else OPEN) s)) as [_ H]. exact (H Hr).
  Qed.
End Base.
