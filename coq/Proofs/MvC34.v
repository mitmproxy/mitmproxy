(* Proofs/MvC34.v -- what it means for the multipart view to lose a list of parts (C34). *)
From Coq Require Import List Bool NArith.
From MV Require Import Base.Bytes Model.MvCommon Model.MvMultipart Proofs.MvMultipartMain.
Import ListNotations.

Definition mp_lossy (b : bytes) (parts : pairs) : Prop :=
  exists content, set_multipart_form b parts = Some content /\ get_multipart_form b content <> parts.

Lemma mp_lossy_intro b parts r : view b parts = Some r -> r <> parts -> mp_lossy b parts.
Proof.
  unfold view, mp_lossy. destruct (set_multipart_form b parts) as [c|]; [|discriminate].
  intros H Hne. inversion H; subst. exists c. split; [reflexivity|exact Hne].
Qed.
