(* Proofs/TnetTrunc.v -- crash consistency (C37): reading any prefix of a concatenation of
   encoded records yields exactly the completely contained records, in order, and then ends
   cleanly (cut at a record boundary) or with a read error (cut inside a record). *)
From Coq Require Import List Bool Arith NArith ZArith Lia.
From MV Require Import Base.Bytes Model.Tnet Proofs.TnetBase Proofs.TnetRoundtrip Proofs.TnetReader.
Import ListNotations.

Definition file_of (vs : list tv) : bytes := concat (map dumps vs).

(* the records completely contained in the first k bytes, and whether k is a record boundary *)
Fixpoint complete (vs : list tv) (k : nat) : list tv * bool :=
  match vs with
  | [] => ([], true)
  | v :: r =>
      let n := length (dumps v) in
      if (n <=? k)%nat then let c := complete r (k - n) in (v :: fst c, snd c)
      else ([], (k =? 0)%nat)
  end.

Lemma file_of_cons v r : file_of (v :: r) = dumps v ++ file_of r.
Proof. reflexivity. Qed.

Lemma dumps_length v : (1 <= length (dumps v))%nat.
Proof. rewrite dumps_is_spec. apply dumps_spec_length. Qed.

Lemma complete_0 vs : complete vs 0 = ([], true).
Proof.
  destruct vs as [|v r]; [reflexivity|]. cbn [complete].
  destruct (Nat.leb_spec (length (dumps v)) 0); [pose proof (dumps_length v); lia | reflexivity].
Qed.

Lemma complete_app a b k :
  complete (a ++ b) (length (file_of a) + k) = (a ++ fst (complete b k), snd (complete b k)).
Proof.
  induction a as [|v a IH]; [cbn; now destruct (complete b k)|].
  cbn [app complete]. rewrite file_of_cons, app_length, <- Nat.add_assoc.
  destruct (Nat.leb_spec (length (dumps v)) (length (dumps v) + (length (file_of a) + k))); [|lia].
  rewrite Nat.add_comm, Nat.add_sub, IH. reflexivity.
Qed.

Lemma complete_all vs k : (length (file_of vs) <= k)%nat -> complete vs k = (vs, true).
Proof.
  intros H. replace k with (length (file_of vs) + (k - length (file_of vs)))%nat by lia.
  rewrite <- (app_nil_r vs) at 1. rewrite complete_app. cbn [complete fst snd]. now rewrite app_nil_r.
Qed.

Lemma complete_boundary vs j : (j <= length vs)%nat ->
  complete vs (length (file_of (firstn j vs))) = (firstn j vs, true).
Proof.
  intros _. rewrite <- (firstn_skipn j vs) at 1. rewrite <- (Nat.add_0_r (length _)), complete_app, complete_0.
  cbn [fst snd]. now rewrite app_nil_r.
Qed.

Lemma complete_prefix vs : forall k, exists rest, vs = fst (complete vs k) ++ rest.
Proof.
  induction vs as [|v r IH]; intros k; cbn [complete]; [exists []; reflexivity|].
  destruct (length (dumps v) <=? k)%nat.
  - destruct (IH (k - length (dumps v))%nat) as [rest E]. exists rest. cbn [fst app]. now rewrite <- E.
  - exists (v :: r). reflexivity.
Qed.

(* the flag is true only at a record boundary (or beyond the end of the file): a cut inside a
   record is always reported *)
Lemma complete_true_boundary vs : forall k, snd (complete vs k) = true ->
  (length (file_of vs) <= k)%nat \/ exists j, (j <= length vs)%nat /\ k = length (file_of (firstn j vs)).
Proof.
  induction vs as [|v r IH]; intros k H; [left; cbn; lia|].
  cbn [complete] in H. rewrite file_of_cons, app_length.
  destruct (Nat.leb_spec (length (dumps v)) k) as [E|E]; cbn [snd] in H.
  - destruct (IH _ H) as [Hl | (j & Hj & Ek)]; [left; lia|].
    right. exists (S j). cbn [length firstn]. rewrite file_of_cons, app_length. split; lia.
  - apply Nat.eqb_eq in H. subst k. right. exists 0%nat. cbn. split; [lia|reflexivity].
Qed.

Lemma read_len_all_digits ds : forall cnt,
  Forall (fun c => is_digit c = true) ds -> read_len ds cnt = None.
Proof.
  induction ds as [|c r IH]; intros cnt H; cbn [read_len]; [reflexivity|].
  inversion H as [|? ? Hc Hr]; subst. rewrite Hc.
  destruct (12 <? S cnt)%nat; [reflexivity|]. now rewrite IH.
Qed.

Lemma dropN_all n (l : bytes) : (blen l <= n)%N -> dropN n l = [].
Proof. intros H. unfold dropN. rewrite N.min_r by exact H. unfold blen. rewrite Nat2N.id. apply skipn_all. Qed.

Lemma Forall_firstn {A} (P : A -> Prop) k (l : list A) : Forall P l -> Forall P (firstn k l).
Proof. intros H. rewrite <- (firstn_skipn k l) in H. now apply Forall_app in H. Qed.

Section Trunc.
  Variable pyfloat : bytes -> option (bytes * option Z).

  Lemma load_truncated_frame depth p ty k :
    (length (dec_N (blen p)) <= 12)%nat -> (k < length (frame p ty))%nat ->
    load pyfloat depth (firstn k (frame p ty)) =
      if (k =? 0)%nat then LEof
      else if (k <=? length (dec_N (blen p)))%nat then LExc ValueError else LExc IndexError.
  Proof.
    intros H12 Hk. unfold frame in *. rewrite app_length in Hk. cbn [length] in Hk. rewrite app_length in Hk. cbn [length] in Hk.
    rewrite firstn_app.
    destruct k as [|k]; [reflexivity|]. cbn [Nat.eqb].
    destruct (Nat.leb_spec (S k) (length (dec_N (blen p)))) as [E|E].
    - (* cut inside the length digits: read_len meets the end of the file *)
      replace (S k - length (dec_N (blen p)))%nat with 0%nat by lia. cbn [firstn]. rewrite app_nil_r.
      pose proof (Forall_firstn _ (S k) _ (dec_N_digits (blen p))) as Hd.
      destruct (dec_N (blen p)) as [|c r]; [cbn in E; lia|].
      cbn [firstn] in *. unfold load. now rewrite read_len_all_digits.
    - (* cut behind the colon: the payload read is short and no tag byte is left *)
      rewrite firstn_all2 by lia. destruct (S k - length (dec_N (blen p)))%nat as [|j] eqn:Ej; [lia|].
      cbn [firstn]. rewrite load_prefix by exact H12. rewrite dropN_all; [reflexivity|].
      unfold blen. rewrite firstn_length, app_length. cbn [length]. lia.
  Qed.

  Variables outer inner : pyexc -> bool.
  Variable from_state : tv -> option pyexc.
  Variable depth : nat.
  Hypothesis outer_value : outer ValueError = true.
  Hypothesis outer_index : outer IndexError = true.

  (* a record that the untruncated file delivers as a flow *)
  Definition loadable (v : tv) : Prop :=
    wf pyfloat v /\ top_ok v /\ (height v <= depth)%nat /\ is_dict v = true /\ from_state (mirror v) = None.

  Lemma is_dict_mirror v : is_dict (mirror v) = is_dict v.
  Proof. destruct v; reflexivity. Qed.

  Lemma stream_loop_truncated vs : forall n k,
    Forall loadable vs -> (length (firstn k (file_of vs)) < n)%nat ->
    stream_loop pyfloat outer inner from_state depth n (firstn k (file_of vs)) =
      (map mirror (fst (complete vs k)), if snd (complete vs k) then Clean else ReadError).
  Proof.
    induction vs as [|v r IH]; intros n k HF Hn.
    - cbn [file_of map concat]. rewrite firstn_nil. destruct n; [cbn in Hn; lia|]. reflexivity.
    - inversion HF as [|? ? (Hwf & Htop & Hh & Hd & Hfs) Hr]; subst.
      rewrite file_of_cons, firstn_app in *. destruct n as [|n]; [lia|]. cbn [complete stream_loop].
      destruct (Nat.leb_spec (length (dumps v)) k) as [E|E].
      + rewrite firstn_all2 in * by lia. rewrite load_dumps by auto. rewrite is_dict_mirror, Hd, Hfs.
        rewrite app_length in Hn. pose proof (dumps_length v). rewrite IH by (auto; lia). reflexivity.
      + replace (k - length (dumps v))%nat with 0%nat in * by lia. cbn [firstn] in *. rewrite app_nil_r in *.
        cbn [fst snd map]. rewrite dumps_is_spec, dumps_spec_frame in *. rewrite load_truncated_frame by auto.
        destruct (k =? 0)%nat; [reflexivity|].
        destruct (k <=? length (dec_N (blen (payload v))))%nat; [now rewrite outer_value | now rewrite outer_index].
  Qed.

  Theorem stream_truncated vs k :
    Forall loadable vs ->
    stream pyfloat outer inner from_state depth (firstn k (file_of vs)) =
      (map mirror (fst (complete vs k)), if snd (complete vs k) then Clean else ReadError).
  Proof.
    intros HF. rewrite stream_not_har; [apply stream_loop_truncated; auto|].
    destruct vs as [|v r]; [cbn [file_of map concat]; now rewrite firstn_nil|].
    rewrite file_of_cons, dumps_is_spec. destruct (dumps_spec_digit v) as (c & t & -> & Hc).
    destruct k; cbn [firstn app]; auto.
  Qed.

  Theorem stream_whole vs :
    Forall loadable vs ->
    stream pyfloat outer inner from_state depth (file_of vs) = (map mirror vs, Clean).
  Proof.
    intros HF. rewrite <- (firstn_all (file_of vs)). rewrite stream_truncated by auto.
    now rewrite complete_all by lia.
  Qed.

  (* FilteredFlowWriter.add = write one complete record, then flush: after j adds the file is
     the concatenation of the first j records, which reads back completely and cleanly *)
  Theorem stream_after_each_add vs j :
    Forall loadable vs ->
    stream pyfloat outer inner from_state depth (file_of (firstn j vs)) = (map mirror (firstn j vs), Clean).
  Proof. intros HF. apply stream_whole. now apply Forall_firstn. Qed.
End Trunc.
