(* Proofs/ServerPlaybackC52.v -- the state after a history and the hook's decision at it; the
   concrete histories of C52_order_refuted and C52_nonvacuous. *)
From Coq Require Import NArith List.
From MV Require Import Base.Bytes Model.ServerPlayback Proofs.ServerPlaybackMap Proofs.ServerPlaybackMain.
Import ListNotations.

Definition after (o0 : options) (h : list op) : state := final (init o0) h.

Lemma decision o0 h rq :
  let s := after o0 h in
  let out := fst (request_hook (st_opts s) rq (st_map s)) in
  (st_map s = [] -> out = Forward) /\
  (st_map s <> [] ->
     (live (st_opts s) rq (st_map s) -> exists r, out = Served r) /\
     (~ live (st_opts s) rq (st_map s) -> out = unmatched_action (st_opts s))).
Proof. exact (request_decision _ rq _ (Inv_reachable o0 h)). Qed.

Definition opts0 : options := Build_options false false false [] [] [] false false false EForward.

(* GET http://host:80/p with an empty body: str(raw_content) is the text b'' *)
Definition mkreq (host : bytes) : request :=
  Build_request [x68;x74;x74;x70] [x47;x45;x54] [x2f;x70] [] host 80 [x62;x27;x27] [] [] [].

Definition mkrec (i : N) (host : bytes) : recording := Build_recording i (mkreq host) true.

Definition host_a : bytes := [x61].
Definition host_b : bytes := [x62].
Definition host_z : bytes := [x7a].

(* recordings for hosts a, b, a; then the host is ignored; one request has been answered *)
Definition h_bad : list op :=
  [OLoad [FHttp (mkrec 0 host_a); FHttp (mkrec 1 host_b); FHttp (mkrec 2 host_a)];
   OConfigure [SetIgnoreHost true];
   ORequest (mkreq host_z)].

(* recordings for hosts a, b; the host is ignored (a re-index of two buckets that are in
   recording order); requests for a third host get recording 0, then recording 1; the third is forwarded *)
Definition h_good : list op :=
  [OLoad [FHttp (mkrec 0 host_a); FHttp (mkrec 1 host_b)];
   OConfigure [SetIgnoreHost true];
   ORequest (mkreq host_z); ORequest (mkreq host_z); ORequest (mkreq host_z)].
