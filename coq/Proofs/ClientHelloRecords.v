(* Proofs/ClientHelloRecords.v -- C13: the record layer (handshake_record_contents / get_client_hello):
   well-formed record streams, strict prefixes, stability under appended data (for ALL inputs), totality. *)
From Coq Require Import List Bool Arith NArith Lia ZifyBool.
From MV Require Import Base.Bytes Model.ClientHello Model.TlsRef Proofs.ListFacts Proofs.ClientHelloBase.
Import ListNotations.
Local Open Scope N_scope.

Lemma len_blen b : len b = blen b. Proof. reflexivity. Qed.

Lemma hdr_len_pos dtls : 0 < hdr_len dtls. Proof. destruct dtls; reflexivity. Qed.

Lemma hdr_facts dtls h p :
  wf_record dtls (h, p) ->
  blen h = hdr_len dtls /\ starts_like dtls h = true /\ record_size dtls h = blen p /\ 1 <= blen p.
Proof.
  intros [Hh Hp]. cbn [fst snd] in *. rewrite len_blen in Hp.
  assert (Hn : N.of_nat (length p) < 65536) by (unfold blen in Hp; lia).
  pose proof (u16be_put _ Hn) as P.
  destruct (put_u16be_shape (N.of_nat (length p))) as (a & b & E). rewrite E in P.
  destruct dtls; cbn [record_header] in Hh.
  - destruct Hh as (minor & es & -> & Hm & Hes). rewrite E.
    do 9 (destruct es as [|? es]; try discriminate Hes). clear Hes.
    cbn [app]. repeat split; try reflexivity.
    + unfold starts_like, starts_like_dtls_record. cbn.
      destruct Hm as [-> | ->]; reflexivity.
    + unfold record_size. cbn. exact P.
    + lia.
  - destruct Hh as (minor & -> & Hm). rewrite E. cbn [app]. repeat split; try reflexivity.
    + unfold starts_like, starts_like_tls_record. cbn.
      destruct (bN minor <=? 3) eqn:E3; [reflexivity|lia].
    + unfold record_size. cbn. exact P.
    + lia.
Qed.

Lemma hrc_step dtls f h p rest :
  wf_record dtls (h, p) ->
  hrc dtls (S f) (h ++ p ++ rest) = (p :: fst (hrc dtls f rest), snd (hrc dtls f rest)).
Proof.
  intros W. destruct (hdr_facts _ _ _ W) as (Hl & Hs & Hz & Hp).
  cbn [hrc]. rewrite !blen_app.
  destruct (blen h + (blen p + blen rest) <? hdr_len dtls) eqn:E1; [lia|].
  rewrite (take_app_exact h _ _ Hl), Hs. cbn [negb]. rewrite Hz.
  destruct (blen p =? 0) eqn:E2; [lia|].
  rewrite (drop_app_exact h _ _ Hl). rewrite blen_app.
  destruct (blen p + blen rest <? blen p) eqn:E3; [lia|].
  rewrite (take_app_exact p rest _ eq_refl), (drop_app_exact p rest _ eq_refl). reflexivity.
Qed.

Lemma hrc_partial dtls f h p q t :
  wf_record dtls (h, p) -> t <> [] -> q ++ t = h ++ p ->
  hrc dtls (S f) q = ([], EndReturn).
Proof.
  intros W Ht E. destruct (hdr_facts _ _ _ W) as (Hl & Hs & Hz & Hp).
  cbn [hrc]. destruct (blen q <? hdr_len dtls) eqn:E1; [reflexivity|].
  destruct (app_eq_app_le _ _ _ _ E) as (l & -> & ->); [unfold blen in *; lia|].
  rewrite (take_app_exact h l _ Hl), Hs. cbn [negb]. rewrite Hz.
  destruct (blen (l ++ t) =? 0) eqn:E2; [lia|].
  rewrite (drop_app_exact h l _ Hl), blen_app.
  destruct t; [congruence|]. rewrite blen_cons.
  destruct (blen l <? blen l + (1 + blen t)) eqn:E3; [reflexivity|lia].
Qed.

Lemma stream_cons rc recs : stream (rc :: recs) = fst rc ++ snd rc ++ stream recs.
Proof. unfold stream. cbn [map concat]. rewrite app_assoc. reflexivity. Qed.

(* on a prefix of the stream the generator yields the fragments of the complete records and returns; what
   it has not yielded is empty exactly when the prefix is the whole stream *)
Lemma hrc_prefix dtls recs :
  Forall (wf_record dtls) recs ->
  forall q t f, q ++ t = stream recs -> (length q < f)%nat ->
  exists ps rest, payloads recs = concat ps ++ rest /\ hrc dtls f q = (ps, EndReturn)
                  /\ is_nil rest = is_nil t.
Proof.
  induction 1 as [|[h p] recs W _ IH]; intros q t f E Hf.
  - apply app_eq_nil in E as [-> ->]. exists [], []. destruct f; [lia|]. repeat split.
    cbn [hrc]. rewrite blen_nil. pose proof (hdr_len_pos dtls). destruct (0 <? hdr_len dtls) eqn:E; [reflexivity|lia].
  - rewrite stream_cons, app_assoc in E. cbn [fst snd] in E. destruct f; [lia|].
    destruct (hdr_facts _ _ _ W) as (Hl & _ & _ & Hp).
    destruct (Nat.le_gt_cases (length (h ++ p)) (length q)) as [L|L].
    + (* the first record is complete *)
      destruct (app_eq_app_le _ _ _ _ E L) as (l & -> & El).
      destruct (IH l t f (eq_sym El)) as (ps & rest & Ep & Hh & Ht).
      { pose proof (hdr_len_pos dtls). unfold blen in Hl. rewrite !app_length in Hf. lia. }
      exists (p :: ps), rest. unfold payloads in *. cbn [map concat snd]. rewrite Ep, app_assoc.
      split; [reflexivity|]. split; [|exact Ht].
      rewrite <- app_assoc, hrc_step, Hh by exact W. reflexivity.
    + (* it is cut *)
      destruct (app_eq_app_le _ _ _ _ (eq_sym E)) as (l & El & ->); [lia|].
      assert (l <> []) by (intros ->; rewrite El, app_nil_r in L; lia).
      exists [], (payloads ((h, p) :: recs)). split; [reflexivity|]. split.
      * apply (hrc_partial dtls f h p q l W); [assumption|symmetry; exact El].
      * unfold payloads. cbn [map concat snd]. destruct p; [cbn in Hp; lia|]. destruct l; [contradiction|reflexivity].
Qed.

(* the handshake header of msg announces exactly blen msg *)
Definition hs_ok (dtls : bool) (msg : bytes) : Prop :=
  hs_min dtls <= blen msg /\ hs_size dtls msg = blen msg.

(* the announced size is read from the first hs_min bytes *)
Lemma hs_size_app dtls acc t : hs_min dtls <= blen acc -> hs_size dtls (acc ++ t) = hs_size dtls acc.
Proof.
  intros H. unfold hs_size, u24.
  destruct dtls; cbn [hs_min] in H; rewrite !at_app_lt by (unfold blen in H; lia); reflexivity.
Qed.

(* the fragments so far make a prefix of the message: it is returned once complete, not before *)
Lemma gch_on_prefix dtls msg :
  hs_ok dtls msg ->
  forall ps acc t, (acc ++ concat ps) ++ t = msg -> blen acc < blen msg ->
  gch_loop dtls acc ps EndReturn = if is_nil t then GSome msg else GNone.
Proof.
  intros [Hmin Hsz]. induction ps as [|d tl IH]; intros acc t E L.
  - cbn [concat] in E. rewrite app_nil_r in E. destruct t; [|reflexivity].
    rewrite app_nil_r in E. subst. lia.
  - cbn [concat] in E. rewrite app_assoc, <- app_assoc in E. cbn [gch_loop].
    assert (Hle : blen (acc ++ d) + blen (concat tl ++ t) = blen msg) by (rewrite <- E; symmetry; apply blen_app).
    destruct (hs_min dtls <=? blen (acc ++ d)) eqn:E1.
    + rewrite <- (hs_size_app dtls _ (concat tl ++ t)), E, Hsz by lia.
      destruct (blen msg <=? blen (acc ++ d)) eqn:E2.
      * destruct (concat tl ++ t) eqn:Et; [|rewrite blen_cons in Hle; lia].
        apply app_eq_nil in Et as [_ ->]. rewrite app_nil_r in E. rewrite E, take_all by reflexivity. reflexivity.
      * apply IH; [rewrite <- app_assoc; exact E|lia].
    + apply IH; [rewrite <- app_assoc; exact E|lia].
Qed.

Lemma payloads_app r1 r2 : payloads (r1 ++ r2) = payloads r1 ++ payloads r2.
Proof. unfold payloads. rewrite map_app, concat_app. reflexivity. Qed.

(* the complete stream yields the message; every strict prefix yields nothing yet *)
Lemma gch_stream_prefix dtls recs msg q t :
  Forall (wf_record dtls) recs -> hs_ok dtls msg -> payloads recs = msg -> q ++ t = stream recs ->
  get_client_hello_gen dtls q = if is_nil t then GSome msg else GNone.
Proof.
  intros W Hok E Eq. unfold get_client_hello_gen.
  destruct (hrc_prefix dtls recs W q t (S (length q)) Eq) as (ps & rest & Ep & -> & <-); [lia|].
  cbn [fst snd]. rewrite Ep in E. apply (gch_on_prefix dtls msg Hok ps [] rest E).
  destruct Hok as [Hmin _]. rewrite blen_nil. destruct dtls; cbn [hs_min] in Hmin; lia.
Qed.

(* With enough fuel for each side, appended data either is not looked at (the generator raised) or only adds
   fragments after those already yielded; the fuel does not run out. *)
Lemma hrc_app dtls : forall f f' d t, (length d < f)%nat -> (length (d ++ t) < f')%nat ->
  match snd (hrc dtls f d) with
  | EndRaise => hrc dtls f' (d ++ t) = hrc dtls f d
  | EndReturn => exists l' e', hrc dtls f' (d ++ t) = (fst (hrc dtls f d) ++ l', e')
  | EndFuel => False
  end.
Proof.
  induction f as [|f IH]; intros f' d t L L'; [lia|]. destruct f' as [|f']; [lia|].
  cbn [hrc].
  destruct (blen d <? hdr_len dtls) eqn:E1.
  { cbn [snd fst app]. eexists _, _. apply surjective_pairing. }
  rewrite (blen_app_ltb _ t _ E1). apply N.ltb_ge in E1.
  rewrite (take_app_le _ d t E1).
  destruct (negb (starts_like dtls (take (hdr_len dtls) d))); [reflexivity|].
  destruct (record_size dtls (take (hdr_len dtls) d) =? 0) eqn:E0; [reflexivity|].
  rewrite (drop_app_le _ d t E1).
  set (d' := drop (hdr_len dtls) d). set (size := record_size dtls (take (hdr_len dtls) d)).
  destruct (blen d' <? size) eqn:E2.
  { cbn [snd fst app]. eexists _, _. apply surjective_pairing. }
  rewrite (blen_app_ltb _ t _ E2). apply N.ltb_ge in E2.
  rewrite (take_app_le _ d' t E2), (drop_app_le _ d' t E2). cbn [snd fst].
  (* the rest is shorter than d, because a header was taken off *)
  assert (Ld : (length (drop size d') < length d)%nat).
  { clear - E1. unfold drop, d', drop. rewrite !skipn_length. pose proof (hdr_len_pos dtls). unfold blen in E1. lia. }
  assert (L1 : (length (drop size d') < f)%nat) by (clear - Ld L; lia).
  assert (L2 : (length (drop size d' ++ t) < f')%nat) by (clear - Ld L'; rewrite app_length in *; lia).
  specialize (IH f' (drop size d') t L1 L2).
  destruct (snd (hrc dtls f (drop size d'))) eqn:Es.
  - destruct IH as (l' & e' & ->). cbn [fst snd]. eexists l', e'. reflexivity.
  - rewrite IH, Es. reflexivity.
  - exact IH.
Qed.

(* the loop either finds the hello among the fragments, and then ignores what follows them, or reports how
   the generator ended *)
Lemma gch_loop_app dtls : forall l acc e l' e',
  match gch_loop dtls acc l e with
  | GSome x => gch_loop dtls acc (l ++ l') e' = GSome x
  | GNone => e = EndReturn | GRaise => e = EndRaise | GFuel => e = EndFuel
  end.
Proof.
  induction l as [|d tl IH]; intros acc e l' e'.
  - destruct e; reflexivity.
  - cbn [app gch_loop].
    destruct (hs_min dtls <=? blen (acc ++ d)); [destruct (hs_size dtls (acc ++ d) <=? blen (acc ++ d)); [reflexivity|]|];
      apply IH.
Qed.

Lemma gch_gen_stable dtls p t :
  match get_client_hello_gen dtls p with
  | GSome x => get_client_hello_gen dtls (p ++ t) = GSome x
  | GRaise => get_client_hello_gen dtls (p ++ t) = GRaise
  | GFuel => False
  | GNone => True
  end.
Proof.
  unfold get_client_hello_gen.
  pose proof (hrc_app dtls (S (length p)) (S (length (p ++ t))) p t (Nat.lt_succ_diag_r _) (Nat.lt_succ_diag_r _)) as A.
  destruct (hrc dtls (S (length p)) p) as [l e]. cbn [fst snd] in *.
  pose proof (gch_loop_app dtls l [] e) as G.
  destruct e.
  - destruct A as (l' & e' & ->). specialize (G l' e'). cbn [fst snd].
    destruct (gch_loop dtls [] l EndReturn); (exact G || exact I || discriminate G).
  - rewrite A. cbn [fst snd]. specialize (G [] EndRaise).
    destruct (gch_loop dtls [] l EndRaise); (reflexivity || exact I || discriminate G).
  - contradiction.
Qed.

Lemma gch_gen_no_fuel dtls p : get_client_hello_gen dtls p <> GFuel.
Proof.
  intros H. pose proof (gch_gen_stable dtls p []) as S. rewrite H in S. exact S.
Qed.
