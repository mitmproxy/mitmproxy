(* Proofs/DnsNamesRT.v -- names: pack produces the plain label wire form, and every
   decoder reads it back (no compression involved). *)
From Coq Require Import List Bool Arith NArith Lia.
From MV Require Import Base.Bytes Model.DnsNames Proofs.ListFacts.
Import ListNotations.

(* "buf holds x at off, followed by rest" is written [skipn off buf = x ++ rest] throughout. *)
Lemma skipn_advance {A} (buf x rest : list A) off :
  skipn off buf = x ++ rest -> skipn (off + length x) buf = rest.
Proof.
  revert buf. induction off as [|off IH]; intros buf H; cbn [Nat.add skipn] in *.
  - rewrite H. apply skipn_exact.
  - destruct buf; [|apply IH, H].
    symmetry in H. apply app_eq_nil in H as [-> ->]. reflexivity.
Qed.

Lemma skipn_le {A} (buf x : list A) off : skipn off buf = x -> x <> [] -> off + length x <= length buf.
Proof.
  intros H Hx. pose proof (skipn_length off buf) as L. rewrite H in L.
  destruct x; [congruence|]. cbn [length] in *. lia.
Qed.

Lemma split_dot_nonempty s : split_dot s <> [].
Proof.
  destruct s as [|c r]; cbn; [discriminate|].
  destruct (byte_eqb c DOT); [discriminate|]. destruct (split_dot r); discriminate.
Qed.

Lemma join_dot_cons_head c h t : join_dot ((c :: h) :: t) = c :: join_dot (h :: t).
Proof. destruct t; reflexivity. Qed.

Lemma join_split s : join_dot (split_dot s) = s.
Proof.
  induction s as [|c r IH]; [reflexivity|]. cbn [split_dot].
  pose proof (split_dot_nonempty r) as NE. revert IH NE.
  destruct (split_dot r) as [|h t]; intros IH NE; [congruence|].
  destruct (byte_eqb c DOT) eqn:E.
  - apply byte_eqb_eq in E. subst c. rewrite <- IH. reflexivity.
  - rewrite join_dot_cons_head. f_equal. exact IH.
Qed.

(* the label list of a name, as pack iterates over it *)
Definition name_parts (n : name) : list name := match n with [] => [] | _ => split_dot n end.

Lemma join_name_parts n : join_dot (name_parts n) = n.
Proof. destruct n; [reflexivity|]. apply join_split. Qed.

(* The names of the round-trip statements: labels of 1..63 ASCII characters without the ACE prefix (the
   fragment in which IDNA is the identity), and their plain, uncompressed wire form. *)
Definition wf_label (p : name) : Prop :=
  p <> [] /\ length p < 64 /\ forallb is_ascii p = true /\ has_ace p = false.
Definition wf_name (n : name) : Prop := Forall wf_label (name_parts n).

Fixpoint wire_parts (parts : list name) : bytes :=
  match parts with
  | [] => [x00]
  | p :: r => Nb (N.of_nat (length p)) :: p ++ wire_parts r
  end.
Definition wire_name (n : name) : bytes := wire_parts (name_parts n).

Lemma pack_parts_ok parts : Forall wf_label parts -> pack_parts parts = Ok (wire_parts parts).
Proof.
  induction 1 as [|p r (Hne & Hlen & Hasc & _) _ IH]; [reflexivity|].
  cbn [pack_parts wire_parts]. unfold idna_encode.
  destruct p as [|c p']; [congruence|]. rewrite Hasc. cbn [negb].
  destruct (64 <=? length (c :: p')) eqn:E; [apply Nat.leb_le in E; lia|].
  destruct (length (c :: p') =? 0) eqn:E0; [apply Nat.eqb_eq in E0; discriminate|].
  rewrite E, IH. reflexivity.
Qed.

Lemma pack_ok n : wf_name n -> pack n = Ok (wire_name n).
Proof. intros H. destruct n; [reflexivity|]. apply pack_parts_ok, H. Qed.

Lemma parts_lt_wire parts : length parts < length (wire_parts parts).
Proof.
  induction parts as [|p r IH]; cbn [wire_parts length]; [lia|]. rewrite app_length. lia.
Qed.

Lemma size_byte (p : bytes) : length p < 64 ->
  bN (Nb (N.of_nat (length p))) = N.of_nat (length p).
Proof. intros H. apply bN_Nb. lia. Qed.

Lemma idna_decode_wf p : wf_label p -> idna_decode p = Ok p.
Proof. intros (_ & _ & Hasc & Hace). unfold idna_decode. rewrite Hace, Hasc. reflexivity. Qed.

Lemma unpack_label_wf acc buf off p x :
  wf_label p -> skipn off buf = Nb (N.of_nat (length p)) :: p ++ x ->
  unpack_label_into acc buf off = Ok (acc ++ [p], 1 + length p).
Proof.
  intros Hwf Hs. pose proof Hwf as (Hne & Hlen & _).
  unfold unpack_label_into, byte_at. rewrite Hs, size_byte by exact Hlen. rewrite Nnat.Nat2N.id.
  destruct (64 <=? length p) eqn:E; [apply Nat.leb_le in E; lia|].
  destruct (length p =? 0) eqn:E0; [apply Nat.eqb_eq in E0; destruct p; [congruence|discriminate]|].
  pose proof (skipn_le _ _ _ Hs ltac:(discriminate)) as Hle. cbn [length] in Hle. rewrite app_length in Hle.
  destruct (length buf <? off + 1 + length p) eqn:E1; [apply Nat.ltb_lt in E1; lia|].
  apply (skipn_advance buf [_]) in Hs. cbn [length] in Hs.
  rewrite Hs, firstn_exact. rewrite idna_decode_wf by exact Hwf. reflexivity.
Qed.

Lemma scan_wire parts : Forall wf_label parts ->
  forall fuel buf off rest acc, length parts < fuel ->
  skipn off buf = wire_parts parts ++ rest ->
  scan_labels fuel buf off acc = SEnd (acc ++ parts) (off + length (wire_parts parts)).
Proof.
  induction 1 as [|p r Hp _ IH]; intros fuel buf off rest acc Hf Hs;
    (destruct fuel as [|f]; [cbn in Hf; lia|]); cbn [scan_labels wire_parts app] in *.
  - unfold unpack_label_into, byte_at. rewrite Hs. cbn. rewrite app_nil_r. reflexivity.
  - pose proof Hp as (Hne & Hlen & _). rewrite <- app_assoc in Hs.
    rewrite (unpack_label_wf _ _ _ _ _ Hp Hs). unfold byte_at, is_ptr. rewrite Hs, size_byte by exact Hlen.
    destruct (192 <=? N.of_nat (length p))%N eqn:E; [apply N.leb_le in E; lia|].
    destruct (N.of_nat (length p) =? 0)%N eqn:E0.
    { apply N.eqb_eq in E0. destruct p; [congruence|cbn in E0; lia]. }
    apply (skipn_advance buf (_ :: p)) in Hs.
    rewrite (IH f buf (off + (1 + length p)) rest (acc ++ [p])); [|cbn in Hf; lia|exact Hs].
    rewrite <- app_assoc. cbn [app length]. rewrite app_length. f_equal. lia.
Qed.

Lemma scan_wire_name n buf off rest acc : wf_name n -> skipn off buf = wire_name n ++ rest ->
  scan_labels (S (length buf)) buf off acc
  = SEnd (acc ++ name_parts n) (off + length (wire_name n)).
Proof.
  intros H Hs. apply (scan_wire _ H _ _ _ rest); [|exact Hs].
  pose proof (parts_lt_wire (name_parts n)).
  apply skipn_le in Hs; [|unfold wire_name; destruct (name_parts n); discriminate].
  rewrite app_length in Hs. unfold wire_name in Hs. lia.
Qed.

Lemma unpack_from_wire n buf off rest : wf_name n -> skipn off buf = wire_name n ++ rest ->
  unpack_from buf off = Ok (n, off + length (wire_name n)).
Proof.
  intros H Hs. unfold unpack_from. rewrite (scan_wire_name n _ _ rest) by assumption.
  cbn [app]. rewrite join_name_parts. reflexivity.
Qed.

Theorem name_roundtrip n : wf_name n -> unpack (wire_name n) = Ok n /\ pack n = Ok (wire_name n).
Proof.
  intros H. split; [|apply pack_ok, H].
  unfold unpack. rewrite (unpack_from_wire n (wire_name n) 0 [] H (eq_sym (app_nil_r _))).
  cbn [Nat.add]. rewrite Nat.eqb_refl. reflexivity.
Qed.

Lemma unpack_fwc_wire n buf off rest c : wf_name n -> lookup off c = None ->
  skipn off buf = wire_name n ++ rest ->
  unpack_fwc buf off c
  = (Ok (n, length (wire_name n)), (off, Some (n, length (wire_name n))) :: (off, None) :: c).
Proof.
  intros H L Hs. unfold unpack_fwc. cbn [unpack_from_with_compression].
  rewrite L, (scan_wire_name n _ _ rest) by assumption.
  cbn [app]. rewrite join_name_parts, Nat.add_comm, Nat.add_sub. reflexivity.
Qed.
