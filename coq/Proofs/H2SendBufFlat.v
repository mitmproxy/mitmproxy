(* Proofs/H2SendBufFlat.v -- the HTTP/2 send buffer is a queue.  Every stream's traffic is read as one token
   sequence: the bytes of each chunk, followed by an END marker if the chunk carries END_STREAM.  For every sequence
   of send_data / end_stream / WINDOW_UPDATE (stream or connection) operations of any sizes on any streams:
   tokens written ++ tokens still buffered = tokens handed to send_data, per stream.  Hence the DATA payloads written
   are a prefix of the data queued, in order, and END_STREAM is written only after everything queued before it. *)
From Coq Require Import List Bool NArith ZArith Lia.
From MV Require Import Base.Bytes Model.H2SendBuf.
Import ListNotations.
Open Scope Z_scope.

Definition tok := option byte.
Definition flat1 (c : chunk) : list tok := map Some (fst c) ++ (if snd c then [None] else []).
Definition flat (q : list chunk) : list tok := flat_map flat1 q.
Definition bytes_of (q : list chunk) : bytes := flat_map fst q.

Fixpoint frames_of (sid : N) (fs : list frame) : list chunk :=
  match fs with
  | [] => []
  | Frame k d es :: r => if N.eqb sid k then (d, es) :: frames_of sid r else frames_of sid r
  end.

(* the chunks send_data is given for stream sid by one operation (after its own cutting of over-long frames) *)
Definition uchunks (mf : Z) (sid : N) (o : op) : list chunk :=
  match o with
  | OSend k d es =>
      if N.eqb sid k then
        (if (mf <? zlen d) && (0 <? mf) then map (fun p => (p, false)) (pieces (length d) (Z.to_nat mf) d)
         else [(d, es)])
      else []
  | OEnd k => if N.eqb sid k then [([], true)] else []
  | _ => []
  end.

Lemma flat_app a b : flat (a ++ b) = flat a ++ flat b.
Proof. apply flat_map_app. Qed.
Lemma frames_of_app sid a b : frames_of sid (a ++ b) = frames_of sid a ++ frames_of sid b.
Proof. induction a as [|[k d es] a IH]; cbn; auto. destruct (N.eqb sid k); cbn; rewrite IH; auto. Qed.
Lemma frames_of_map sid k (e : list chunk) :
  frames_of sid (map (fun c => Frame k (fst c) (snd c)) e) = if N.eqb sid k then e else [].
Proof.
  induction e as [|[d es] e IH]; cbn; [destruct (N.eqb sid k); auto|].
  rewrite IH. destruct (N.eqb sid k); auto.
Qed.
Lemma flat_split k d es r :
  flat [(firstn k d, false)] ++ flat ((skipn k d, es) :: r) = flat ((d, es) :: r).
Proof.
  unfold flat; cbn [flat_map]; unfold flat1; cbn [fst snd]. rewrite !app_nil_r.
  replace (map Some d) with (map (@Some byte) (firstn k d) ++ map Some (skipn k d))
    by (rewrite <- map_app, firstn_skipn; reflexivity).
  rewrite <- !app_assoc. reflexivity.
Qed.

Section Maps.
Context {A : Type}.
Lemma get_update k k' (v : A) m :
  get k' (update k v m) = if N.eqb k' k then option_map (fun _ => v) (get k m) else get k' m.
Proof.
  induction m as [|[k2 v2] m IH]; cbn; [destruct (N.eqb k' k); reflexivity|].
  destruct (N.eqb_spec k k2) as [<-|NE]; cbn; [destruct (N.eqb k' k); reflexivity|].
  rewrite IH. destruct (N.eqb_spec k' k2) as [->|]; [|reflexivity].
  apply N.eqb_neq in NE. rewrite N.eqb_sym, NE. reflexivity.
Qed.
Lemma get_update_none k (v : A) m : get k m = None -> update k v m = m.
Proof.
  induction m as [|[k' v'] m IH]; cbn; auto.
  destruct (N.eqb k k') eqn:E; [discriminate|]. intros H. rewrite IH; auto.
Qed.
Lemma get_remove k k' (m : smap A) : get k' (remove k m) = if N.eqb k' k then None else get k' m.
Proof.
  unfold remove. induction m as [|[k2 v2] m IH]; cbn; [destruct (N.eqb k' k); reflexivity|].
  destruct (N.eqb_spec k k2) as [<-|NE]; cbn; rewrite IH; [destruct (N.eqb k' k); reflexivity|].
  destruct (N.eqb_spec k' k2) as [->|]; [|reflexivity].
  apply N.eqb_neq in NE. rewrite N.eqb_sym, NE. reflexivity.
Qed.
Lemma get_app k (m m' : smap A) : get k (m ++ m') = match get k m with Some v => Some v | None => get k m' end.
Proof. induction m as [|[k' v'] m IH]; cbn; auto. destruct (N.eqb k k'); auto. Qed.
End Maps.

Lemma get_move_to_end k k' m : get k' (move_to_end k m) = get k' m.
Proof.
  unfold move_to_end. destruct (get k m) as [q|] eqn:G; auto.
  rewrite get_app, get_remove. cbn. destruct (N.eqb_spec k' k) as [->|]; [auto|]. destruct (get k' m); auto.
Qed.

Lemma buf_of_append k k' c m sw cw mf :
  buf_of k' (mkSb (append_chunk k c m) sw cw mf) = buf_of k' (mkSb m sw cw mf) ++ (if N.eqb k' k then [c] else []).
Proof.
  unfold buf_of, append_chunk. cbn. destruct (get k m) as [q|] eqn:G.
  - rewrite get_update, G. destruct (N.eqb_spec k' k) as [->|]; [rewrite G; reflexivity|symmetry; apply app_nil_r].
  - rewrite get_app. cbn. destruct (N.eqb_spec k' k) as [->|]; [rewrite G; reflexivity|].
    destruct (get k' m); symmetry; apply app_nil_r.
Qed.

Definition conserves (sid : N) (s s' : sb) (fs : list frame) (user : list chunk) : Prop :=
  flat (frames_of sid fs) ++ flat (buf_of sid s') = flat (buf_of sid s) ++ flat user.

Lemma conserves_trans sid s1 s2 s3 f1 f2 u1 u2 :
  conserves sid s1 s2 f1 u1 -> conserves sid s2 s3 f2 u2 -> conserves sid s1 s3 (f1 ++ f2) (u1 ++ u2).
Proof.
  unfold conserves. intros H1 H2. rewrite frames_of_app, !flat_app, <- !app_assoc, H2, !app_assoc, H1. reflexivity.
Qed.
Lemma conserves_refl sid s : conserves sid s s [] [].
Proof. unfold conserves. cbn. rewrite app_nil_r. reflexivity. Qed.
Lemma conserves_same_bufs sid s s' : bufs s' = bufs s -> conserves sid s s' [] [].
Proof. unfold conserves, buf_of. intros ->. cbn. rewrite app_nil_r. reflexivity. Qed.

(* send_one only asks whether anything is buffered for the stream (a key with an empty buffer counts as none) *)
Lemma send_one_eq k d es s :
  send_one k d es s =
  match buf_of k s with
  | _ :: _ => (set_bufs s (append_chunk k (d, es) (bufs s)), [])
  | [] =>
      let aw := local_flow_control_window k s in
      if zlen d <=? aw then super_send k d es s
      else
        let '(s1, f1, d1) :=
          if 0 <? aw then
            let '(s1, f1) := super_send k (firstn (Z.to_nat aw) d) false s in (s1, f1, skipn (Z.to_nat aw) d)
          else (s, [], d) in
        (set_bufs s1 (append_chunk k (d1, es) (bufs s1)), f1)
  end.
Proof. unfold send_one, buf_of. destruct (get k (bufs s)) as [[|c q]|]; reflexivity. Qed.

Lemma send_one_conserves sid k d es s s' fs :
  send_one k d es s = (s', fs) ->
  conserves sid s s' fs (if N.eqb sid k then [(d, es)] else []) /\ maxf s' = maxf s.
Proof.
  rewrite send_one_eq. destruct s as [m sw cw mf].
  assert (APP : forall m0 sw0 cw0 c,
    conserves sid (mkSb m0 sw0 cw0 mf) (mkSb (append_chunk k c m0) sw0 cw0 mf) []
              (if N.eqb sid k then [c] else [])).
  { intros. unfold conserves. rewrite buf_of_append, flat_app. reflexivity. }
  destruct (buf_of k (mkSb m sw cw mf)) as [|c0 q0] eqn:BE.
  2:{ intros [= <- <-]. split; [apply APP|reflexivity]. }
  (* nothing buffered: send what the window allows, buffer the rest *)
  cbn zeta. set (aw := local_flow_control_window k (mkSb m sw cw mf)).
  destruct (zlen d <=? aw); [|destruct (0 <? aw)]; intros [= <- <-]; (split; [|reflexivity]); [| |apply APP];
    unfold conserves, super_send, set_bufs; cbn [frames_of bufs swin cwin maxf fst]; rewrite ?buf_of_append;
    (destruct (N.eqb_spec sid k) as [->|]; [|rewrite ?app_nil_r; reflexivity]);
    change (buf_of k (mkSb m _ _ mf)) with (buf_of k (mkSb m sw cw mf)); rewrite BE.
  - apply app_nil_r.
  - apply (flat_split (Z.to_nat aw) d es []).
Qed.

Lemma send_all_conserves sid k ds : forall s s' fs,
  send_all k ds s = (s', fs) ->
  conserves sid s s' fs (if N.eqb sid k then map (fun p => (p, false)) ds else []) /\ maxf s' = maxf s.
Proof.
  induction ds as [|d r IH]; intros s s' fs H.
  - cbn in H. inversion H; subst. split; auto. destruct (N.eqb sid k); apply conserves_refl.
  - cbn in H. destruct (send_one k d false s) as [s1 f1] eqn:E1. destruct (send_all k r s1) as [s2 f2] eqn:E2.
    inversion H; subst; clear H.
    destruct (send_one_conserves sid _ _ _ _ _ _ E1) as (C1 & M1). destruct (IH _ _ _ E2) as (C2 & M2).
    split; [|congruence].
    pose proof (conserves_trans _ _ _ _ _ _ _ _ C1 C2) as C. destruct (N.eqb sid k); exact C.
Qed.

Lemma send_data_conserves sid k d es s s' fs :
  send_data k d es s = (s', fs) -> conserves sid s s' fs (uchunks (maxf s) sid (OSend k d es)) /\ maxf s' = maxf s.
Proof.
  unfold send_data, uchunks. destruct ((maxf s <? zlen d) && (0 <? maxf s)).
  - intros H. exact (send_all_conserves sid _ _ _ _ _ H).
  - apply send_one_conserves.
Qed.

Lemma drain_flat : forall q aw e rest, drain aw q = (e, rest) -> flat e ++ flat rest = flat q.
Proof.
  induction q as [|[d es] r IH]; intros aw e rest H; cbn in H.
  - inversion H; subst. reflexivity.
  - destruct (aw <=? 0); [inversion H; subst; reflexivity|].
    destruct (aw <? zlen d).
    + inversion H; subst. apply flat_split.
    + destruct (drain (aw - zlen d) r) as [e1 rest1] eqn:E. inversion H; subst.
      specialize (IH _ _ _ E). change (flat ((d, es) :: e1)) with (flat1 (d, es) ++ flat e1).
      change (flat ((d, es) :: r)) with (flat1 (d, es) ++ flat r). rewrite <- app_assoc, IH. reflexivity.
Qed.

Lemma swu_conserves sid k s s' fs b :
  stream_window_updated k s = (s', fs, b) -> conserves sid s s' fs [] /\ maxf s' = maxf s.
Proof.
  unfold stream_window_updated. destruct (get k (bufs s)) as [q|] eqn:G.
  2:{ intros H; inversion H; subst. split; auto. apply conserves_refl. }
  destruct (drain (local_flow_control_window k s) q) as [e rest] eqn:D.
  destruct e as [|c e].
  { intros H; inversion H; subst. split; auto. apply conserves_refl. }
  intros H; inversion H; subst; clear H. split; [|reflexivity].
  pose proof (drain_flat _ _ _ _ D) as F.
  unfold conserves. pose proof (frames_of_map sid k (c :: e)) as FM. cbn [map] in FM. cbn [map]. rewrite FM, app_nil_r.
  (* the buffer of stream k becomes rest, the others are untouched *)
  unfold buf_of. cbn [bufs].
  destruct rest; [rewrite get_remove|rewrite get_update, G]; (destruct (N.eqb_spec sid k) as [->|]; [|reflexivity]);
    rewrite G; exact F.
Qed.

Lemma move_conserves sid k s : conserves sid s (set_bufs s (move_to_end k (bufs s))) [] [].
Proof.
  unfold conserves, buf_of, set_bufs. cbn. rewrite get_move_to_end, app_nil_r. reflexivity.
Qed.

Lemma cwu_pass_conserves sid keys : forall s s' fs b r,
  cwu_pass keys s = (s', fs, b, r) -> conserves sid s s' fs [] /\ maxf s' = maxf s.
Proof.
  induction keys as [|k keys IH]; intros s s' fs b r H; cbn in H.
  - inversion H; subst. split; auto. apply conserves_refl.
  - destruct (stream_window_updated k (set_bufs s (move_to_end k (bufs s)))) as [[s1 f1] sent] eqn:E1.
    destruct (swu_conserves sid _ _ _ _ _ E1) as (C1 & M1).
    pose proof (conserves_trans _ _ _ _ _ _ _ _ (move_conserves sid k s) C1) as C01. cbn [app] in C01.
    destruct (sent && (cwin s1 =? 0)).
    + inversion H; subst. split; auto.
    + destruct (cwu_pass keys s1) as [[[s2 f2] sent2] ret] eqn:E2. inversion H; subst.
      destruct (IH _ _ _ _ _ E2) as (C2 & M2). split; [|rewrite M2; exact M1].
      exact (conserves_trans _ _ _ _ _ _ _ _ C01 C2).
Qed.

Lemma cwu_conserves sid fuel : forall s s' fs,
  connection_window_updated fuel s = Some (s', fs) -> conserves sid s s' fs [] /\ maxf s' = maxf s.
Proof.
  induction fuel as [|f IH]; intros s s' fs H; cbn in H; [discriminate|].
  destruct (cwu_pass (map fst (bufs s)) s) as [[[s1 f1] sent] ret] eqn:E1.
  destruct (cwu_pass_conserves sid _ _ _ _ _ _ E1) as (C1 & M1).
  destruct (ret || negb sent).
  - inversion H; subst. auto.
  - destruct (connection_window_updated f s1) as [[s2 f2]|] eqn:E2; [|discriminate]. inversion H; subst.
    destruct (IH _ _ _ E2) as (C2 & M2). split; [|congruence].
    exact (conserves_trans _ _ _ _ _ _ _ _ C1 C2).
Qed.

Lemma apply_op_conserves sid o s s' fs :
  apply_op o s = Some (s', fs) -> conserves sid s s' fs (uchunks (maxf s) sid o) /\ maxf s' = maxf s.
Proof.
  destruct o as [k d es|k|k n|n]; cbn [apply_op].
  - intros H; inversion H as [H1]. apply send_data_conserves; auto.
  - intros H; inversion H as [H1]. pose proof (send_data_conserves sid _ _ _ _ _ _ H1) as (C & M). split; auto.
    assert (X : (maxf s <? 0) && (0 <? maxf s) = false)
      by (destruct (maxf s <? 0) eqn:A; destruct (0 <? maxf s) eqn:B; auto; apply Z.ltb_lt in A; apply Z.ltb_lt in B; lia).
    unfold uchunks in *. change (zlen []) with 0 in C. rewrite X in C. exact C.
  - destruct (stream_window_updated k _) as [[s2 f] b] eqn:E. intros H; inversion H; subst.
    destruct (swu_conserves sid _ _ _ _ _ E) as (C & M). cbn in M. split; [exact C|exact M].
  - intros H. destruct (cwu_conserves sid _ _ _ _ H) as (C & M). cbn in M. split; [exact C|exact M].
Qed.

Theorem send_buffer_is_a_queue (ops : list op) : forall (s s' : sb) (fss : list (list frame)) (sid : N),
  run_ops ops s = Some (s', fss) ->
  flat (frames_of sid (concat fss)) ++ flat (buf_of sid s')
  = flat (buf_of sid s) ++ flat (flat_map (uchunks (maxf s) sid) ops).
Proof.
  induction ops as [|o r IH]; intros s s' fss sid H; cbn in H.
  - inversion H; subst. cbn. rewrite app_nil_r. reflexivity.
  - destruct (apply_op o s) as [[s1 f1]|] eqn:E1; [|discriminate].
    destruct (run_ops r s1) as [[s2 fs]|] eqn:E2; [|discriminate]. inversion H; subst.
    destruct (apply_op_conserves sid _ _ _ _ E1) as (C1 & M1).
    specialize (IH _ _ _ sid E2). rewrite M1 in IH.
    cbn [concat flat_map]. rewrite frames_of_app, !flat_app, <- !app_assoc, IH, !app_assoc.
    unfold conserves in C1. rewrite C1. reflexivity.
Qed.

Fixpoint strip (l : list tok) : bytes :=
  match l with [] => [] | Some b :: r => b :: strip r | None :: r => strip r end.
Lemma strip_app a b : strip (a ++ b) = strip a ++ strip b.
Proof. induction a as [|[x|] a IH]; cbn; rewrite ?IH; auto. Qed.
Lemma strip_map_some d : strip (map Some d) = d.
Proof. induction d; cbn; congruence. Qed.
Lemma strip_flat q : strip (flat q) = bytes_of q.
Proof.
  induction q as [|[d es] q IH]; [reflexivity|].
  change (flat ((d, es) :: q)) with (flat1 (d, es) ++ flat q).
  change (bytes_of ((d, es) :: q)) with (d ++ bytes_of q).
  unfold flat1; cbn [fst snd]. rewrite !strip_app, strip_map_some, IH. destruct es; cbn; rewrite ?app_nil_r; reflexivity.
Qed.

Lemma pieces_concat fuel m d : (length d <= fuel)%nat -> (0 < m)%nat -> concat (pieces fuel m d) = d.
Proof.
  revert d. induction fuel as [|f IH]; intros d L M.
  - destruct d; [reflexivity|cbn in L; lia].
  - cbn. destruct d as [|b r]; [reflexivity|]. cbn [concat]. rewrite IH; [apply firstn_skipn| |auto].
    rewrite skipn_length. cbn [length] in *. lia.
Qed.
(* cutting an over-long frame does not change the bytes queued *)
Lemma uchunks_send_bytes mf k d es : bytes_of (uchunks mf k (OSend k d es)) = d.
Proof.
  unfold uchunks. rewrite N.eqb_refl. destruct ((mf <? zlen d) && (0 <? mf)) eqn:E.
  - apply andb_true_iff in E. destruct E as [_ E]. apply Z.ltb_lt in E.
    unfold bytes_of. rewrite flat_map_concat_map, map_map. cbn [fst]. rewrite map_id.
    apply pieces_concat; [lia|]. lia.
  - cbn. apply app_nil_r.
Qed.

Lemma none_last (l1 l2 m : list tok) :
  l1 ++ l2 = m ++ [None] -> ~ In None m -> In None l1 -> l2 = [] /\ l1 = m ++ [None].
Proof.
  revert l1 l2. induction m as [|x m IH]; intros l1 l2 H NI HI.
  - destruct l1 as [|y l1]; [destruct HI|]. cbn in H. inversion H; subst.
    destruct l1; [|discriminate]. destruct l2; [|discriminate]. auto.
  - destruct l1 as [|y l1]; [destruct HI|]. cbn in H. inversion H; subst.
    destruct HI as [HI|HI]; [subst; exfalso; apply NI; left; auto|].
    destruct (IH l1 l2 H2) as (A & B); auto. { intros X; apply NI; right; auto. }
    subst. auto.
Qed.
Lemma in_none_flat q : In None (flat q) <-> exists d, In (d, true) q.
Proof.
  induction q as [|[d es] q IH]; cbn.
  - split; [tauto|intros (d & []) ].
  - unfold flat1 at 1. cbn [fst snd]. rewrite !in_app_iff, IH. split.
    + intros [[H|H]|(d' & H)].
      * apply in_map_iff in H. destruct H as (x & X & _). discriminate.
      * destruct es; [exists d; auto|destruct H].
      * exists d'; auto.
    + intros (d' & [H|H]).
      * inversion H; subst. left; right; left; auto.
      * right. exists d'; auto.
Qed.

(* END_STREAM last: if the END marker is the last thing queued for the stream and a frame carrying END_STREAM has
   been written, then every byte queued has been written before it and nothing is left in the buffer *)
Theorem end_stream_is_last (ops : list op) (sids : list N) (w0 c0 mf : Z) s' fss sid (body : bytes) :
  run_ops ops (init_sb sids w0 c0 mf) = Some (s', fss) ->
  flat (flat_map (uchunks mf sid) ops) = map Some body ++ [None] ->
  (exists d, In (d, true) (frames_of sid (concat fss))) ->
  bytes_of (frames_of sid (concat fss)) = body /\ flat (buf_of sid s') = []
  /\ flat (frames_of sid (concat fss)) = map Some body ++ [None].
Proof.
  intros H U E. pose proof (send_buffer_is_a_queue ops _ _ _ sid H) as Q. cbn in Q. rewrite U in Q.
  apply in_none_flat in E.
  destruct (none_last _ _ _ Q) as (A & B); auto.
  { intros X. apply in_map_iff in X. destruct X as (x & X & _). discriminate. }
  split; [|split; auto].
  rewrite <- strip_flat, B, strip_app, strip_map_some. cbn. apply app_nil_r.
Qed.

Lemma h2_example :
  exists s fss,
    run_ops [OSend 1 [x61; x62; x63; x64; x65; x66; x67; x68] false; OSend 1 [x58; x59] false; OEnd 1;
             OWinS 1 3; OWinS 1 3; OWinS 1 9] (init_sb [1%N] 4 65535 16384) = Some (s, fss)
    /\ fss = [[Frame 1 [x61; x62; x63; x64] false]; []; []; [Frame 1 [x65; x66; x67] false];
              [Frame 1 [x68] false; Frame 1 [x58; x59] false]; [Frame 1 [] true]]
    /\ bufs s = [].
Proof. eexists; eexists. split; [vm_compute; reflexivity|]. split; reflexivity. Qed.
