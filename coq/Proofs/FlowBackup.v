(* Proofs/FlowBackup.v -- theorems about Model/FlowBackup.v for every content lens that satisfies
   the contract  get_c (set_c c o) = c  (what set_state writes, get_state reads back) and every
   decidable content equality; edits are arbitrary functions on the live content. *)
From Coq Require Import List Bool NArith Arith Lia.
From MV Require Import Model.FlowBackup.
Import ListNotations.
Open Scope N_scope.

Section Proofs.
  Variable Obj C : Type.
  Variable get_c : Obj -> C.
  Variable set_c : C -> Obj -> Obj.
  Variable new_o : Obj.
  Variable C_eqb : C -> C -> bool.
  Hypothesis set_get : forall c o, get_c (set_c c o) = c.
  Hypothesis C_eqb_spec : forall a b, C_eqb a b = true <-> a = b.

  Notation flowT := (flow Obj C).
  Notation gs := (get_state Obj C get_c).
  Notation ss := (set_state Obj C set_c).
  Notation cp := (copy Obj C get_c set_c new_o).
  Notation md := (modified Obj C get_c C_eqb).
  Notation mdu := (modified_unrepaired Obj C get_c C_eqb).
  Notation bk := (backup Obj C get_c).
  Notation rv := (revert Obj C set_c).
  Notation fs := (fstep Obj C get_c set_c).
  Notation fr := (frun Obj C get_c set_c).
  Notation stp := (step Obj C get_c set_c new_o).
  Notation rn := (run Obj C get_c set_c new_o).
  Notation updT := (upd Obj C).

  Lemma get_set_state : forall s f, gs (ss s f) = s.
  Proof. intros [i c b] f. unfold get_state, set_state; simpl. rewrite set_get. reflexivity. Qed.

  Lemma set_state_live : forall s f, flive (ss s f) = flive f.
  Proof. intros [i c b] f. reflexivity. Qed.

  Lemma backup_idem : forall f, bk (bk f) = bk f.
  Proof. intros f. unfold backup. destruct (fbackup f) eqn:E; simpl; rewrite ?E; reflexivity. Qed.

  Lemma backup_pending : forall f b, fbackup f = Some b -> bk f = f.
  Proof. intros f b E. unfold backup. rewrite E. reflexivity. Qed.

  Lemma backup_saved : forall f,
    fbackup (bk f) = Some (match fbackup f with Some b => b | None => gs f end).
  Proof. intros f. unfold backup. destruct (fbackup f) eqn:E; [exact E|reflexivity]. Qed.

  Lemma backup_keeps : forall f, fid (bk f) = fid f /\ fo (bk f) = fo f /\ flive (bk f) = flive f.
  Proof. intros f. unfold backup. destruct (fbackup f); simpl; auto. Qed.

  Lemma revert_noop : forall f, fbackup f = None -> rv f = f.
  Proof. intros f E. unfold revert. rewrite E. reflexivity. Qed.

  Lemma revert_clears : forall f, fbackup (rv f) = None.
  Proof. intros f. unfold revert. destruct (fbackup f) eqn:E; simpl; auto. Qed.

  Lemma revert_idem : forall f, rv (rv f) = rv f.
  Proof. intros f. apply revert_noop, revert_clears. Qed.

  Lemma revert_live : forall f, flive (rv f) = flive f.
  Proof. intros f. unfold revert. destruct (fbackup f) as [[i c b]|]; reflexivity. Qed.

  Lemma revert_state : forall f b, fbackup f = Some b -> gs (rv f) = St (sid b) (sc b) None.
  Proof.
    intros f [i c b] E. unfold revert. rewrite E. unfold get_state, set_state; simpl.
    rewrite set_get. reflexivity.
  Qed.

  Definition no_revert (h : list (fop Obj)) : Prop := ~ In FRevert h.

  Lemma no_revert_cons : forall o h, no_revert (o :: h) -> o <> FRevert /\ no_revert h.
  Proof. unfold no_revert. intros o h H. split; intro X; apply H; simpl; auto. Qed.

  Lemma frun_keeps_backup : forall h f b, fbackup f = Some b -> no_revert h ->
    fbackup (fr f h) = Some b /\ fid (fr f h) = fid f.
  Proof.
    induction h as [|o h IH]; intros f b E NR; [simpl; auto|].
    apply no_revert_cons in NR as [No NR]. unfold frun in *. simpl.
    assert (K : fbackup (fs f o) = Some b /\ fid (fs f o) = fid f).
    { destruct o; simpl; auto.
      - rewrite (backup_pending f b E). auto.
      - congruence. }
    destruct K as [K1 K2]. destruct (IH (fs f o) b K1 NR) as [A B]. split; [exact A | congruence].
  Qed.

  (* backup, any revert-free history of edits / live toggles / repeated backups / reloads,
     revert: the state is exactly the one that was backed up and the backup is cleared.  If a
     backup was already pending, backup is a no-op and that earlier state is the one restored. *)
  Theorem revert_restores : forall f h, no_revert h ->
    let g := fr (bk f) h in
    gs (rv g) = match fbackup f with
                | None => gs f
                | Some b => St (sid b) (sc b) None
                end
    /\ fbackup (rv g) = None /\ flive (rv g) = flive g.
  Proof.
    intros f h NR g. split; [|split; [apply revert_clears | apply revert_live]].
    destruct (frun_keeps_backup h (bk f) _ (backup_saved f) NR) as [A _]. subst g.
    rewrite (revert_state _ _ A). destruct (fbackup f) eqn:E; [reflexivity|].
    unfold get_state. simpl. rewrite E. reflexivity.
  Qed.

  (* the same after an arbitrary earlier history (with reverts) that left no backup pending: the
     segments  backup ; revert-free edits ; revert  compose, because each one ends with no backup *)
  Theorem revert_restores_in_history : forall f0 h1 h2,
    fbackup (fr f0 h1) = None -> no_revert h2 ->
    let g := fr f0 (h1 ++ [FBackup] ++ h2 ++ [FRevert]) in
    gs g = gs (fr f0 h1) /\ fbackup g = None.
  Proof.
    intros f0 h1 h2 E NR g. subst g. unfold frun. rewrite !fold_left_app. simpl.
    fold (fr f0 h1). set (f := fr f0 h1) in *.
    pose proof (revert_restores f h2 NR) as R. simpl in R. rewrite E in R.
    destruct R as [R1 [R2 _]]. unfold frun in R1, R2. split; assumption.
  Qed.

  (* invariant of ALL histories (reverts included): the saved state is flat and carries the id *)
  Definition flat (f : flowT) : Prop :=
    match fbackup f with None => True | Some b => sb b = None /\ sid b = fid f end.

  Lemma fstep_flat : forall f o, flat f -> flat (fs f o) /\ fid (fs f o) = fid f.
  Proof.
    intros f o F. unfold flat in *. destruct o; simpl; auto.
    - unfold backup. destruct (fbackup f) as [b|] eqn:E; simpl; [rewrite E; auto|].
      unfold get_state; simpl. rewrite E. auto.
    - unfold revert. destruct (fbackup f) as [[i c b]|] eqn:E; simpl in *; [|rewrite E; auto].
      destruct F as [_ F]. auto.
  Qed.

  Theorem history_flat : forall h f, flat f -> flat (fr f h) /\ fid (fr f h) = fid f.
  Proof.
    induction h as [|o h IH]; intros f F; [simpl; auto|].
    destruct (fstep_flat f o F) as [F1 I1]. unfold frun in *. simpl.
    destruct (IH _ F1) as [A B]. split; [exact A | congruence].
  Qed.

  Lemma neqb_ident : forall a b : N, N.eqb a b = false <-> a <> b.
  Proof. intros a b. apply N.eqb_neq. Qed.

  Theorem modified_iff : forall f,
    md f = true <->
    exists b, fbackup f = Some b /\ (sid b, sc b) <> (fid f, get_c (fo f)).
  Proof.
    intros f. unfold modified. destruct (fbackup f) as [b|].
    - rewrite negb_true_iff. split.
      + intros H. exists b. split; [reflexivity|]. intros [= E1 E2].
        rewrite E1, E2, N.eqb_refl, (proj2 (C_eqb_spec _ _) eq_refl) in H. discriminate.
      + intros (b' & [= <-] & D). apply not_true_is_false. intros H.
        apply andb_true_iff in H as [H1 H2]. apply N.eqb_eq in H1. apply C_eqb_spec in H2.
        apply D. congruence.
    - split; [discriminate|]. intros (b & [=] & _).
  Qed.

  Theorem modified_after_backup : forall f, fbackup f = None -> md (bk f) = false.
  Proof.
    intros f E. destruct (md (bk f)) eqn:M; [|reflexivity].
    apply modified_iff in M as [b [B N]]. rewrite backup_saved, E in B. inversion B; subst b.
    destruct (backup_keeps f) as [K1 [K2 _]]. exfalso. apply N. unfold get_state; simpl.
    rewrite K1, K2. reflexivity.
  Qed.

  Theorem modified_after_revert : forall f, md (rv f) = false.
  Proof. intros f. unfold modified. rewrite revert_clears. reflexivity. Qed.

  (* after backup and any revert-free history: modified iff the content now differs from the
     content at the time of the backup (the id cannot change) *)
  Theorem modified_in_history : forall f h, fbackup f = None -> no_revert h ->
    (md (fr (bk f) h) = true <-> get_c (fo (fr (bk f) h)) <> get_c (fo f)).
  Proof.
    intros f h E NR. pose proof (backup_saved f) as B. rewrite E in B.
    destruct (frun_keeps_backup h (bk f) (gs f) B NR) as [A I].
    destruct (backup_keeps f) as [K1 _]. rewrite modified_iff. split.
    - intros [b [Eb N]] X. rewrite A in Eb. inversion Eb; subst b. apply N.
      unfold get_state; simpl. rewrite I, K1, X. reflexivity.
    - intros N. exists (gs f). split; [exact A|]. intros X. apply N.
      unfold get_state in X; simpl in X. inversion X. congruence.
  Qed.

  (* the defect that was repaired: a saved state never equals a state that embeds it, so the
     comparison self._backup != self.get_state() was True whenever a backup existed *)
  Fixpoint depth (s : state C) : nat :=
    match s with St _ _ None => 0%nat | St _ _ (Some b) => S (depth b) end.

  Lemma state_eqb_depth : forall a b, state_eqb C C_eqb a b = true -> depth a = depth b.
  Proof.
    fix IH 1. intros [i c x] [j d y] H. simpl in H.
    destruct x as [x1|], y as [y1|]; simpl;
      try (rewrite andb_false_r in H; discriminate); auto.
    apply andb_true_iff in H as [_ H]. f_equal. apply IH. exact H.
  Qed.

  Theorem unrepaired_modified_constant : forall f b, fbackup f = Some b -> mdu f = true.
  Proof.
    intros f b E. unfold modified_unrepaired. rewrite E. apply negb_true_iff.
    destruct (state_eqb C C_eqb b (gs f)) eqn:X; [|reflexivity].
    apply state_eqb_depth in X. unfold get_state in X; simpl in X. rewrite E in X. simpl in X. lia.
  Qed.

  Notation cpu := (copy_unrepaired Obj C get_c set_c new_o).
  Definition reid (i : ident) (b : state C) : state C := St i (sc b) (sb b).

  (* fresh id, equal content, an equal pending backup that carries the id of the copy,
     not live *)
  Theorem copy_spec : forall nid f,
    gs (cp nid f) = St nid (get_c (fo f)) (option_map (reid nid) (fbackup f))
    /\ fid (cp nid f) = nid /\ flive (cp nid f) = false.
  Proof.
    intros nid f. unfold copy, serializable_copy, from_state, new_flow, get_state, set_state; simpl.
    rewrite set_get. destruct (fbackup f) as [[j c b]|]; simpl; auto.
  Qed.

  (* the part of flat that a copy has from the start and that keeps the id through a revert: what
     ids_distinct needs of every flow of the store (flat adds that the saved state embeds none) *)
  Definition own (f : flowT) : Prop := forall b, fbackup f = Some b -> sid b = fid f.

  Lemma copy_own : forall nid f, own (cp nid f).
  Proof.
    intros nid f b. unfold copy, serializable_copy, from_state, new_flow, get_state, set_state; simpl.
    destruct (fbackup f) as [[j c x]|]; simpl; intros E; inversion E; reflexivity.
  Qed.

  Lemma revert_id_own : forall f, own f -> fid (rv f) = fid f.
  Proof.
    intros f W. unfold revert. destruct (fbackup f) as [[j c b]|] eqn:B; [|reflexivity].
    simpl. apply (W (St j c b) B).
  Qed.

  (* reverting a copy keeps the id of the copy, whatever was pending in the original *)
  Theorem copy_revert_keeps_id : forall nid f, fid (rv (cp nid f)) = nid.
  Proof.
    intros nid f. rewrite (revert_id_own _ (copy_own nid f)).
    destruct (copy_spec nid f) as [_ [I _]]. exact I.
  Qed.

  (* the defect that was repaired: the copy of a flow with a pending backup, once reverted, had
     the id of the original *)
  Theorem unrepaired_copy_revert_collides : forall nid f,
    fbackup f = None -> fid (rv (cpu nid (bk f))) = fid f.
  Proof.
    intros nid f E. unfold backup. rewrite E.
    unfold copy_unrepaired, serializable_copy, from_state, new_flow, get_state, set_state, revert; simpl.
    reflexivity.
  Qed.

  Definition fop_of (o : op Obj) : option (nat * fop Obj) :=
    match o with
    | Edit i e => Some (i, FEdit e)
    | SetLive i b => Some (i, FLive b)
    | Backup i => Some (i, FBackup)
    | Revert i => Some (i, FRevert)
    | Reload i => Some (i, FReload)
    | Copy _ _ => None
    end.

  Lemma step_local : forall s o i p, fop_of o = Some (i, p) -> stp s o = updT i (fun f => fs f p) s.
  Proof. intros s o i p H. destruct o; simpl in H; inversion H; subst; reflexivity. Qed.

  Lemma upd_length : forall s i g, length (updT i g s) = length s.
  Proof. induction s as [|f r IH]; intros [|i] g; simpl; auto. Qed.

  Lemma upd_nth_other : forall s i j g, i <> j -> nth_error (updT i g s) j = nth_error s j.
  Proof.
    induction s as [|f r IH]; intros [|i] [|j] g N; simpl; auto; try congruence.
  Qed.

  Lemma upd_nth_same : forall s i g, nth_error (updT i g s) i = option_map g (nth_error s i).
  Proof. induction s as [|f r IH]; intros [|i] g; simpl; auto. Qed.

  Lemma step_length : forall s o, (length s <= length (stp s o))%nat.
  Proof.
    intros s o. destruct (fop_of o) as [[i p]|] eqn:E.
    - rewrite (step_local s o i p E), upd_length. lia.
    - destruct o; simpl in E; try discriminate. simpl. destruct (nth_error s i); [|lia].
      rewrite app_length. simpl. lia.
  Qed.

  (* an operation on flow i changes no other flow; a copy changes no existing flow and
     appends the copy *)
  Theorem step_independent : forall s o j, (j < length s)%nat ->
    (forall i p, fop_of o = Some (i, p) -> i <> j) ->
    nth_error (stp s o) j = nth_error s j.
  Proof.
    intros s o j L H. destruct (fop_of o) as [[i p]|] eqn:E.
    - rewrite (step_local s o i p E). apply upd_nth_other. apply (H i p). reflexivity.
    - destruct o; simpl in E; try discriminate. simpl. destruct (nth_error s i); [|reflexivity].
      apply nth_error_app1. exact L.
  Qed.

  Theorem step_on_target : forall s o i p, fop_of o = Some (i, p) ->
    nth_error (stp s o) i = option_map (fun f => fs f p) (nth_error s i).
  Proof. intros s o i p E. rewrite (step_local s o i p E). apply upd_nth_same. Qed.

  Theorem step_copy : forall s i nid f, nth_error s i = Some f ->
    stp s (Copy i nid) = s ++ [cp nid f].
  Proof. intros s i nid f E. simpl. rewrite E. reflexivity. Qed.

  (* over whole histories: a flow that no operation of the history targets is unchanged,
     whatever is done to the others (copies of it included) *)
  Theorem run_independent : forall h s j, (j < length s)%nat ->
    (forall o i p, In o h -> fop_of o = Some (i, p) -> i <> j) ->
    nth_error (rn s h) j = nth_error s j.
  Proof.
    induction h as [|o h IH]; intros s j L H; [reflexivity|].
    unfold run in *. simpl. rewrite IH.
    - apply step_independent; [exact L|]. intros i p E. apply (H o i p); simpl; auto.
    - pose proof (step_length s o). lia.
    - intros o' i p I E. apply (H o' i p); simpl; auto.
  Qed.

  Definition fresh_op (s : list flowT) (o : op Obj) : Prop :=
    match o with Copy _ nid => ~ In nid (map fid s) | _ => True end.

  Fixpoint hist_ok (P : list flowT -> op Obj -> Prop) (s : list flowT) (h : list (op Obj)) : Prop :=
    match h with
    | [] => True
    | o :: r => P s o /\ hist_ok P (stp s o) r
    end.

  Lemma fstep_own : forall f p, own f -> own (fs f p) /\ fid (fs f p) = fid f.
  Proof.
    intros f p W. destruct p as [e|lv| | |]; simpl; try (split; [exact W|reflexivity]).
    - split; [|apply backup_keeps]. unfold backup. destruct (fbackup f) eqn:B; [exact W|].
      intros b [= <-]. reflexivity.
    - split; [|apply revert_id_own; exact W]. intros b E. rewrite revert_clears in E. discriminate.
  Qed.

  Lemma upd_own : forall s i g,
    (forall f, own f -> own (g f) /\ fid (g f) = fid f) ->
    Forall own s -> map fid (updT i g s) = map fid s /\ Forall own (updT i g s).
  Proof.
    induction s as [|f r IH]; intros i g H W; [destruct i; simpl; auto|].
    inversion W as [|x l Wf Wr]; subst. destruct i as [|i]; simpl.
    - destruct (H f Wf) as [A B]. rewrite B. split; [reflexivity|constructor; assumption].
    - destruct (IH i g H Wr) as [A B]. rewrite A. split; [reflexivity|constructor; assumption].
  Qed.

  Lemma step_ids : forall s o, fresh_op s o ->
    NoDup (map fid s) -> Forall own s ->
    NoDup (map fid (stp s o)) /\ Forall own (stp s o).
  Proof.
    intros s o Fr ND W. destruct (fop_of o) as [[i p]|] eqn:E.
    - rewrite (step_local s o i p E).
      destruct (upd_own s i (fun f => fs f p) (fun f Wf => fstep_own f p Wf) W) as [A B].
      rewrite A. split; assumption.
    - destruct o; simpl in E; try discriminate. simpl in *.
      destruct (nth_error s i) as [f|]; [|split; assumption]. split.
      + rewrite map_app. destruct (copy_spec nid f) as [_ [I _]]. cbn [map]. rewrite I.
        apply (NoDup_Add (Add_app nid (map fid s) [])). rewrite app_nil_r. split; assumption.
      + apply Forall_app. split; [exact W|]. constructor; [apply copy_own|constructor].
  Qed.

  (* with fresh copy ids, ids stay pairwise distinct (and every saved state keeps carrying
     the id of its own flow) through EVERY history of edits, backups, reverts, reloads and copies,
     from any store in which that holds (e.g. any store of flows without pending backup) *)
  Theorem ids_distinct : forall h s,
    NoDup (map fid s) -> Forall own s ->
    hist_ok fresh_op s h ->
    NoDup (map fid (rn s h)) /\ Forall own (rn s h).
  Proof.
    induction h as [|o h IH]; intros s ND W H; [split; assumption|].
    destruct H as [Fr H]. unfold run in *. simpl.
    destruct (step_ids s o Fr ND W) as [A B]. apply IH; assumption.
  Qed.
End Proofs.

Example token_contract : forall c o, tget (tset c o) = c.
Proof. reflexivity. Qed.

Example token_eqb_spec : forall a b : N, N.eqb a b = true <-> a = b.
Proof. exact N.eqb_eq. Qed.

Definition sample_flow : tflow := Flow 5 10 true None.
Definition sample_hist : list (fop N) :=
  [FBackup; FEdit (fun _ => 11); FBackup; FLive false; FEdit (fun c => c + 1)].

(* the hypotheses of revert_restores hold on a history that really edits, and the conclusion is
   not trivial: the state before the revert differs and modified flips *)
Lemma sample_nonvacuous :
  no_revert N sample_hist /\ fbackup sample_flow = None
  /\ let g := frun N N tget tset (backup N N tget sample_flow) (tl sample_hist) in
     tget_state g <> tget_state sample_flow
     /\ tmodified g = true
     /\ tget_state (revert N N tset g) = tget_state sample_flow
     /\ tmodified (revert N N tset g) = false
     /\ tmodified (backup N N tget sample_flow) = false.
Proof.
  split; [|split; [reflexivity|]].
  - unfold no_revert, sample_hist. simpl. intros [H|[H|[H|[H|[H|[]]]]]]; discriminate.
  - vm_compute. repeat split; try reflexivity. discriminate.
Qed.

(* backup flow 0, copy it, revert the copy: ids stay distinct; with copy_unrepaired the reverted copy
   has id 0 again *)
Definition collide_store : list tflow := [Flow 0 0 true None].
Definition collide_hist : list (op N) := [Backup 0; Copy 0 1; Revert 1].

Lemma collide_hist_now_distinct :
  map fid (run N N tget tset 0 collide_store collide_hist) = [0; 1]
  /\ fid (revert N N tset (copy_unrepaired N N tget tset 0 1 (backup N N tget (Flow 0 0 true None)))) = 0.
Proof. vm_compute. split; reflexivity. Qed.
