(* Proofs/WsSource.v -- frame_buf bookkeeping: while the connection is open, the messages recorded
   for a side (type, injected flag, original content, fragment lengths) are exactly the reassembly
   of that side's stream of message events (received frames and injected fragments, in arrival
   order), with the frame boundaries wsproto reported.
   One relation (walk) is carried through send2 / on_message / process_event(s) / handle_event / run; the results
   about a whole run are read off it: frames sent = fragments of the recorded messages, pings relayed,
   recorded messages = source stream, first close recorded. *)
From Coq Require Import List Bool Arith NArith.
From MV Require Import Base.Bytes Model.WsUtf8 Model.Websocket Proofs.ListFacts Proofs.WsFragment Proofs.WsRelay Proofs.WsRelay2.
Import ListNotations.

(* is_text, data, frame_finished, message_finished, injected *)
Definition item := (bool * bytes * bool * bool * bool)%type.

Definition item_of (inj : bool) (e : wsevent) : list item :=
  match e with
  | WText d ff mf => [(true, encode d, ff, mf, inj)]
  | WBytes d ff mf => [(false, d, ff, mf, inj)]
  | _ => []
  end.

(* message events of side c carried by one layer event *)
Definition stream_of (fs : nat) (c : bool) (l : levent) : list item :=
  match l with
  | LData fc evs => if Bool.eqb fc c then flat_map (fun e => item_of false (fst e)) evs else []
  | LInject fc t content =>
    if Bool.eqb fc c
    then match fragmentize fs [] t content with Some es => flat_map (item_of true) es | None => [] end
    else []
  | LClosed _ => []
  end.

(* reference reassembly with frame boundaries: the buffers of each finished message *)
Fixpoint collect (done : list bytes) (cur : bytes) (its : list item) : list (bool * bool * list bytes) :=
  match its with
  | [] => []
  | (t, d, ff, mf, inj) :: r =>
    if mf then (t, inj, done ++ [cur ++ d]) :: collect [] [] r
    else if ff then collect (done ++ [cur ++ d]) [] r
    else collect done (cur ++ d) r
  end.

(* the frame buffers (finished frames, frame in progress) that collect is left with after its *)
Fixpoint collect_state (done : list bytes) (cur : bytes) (its : list item) : list bytes * bytes :=
  match its with
  | [] => (done, cur)
  | (t, d, ff, mf, inj) :: r =>
    if mf then collect_state [] [] r
    else if ff then collect_state (done ++ [cur ++ d]) [] r
    else collect_state done (cur ++ d) r
  end.

Lemma collect_app : forall a b done cur,
  collect done cur (a ++ b)
  = collect done cur a ++ collect (fst (collect_state done cur a)) (snd (collect_state done cur a)) b
  /\ collect_state done cur (a ++ b)
     = collect_state (fst (collect_state done cur a)) (snd (collect_state done cur a)) b.
Proof.
  induction a as [|[[[[t d] ff] mf] inj] a IH]; intros b done cur; [split; reflexivity|].
  cbn [app collect collect_state]. destruct mf; [|destruct ff; apply IH].
  destruct (IH b [] []) as [A B]. split; [cbn [app]; f_equal; exact A|exact B].
Qed.

Definition rec_view (m : wsmessage) := (m_text m, m_injected m, m_orig m, m_lens m).
Definition col_view (x : bool * bool * list bytes) :=
  (fst (fst x), snd (fst x), concat (snd x), map (@length byte) (snd x)).
Definition from (c : bool) (m : wsmessage) : bool := Bool.eqb (m_from_client m) c.
Definition fbs (c : bool) (s : lstate) : list bytes * bytes := (fb_done (get_ws c s), fb_cur (get_ws c s)).

(* going from s to s1, side c consumed the message events its: the messages recorded meanwhile for c are what
   collect reassembles from them, starting with c's frame buffers in s, and s1 holds the buffers left over *)
Definition src_ok (c : bool) (s s1 : lstate) (its : list item) (new : list wsmessage) : Prop :=
  map rec_view (filter (from c) new) = map col_view (collect (fst (fbs c s)) (snd (fbs c s)) its)
  /\ fbs c s1 = collect_state (fst (fbs c s)) (snd (fbs c s)) its.

Lemma src_ok_trans c s s1 s2 i1 i2 n1 n2 :
  src_ok c s s1 i1 n1 -> src_ok c s1 s2 i2 n2 -> src_ok c s s2 (i1 ++ i2) (n1 ++ n2).
Proof.
  intros [A1 B1] [A2 B2]. split.
  - rewrite filter_app, map_app, (proj1 (collect_app _ _ _ _)), map_app, A1, <- B1, A2. reflexivity.
  - rewrite (proj2 (collect_app _ _ _ _)), <- B1. exact B2.
Qed.

Lemma src_ok_fbs c s s' s1 its new : fbs c s' = fbs c s -> src_ok c s' s1 its new -> src_ok c s s1 its new.
Proof. unfold src_ok. intros ->. auto. Qed.

Lemma ws_send_fb c e c' : ws_send c e = Some c' -> fb_done c' = fb_done c /\ fb_cur c' = fb_cur c.
Proof.
  unfold ws_send. destruct e; destruct (cstate c); intros H; try discriminate H; injection H as <-; auto.
Qed.

Lemma fbs_set_ws c t x s : fbs c (set_ws t x s) = if Bool.eqb t c then (fb_done x, fb_cur x) else fbs c s.
Proof. destruct c, t; reflexivity. Qed.

Lemma send2_fbs t e s s1 cs : send2 t e s = (s1, cs) -> forall c, fbs c s1 = fbs c s.
Proof.
  unfold send2. destruct (is_crashed s); [intros H; injection H as <- _; reflexivity|].
  destruct (ws_send (get_ws t s) e) as [c'|] eqn:W; intros H; injection H as <- _; intros c.
  - rewrite fbs_set_ws. destruct (ws_send_fb _ _ _ W) as [-> ->].
    destruct t, c; reflexivity.
  - destruct c; reflexivity.
Qed.

Lemma send_all_fbs t es : forall s s1 cs, send_all t es s = (s1, cs) -> forall c, fbs c s1 = fbs c s.
Proof.
  induction es as [|e es IH]; intros s s1 cs H c; cbn [send_all] in H; [injection H as <- _; reflexivity|].
  destruct (send2 t e s) as [sa ca] eqn:E1. destruct (send_all t es sa) as [sb cb] eqn:E2. injection H as <- _.
  rewrite (IH _ _ _ E2 c). exact (send2_fbs _ _ _ _ _ E1 c).
Qed.

Lemma close_one_fbs t ev s s1 cs : close_one t ev s = (s1, cs) -> forall c, fbs c s1 = fbs c s.
Proof.
  unfold close_one. destruct (sendable _); [destruct (send2 t ev s) as [sa ca] eqn:E|]; intros H; injection H as <- _;
    [exact (send2_fbs _ _ _ _ _ E)|reflexivity].
Qed.

Lemma if_same {A} (b : bool) (x : A) : (if b then x else x) = x.
Proof. destruct b; reflexivity. Qed.

Lemma msgs_no_ctrl es : Forall (fun e => is_msg_ev e = true) es -> filter is_ctrl_ev es = [].
Proof. induction 1 as [|e es He _ IH]; [reflexivity|]. destruct e; cbn in *; try discriminate; exact IH. Qed.

(* what going from s to s1 with commands cs did: the messages it recorded (new), per side the message events it
   consumed (its) and the pings and pongs it relayed (pg); as long as `quiet` holds the close bookkeeping is untouched. *)
Record walk (fs : nat) (s s1 : lstate) (cs : list cmd) (new : list wsmessage)
            (its : bool -> list item) (pg : bool -> list wsevent) (quiet : Prop) : Prop := {
  w_msgs : messages s1 = messages s ++ new;
  w_sends : forall side, msg_sends side cs = expected_for fs side new;
  w_pings : forall side, ctrl_sends side cs = pg side;
  w_src : forall c, src_ok c s s1 (its c) new;
  w_quiet : quiet -> closed s1 = closed s /\ finished s1 = finished s
}.

Lemma walk_trans fs s s1 s2 c1 c2 n1 n2 i1 i2 p1 p2 q1 q2 :
  walk fs s s1 c1 n1 i1 p1 q1 -> walk fs s1 s2 c2 n2 i2 p2 q2 ->
  walk fs s s2 (c1 ++ c2) (n1 ++ n2) (fun c => i1 c ++ i2 c) (fun side => p1 side ++ p2 side) (q1 /\ q2).
Proof.
  intros [M1 S1 P1 R1 Q1] [M2 S2 P2 R2 Q2]. constructor.
  - rewrite M2, M1. symmetry. apply app_assoc.
  - intros side. unfold msg_sends in *. rewrite sends_app, expected_app, S1, S2. reflexivity.
  - intros side. unfold ctrl_sends in *. rewrite sends_app, P1, P2. reflexivity.
  - intros c. exact (src_ok_trans _ _ _ _ _ _ _ _ (R1 c) (R2 c)).
  - intros [K1 K2]. destruct (Q1 K1), (Q2 K2). split; congruence.
Qed.

Lemma walk_ext fs s s1 cs new i i' p p' (q q' : Prop) :
  (forall c, i c = i' c) -> (forall side, p side = p' side) -> (q' -> q) ->
  walk fs s s1 cs new i p q -> walk fs s s1 cs new i' p' q'.
Proof.
  intros Hi Hp Hq [M S P R Q]. constructor; auto.
  - intros side. rewrite <- Hp. apply P.
  - intros c. rewrite <- Hi. apply R.
Qed.

Lemma walk_still fs s s1 cs its pg (quiet : Prop) :
  (forall c, its c = []) -> messages s1 = messages s -> (forall c, fbs c s1 = fbs c s) ->
  (forall side, msg_sends side cs = []) -> (forall side, ctrl_sends side cs = pg side) ->
  (quiet -> closed s1 = closed s /\ finished s1 = finished s) ->
  walk fs s s1 cs [] its pg quiet.
Proof.
  intros I M F S P Q. constructor; auto.
  - rewrite M. symmetry. apply app_nil_r.
  - intros c. rewrite I. split; [reflexivity|]. rewrite F. unfold fbs. reflexivity.
Qed.

Lemma walk_start fs s s0 s1 cs new its pg quiet :
  messages s0 = messages s -> (forall c, fbs c s0 = fbs c s) -> closed s0 = closed s -> finished s0 = finished s ->
  walk fs s0 s1 cs new its pg quiet -> walk fs s s1 cs new its pg quiet.
Proof.
  intros M F Cl Fi [M1 S1 P1 R1 Q1]. constructor; auto.
  - rewrite <- M. exact M1.
  - intros c. exact (src_ok_fbs _ _ _ _ _ _ (F c) (R1 c)).
  - rewrite <- Cl, <- Fi. exact Q1.
Qed.

Lemma on_message_walk fs addon fc inj t d ff mf s s1 cs :
  on_message fs addon fc inj t d ff mf s = (s1, cs) -> is_crashed s1 = false ->
  exists new, walk fs s s1 cs new (fun c => if Bool.eqb fc c then [(t, d, ff, mf, inj)] else []) (fun _ => []) True.
Proof.
  unfold on_message. intros H NC. destruct mf.
  - rewrite set_ws_messages in H. destruct (addon _) as [content' dropped'] eqn:EA.
    set (m' := mkMsg t fc content' dropped' inj _ _) in H. set (s2 := set_messages _ _) in H.
    (* in s2 the message is recorded and the frame buffer of its side is reset; sending changes neither *)
    assert (R2 : forall s3, (forall c, fbs c s3 = fbs c s2) ->
              forall c, src_ok c s s3 (if Bool.eqb fc c then [(t, d, ff, true, inj)] else []) [m']).
    { intros s3 F3 c. unfold src_ok. rewrite F3. unfold from. cbn [filter m_from_client m'].
      replace (fbs c s2) with (if Bool.eqb fc c then ([], []) else fbs c s) by (unfold s2; destruct c, fc; reflexivity).
      destruct (Bool.eqb fc c) eqn:E; [apply Bool.eqb_prop in E; subst c|]; cbn; unfold fbs; split; reflexivity. }
    assert (Q2 : closed s2 = closed s /\ finished s2 = finished s) by (split; [apply set_ws_closed|apply set_ws_finished]).
    exists [m']. destruct dropped'.
    + injection H as <- <-. constructor; [reflexivity| |reflexivity|apply R2; reflexivity|intros _; exact Q2].
      intros side. cbn. unfold sel_exp, expected_frames. cbn. destruct (Bool.eqb fc (negb side)); reflexivity.
    + destruct (fragmentize fs _ t content') as [es|] eqn:EF; [|injection H as <- _; cbn in NC; discriminate].
      destruct (send_all (negb fc) es s2) as [s3 c3] eqn:ES. injection H as <- <-.
      destruct (send_all_inv _ _ _ _ _ ES NC) as (_ & M3 & Cl3 & F3 & ->).
      pose proof (fragmentize_msgs _ _ _ _ _ EF) as HM. constructor.
      * rewrite M3. reflexivity.
      * intros side. unfold msg_sends. change (CMsgHook :: ?l) with ([CMsgHook] ++ l).
        rewrite sends_app, (sends_map_send _ _ _ _ HM). cbn. unfold sel_exp, expected_frames. cbn.
        rewrite EF, app_nil_r. destruct fc, side; reflexivity.
      * intros side. unfold ctrl_sends. change (CMsgHook :: ?l) with ([CMsgHook] ++ l). rewrite sends_app.
        apply sends_map_none. eapply Forall_impl; [|exact HM]. intros e He. destruct e; cbn in *; congruence.
      * apply R2. exact (send_all_fbs _ _ _ _ _ ES).
      * intros _. destruct Q2. split; congruence.
  - destruct ff; injection H as <- <-; exists [];
      (constructor; [rewrite set_ws_messages; symmetry; apply app_nil_r|reflexivity|reflexivity|
                     |intros _; split; [apply set_ws_closed|apply set_ws_finished]]);
      intros c; unfold src_ok; rewrite fbs_set_ws; cbn [fb_done fb_cur];
      (destruct (Bool.eqb fc c) eqn:E; [apply Bool.eqb_prop in E; subst c|]); cbn; unfold fbs; split; reflexivity.
Qed.

Lemma process_event_walk fs addon fc inj s ev st s1 cs :
  process_event fs addon fc inj s (ev, st) = (s1, cs) -> is_crashed s1 = false ->
  exists new, walk fs s s1 cs new (fun c => if Bool.eqb fc c then item_of inj ev else [])
                   (fun side => ctrl_expected fc side [(ev, st)]) (is_close_ev ev = false).
Proof.
  unfold process_event. destruct (is_crashed s) eqn:C; [intros H; injection H as <- _; congruence|].
  set (s0 := set_ws fc _ s). intros H NC.
  assert (W0 : forall new its pg q, walk fs s0 s1 cs new its pg q -> walk fs s s1 cs new its pg q).
  { intros new its pg q. apply walk_start; [apply set_ws_messages| |apply set_ws_closed|apply set_ws_finished].
    intros c. unfold s0. rewrite fbs_set_ws. destruct (Bool.eqb fc c) eqn:E; [|reflexivity].
    apply Bool.eqb_prop in E. subst c. reflexivity. }
  destruct ev as [d ff mf|d ff mf|p|p|code reason].
  1, 2: destruct (on_message_walk _ _ _ _ _ _ _ _ _ _ _ H NC) as [new W]; exists new; apply W0; revert W;
    apply walk_ext; [reflexivity| |auto]; intros side; unfold ctrl_expected; cbn; symmetry; apply if_same.
  1, 2: destruct (send2 _ _ s0) as [sa ca] eqn:E; injection H as <- <-;
    destruct (send2_inv _ _ _ _ _ E NC) as (_ & Ma & Cl & Fi & ->); exists []; apply W0, walk_still;
    [intros c; apply if_same|exact Ma|exact (send2_fbs _ _ _ _ _ E)
    |intros side; cbn; rewrite andb_false_r; reflexivity
    |intros side; unfold ctrl_expected; cbn; destruct fc, side; reflexivity
    |intros _; split; [exact Cl|exact Fi]].
  destruct (close_one false _ _) as [sa ca] eqn:E1. destruct (close_one true _ sa) as [sb cb] eqn:E2.
  injection H as <- <-. cbn in NC.
  destruct (close_one_inv true (WClose code reason) _ _ _ eq_refl eq_refl E2 NC) as (Ca & Mb & _ & _ & Sb & Pb).
  destruct (close_one_inv false (WClose code reason) _ _ _ eq_refl eq_refl E1 Ca) as (_ & Ma & _ & _ & Sa & Pa).
  exists []. apply W0, walk_still.
  - intros c. apply if_same.
  - cbn. rewrite Mb, Ma. reflexivity.
  - intros c. transitivity (fbs c sb); [destruct c; reflexivity|].
    rewrite (close_one_fbs _ _ _ _ _ E2), (close_one_fbs _ _ _ _ _ E1). destruct c; reflexivity.
  - intros side. unfold msg_sends in *. rewrite !sends_app, Sa, Sb. reflexivity.
  - intros side. unfold ctrl_sends in *. rewrite !sends_app, Pa, Pb. unfold ctrl_expected. cbn. symmetry. apply if_same.
  - discriminate.
Qed.

Lemma process_events_walk fs addon fc inj : forall evs s s1 cs,
  process_events fs addon fc inj s evs = (s1, cs) -> is_crashed s1 = false ->
  exists new, walk fs s s1 cs new (fun c => if Bool.eqb fc c then flat_map (fun e => item_of inj (fst e)) evs else [])
                   (fun side => ctrl_expected fc side evs) (Forall (fun e => is_close_ev (fst e) = false) evs).
Proof.
  induction evs as [|[ev st] evs IH]; intros s s1 cs H NC; cbn [process_events] in H.
  - injection H as <- <-. exists []. apply walk_still; auto.
    + intros c. apply if_same.
    + intros side. unfold ctrl_expected. symmetry. apply if_same.
  - destruct (process_event fs addon fc inj s (ev, st)) as [sa ca] eqn:E1.
    destruct (process_events fs addon fc inj sa evs) as [sb cb] eqn:E2. injection H as <- <-.
    destruct (process_event_walk _ _ _ _ _ _ _ _ _ E1 (process_events_alive _ _ _ _ _ _ _ _ E2 NC)) as [n1 W1].
    destruct (IH _ _ _ E2 NC) as [n2 W2]. exists (n1 ++ n2).
    refine (walk_ext _ _ _ _ _ _ _ _ _ _ _ _ _ _ (walk_trans _ _ _ _ _ _ _ _ _ _ _ _ _ _ W1 W2)).
    + intros c. cbn [flat_map fst]. destruct (Bool.eqb fc c); reflexivity.
    + intros side. symmetry. apply ctrl_expected_cons.
    + intros Q. inversion Q; auto.
Qed.

Lemma handle_event_walk fs addon s e s1 cs : finished s = false ->
  handle_event fs addon s e = (s1, cs) -> is_crashed s1 = false ->
  exists new, walk fs s s1 cs new (fun c => stream_of fs c e) (fun side => pings_of side e) (no_close e).
Proof.
  intros F H NC. unfold handle_event in H. rewrite F in H. cbn [orb] in H.
  destruct (is_crashed s) eqn:C; [injection H as <- _; congruence|].
  destruct e as [fc evs|fc|fc t content].
  - exact (process_events_walk _ _ _ _ _ _ _ _ H NC).
  - destruct (process_events_walk _ _ _ _ _ _ _ _ H NC) as [new W]. exists new. revert W. apply walk_ext.
    + intros c. cbn. apply if_same.
    + intros side. unfold ctrl_expected. cbn. apply if_same.
    + intros [].
  - cbn [stream_of]. destruct (fragmentize fs [] t content) as [es|] eqn:EF; [|injection H as <- _; cbn in NC; discriminate].
    pose proof (fragmentize_msgs _ _ _ _ _ EF) as HM.
    destruct (process_events_walk _ _ _ _ _ _ _ _ H NC) as [new W]. exists new. revert W. apply walk_ext.
    + intros c. rewrite flat_map_map. reflexivity.
    + intros side. unfold ctrl_expected, pings_of. rewrite map_map. cbn [fst]. rewrite map_id, (msgs_no_ctrl _ HM).
      apply if_same.
    + intros _. rewrite Forall_map. eapply Forall_impl; [|exact HM]. intros e He. destruct e; cbn in *; congruence.
Qed.

(* the first two fields of walk for every history, closes included: a finished layer does nothing (run_walk
   needs no_close because its other fields speak of the time before the close) *)
Lemma run_msgs fs addon : forall evs s s1 cs, run fs addon s evs = (s1, cs) -> is_crashed s1 = false ->
  exists new, messages s1 = messages s ++ new /\ forall side, msg_sends side cs = expected_for fs side new.
Proof.
  induction evs as [|e evs IH]; intros s s1 cs H NC; cbn [run] in H.
  - injection H as <- <-. exists []. split; [symmetry; apply app_nil_r|reflexivity].
  - destruct (handle_event fs addon s e) as [sa ca] eqn:E1. destruct (run fs addon sa evs) as [sb cb] eqn:E2.
    injection H as <- <-. destruct (IH _ _ _ E2 NC) as (n2 & M2 & S2). destruct (finished s) eqn:F.
    + unfold handle_event in E1. rewrite F in E1. injection E1 as <- <-. exists n2. auto.
    + destruct (handle_event_walk _ _ _ _ _ _ F E1 (run_alive _ _ _ _ _ _ E2 NC)) as [n1 [M1 S1 _ _ _]].
      exists (n1 ++ n2). split; [rewrite M2, M1; symmetry; apply app_assoc|].
      intros side. unfold msg_sends in *. rewrite sends_app, expected_app, S1, S2. reflexivity.
Qed.

Lemma run_walk fs addon : forall evs s s1 cs, Forall no_close evs -> finished s = false ->
  run fs addon s evs = (s1, cs) -> is_crashed s1 = false ->
  exists new, walk fs s s1 cs new (fun c => flat_map (stream_of fs c) evs) (fun side => flat_map (pings_of side) evs) True.
Proof.
  induction evs as [|e evs IH]; intros s s1 cs NCl F H NC; cbn [run] in H.
  - injection H as <- <-. exists []. apply walk_still; auto.
  - inversion NCl as [|? ? K NCl']; subst.
    destruct (handle_event fs addon s e) as [sa ca] eqn:E1. destruct (run fs addon sa evs) as [sb cb] eqn:E2.
    injection H as <- <-.
    destruct (handle_event_walk _ _ _ _ _ _ F E1 (run_alive _ _ _ _ _ _ E2 NC)) as [n1 W1].
    destruct (w_quiet _ _ _ _ _ _ _ _ W1 K) as [_ Fa]. rewrite F in Fa.
    destruct (IH _ _ _ NCl' Fa E2 NC) as [n2 W2]. exists (n1 ++ n2).
    refine (walk_ext _ _ _ _ _ _ _ _ _ _ _ _ _ _ (walk_trans _ _ _ _ _ _ _ _ _ _ _ _ _ _ W1 W2)); auto.
Qed.

(* every message frame sent to a side belongs to a recorded non-dropped message of the other side:
   exactly its fragments, in recording order, nothing else *)
Theorem sends_are_recorded fs addon evs s1 cs :
  run fs addon init evs = (s1, cs) -> is_crashed s1 = false ->
  forall side, msg_sends side cs = expected_for fs side (messages s1).
Proof. intros H NC side. destruct (run_msgs _ _ _ _ _ _ H NC) as (new & M & E). cbn in M. rewrite M. apply E. Qed.

(* the first closing event e decides: what handling it records is what the whole run records *)
Lemma closing_event fs addon pre e post s1 cs x :
  Forall no_close pre -> run fs addon init (pre ++ e :: post) = (s1, cs) -> is_crashed s1 = false ->
  (forall sa sb cb, is_crashed sa = false -> finished sa = false -> handle_event fs addon sa e = (sb, cb) ->
                    is_crashed sb = false -> closed sb = Some x /\ finished sb = true) ->
  closed s1 = Some x /\ finished s1 = true.
Proof.
  intros NP H NC He. rewrite run_app in H.
  destruct (run fs addon init pre) as [sa ca] eqn:E1. cbn [run] in H.
  destruct (handle_event fs addon sa e) as [sb cb] eqn:E2.
  destruct (run fs addon sb post) as [sc cc] eqn:E3. injection H as <- <-.
  pose proof (run_alive _ _ _ _ _ _ E3 NC) as Cb.
  assert (Ca : is_crashed sa = false).
  { destruct (is_crashed sa) eqn:X; [|reflexivity]. rewrite (handle_event_crashed _ _ _ _ X) in E2.
    injection E2 as <- <-. congruence. }
  destruct (run_walk _ _ _ init _ _ NP eq_refl E1 Ca) as [new [_ _ _ _ Q]]. destruct (Q I) as [_ Fa]. cbn in Fa.
  destruct (He _ _ _ Ca Fa E2 Cb) as [G1 G2]. rewrite (done_noop _ _ _ _ G2) in E3. injection E3 as <- <-. auto.
Qed.

(* after a history without close, a batch of wsproto events that ENDS with a close frame: its code and reason
   are what is recorded, whatever precedes it in the batch (process_event does not look at `finished`, so a
   close earlier in the same batch would be overwritten), and the layer is then done *)
Theorem close_frame_recorded fs addon pre fc evs1 code reason st post s1 cs :
  Forall no_close pre ->
  run fs addon init (pre ++ LData fc (evs1 ++ [(WClose code reason, st)]) :: post) = (s1, cs) ->
  is_crashed s1 = false ->
  closed s1 = Some (fc, code, reason) /\ finished s1 = true.
Proof.
  intros NP H NC. apply (closing_event _ _ _ _ _ _ _ _ NP H NC). clear.
  intros sa sb cb Ca Fa E2. unfold handle_event in E2. rewrite Fa, Ca in E2. cbn [orb] in E2. clear Ca Fa.
  revert sa sb cb E2. induction evs1 as [|e evs IH]; intros s s' c E2 NN; cbn [process_events app] in E2.
  - destruct (process_event _ _ _ _ s _) as [sx cx] eqn:EX. injection E2 as <- <-.
    exact (process_event_close _ _ _ _ _ _ _ _ _ _ EX NN).
  - destruct (process_event _ _ _ _ s e) as [sx cx] eqn:EX.
    destruct (process_events _ _ _ _ sx _) as [sy cy] eqn:EY. injection E2 as <- <-. eapply IH; eauto.
Qed.

(* ConnectionClosed is handled as a close frame with code 1006 and no reason (handle_event, LClosed) *)
Theorem eof_recorded fs addon pre fc post s1 cs :
  Forall no_close pre -> run fs addon init (pre ++ LClosed fc :: post) = (s1, cs) -> is_crashed s1 = false ->
  closed s1 = Some (fc, 1006%N, None) /\ finished s1 = true.
Proof.
  intros NP H NC. apply (closing_event _ _ _ _ _ _ _ _ NP H NC). clear.
  intros sa sb cb Ca Fa E2 Cb. unfold handle_event in E2. rewrite Fa, Ca in E2. cbn [orb process_events] in E2.
  destruct (process_event _ _ _ _ sa _) as [sx cx] eqn:EX. injection E2 as <- <-.
  exact (process_event_close _ _ _ _ _ _ _ _ _ _ EX Cb).
Qed.

