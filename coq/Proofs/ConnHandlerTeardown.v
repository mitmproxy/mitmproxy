(* Proofs/ConnHandlerTeardown.v -- when handle_client has returned, every upstream connection that
   existed when it took its final snapshot of transports is past handle_connection (its task is done
   or only waits for the server_disconnected hook to return). *)
From Coq Require Import List Bool Arith Lia.
From MV Require Import Model.ConnHandler Proofs.ConnHandlerBase Proofs.ConnHandlerPair.
Import ListNotations.

Definition settled (p : cpc) : bool := match p with PHookDisc _ | PDone _ => true | _ => false end.
Definition settledc (s : st) (c : nat) : Prop := settled (c_pc (getc s c)) = true.

(* at most the connections ws of the final snapshot (the first n) are not yet past handle_connection;
   n <= length keeps the snapshot inside the list when frame steps are applied *)
Definition TDn (s : st) (ws : list nat) : Prop :=
  exists n, teardown_n s = Some n /\ n <= length (conns s) /\
            forall c, 1 <= c -> c < n -> In c ws \/ settledc s c.
Definition TD (s : st) : Prop :=
  match mainpc s with MWaitAll ws => TDn s ws | MDone _ => TDn s [] | _ => True end.

Lemma settled_ksoft : forall x y, ksoft x y -> settled (c_pc y) = settled (c_pc x).
Proof.
  intros x y (_ & K & _). destruct (c_pc x), (c_pc y); simpl in *; try discriminate; auto; inversion K; auto.
Qed.

Lemma settled_frame : forall s s' c, frame s s' -> c < length (conns s) -> settledc s c -> settledc s' c.
Proof.
  unfold settledc. intros s s' c F L S. rewrite (settled_ksoft _ _ (psoft_ksoft _ _ (frame_getc _ _ c F L))). auto.
Qed.

Lemma TDn_gen : forall s s' ws,
  teardown_n s' = teardown_n s -> length (conns s) <= length (conns s') ->
  (forall c, 1 <= c -> c < length (conns s) -> settledc s c -> settledc s' c) -> TDn s ws -> TDn s' ws.
Proof.
  intros s s' ws T L H (n & E & Ln & D). exists n. rewrite T. repeat split; auto; try lia.
  intros c C1 C2. destruct (D c C1 C2); auto. right. apply H; auto. lia.
Qed.

Lemma TD_gen : forall s s',
  mainpc s' = mainpc s -> teardown_n s' = teardown_n s -> length (conns s) <= length (conns s') ->
  (forall c, 1 <= c -> c < length (conns s) -> settledc s c -> settledc s' c) -> TD s -> TD s'.
Proof. intros s s' M T L H. unfold TD. rewrite M. destruct (mainpc s); auto; apply TDn_gen; auto. Qed.

Lemma TD_frame : forall s s', frame s s' -> TD s -> TD s'.
Proof. intros s s' F. apply TD_gen; eauto using frame_len, settled_frame; apply F. Qed.

Lemma len_wake_next : forall S a, length (conns (wake_next S a)) = length (conns S).
Proof. intros. unfold wake_next. destruct (first_pending S (semq S a)); auto. simpl. apply upd_length. Qed.
Lemma len_release_of : forall S c, length (conns (release_of S c)) = length (conns S).
Proof. intros. unfold release_of, sem_release. destruct (c_addr (getc S c)); auto. rewrite len_wake_next. auto. Qed.
Lemma pc_finish : forall S c x k, c < length (conns S) -> c_pc (getc (finish S c x k) c) = PDone x.
Proof. intros. unfold finish. change (getc (emit ?s ?e) c) with (getc s c). rewrite getc_setc_same; auto. Qed.

Lemma settled_own : forall s c, c < length (conns s) -> settledc s c -> settledc (run_conn s c) c.
Proof.
  intros s c L S. unfold settledc in *. unfold run_conn.
  destruct (c_pc (getc s c)) eqn:E; try discriminate.
  - destruct (c_cf (getc s c)); rewrite pc_finish; auto; rewrite len_release_of, len_setc; auto.
  - rewrite E. auto.
Qed.

Lemma TD_run_conn : forall s c, c < length (conns s) -> TD s -> TD (run_conn s c).
Proof.
  intros s c L. destruct (oframe_run_conn s c) as [OL OO ON OM OT _]. apply TD_gen; auto.
  intros c' C1 C2 S. destruct (Nat.eq_dec c' c).
  - subst. apply settled_own; auto.
  - unfold settledc in *. rewrite (settled_ksoft _ _ (OO c' n C2)). auto.
Qed.

Lemma TD_run_hook : forall s k, TD s -> TD (run_hook s k).
Proof.
  intros s k D. unfold run_hook. destruct (geth s k); auto.
  - exact (TD_frame _ _ (frame_server_event s (LHookDone k)) D).
Qed.

Lemma in_waited : forall l i c, In c (waited l i) <->
  exists j, c = i + j /\ j < length l /\ c_entry (nth j l dconn) && c_task (nth j l dconn) = true.
Proof.
  induction l; simpl; intros.
  - split; [tauto|]. intros (j & _ & B & _). lia.
  - assert (R : In c (waited l (S i)) <->
                exists j, c = i + S j /\ S j < S (length l) /\ c_entry (nth j l dconn) && c_task (nth j l dconn) = true).
    { rewrite IHl. split; intros (j & A & B & C); exists j; repeat split; auto; lia. }
    destruct (c_entry a && c_task a) eqn:E; simpl; rewrite R; split.
    + intros [H | (j & A & B & C)].
      * exists 0. repeat split; auto; lia.
      * exists (S j). auto.
    + intros (j & A & B & C). destruct j; [left; lia|right; exists j; auto].
    + intros (j & A & B & C). exists (S j). auto.
    + intros (j & A & B & C). destruct j; [congruence|exists j; auto].
Qed.

Lemma wok_unsettled : forall x, wok x -> settled (c_pc x) = false -> c_entry x = true /\ c_task x = true.
Proof. unfold wok. intros x W S. destruct (c_pc x); simpl in *; try discriminate; tauto. Qed.

Lemma waited_nil : forall l i, existsb c_entry l = false -> waited l i = [].
Proof. induction l; simpl; intros i H; auto. apply orb_false_iff in H as [-> H]. simpl. auto. Qed.

Lemma TD_run_main : forall s, Inv1 s -> main_ready s = true -> TD s -> TD (run_main s).
Proof.
  intros s [I _] R D. unfold run_main. destruct (mainpc s) eqn:E; try exact D; try exact Logic.I.
  - match goal with |- context [client_err ?S1] => destruct (client_err S1) end; exact Logic.I.
  - (* the final snapshot: whoever is not past handle_connection has an entry and a task, so is waited for *)
    match goal with |- context [existsb c_entry (conns ?S0)] => set (s0 := S0) end.
    assert (K : TDn s0 (waited (conns s0) 0)).
    { exists (length (conns s)). repeat split; auto. intros c C1 C2.
      destruct (settled (c_pc (getc s c))) eqn:S; [right; exact S|left].
      destruct (wok_unsettled _ (proj2 (I c C1)) S) as [A B].
      apply in_waited. exists c. simpl. fold (getc s c). rewrite A, B. auto. }
    destruct (existsb c_entry (conns s0)) eqn:EX.
    + pose proof (frame_cancel_all (length (conns s)) s0 0) as F.
      apply (TDn_gen _ _ _ (f_td _ _ F) (frame_len _ _ F)) in K; [|eauto using settled_frame].
      revert K. destruct (waited (conns s0) 0); intros K; exact K.
    + rewrite (waited_nil _ _ EX) in K. exact K.
  - unfold TD in D. rewrite E in D. destruct D as (n & T & Ln & D). exists n. repeat split; auto. intros c C1 C2. right.
    destruct (D c C1 C2) as [H | H]; auto.
    unfold main_ready in R. rewrite E in R. unfold all_done in R. rewrite forallb_forall in R. specialize (R c H).
    unfold settledc. change (getc (main_finish s 0) c) with (getc s c).
    destruct (c_pc (getc s c)); auto; discriminate.
Qed.

Definition PairTD (s : st) : Prop := Inv1 s /\ TD s.

Theorem teardown_invariant : forall sc l, PairTD (run (init sc) l).
Proof.
  apply reach_ind.
  - split. apply inv1_init. exact Logic.I.
  - intros s s' F [I D]. split; eauto using inv1_frame, TD_frame.
  - intros s w [I D]. split; [exact I|]. revert D. unfold TD. simpl. auto.
  - intros s R [I D]. split; auto using inv1_run_main, TD_run_main.
  - intros s c L [I D]. split; auto using inv1_run_conn, TD_run_conn.
  - intros s k [I D]. split; auto using inv1_run_hook, TD_run_hook.
Qed.

(* after handle_client returned: no upstream connection known at the final snapshot still owns an
   open writer, except one whose server_connected hook was cancelled *)
Theorem no_open_writer_after_done : forall sc l k n c,
  let s := run (init sc) l in
  mainpc s = MDone k -> teardown_n s = Some n -> 1 <= c -> c < n ->
  c_writer (getc s c) = WOpen -> c_pc (getc s c) = PDone XLostConnectedHook.
Proof.
  intros sc l k n c s M T C1 C2 W. destruct (teardown_invariant sc l) as [[I _] D]. fold s in I, D.
  unfold TD in D. rewrite M in D. destruct D as (n' & T' & _ & D). rewrite T in T'. inversion T'; subst n'.
  destruct (D c C1 C2) as [[]|D']. destruct (I c C1) as [_ K]. unfold wok in K. rewrite W in K. unfold settledc in D'.
  destruct (c_pc (getc s c)) as [| | | | | | | | | | | |x]; simpl in *; try discriminate; try (destruct K; discriminate).
  destruct x; simpl in K; try discriminate; try (destruct K; discriminate); auto.
Qed.
