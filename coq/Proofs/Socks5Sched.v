(* Proofs/Socks5Sched.v -- schedule independence: whenever the completions of the
   blocking commands (socks5_auth hook, OpenConnection) are delivered -- at once, or after
   any number of further client segments were queued behind the pause -- the layer ends
   in the state Model/Socks5.v computes for the same segments, hence for the unsplit stream. *)
From Coq Require Import List Bool Arith NArith.
From MV Require Import Base.Bytes Model.Socks5 Model.Socks5Sched Proofs.Socks5Seg.
Import ListNotations.

(* answer a pending command at once *)
Definition settle1 (c : cfg) (k : susp) : res :=
  match k with
  | SAuth buf u p o1 => resume_auth c buf u p o1
  | SOpen o1 rest => Fin (resume_open c o1 rest)
  end.

(* answer whatever is pending until the handler is done.  Two rounds are enough: the auth hook comes first and
   its continuation can at most ask for OpenConnection (open_only below), whose continuation asks for nothing;
   the innermost default is never reached *)
Definition settle (c : cfg) (r : res) : st :=
  match r with
  | Fin s => s
  | Ask k =>
    match settle1 c k with
    | Fin s => s
    | Ask k2 => match settle1 c k2 with Fin s => s | Ask _ => (Crashed, obs0) end
    end
  end.

(* results that can only be waiting for OpenConnection *)
Definition open_only (r : res) : Prop :=
  match r with Ask (SAuth _ _ _ _) => False | _ => True end.

Lemma settle_open_only c r : open_only r ->
  settle c r = match r with Fin s => s | Ask k => match settle1 c k with Fin s => s | Ask _ => (Crashed, obs0) end end.
Proof. destruct r as [s|[buf u p o1|o1 rest]]; cbn; intros H; [reflexivity|contradiction|reflexivity]. Qed.

(* cutting the generators at their yields loses nothing *)
Lemma connect_finish_r_settle c o h p rest :
  settle c (connect_finish_r c o h p rest) = connect_finish c o h p rest.
Proof.
  unfold connect_finish_r, connect_finish, finish_start, settle, settle1, resume_open, connect_tail.
  destruct (eager c), (open_fails c); reflexivity.
Qed.

Lemma connect_r_open_only c buf o : open_only (state_connect_r c buf o).
Proof.
  unfold state_connect_r.
  destruct (length buf <? 5); [exact I|].
  destruct (negb _); [exact I|].
  destruct (message_len _ _); [|exact I].
  destruct (length buf <? n); [exact I|].
  destruct (parse_host _ _); [|exact I].
  destruct (unpack_H _); [|exact I].
  unfold connect_finish_r. destruct (eager c); exact I.
Qed.

Lemma connect_r_settle c buf o : settle c (state_connect_r c buf o) = state_connect c buf o.
Proof.
  unfold state_connect_r, state_connect.
  destruct (length buf <? 5); [reflexivity|].
  destruct (negb _); [reflexivity|].
  destruct (message_len _ _); [|reflexivity].
  destruct (length buf <? n); [reflexivity|].
  destruct (parse_host _ _); [|reflexivity].
  destruct (unpack_H _); [|reflexivity].
  apply connect_finish_r_settle.
Qed.

Lemma resume_auth_open_only c buf u p o1 : open_only (resume_auth c buf u p o1).
Proof. unfold resume_auth. destruct (negb _); [exact I | apply connect_r_open_only]. Qed.

Lemma settle_auth c buf u p o1 :
  settle c (Ask (SAuth buf u p o1)) = settle c (resume_auth c buf u p o1).
Proof.
  rewrite (settle_open_only c (resume_auth c buf u p o1)) by apply resume_auth_open_only.
  cbn [settle settle1].
  destruct (resume_auth c buf u p o1) as [s|k] eqn:E; reflexivity.
Qed.

Lemma auth_r_settle c buf o : settle c (state_auth_r c buf o) = state_auth c buf o.
Proof.
  unfold state_auth_r, state_auth.
  destruct (length buf <? 3); [reflexivity|].
  destruct (length buf <? 3 + blen (at_ 1 buf)); [reflexivity|].
  destruct (length buf <? _); [reflexivity|].
  rewrite settle_auth. unfold resume_auth.
  destruct (negb (authok c _ _)); [reflexivity|].
  apply connect_r_settle.
Qed.

Lemma greet_r_settle c buf o : settle c (state_greet_r c buf o) = state_greet c buf o.
Proof.
  unfold state_greet_r, state_greet.
  destruct (length buf <? 2); [reflexivity|].
  destruct (negb (byte_eqb _ _)); [reflexivity|].
  destruct (length buf <? _); [reflexivity|].
  destruct (negb (existsb _ _)); [reflexivity|].
  destruct (proxyauth c); [apply auth_r_settle | apply connect_r_settle].
Qed.

Lemma handle_data_r_settle c s d : settle c (handle_data_r c s d) = handle_data c s d.
Proof.
  destruct s as [p o]. destruct p; cbn [handle_data_r handle_data fst snd];
    [apply greet_r_settle | apply auth_r_settle | apply connect_r_settle | reflexivity ..].
Qed.

(* the virtual state: complete what is pending, then feed the queue *)
Definition flush (c : cfg) (l : lstate) : st :=
  match l with
  | LRun s => s
  | LPaused k q => feed_all c (settle c (Ask k)) q
  | LBad => (Crashed, obs0)
  end.

Lemma flush_replay c q : forall r, flush c (replay c q r) = feed_all c (settle c r) q.
Proof.
  induction q as [|d q IH]; intros r.
  - destruct r as [s|k]; reflexivity.
  - destruct r as [s|k]; cbn [replay].
    + rewrite IH. rewrite handle_data_r_settle. reflexivity.
    + reflexivity.
Qed.

Lemma feed_all_snoc c s q d : feed_all c s (q ++ [d]) = handle_data c (feed_all c s q) d.
Proof. unfold feed_all. rewrite fold_left_app. reflexivity. Qed.

Lemma flush_step_data c l d : flush c (step c l (EData d)) = handle_data c (flush c l) d.
Proof.
  destruct l as [s|k q|]; cbn [step].
  - rewrite flush_replay. cbn [feed_all fold_left]. apply handle_data_r_settle.
  - destruct k; cbn [flush]; apply feed_all_snoc.
  - reflexivity.
Qed.

Lemma flush_step_done c l e : (forall d, e <> EData d) ->
  step c l e <> LBad -> flush c (step c l e) = flush c l.
Proof.
  intros Hne Hok. destruct e as [d| |]; [exfalso; apply (Hne d); reflexivity | |].
  - destruct l as [s|[buf u p o1|o1 rest] q|]; cbn [step] in *; try (exfalso; apply Hok; reflexivity).
    rewrite flush_replay. cbn [flush]. rewrite settle_auth. reflexivity.
  - destruct l as [s|[buf u p o1|o1 rest] q|]; cbn [step] in *; try (exfalso; apply Hok; reflexivity).
    rewrite flush_replay. reflexivity.
Qed.

Lemma exec_bad c evs : exec c LBad evs = LBad.
Proof. induction evs as [|e evs IH]; [reflexivity|]. cbn [exec fold_left step]. destruct e; exact IH. Qed.

Lemma flush_exec c evs : forall l,
  exec c l evs <> LBad -> flush c (exec c l evs) = feed_all c (flush c l) (data_of evs).
Proof.
  induction evs as [|e evs IH]; intros l Hok.
  - reflexivity.
  - cbn [exec fold_left] in *. fold (exec c (step c l e) evs) in *.
    assert (Hs : step c l e <> LBad).
    { intros E. rewrite E in Hok. apply Hok. apply exec_bad. }
    rewrite (IH _ Hok).
    destruct e as [d| |]; cbn [data_of]; [rewrite flush_step_data; reflexivity| |];
      (rewrite flush_step_done; [reflexivity | intros d; discriminate | exact Hs]).
Qed.

(* Whatever the schedule of completions, the virtual state is the state of the plain
   model on the delivered segments, hence on the unsplit stream. *)
Theorem schedule_independent c (evs : list ev) :
  run_sched c evs <> LBad ->
  flush c (run_sched c evs) = run c [concat (data_of evs)].
Proof.
  intros Hok. unfold run_sched. rewrite (flush_exec c evs _ Hok).
  cbn [flush]. fold (run c (data_of evs)). apply segmentation_independent.
Qed.

(* While paused nothing observable happens: queued segments change no observable. *)
Lemma paused_queue_silent c k q d : step c (LPaused k q) (EData d) = LPaused k (q ++ [d]).
Proof. destruct k; reflexivity. Qed.

(* concrete late schedule: auth verdict after the CONNECT request and two payload
   segments were queued; OpenConnection answered after one more *)
Definition cfg_sched : cfg := mkCfg true (fun _ _ => true) true false.
Definition sched_example : list ev :=
  [EData [x05; x01; x02]; EData [x01; x01; x75; x01; x70];
   EData [x05; x01; x00; x01; x7f; x00; x00; x01; x00; x50]; EData [x47; x45]; EData [x54];
   EAuthDone; EData [x20]; EOpenDone].
