(* Proofs/MvCommonLemmas.v -- list lemmas about the helpers of Model/MvCommon.v (C34). *)
From Coq Require Import List Bool NArith Lia.
From MV Require Import Base.Bytes Model.MvCommon.
From MV Require Model.Headers Proofs.HeadersRefine Proofs.HeadersLaws.
Import ListNotations.

Lemma memb_cons c x s : memb c (x :: s) = byte_eqb x c || memb c s.
Proof. unfold memb. simpl. rewrite byte_eqb_sym. reflexivity. Qed.

Lemma memb_cons_false c x s : memb c (x :: s) = false -> byte_eqb x c = false /\ memb c s = false.
Proof. rewrite memb_cons. apply orb_false_iff. Qed.

Lemma memb_false_neq c x l : memb c l = false -> In x l -> byte_eqb c x = false.
Proof.
  unfold memb. intros H Hin. destruct (byte_eqb c x) eqn:E; [|reflexivity].
  assert (existsb (byte_eqb c) l = true) by (apply existsb_exists; eauto). congruence.
Qed.

Lemma memb_app c a b : memb c (a ++ b) = memb c a || memb c b.
Proof. apply existsb_app. Qed.

Lemma forallb_memb_false (P : byte -> bool) c s :
  forallb P s = true -> P c = false -> memb c s = false.
Proof.
  intros H Hc. unfold memb. destruct (existsb (byte_eqb c) s) eqn:E; [|reflexivity].
  apply existsb_exists in E as [x [Hin Hx]]. apply byte_eqb_eq in Hx. subst x.
  rewrite forallb_forall in H. rewrite (H _ Hin) in Hc. discriminate.
Qed.

Lemma break_at_spec c s a b : break_at c s = Some (a, b) -> s = a ++ c :: b /\ memb c a = false.
Proof.
  revert a b. induction s as [|x s IH]; intros a b H; simpl in H; [discriminate|].
  destruct (byte_eqb x c) eqn:E.
  - inversion H; subst. apply byte_eqb_eq in E. subst. split; reflexivity.
  - destruct (break_at c s) as [[a' b']|]; [|discriminate]. inversion H; subst.
    destruct (IH a' b eq_refl) as [-> Hm]. split; [reflexivity|].
    rewrite memb_cons, E. exact Hm.
Qed.

Lemma break_at_app c a b : memb c a = false -> break_at c (a ++ c :: b) = Some (a, b).
Proof.
  induction a as [|x a IH]; intros H; simpl.
  - rewrite byte_eqb_refl. reflexivity.
  - apply memb_cons_false in H as [H1 H2]. rewrite H1, IH by exact H2. reflexivity.
Qed.

Lemma break_at_none c s : memb c s = false -> break_at c s = None.
Proof.
  induction s as [|x s IH]; intros H; simpl; [reflexivity|].
  apply memb_cons_false in H as [H1 H2]. rewrite H1, IH by exact H2. reflexivity.
Qed.

Lemma break_at_none_memb c s : break_at c s = None -> memb c s = false.
Proof.
  induction s as [|x s IH]; intros H; [reflexivity|]. simpl in H.
  destruct (byte_eqb x c) eqn:E; [discriminate|].
  destruct (break_at c s) as [[a b]|]; [discriminate|].
  rewrite memb_cons, E. apply IH. reflexivity.
Qed.

(* urlparse's way of splitting at the first c: the text before it and after it, or everything and nothing *)
Definition cut (c : byte) (s : bytes) : bytes * bytes :=
  match break_at c s with Some (a, b) => (a, b) | None => (s, []) end.

Lemma cut_app c a b : memb c a = false -> cut c (a ++ c :: b) = (a, b).
Proof. intros H. unfold cut. rewrite break_at_app by exact H. reflexivity. Qed.

Lemma cut_none c s : memb c s = false -> cut c s = (s, []).
Proof. intros H. unfold cut. rewrite break_at_none by exact H. reflexivity. Qed.

(* an optional part is written with its separator only when it is non-empty *)
Lemma cut_suffix c a b : memb c a = false -> cut c (if nonempty b then a ++ c :: b else a) = (a, b).
Proof. intros H. destruct b; [apply cut_none | apply cut_app]; exact H. Qed.

Lemma split_char_nomem c s : memb c s = false -> split_char c s = [s].
Proof.
  induction s as [|x s IH]; intros H; simpl; [reflexivity|].
  apply memb_cons_false in H as [H1 H2]. rewrite H1, IH by exact H2. reflexivity.
Qed.

Lemma split_char_app c a b : memb c a = false -> split_char c (a ++ c :: b) = a :: split_char c b.
Proof.
  induction a as [|x a IH]; intros H; simpl.
  - rewrite byte_eqb_refl. reflexivity.
  - apply memb_cons_false in H as [H1 H2]. rewrite H1, IH by exact H2. reflexivity.
Qed.

Lemma join_cons2 sep x y l : join sep (x :: y :: l) = x ++ sep ++ join sep (y :: l).
Proof. reflexivity. Qed.

Lemma split_join c items :
  items <> [] -> (forall i, In i items -> memb c i = false) ->
  split_char c (join [c] items) = items.
Proof.
  induction items as [|x l IH]; intros Hne H; [congruence|].
  destruct l as [|y l].
  - simpl. apply split_char_nomem. apply H. left; reflexivity.
  - rewrite join_cons2. simpl app. rewrite split_char_app by (apply H; left; reflexivity).
    f_equal. apply IH; [discriminate|]. intros i Hi. apply H. right; exact Hi.
Qed.

Lemma span_app p a x b : forallb p a = true -> p x = false -> span p (a ++ x :: b) = (a, x :: b).
Proof.
  induction a as [|y a IH]; intros H Hx; simpl.
  - rewrite Hx. reflexivity.
  - simpl in H. apply andb_true_iff in H as [H1 H2]. rewrite H1, IH by assumption. reflexivity.
Qed.

Lemma span_all p a : forallb p a = true -> span p a = (a, []).
Proof.
  induction a as [|y a IH]; intros H; simpl; [reflexivity|].
  simpl in H. apply andb_true_iff in H as [H1 H2]. rewrite H1, IH by assumption. reflexivity.
Qed.

Lemma forallb_nomemb c (P : byte -> bool) s :
  memb c s = false -> forallb P s = true -> forallb (fun x => negb (byte_eqb x c) && P x) s = true.
Proof.
  intros Hm H. rewrite forallb_forall in *. intros x Hx. rewrite (H x Hx), andb_true_r.
  apply negb_true_iff. rewrite byte_eqb_sym. exact (memb_false_neq c x s Hm Hx).
Qed.

Lemma forallb_join (P : byte -> bool) sep items :
  forallb P sep = true -> (forall i, In i items -> forallb P i = true) -> forallb P (join sep items) = true.
Proof.
  intros Hs. induction items as [|x t IH]; intros H; [reflexivity|].
  destruct t as [|y t]; [apply H; left; reflexivity|].
  rewrite join_cons2, !forallb_app, (H x), Hs by (left; reflexivity).
  apply IH. intros i Hi. apply H. right; exact Hi.
Qed.

Lemma cut_forallb c (P : byte -> bool) s : forallb P s = true ->
  forallb (fun x => negb (byte_eqb x c) && P x) (fst (cut c s)) = true /\ forallb P (snd (cut c s)) = true.
Proof.
  intros H. unfold cut. destruct (break_at c s) as [[a b]|] eqn:E; cbn [fst snd].
  - apply break_at_spec in E as [-> Hm]. rewrite forallb_app in H. simpl in H.
    apply andb_true_iff in H as [Ha H]. apply andb_true_iff in H as [_ Hb].
    split; [apply forallb_nomemb; assumption | exact Hb].
  - split; [apply forallb_nomemb; [apply break_at_none_memb, E | exact H] | reflexivity].
Qed.

(* Model/MvCommon.v writes set_all by direct recursion, Model/Headers.v (C35) follows the accumulator loops
   of the Python code; they are the same function, so the C35 law for get_all after set_all applies. *)
Lemma set_all_go_loop kc h : forall vs acc,
  MV.Model.Headers.set_all_loop kc h vs acc = (acc ++ fst (set_all_go kc h vs), snd (set_all_go kc h vs)).
Proof.
  induction h as [|f h IH]; intros vs acc; simpl; [rewrite app_nil_r; reflexivity|].
  unfold MV.Model.Headers._kconv. destruct (bytes_eqb (lower (fst f)) kc).
  - destruct vs as [|v vs]; [apply IH|].
    rewrite IH. destruct (set_all_go kc h vs). simpl. rewrite <- app_assoc. reflexivity.
  - rewrite IH. destruct (set_all_go kc h vs). simpl. rewrite <- app_assoc. reflexivity.
Qed.

Lemma set_all_headers n vs h : set_all n vs h = MV.Model.Headers.set_all h n vs.
Proof.
  unfold set_all, MV.Model.Headers.set_all, MV.Model.Headers._kconv. rewrite set_all_go_loop.
  destruct (set_all_go (lower n) h vs) as [r rest]. simpl. symmetry. apply MV.Proofs.HeadersRefine.set_all_rest_eq.
Qed.

Lemma get_all_set_all n1 n2 vs h :
  get_all n1 (set_all n2 vs h) = if bytes_eqb (lower n1) (lower n2) then vs else get_all n1 h.
Proof. rewrite set_all_headers. exact (MV.Proofs.HeadersLaws.set_all_get_all h n2 vs n1). Qed.
