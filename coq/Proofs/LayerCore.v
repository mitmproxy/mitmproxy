(* Proofs/LayerCore.v — invariants of Layer.handle_event for every handler and schedule. *)
From Coq Require Import List Bool Arith Lia.
From MV Require Import Model.LayerCore.
Import ListNotations.

Lemma handled_app a b : handled (a ++ b) = handled a ++ handled b.
Proof. induction a as [|[ev|c|c r] a IH]; simpl; rewrite ?IH; reflexivity. Qed.
Lemma resumed_app a b : resumed (a ++ b) = resumed a ++ resumed b.
Proof. induction a as [|[ev|c|c r] a IH]; simpl; rewrite ?IH; reflexivity. Qed.

Lemma bracketed_app p a b :
  bracketed p (a ++ b) = bracketed p a && bracketed (pending_after p a) b.
Proof.
  revert p; induction a as [|[ev|c|c r] a IH]; intros p; simpl.
  - reflexivity.
  - destruct p; [reflexivity | apply IH].
  - destruct p; [reflexivity | apply IH].
  - destruct p; [|reflexivity]. rewrite IH. rewrite andb_assoc. reflexivity.
Qed.
Lemma pending_after_app p a b : pending_after p (a ++ b) = pending_after (pending_after p a) b.
Proof. revert p; induction a as [|[ev|c|c r] a IH]; intros p; simpl; auto. Qed.

(* One stretch of a layer's life.  From pending command p and queue q the layer leaves the trace tr and
   the commands out, ends with p' pending and q' queued, having been given the arrivals ins and having
   consumed the completions res: every queued or arriving event is handled in order or still queued,
   the resumptions are the consumed completions, no handler runs while a command is pending, and no
   command goes out still marked Blocking. *)
Definition stretch (p : option nat) (q : list event) (tr : list titem) (out : list cmd)
                   (p' : option nat) (q' ins res : list event) : Prop :=
  handled tr ++ q' = q ++ ins /\ resumed tr = res /\
  bracketed p tr = true /\ pending_after p tr = p' /\
  Forall (fun c => cblock c <> Blocking) out.

Lemma stretch_app {p q tr1 out1 p1 q1 i1 r1 tr2 out2 p2 q2 i2 r2} :
  stretch p q tr1 out1 p1 q1 i1 r1 -> stretch p1 q1 tr2 out2 p2 q2 i2 r2 ->
  stretch p q (tr1 ++ tr2) (out1 ++ out2) p2 q2 (i1 ++ i2) (r1 ++ r2).
Proof.
  intros (A1 & B1 & C1 & D1 & E1) (A2 & B2 & C2 & D2 & E2). repeat split.
  - rewrite handled_app, <- app_assoc, A2, app_assoc, A1, app_assoc. reflexivity.
  - rewrite resumed_app, B1, B2. reflexivity.
  - rewrite bracketed_app, C1, D1. exact C2.
  - rewrite pending_after_app, D1. exact D2.
  - apply Forall_app. split; assumption.
Qed.

Lemma stretch_nil p q : stretch p q [] [] p q [] [].
Proof. repeat split; [symmetry; apply app_nil_r | constructor]. Qed.

(* an arrival that is only queued *)
Lemma stretch_queue p q ev : stretch p q [] [] p (q ++ [ev]) [ev] [].
Proof. repeat split. constructor. Qed.

(* the head of the queue is handled *)
Lemma stretch_handle ev q : stretch None (ev :: q) [THandle ev] [] None q [] [].
Proof. repeat split; [simpl; rewrite app_nil_r; reflexivity | constructor]. Qed.

(* the awaited completion arrives and is consumed *)
Lemma stretch_resume c r q : stretch (Some c) q [TResume c r] [] None q [] [Completed c r].
Proof. repeat split; [symmetry; apply app_nil_r | simpl; rewrite Nat.eqb_refl; reflexivity | constructor]. Qed.

Section Layer.
  Variable S : Type.
  Variable h : S -> event -> prog S.
  Variable me : nat.

  Definition pend (r : runstate S) : option nat :=
    match r with Waiting c _ => Some c | Idle _ => None end.
  (* an idle layer has nothing queued *)
  Definition inv (st : lst S) : Prop :=
    match run st with Idle _ => queue st = [] | Waiting _ _ => True end.

  (* a run of the generator ends idle or paused on its first blocking command, which leaves the
     layer owned by it: nothing it emits is still marked Blocking *)
  Lemma process_stretch (p : prog S) q :
    let '(r, out, tr) := process me p in stretch None q tr out (pend r) q [] [].
  Proof.
    induction p as [s|c k IH]; simpl; [apply stretch_nil|].
    destruct (cblock c) eqn:E.
    2: { repeat split; [symmetry; apply app_nil_r|]. constructor; [simpl; discriminate | constructor]. }
    all: specialize (IH None); destruct (process me (k None)) as [[r out] tr];
      destruct IH as (A & B & C & D & F); repeat split; try assumption;
      constructor; [rewrite E; discriminate | exact F].
  Qed.

  (* a program whose commands are all non-Blocking runs to its end: the relaying parent never pauses *)
  Lemma process_relay out (fin : prog S) :
    Forall (fun c => cblock c <> Blocking) out ->
    process me (relay out fin) =
    let '(r, o, t) := process me fin in (r, out ++ o, t).
  Proof.
    induction 1 as [|c out Hc _ IH]; simpl.
    - destruct (process me fin) as [[r o] t]. reflexivity.
    - destruct (cblock c) eqn:E; try contradiction;
        rewrite IH; destruct (process me fin) as [[r o] t]; reflexivity.
  Qed.

  Lemma drain_spec s q :
    let '(r, q2, out, tr) := drain h me s q in
    stretch None q tr out (pend r) q2 [] [] /\
    (match r with Idle _ => q2 = [] | Waiting _ _ => True end).
  Proof.
    revert s; induction q as [|ev q IH]; intros s; simpl.
    - split; [apply stretch_nil | reflexivity].
    - pose proof (process_stretch (h s ev) q) as Hp.
      destruct (process me (h s ev)) as [[r out] tr]. destruct r as [s'|c k].
      + specialize (IH s'). destruct (drain h me s' q) as [[[r2 q2] out2] tr2]. destruct IH as [Hd Hq].
        split; [exact (stretch_app (stretch_handle ev q) (stretch_app Hp Hd)) | exact Hq].
      + split; [exact (stretch_app (stretch_handle ev q) Hp) | exact I].
  Qed.

  Lemma handle_event_spec st ev :
    inv st ->
    let '(st', out, tr, consumed) := handle_event h me st ev in
    inv st' /\
    stretch (pend (run st)) (queue st) tr out (pend (run st')) (queue st')
            (if consumed then [] else [ev]) (if consumed then [ev] else []).
  Proof.
    unfold inv, handle_event. intros Hinv.
    destruct (run st) as [s|c k].
    - (* idle, so nothing is queued: the arrival is handled at once *)
      pose proof (process_stretch (h s ev) []) as Hp.
      destruct (process me (h s ev)) as [[r out] tr]. simpl. rewrite Hinv. split.
      + destruct r; [reflexivity | exact I].
      + exact (stretch_app (stretch_queue None [] ev) (stretch_app (stretch_handle ev []) Hp)).
    - destruct ev as [kind eid|c' r]; [simpl; split; [exact I | apply stretch_queue]|].
      destruct (Nat.eqb c' c) eqn:Ec; [|simpl; split; [exact I | apply stretch_queue]].
      apply Nat.eqb_eq in Ec. subst c'.
      pose proof (process_stretch (k (Some r)) (queue st)) as Hp.
      destruct (process me (k (Some r))) as [[res out] tr]. destruct res as [s'|c2 k2].
      + pose proof (drain_spec s' (queue st)) as Hd.
        destruct (drain h me s' (queue st)) as [[[r2 q2] out2] tr2]. destruct Hd as [Hd Hq].
        simpl. split; [exact Hq | exact (stretch_app (stretch_resume c r _) (stretch_app Hp Hd))].
      + simpl. split; [exact I | exact (stretch_app (stretch_resume c r _) Hp)].
  Qed.

  Lemma run_events_spec evs : forall st,
    inv st ->
    let '(st', out, tr, fs) := run_events h me st evs in
    inv st' /\ length fs = length evs /\
    stretch (pend (run st)) (queue st) tr out (pend (run st')) (queue st')
            (select negb evs fs) (select (fun b => b) evs fs).
  Proof.
    induction evs as [|ev evs IH]; intros st Hinv; simpl.
    - split; [exact Hinv|]. split; [reflexivity | apply stretch_nil].
    - pose proof (handle_event_spec st ev Hinv) as H1.
      destruct (handle_event h me st ev) as [[[st1 out1] tr1] f1]. destruct H1 as [I1 H1].
      specialize (IH st1 I1).
      destruct (run_events h me st1 evs) as [[[st2 out2] tr2] fs]. destruct IH as (I2 & L2 & H2).
      split; [exact I2|]. split; [simpl; rewrite L2; reflexivity|].
      destruct f1; exact (stretch_app H1 H2).
  Qed.
End Layer.

Section Top.
  Variable S : Type.
  Variable h : S -> event -> prog S.
  Variable me : nat.
  Variable s0 : S.

  Lemma inv_init : inv S (init s0).
  Proof. reflexivity. Qed.

  (* every non-consumed event is handled exactly once, in arrival order, or is still
         queued (only possible while waiting); consumed events are exactly the resumptions *)
  Theorem exactly_once_in_order evs :
    let '(st, out, tr, fs) := run_events h me (init s0) evs in
    handled tr ++ queue st = select negb evs fs /\
    resumed tr = select (fun b => b) evs fs /\
    length fs = length evs /\
    (match run st with Idle _ => handled tr = select negb evs fs | Waiting _ _ => True end).
  Proof.
    pose proof (run_events_spec S h me evs (init s0) inv_init) as H.
    destruct (run_events h me (init s0) evs) as [[[st out] tr] fs].
    destruct H as (I & L & Q & R & B & P & F). simpl in Q.
    repeat split; try assumption.
    unfold inv in I. destruct (run st); [|exact I].
    rewrite I, app_nil_r in Q. exact Q.
  Qed.

  (* no handler is started while waiting, and each wait is ended by exactly its own completion *)
  Theorem no_handling_while_waiting evs :
    let '(st, out, tr, fs) := run_events h me (init s0) evs in
    bracketed None tr = true /\ pending_after None tr = pend S (run st).
  Proof.
    pose proof (run_events_spec S h me evs (init s0) inv_init) as H.
    destruct (run_events h me (init s0) evs) as [[[st out] tr] fs].
    destruct H as (I & L & Q & R & B & P & F). split; assumption.
  Qed.

End Top.

(* no command leaves a layer still marked blocking=True, so a relaying parent never pauses *)
Theorem parent_not_blocked (S PS : Type) (h : S -> event -> prog S) (me parent : nat)
        (s0 : S) (evs : list event) (fin : prog PS) :
  let '(st, out, tr, fs) := run_events h me (init s0) evs in
  process parent (relay out fin) = let '(r, o, t) := process parent fin in (r, out ++ o, t).
Proof.
  pose proof (run_events_spec S h me evs (init s0) (inv_init S s0)) as H.
  destruct (run_events h me (init s0) evs) as [[[st out] tr] fs].
  destruct H as (_ & _ & _ & _ & _ & _ & F). apply process_relay, F.
Qed.
