(* Proofs/ConnHandlerMain.v -- final statements for C09, derived from the invariants. *)
From Coq Require Import List Bool Arith Lia.
From MV Require Import Model.ConnHandler Proofs.ConnHandlerBase Proofs.ConnHandlerPair Proofs.ConnHandlerSem
                       Proofs.ConnHandlerTeardown Proofs.ConnHandlerWitness.
Import ListNotations.

(* hook calls in call order *)
Definition client_hooks (s : st) : list hookname := rev (cproj (trace s)).
Definition server_hooks (s : st) (c : nat) : list hookname := rev (proj c (trace s)).

Definition main_done (s : st) : Prop := exists k, mainpc s = MDone k.
Definition task_exit (s : st) (c : nat) (x : exitk) : Prop := c_pc (getc s c) = PDone x.
Definition lost (x : exitk) : Prop := x = XLostConnectHook \/ x = XLostSem \/ x = XLostConnectedHook.
Definition complete_word (w : list hookname) : Prop :=
  w = [] \/ w = [HServerConnect; HServerConnectError] \/ w = [HServerConnect; HServerConnected; HServerDisconnected].
Definition grammar_prefix (w : list hookname) : Prop :=
  w = [] \/ w = [HServerConnect] \/ w = [HServerConnect; HServerConnectError] \/
  w = [HServerConnect; HServerConnected] \/ w = [HServerConnect; HServerConnected; HServerDisconnected].

Lemma client_hooks_by_pc : forall sc l, let s := run (init sc) l in
  client_hooks s = rev (mword (mainpc s)).
Proof. intros. unfold client_hooks. destruct (pairing_invariant sc l) as [_ H]. fold s in H. rewrite H. auto. Qed.

Lemma client_hooks_paired : forall sc l, let s := run (init sc) l in
  (client_hooks s = [] \/ client_hooks s = [HClientConnected] \/ client_hooks s = [HClientConnected; HClientDisconnected]) /\
  (main_done s -> client_hooks s = [HClientConnected; HClientDisconnected]).
Proof.
  intros. pose proof (client_hooks_by_pc sc l) as H. fold s in H. rewrite H. split.
  - destruct (mainpc s); simpl; auto.
  - intros [k K]. rewrite K. auto.
Qed.

Lemma server_hooks_by_pc : forall sc l c, 1 <= c -> let s := run (init sc) l in
  server_hooks s c = rev (rword (c_pc (getc s c))).
Proof.
  intros. unfold server_hooks, s. destruct (pairing_invariant sc l) as [I _]. rewrite (proj1 (I c H)). auto.
Qed.

Lemma server_hooks_grammar_pc : forall sc l c, 1 <= c -> let s := run (init sc) l in
  grammar_prefix (server_hooks s c) /\ server_hooks s c = rev (rword (c_pc (getc s c))).
Proof.
  intros sc l c H s. pose proof (server_hooks_by_pc sc l c H) as E. fold s in E. split; [|exact E].
  rewrite E. unfold grammar_prefix.
  destruct (c_pc (getc s c)) as [| | | | | | | | | | | |x]; simpl; auto 6. destruct x; simpl; auto 6.
Qed.

Lemma server_pairing_partial : forall sc l c x, 1 <= c -> let s := run (init sc) l in
  task_exit s c x -> ~ lost x -> complete_word (server_hooks s c).
Proof.
  intros sc l c x H s T NL. pose proof (server_hooks_by_pc sc l c H) as E. fold s in E. rewrite E.
  unfold task_exit in T. rewrite T. unfold complete_word, lost in *. destruct x; simpl; auto; exfalso; apply NL; auto.
Qed.

Lemma server_pairing_refuted : exists sc l c x, 1 <= c /\ let s := run (init sc) l in
  task_exit s c x /\ ~ complete_word (server_hooks s c).
Proof.
  exists six, w_sem, 6, XLostSem. split; [auto with arith|]. cbv zeta. destruct w_sem_ok as [A B]. split; [exact A|].
  unfold server_hooks. rewrite B. unfold complete_word. simpl. intro H. destruct H as [H | [H | H]]; discriminate.
Qed.

Lemma connected_without_disconnected : exists sc l c x, 1 <= c /\ let s := run (init sc) l in
  main_done s /\ task_exit s c x /\ server_hooks s c = [HServerConnect; HServerConnected].
Proof.
  exists [[COpen (Some 0)]], w_connected_hook, 1, XLostConnectedHook. split; auto. cbv zeta.
  destruct w_connected_hook_ok as (A & B & C & _). split; [exists 0; exact C|]. split; [exact A|].
  unfold server_hooks. rewrite B. auto.
Qed.

Lemma open_sockets_partial : forall sc l b, let s := run (init sc) l in
  leaked b s = 0 -> open_writers b s <= 5.
Proof. intros sc l b s H. pose proof (open_writers_bound sc l b) as B. cbv zeta in B. fold s in B. lia. Qed.

Lemma open_sockets_refuted : exists sc l b, let s := run (init sc) l in open_writers b s = 6.
Proof. exists (six ++ [[CClose 1]]), w_six_open, 0. cbv zeta. apply w_six_open_ok. Qed.

Lemma cleanup_refuted_leak : exists sc l n c, let s := run (init sc) l in
  main_done s /\ teardown_n s = Some n /\ 1 <= c /\ c < n /\ c_writer (getc s c) = WOpen.
Proof.
  exists [[COpen (Some 0)]], w_connected_hook, 2, 1. cbv zeta. destruct w_connected_hook_ok as (A & B & C & D & E).
  split; [exists 0; exact C|]. repeat split; auto.
Qed.

Lemma cleanup_refuted_late : exists sc l n c, let s := run (init sc) l in
  main_done s /\ teardown_n s = Some n /\ n <= c /\ c_writer (getc s c) = WOpen.
Proof.
  exists [[CHook]; []; [COpen (Some 0)]], w_late_open, 1, 1. cbv zeta. destruct w_late_open_ok as (A & B & C & D).
  split; [exists 0; exact A|]. repeat split; auto.
Qed.

Lemma cleanup_partial : forall sc l n c, let s := run (init sc) l in
  main_done s -> teardown_n s = Some n -> 1 <= c -> c < n ->
  ~ task_exit s c XLostConnectedHook -> c_writer (getc s c) <> WOpen.
Proof.
  intros sc l n c s [k M] T C1 C2 NL W. apply NL.
  exact (no_open_writer_after_done sc l k n c M T C1 C2 W).
Qed.
