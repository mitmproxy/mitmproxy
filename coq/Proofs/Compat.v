(* Proofs/Compat.v -- lemmas about the migrate_flow driver model, for an arbitrary converter table
   satisfying the decidable well-formedness check chain_ok and arbitrary converter bodies. *)
From Coq Require Import ZArith List Bool Lia.
From MV Require Import Model.CompatPrelude Model.Compat.
Import ListNotations.

(* Python's == between a flow version and a converter key, as the model has it, is equality
   restricted to versions made of ints *)
Lemma velt_eqb_iff : forall a b,
  velt_eqb a b = true <-> a = b /\ match a with EInt _ => true | _ => false end = true.
Proof.
  intros [x| |] [y| |]; cbn; rewrite ?Z.eqb_eq; (split; [|intros [? ?]; congruence]); try discriminate.
  intros ->. auto.
Qed.

Lemma velts_eqb_iff : forall a b,
  velts_eqb a b = true <-> a = b /\ forallb (fun e => match e with EInt _ => true | _ => false end) a = true.
Proof.
  induction a as [|x a IH]; intros [|y b]; cbn; try (split; [discriminate | intros [? ?]; congruence]).
  - split; auto.
  - rewrite !andb_true_iff, velt_eqb_iff, IH. split.
    + intros [[-> ?] [-> ?]]. auto.
    + intros [[= -> ->] [? ?]]. auto.
Qed.

Lemma fver_eqb_iff : forall a b, fver_eqb a b = true <-> a = b /\ ints_only a = true.
Proof.
  intros [x|x] [y|y]; cbn; rewrite ?Z.eqb_eq, ?velts_eqb_iff; (split; [|intros [? ?]; try split; congruence]);
    try discriminate.
  - intros ->. auto.
  - intros [-> ?]. auto.
Qed.

Lemma fver_eqb_eq : forall a b, fver_eqb a b = true -> a = b.
Proof. intros a b H. apply fver_eqb_iff in H. apply H. Qed.

Lemma fver_eqb_refl : forall k, ints_only k = true -> fver_eqb k k = true.
Proof. intros k H. apply fver_eqb_iff. auto. Qed.

Lemma fver_eqb_sym : forall a b, fver_eqb a b = fver_eqb b a.
Proof. intros a b. apply eq_true_iff_eq. rewrite !fver_eqb_iff. split; intros [-> H]; auto. Qed.

Lemma ints_only_hashable : forall k, ints_only k = true -> unhashable k = false.
Proof.
  intros k H. destruct k as [z|l]; cbn in *.
  - reflexivity.
  - induction l as [|x l IH]; cbn in *.
    + reflexivity.
    + apply andb_true_iff in H. destruct H as [H1 H2]. destruct x; try discriminate.
      cbn. apply IH. exact H2.
Qed.

Lemma is_current_eq : forall current fv, is_current current fv = true -> fv = FInt current.
Proof. intros current [z|l] H; cbn in H; [|discriminate]. apply Z.eqb_eq in H. now subst. Qed.

Lemma opt_fver_eqb_eq : forall a b, opt_fver_eqb a b = true -> a = Some b.
Proof.
  intros a b H. destruct a as [x|]; cbn in H; try discriminate.
  apply fver_eqb_eq in H. subst. reflexivity.
Qed.

Lemma lookup_split : forall fv c et, lookup fv c = Some et ->
  exists pre post, c = pre ++ (fv, et) :: post.
Proof.
  intros fv c. induction c as [|[k et'] tl IH]; intros et H; cbn in H.
  - discriminate.
  - destruct (fver_eqb fv k) eqn:E.
    + inversion H. subst. apply fver_eqb_eq in E. subst.
      exists [], tl. reflexivity.
    + destruct (IH et H) as [pre [post Hc]]. exists ((k, et') :: pre), post.
      rewrite Hc. reflexivity.
Qed.

Lemma nodup_pre : forall pre x post, nodup_keys (pre ++ x :: post) = true ->
  forall p, In p pre -> fver_eqb (fst p) (fst x) = false.
Proof.
  induction pre as [|a pre IH]; intros x post H p Hin.
  - destruct Hin.
  - cbn in H. destruct a as [ka eta]. apply andb_true_iff in H. destruct H as [H1 H2].
    destruct Hin as [Hp|Hp].
    + subst p. cbn. apply negb_true_iff in H1. rewrite existsb_app in H1.
      apply orb_false_iff in H1. destruct H1 as [_ H1]. cbn in H1.
      apply orb_false_iff in H1. destruct H1 as [H1 _]. exact H1.
    + apply (IH x post H2 p Hp).
Qed.

Lemma lookup_app_mid : forall pre k et post,
  (forall p, In p pre -> fver_eqb k (fst p) = false) -> fver_eqb k k = true ->
  lookup k (pre ++ (k, et) :: post) = Some et.
Proof.
  induction pre as [|[ka eta] pre IH]; intros k et post Hpre Hr; cbn.
  - rewrite Hr. reflexivity.
  - pose proof (Hpre (ka, eta) (or_introl eq_refl)) as H0. cbn in H0. rewrite H0. apply IH.
    + intros p Hp. apply Hpre. right. exact Hp.
    + exact Hr.
Qed.

Lemma keys_ok_in : forall current c e, keys_ok current c = true -> In e c ->
  ints_only (fst e) = true /\ is_current current (fst e) = false /\ should_upgrade current (fst e) = false.
Proof.
  intros current c e H Hin. unfold keys_ok in H. rewrite forallb_forall in H.
  specialize (H e Hin). repeat (apply andb_true_iff in H; destruct H as [H ?]).
  repeat split; try assumption; apply negb_true_iff; assumption.
Qed.

Lemma linked_split : forall current pre k e t post,
  linked current (pre ++ (k, (e, t)) :: post) = true ->
  normalise t = Some (match post with [] => FInt current | (k', _) :: _ => k' end).
Proof.
  induction pre as [|[ka [ea ta]] pre IH]; intros k e t post H.
  - cbn in H. apply andb_true_iff in H. destruct H as [H _].
    destruct post as [|[k' et'] post']; apply opt_fver_eqb_eq; exact H.
  - cbn [app linked] in H. apply andb_true_iff in H. destruct H as [_ H]. apply (IH k e t post H).
Qed.

Lemma era_split : forall pre k e t post,
  era_ok (pre ++ (k, (e, t)) :: post) = true ->
  match post with
  | [] => e <> WB
  | (_, (e', _)) :: _ => e = WB -> e' <> WS
  end.
Proof.
  induction pre as [|[ka [ea ta]] pre IH]; intros k e t post H.
  - cbn in H. apply andb_true_iff in H. destruct H as [H _].
    destruct post as [|[k' [e' t']] post'].
    + intros ->. discriminate.
    + intros -> ->. discriminate.
  - cbn [app era_ok] in H. apply andb_true_iff in H. destruct H as [_ H]. apply (IH k e t post H).
Qed.

Section Driver.
  Variable R : Type.
  Variable body : fver -> state R -> option (state R).
  Variable chain : chain_t.
  Variable current : Z.
  Variable guard : bool.
  Hypothesis Hok : chain_ok current chain = true.

  Notation mig := (migrate_flow body chain current guard).
  Definition key_of (s : state R) : option fver := normalise (get_version s).

  Definition good (r : result R) : Prop :=
    match r with
    | OutOfFuel => False
    | Migrated s' => key_of s' = Some (FInt current)
    | _ => True
    end.

  Definition prefix_of {A} (a b : list A) : Prop := exists c, b = a ++ c.

  (* a run ends well within |chain| calls, and the converters called are a segment of the table *)
  Definition bounded_run (tr : list call * result R) : Prop :=
    good (snd tr) /\ (length (fst tr) <= length chain)%nat
    /\ exists pre, prefix_of (pre ++ map fst (fst tr)) (map fst chain).

  Lemma chain_parts : keys_ok current chain = true /\ nodup_keys chain = true
                      /\ linked current chain = true /\ era_ok chain = true.
  Proof. pose proof Hok as H. unfold chain_ok in H. rewrite !andb_true_iff in H. tauto. Qed.

  (* the loop body as one equation: migrate_flow recurses on fuel, so it does not unfold while fuel is a variable *)
  Lemma migrate_unfold : forall fuel prev s,
    mig fuel prev s =
    match key_of s with
    | None => ([], TupleTypeError)
    | Some fv =>
        if is_current current fv then ([], Migrated s)
        else if unhashable fv then ([], UnhashableTypeError)
        else match lookup fv chain with
             | None => ([], Rejected (should_upgrade current fv))
             | Some et =>
                 if guard && prev_eqb prev fv then ([], Rejected (should_upgrade current fv))
                 else match fuel with
                      | O => ([], OutOfFuel)
                      | S f =>
                          match convert body fv et s with
                          | None => ([(fv, None)], ConverterRaised fv)
                          | Some s' =>
                              let tr := mig f (Some fv) s' in
                              ((fv, Some (bver s', sver s')) :: fst tr, snd tr)
                          end
                      end
             end
    end.
  Proof. intros fuel prev s. destruct fuel; reflexivity. Qed.

  Lemma split_facts : forall pre k et post, chain = pre ++ (k, et) :: post ->
    ints_only k = true /\ is_current current k = false /\ should_upgrade current k = false
    /\ unhashable k = false /\ lookup k chain = Some et.
  Proof.
    intros pre k et post Hc. destruct chain_parts as [Hkeys [Hnodup _]].
    assert (Hin : In (k, et) chain) by (rewrite Hc; apply in_or_app; right; left; reflexivity).
    destruct (keys_ok_in current chain (k, et) Hkeys Hin) as [Hi [Hcur Hup]]. cbn in Hi, Hcur, Hup.
    repeat split; try assumption.
    - apply ints_only_hashable. exact Hi.
    - rewrite Hc. apply lookup_app_mid.
      + intros p Hp. rewrite fver_eqb_sym.
        rewrite Hc in Hnodup. apply (nodup_pre pre (k, et) post Hnodup p Hp).
      + apply fver_eqb_refl. exact Hi.
  Qed.

  Lemma next_distinct : forall pre k et k' et' post, chain = pre ++ (k, et) :: (k', et') :: post ->
    fver_eqb k' k = false.
  Proof.
    intros pre k et k' et' post Hc. destruct chain_parts as [_ [Hn _]]. rewrite Hc in Hn. rewrite fver_eqb_sym.
    apply (nodup_pre (pre ++ [(k, et)]) (k', et') post) with (p := (k, et)).
    - rewrite <- app_assoc. exact Hn.
    - apply in_or_app. right. left. reflexivity.
  Qed.

  Lemma chain_next : forall pre k e t post, chain = pre ++ (k, (e, t)) :: post ->
    normalise t = Some (match post with [] => FInt current | (k', _) :: _ => k' end).
  Proof. intros pre k e t post Hc. apply (linked_split current pre k e). rewrite <- Hc. apply chain_parts. Qed.

  Theorem current_unchanged : forall s prev fuel, key_of s = Some (FInt current) ->
    mig fuel prev s = ([], Migrated s).
  Proof. intros s prev fuel H. rewrite migrate_unfold, H. cbn. rewrite Z.eqb_refl. reflexivity. Qed.

  (* at a table entry that the guard lets pass, the converter is called *)
  Lemma mig_call : forall pre k e t post fuel prev s, chain = pre ++ (k, (e, t)) :: post ->
    key_of s = Some k -> (guard && prev_eqb prev k) = false ->
    mig (S fuel) prev s =
    match body k s with
    | None => ([(k, None)], ConverterRaised k)
    | Some s1 =>
        let s' := apply_effect e t s1 in
        ((k, Some (bver s', sver s')) :: fst (mig fuel (Some k) s'), snd (mig fuel (Some k) s'))
    end.
  Proof.
    intros pre k e t post fuel prev s Hc Hk Hg.
    destruct (split_facts pre k (e, t) post Hc) as [_ [Hcur [_ [Hh Hl]]]].
    rewrite migrate_unfold, Hk, Hcur, Hh, Hl, Hg. unfold convert. destruct (body k s); reflexivity.
  Qed.

  (* the version did not move: with the guard the next round rejects it *)
  Lemma mig_stalled : forall pre k et post fuel s, chain = pre ++ (k, et) :: post ->
    guard = true -> key_of s = Some k -> mig fuel (Some k) s = ([], Rejected false).
  Proof.
    intros pre k et post fuel s Hc Hg Hk.
    destruct (split_facts pre k et post Hc) as [Hi [Hcur [Hup [Hh Hl]]]].
    rewrite migrate_unfold, Hk, Hcur, Hh, Hl, Hg, Hup. cbn. rewrite (fver_eqb_refl k Hi). reflexivity.
  Qed.

  Lemma prefix_of_nil {A} (b : list A) : prefix_of [] b.
  Proof. exists b. reflexivity. Qed.
  Lemma prefix_of_app {A} (p a b : list A) : prefix_of a b -> prefix_of (p ++ a) (p ++ b).
  Proof. intros [c ->]. exists c. apply app_assoc. Qed.

  (* the bound on the number of calls follows from the segment claim *)
  Lemma bounded_run_intro : forall tr, good (snd tr) ->
    (exists pre, prefix_of (pre ++ map fst (fst tr)) (map fst chain)) -> bounded_run tr.
  Proof.
    intros tr G [pre [c P]]. split; [exact G|]. split; [|exists pre, c; exact P].
    apply (f_equal (@length _)) in P. rewrite !app_length, !map_length in P. unfold call. lia.
  Qed.

  (* generic progress argument: an invariant Inv on states and a one-step fact *)
  Section Progress.
    Variable Inv : state R -> Prop.
    Hypothesis Hstep : forall pre k e t post s s1,
      chain = pre ++ (k, (e, t)) :: post -> Inv s -> key_of s = Some k -> body k s = Some s1 ->
      Inv (apply_effect e t s1)
      /\ (key_of (apply_effect e t s1) = normalise t
          \/ (guard = true /\ key_of (apply_effect e t s1) = Some k)).

    (* from a table entry on, the calls walk down the table *)
    Lemma progress_from : forall fuel post pre k e t s prev,
      chain = pre ++ (k, (e, t)) :: post -> Inv s -> key_of s = Some k ->
      (guard && prev_eqb prev k) = false -> (length post < fuel)%nat ->
      good (snd (mig fuel prev s)) /\ prefix_of (map fst (fst (mig fuel prev s))) (k :: map fst post).
    Proof.
      induction fuel as [|f IH]; intros post pre k e t s prev Hc HI Hk Hg Hf; [lia|].
      rewrite (mig_call pre k e t post f prev s Hc Hk Hg).
      assert (Hone : prefix_of [k] (k :: map fst post)) by apply (prefix_of_app [k]), prefix_of_nil.
      destruct (body k s) as [s1|] eqn:B; [|split; [exact I | exact Hone]].
      destruct (Hstep pre k e t post s s1 Hc HI Hk B) as [HI' [Hn|[Hgd Hn]]]; cbv zeta.
      2: { rewrite (mig_stalled pre k (e, t) post f _ Hc Hgd Hn). split; [exact I | exact Hone]. }
      rewrite (chain_next pre k e t post Hc) in Hn.
      destruct post as [|[k' [e' t']] post'].
      - rewrite (current_unchanged _ (Some k) f Hn). split; [exact Hn | exact Hone].
      - destruct (IH post' (pre ++ [(k, (e, t))]) k' e' t' (apply_effect e t s1) (Some k)) as [G P].
        + rewrite <- app_assoc. exact Hc.
        + exact HI'.
        + exact Hn.
        + cbn [prev_eqb]. rewrite (next_distinct pre k (e, t) k' (e', t') post' Hc). apply andb_false_r.
        + cbn in Hf. lia.
        + split; [exact G | apply (prefix_of_app [k]), P].
    Qed.

    Lemma progress_all : forall s prev fuel, Inv s -> (length chain <= fuel)%nat ->
      bounded_run (mig fuel prev s).
    Proof.
      intros s prev fuel HI Hf.
      (* every way of stopping before the first converter call *)
      assert (Stop : forall r, mig fuel prev s = ([], r) -> good r -> bounded_run (mig fuel prev s)).
      { intros r E G. rewrite E. apply bounded_run_intro; [exact G | exists []; apply prefix_of_nil]. }
      pose proof (migrate_unfold fuel prev s) as U.
      destruct (key_of s) as [fv|] eqn:Hk; [|exact (Stop _ U I)].
      destruct (is_current current fv) eqn:Hcur.
      { apply (Stop _ U). apply is_current_eq in Hcur. subst fv. exact Hk. }
      destruct (unhashable fv); [exact (Stop _ U I)|].
      destruct (lookup fv chain) as [[e t]|] eqn:Hl; [|exact (Stop _ U I)].
      destruct (guard && prev_eqb prev fv) eqn:Hg; [exact (Stop _ U I)|].
      clear Stop U.
      destruct (lookup_split fv chain (e, t) Hl) as [pre [post Hc]].
      assert (Hm : map fst chain = map fst pre ++ fv :: map fst post) by (rewrite Hc, map_app; reflexivity).
      destruct (progress_from fuel post pre fv e t s prev Hc HI Hk Hg) as [G P].
      { apply (f_equal (@length _)) in Hc. rewrite app_length in Hc. cbn in Hc. lia. }
      apply bounded_run_intro; [exact G|]. exists (map fst pre). rewrite Hm. apply prefix_of_app, P.
    Qed.
  End Progress.

  Definition frame : Prop := forall k s s1, body k s = Some s1 -> bver s1 = bver s.
  Definition body_ok : Prop := forall k s s1, body k s = Some s1 -> key_of s = Some k ->
    bver s1 = None \/ exists v, bver s1 = Some v /\ normalise v = Some k.
  Definition no_stale : Prop := forall k s s1 t, body k s = Some s1 -> lookup k chain = Some (WS, t) ->
    bver s1 = None.
  (* the state has no bytes version entry, or its version is not one handled by a str-era converter *)
  Definition not_stale (s : state R) : Prop :=
    bver s = None \/ forall k e t, key_of s = Some k -> lookup k chain = Some (e, t) -> e <> WS.

  Lemma frame_body_ok : frame -> body_ok.
  Proof.
    intros Hf k s s1 B Hk. rewrite (Hf k s s1 B). unfold key_of, get_version in Hk.
    destruct (bver s) as [v|]; [right; exists v; split; [reflexivity|exact Hk] | left; reflexivity].
  Qed.

  Lemma key_after_clear : forall e t (s1 : state R), bver s1 = None \/ e <> WS ->
    key_of (apply_effect e t s1) = normalise t.
  Proof.
    intros e t s1 H. unfold key_of, get_version. destruct e; cbn.
    - reflexivity.
    - destruct H as [H|H]; [rewrite H; reflexivity | congruence].
    - reflexivity.
  Qed.

  Theorem guarded_total : guard = true -> body_ok -> forall s prev fuel, (length chain <= fuel)%nat ->
    bounded_run (mig fuel prev s).
  Proof.
    intros Hg Hb s prev fuel Hf.
    apply (progress_all (fun _ => True)); [|exact I|exact Hf].
    intros pre k e t post s0 s1 Hc _ Hk B. split; [exact I|].
    destruct (Hb k s0 s1 B Hk) as [Hn|[v [Hv Hkv]]].
    - left. apply key_after_clear. left. exact Hn.
    - destruct e.
      + left. apply key_after_clear. right. discriminate.
      + right. split; [exact Hg|]. unfold key_of, get_version. cbn. rewrite Hv. exact Hkv.
      + left. apply key_after_clear. right. discriminate.
  Qed.

  Theorem unguarded_no_stale_total : no_stale -> forall s prev fuel, (length chain <= fuel)%nat ->
    good (snd (mig fuel prev s))
    /\ (length (fst (mig fuel prev s)) <= length chain)%nat
    /\ exists pre, prefix_of (pre ++ map fst (fst (mig fuel prev s))) (map fst chain).
  Proof.
    intros Hn s prev fuel Hf.
    apply (progress_all (fun _ => True)); [|exact I|exact Hf].
    intros pre k e t post s0 s1 Hc _ Hk B. split; [exact I|]. left.
    destruct (split_facts pre k (e, t) post Hc) as [_ [_ [_ [_ Hl]]]].
    apply key_after_clear. destruct e; [right; discriminate | left; apply (Hn k s0 s1 t B Hl) | right; discriminate].
  Qed.

  Theorem unguarded_frame_total : frame -> forall s prev fuel, not_stale s -> (length chain <= fuel)%nat ->
    bounded_run (mig fuel prev s).
  Proof.
    intros Hfr s prev fuel Hs Hf.
    apply (progress_all not_stale); [|exact Hs|exact Hf].
    intros pre k e t post s0 s1 Hc HI Hk B.
    destruct (split_facts pre k (e, t) post Hc) as [_ [_ [_ [_ Hl]]]].
    destruct e.
    - (* WB: the next entry is not a str-era converter *)
      assert (Hkey : key_of (apply_effect WB t s1) = normalise t) by (apply key_after_clear; right; discriminate).
      split; [|left; exact Hkey].
      right. intros k2 e2 t2 Hk2 Hl2. rewrite Hkey, (chain_next pre k WB t post Hc) in Hk2.
      destruct chain_parts as [_ [_ [_ He]]]. rewrite Hc in He. apply era_split in He.
      destruct post as [|[k' [e' t']] post']; [destruct He; reflexivity|].
      inversion Hk2. subst k2.
      destruct (split_facts (pre ++ [(k, (WB, t))]) k' (e', t') post') as [_ [_ [_ [_ Hl']]]].
      { rewrite <- app_assoc. exact Hc. }
      rewrite Hl' in Hl2. inversion Hl2. subst. apply He. reflexivity.
    - (* WS: only reached without a bytes version entry, and the body adds none *)
      destruct HI as [Hnone|Hne]; [|destruct (Hne k WS t Hk Hl); reflexivity].
      assert (Hb : bver s1 = None) by (rewrite (Hfr k s0 s1 B); exact Hnone).
      split; [left; exact Hb | left; apply key_after_clear; left; exact Hb].
    - (* US *) split; [left; reflexivity | left; apply key_after_clear; right; discriminate].
  Qed.

  (* the driver as it stands in a source tree: with the guard, or on the states that do not need it *)
  Theorem frame_total : frame -> forall s prev fuel, guard = true \/ not_stale s -> (length chain <= fuel)%nat ->
    bounded_run (mig fuel prev s).
  Proof.
    intros Hfr s prev fuel [Hg|Hs] Hf.
    - apply guarded_total; [exact Hg | apply frame_body_ok, Hfr | exact Hf].
    - apply unguarded_frame_total; assumption.
  Qed.

  Lemma lookup_not_upgrade : forall fv et, lookup fv chain = Some et -> should_upgrade current fv = false.
  Proof.
    intros fv et Hl. destruct (lookup_split fv chain et Hl) as [pre [post Hc]].
    destruct (split_facts pre fv et post Hc) as [_ [_ [Hup _]]]. exact Hup.
  Qed.

  Theorem newer_rejected : forall s prev fuel z, get_version s = VInt z -> (current < z)%Z ->
    mig fuel prev s = ([], Rejected true).
  Proof.
    intros s prev fuel z H Hz. rewrite migrate_unfold. unfold key_of. rewrite H. cbn [normalise is_current unhashable].
    assert (Hne : (z =? current)%Z = false) by (apply Z.eqb_neq; lia). rewrite Hne.
    assert (Hup : should_upgrade current (FInt z) = true) by (cbn; apply Z.ltb_lt; exact Hz).
    destruct (lookup (FInt z) chain) as [et|] eqn:Hl.
    - rewrite (lookup_not_upgrade _ _ Hl) in Hup. discriminate.
    - rewrite Hup. reflexivity.
  Qed.

  Theorem unknown_rejected : forall s prev fuel fv, key_of s = Some fv ->
    is_current current fv = false -> unhashable fv = false -> lookup fv chain = None ->
    mig fuel prev s = ([], Rejected (should_upgrade current fv))
    /\ (should_upgrade current fv = true <-> exists z, fv = FInt z /\ (current < z)%Z).
  Proof.
    intros s prev fuel fv Hk Hcur Hh Hl. split.
    - rewrite migrate_unfold, Hk, Hcur, Hh, Hl. reflexivity.
    - split.
      + intros H. destruct fv as [z|l]; cbn in H; try discriminate. exists z. split; [reflexivity|]. apply Z.ltb_lt. exact H.
      + intros [z [-> Hz]]. cbn. apply Z.ltb_lt. exact Hz.
  Qed.

  (* without the guard, a rejection before any converter call means the version has no converter *)
  Theorem rejected_only_if : forall fuel s prev tr h, mig fuel prev s = (tr, Rejected h) ->
    guard = false -> forall fv, key_of s = Some fv -> lookup fv chain = None \/ tr <> [].
  Proof.
    intros fuel s prev tr h H Hg fv Hk. rewrite migrate_unfold, Hk, Hg in H. cbn [andb] in H.
    destruct (is_current current fv); [inversion H|].
    destruct (unhashable fv); [inversion H|].
    destruct (lookup fv chain) as [et|]; [|left; reflexivity].
    right. destruct fuel as [|f]; [inversion H|].
    destruct (convert body fv et s); inversion H; discriminate.
  Qed.
End Driver.
