(* Proofs/ViewSteps.v -- every operation, from any state satisfying the invariant: it does not raise,
   re-establishes the invariant, and its signals describe the change of the shown set. *)
From Coq Require Import List Bool Arith NArith ZArith Lia Permutation Sorted.
From MV Require Import Base.Bytes Model.View Proofs.ViewBase Proofs.ViewSpec Proofs.ViewPrim Proofs.ViewOps.
Import ListNotations.

Definition post (s s' : state) : Prop := Inv s' /\ notif (raw_ids s) (log s') (raw_ids s').

(* M1-M3 one by one, for states that list the same flows; the invariant has them as one clause ([Shown]) and
   uses only same_mem_view of these *)
Definition same_mem (s s' : state) : Prop := forall id, In id (raw_ids s') <-> In id (raw_ids s).

Lemma M1_mem s s' : cfg_eq s s' -> same_mem s s' -> M1 s -> M1 s'.
Proof. intros C V H id Hin. rewrite (attr_cfg _ _ id C), (ce_filt _ _ C). apply H, V, Hin. Qed.
Lemma M2_mem s s' : cfg_eq s s' -> same_mem s s' -> M2 s -> M2 s'.
Proof.
  intros C V H id Hin Hw. apply V. rewrite (ce_store _ _ C) in Hin. rewrite (wanted_cfg _ _ id C) in Hw. auto.
Qed.
Lemma M3_mem s s' : cfg_eq s s' -> same_mem s s' -> M3 s -> M3 s'.
Proof.
  intros C V H Hs id Hin. rewrite (ce_sm _ _ C) in Hs. rewrite (attr_cfg _ _ id C). apply H; [exact Hs | apply V, Hin].
Qed.
Lemma same_mem_view s s' : view s' = view s -> same_mem s s'.
Proof. intros V id. unfold raw_ids. rewrite V. tauto. Qed.

Lemma notif_refresh l l' tail : (tail = [] \/ tail = [StoreRefresh]) -> notif l (ViewRefresh :: tail) l'.
Proof.
  intros [->| ->]; apply (n_refresh _ l').
  - apply n_done. reflexivity.
  - apply n_srefresh, n_done. reflexivity.
Qed.

Lemma Inv_upd s s' : Inv s -> upd s s' -> CoreV s' -> view s' = view s -> FocusOk s' -> Inv s'.
Proof.
  intros [_ Si _ Sh Fr] U C V F. constructor; [exact C | eapply Sids_upd; eauto | exact F | |].
  - apply (Shown_cfg s s' (u_cfg _ _ U) (same_mem_view _ _ V) Sh).
  - apply (FreshV_cfg s s' (u_cfg _ _ U) V Fr).
Qed.
Lemma Inv_same s s' : cfg_eq s s' -> settings s' = settings s -> view s' = view s -> FocusOk s' -> Inv s -> Inv s'.
Proof.
  intros Cf E V F I. pose proof (updm_same_settings s s' Cf E) as U.
  apply (Inv_upd s s' I (um_upd _ _ U) (CoreV_updm _ _ U V (i_core _ I)) V F).
Qed.

Lemma do_focus_follow b s : Inv s -> log s = [] -> ok (do_op (SetFocusFollow b) s) (fun _ s' => post s s').
Proof.
  intros I L. split.
  - apply (Inv_same s); [constructor| | |apply (i_focus _ I) | exact I]; reflexivity.
  - simpl. rewrite L. apply n_done. reflexivity.
Qed.

Lemma do_set_reversed b s : Inv s -> log s = [] -> ok (do_op (SetReversed b) s) (fun _ s' => post s s').
Proof.
  intros I L. simpl. unfold set_reversed. msimp.
  assert (I0 : Inv (set_reversed_f b s)).
  { apply (Inv_same s); [constructor| | |apply (i_focus _ I) | exact I]; reflexivity. }
  apply (ok_mono (send_view_refresh_spec _ (i_core _ I0))). intros _ s1 (U & V & Lg & C & F).
  split; [apply (Inv_upd _ s1 I0); assumption|].
  rewrite Lg. simpl. rewrite L. apply notif_refresh. auto.
Qed.

Lemma refilter_post s s0 : log s0 = [] -> NoDup (store s0) -> SidsOk s0 ->
  ok (_refilter s0) (fun _ s' => post s s').
Proof.
  intros L Nd Si. apply (ok_mono (refilter_spec s0 Nd)). intros _ s' (U & Lg & C & F & Sh & Fv).
  split; [constructor; auto; eapply Sids_upd; eauto|].
  rewrite Lg, L. apply notif_refresh. auto.
Qed.

Lemma cache_of_filter s (p : N -> bool) id o :
  cache_of (set_settings (filter (fun e => p (fst e)) (settings s)) s) id o = if p id then cache_of s id o else None.
Proof. unfold cache_of. simpl. rewrite sget_filter. destruct (p id); reflexivity. Qed.
Lemma sids_filter s (p : N -> bool) id :
  In id (settings_ids (set_settings (filter (fun e => p (fst e)) (settings s)) s)) -> p id = true /\ In id (settings_ids s).
Proof.
  unfold settings_ids. simpl. rewrite in_map_iff. intros ([i c] & E & H). simpl in E. subst i.
  apply filter_In in H as [H1 H2]. simpl in H2. split; [exact H2|]. apply in_map_iff. exists (id, c). auto.
Qed.

Lemma store_refresh_spec t : CoreV t -> FocusOk t -> Shown t -> FreshV t ->
  ok (send_store_refresh t) (fun _ s' => Inv s' /\ raw_ids s' = raw_ids t /\ log s' = log t ++ [StoreRefresh]).
Proof.
  intros [H1 H2 H3 H4] F Sh Fv. split; [|split; reflexivity].
  set (t1 := set_log (log t ++ [StoreRefresh]) t). set (p := fun i => memN i (store t1)).
  constructor; [constructor; auto| |exact F | exact Sh | exact Fv].
  - intros k id H. destruct (H3 _ _ H) as [Ha Hb]. split; [exact Ha|].
    change (cache_of (set_settings (filter (fun e => p (fst e)) (settings t1)) t1) id (okey t) = Some k).
    rewrite cache_of_filter. replace (p id) with true by (symmetry; apply memN_In, Ha). exact Hb.
  - intros id H. apply (sids_filter t1 p) in H as [H _]. apply memN_In in H. exact H.
Qed.

(* clear and clear_not_marked: the store shrinks, the list is rebuilt, the settings are purged *)
Lemma purge_post st' s : log s = [] -> NoDup st' ->
  ok ((_refilter ;;; send_store_refresh) (set_store st' s)) (fun _ s' => post s s').
Proof.
  intros L Nd. apply (ok_bind (refilter_spec (set_store st' s) Nd)). intros _ s1 (U & Lg & C & F & Sh & Fv).
  apply (ok_mono (store_refresh_spec s1 C F Sh Fv)). intros _ s2 (I2 & R2 & L2).
  split; [exact I2|].
  rewrite L2, Lg. simpl. rewrite L. apply notif_refresh. auto.
Qed.

(* on an empty store _refilter is "view := []; sig_view_refresh", so clear runs the same sequence as clear_not_marked *)
Lemma do_clear s : Inv s -> log s = [] -> ok (do_op Clear s) (fun _ s' => post s s').
Proof.
  intros I L. change (do_op Clear s) with ((_refilter ;;; send_store_refresh) (set_store [] s)).
  apply purge_post; [exact L | constructor].
Qed.
Lemma do_clear_not_marked s : Inv s -> log s = [] ->
  ok (do_op ClearNotMarked s) (fun _ s' => post s s').
Proof.
  intros I L. simpl. unfold clear_not_marked. msimp.
  apply purge_post; [exact L | apply NoDup_filter, (c_store _ (i_core _ I))].
Qed.

Lemma do_set_order o s : Inv s -> log s = [] -> ok (do_op (SetOrder o) s) (fun _ s' => post s s').
Proof.
  intros I L. simpl. unfold set_order. msimp.
  set (s0 := set_okey o s). pose proof (i_core _ I) as C. change (map snd (view s0)) with (raw_ids s).
  apply (ok_bind (regen_all o (raw_ids s) s0 (fun id => view_stored s id C))). intros _ sa (Ua & Va & Fa & La & Ka).
  destruct (upd_cfg _ _ Ua) as (St & Oa & _ & _ & At).
  (* every shown flow now has its current key cached, so reading the keys changes nothing *)
  set (g := fun id => generate o (attr s id)).
  assert (Hk : forall id, In id (raw_ids s) -> In id (store sa) /\ cache_of sa id o = Some (g id)).
  { intros id H. split; [rewrite St; apply (view_stored s id C H) | apply Ka; auto]. }
  rewrite (bind_ok (mapM_keys o g (raw_ids s) sa Hk)). hnf.
  set (kv := map (fun id => (g id, id)) (raw_ids s)). set (s' := set_view (sl_sorted kv) sa).
  destruct (sl_sorted_spec kv) as [Sk Pk].
  assert (Hkv : forall k id, In (k, id) (view s') -> In id (raw_ids s) /\ k = g id).
  { intros k id H. apply (Permutation_in _ Pk), in_map_iff in H. destruct H as (x & [= <- <-] & H). auto. }
  assert (P : Permutation (raw_ids s') (raw_ids s)).
  { unfold raw_ids at 1. simpl. rewrite Pk. unfold kv. rewrite map_map. apply Permutation_refl', map_id. }
  assert (U : upd s0 s') by (eapply upd_trans; [exact Ua | apply upd_set_view]).
  split; [constructor|].
  - constructor.
    + change (NoDup (store sa)). rewrite St. apply (c_store _ C).
    + exact Sk.
    + intros k id H. destruct (Hkv _ _ H) as [Hin ->]. change (In id (store sa) /\ cache_of sa id (okey sa) = Some (g id)).
      rewrite Oa. apply Hk, Hin.
    + eapply Permutation_NoDup; [symmetry; exact P | apply (c_nodup _ C)].
  - apply (Sids_upd s0 s' U), (i_sids _ I).
  - unfold FocusOk. change (focus s') with (focus sa). rewrite Fa. change (focus s0) with (focus s).
    pose proof (i_focus _ I) as F. unfold FocusOk in F. destruct (focus s).
    + apply (Permutation_in _ (Permutation_sym P)), F.
    + simpl. unfold kv, raw_ids. rewrite F. reflexivity.
  - apply (Shown_cfg s0 s' (u_cfg _ _ U)); [|apply (i_shown _ I)].
    intros id. split; apply Permutation_in; [exact P | symmetry; exact P].
  - intros k id H. destruct (Hkv _ _ H) as [_ ->]. change (g id = generate (okey sa) (attr sa id)). rewrite Oa, At. reflexivity.
  - change (log s') with (log sa). rewrite La. simpl. rewrite L. apply n_done. symmetry. exact P.
Qed.

(* show_flow and hide_flow are, word for word, the blocks of add/update and of remove/update in Model/View.v that
   show and hide one flow, so that their specifications apply to those functions once unfolded.
   _base_add, focus_follow, sig_view_add: *)
Definition show_flow (id : N) : M unit :=
  _base_add id ;;;
  ff <- gets focus_follow ;;
  (if ff then focus_set_flow (Some id) else ret tt) ;;;
  send_view_add id.
(* _view.remove, sig_view_remove: *)
Definition hide_flow (id : N) (idx : nat) : M unit := _view_remove id ;;; send_view_remove id idx.

Lemma show_flow_spec id s : CoreV s -> In id (store s) -> ~ In id (raw_ids s) ->
  (forall g, focus s = Some g -> In g (raw_ids s)) ->
  ok (show_flow id s) (fun _ s' => upd s s' /\ CoreV s' /\ FocusOk s'
    /\ Permutation (raw_ids s') (id :: raw_ids s) /\ log s' = log s ++ [ViewAdd id]
    /\ view s' = sl_add (generate (okey s) (attr s id)) id (view s)).
Proof.
  intros C Hst Hn Hf. unfold show_flow.
  apply (ok_bind (base_add_spec id s C Hst Hn)). intros _ s1 (U1 & F1 & L1 & C1 & P1 & V1). msimp.
  assert (Hin1 : In id (raw_ids s1)) by (apply (Permutation_in _ (Permutation_sym P1)); left; reflexivity).
  assert (Tail : forall s2, foc s1 s2 -> (forall g, focus s2 = Some g -> In g (raw_ids s1)) ->
            ok (send_view_add id s2) (fun _ s' => upd s s' /\ CoreV s' /\ FocusOk s'
              /\ Permutation (raw_ids s') (id :: raw_ids s) /\ log s' = log s ++ [ViewAdd id]
              /\ view s' = sl_add (generate (okey s) (attr s id)) id (view s))).
  { intros s2 X Hf2. pose proof (raw_ids_foc _ _ X) as R2. rewrite <- R2 in Hf2, Hin1.
    apply (ok_mono (send_view_add_spec id s2 (CoreV_foc _ _ X C1) Hin1 Hf2)). intros _ s3 (U3 & V3 & L3 & C3 & F3).
    split; [|split; [exact C3 | split; [exact F3 | split; [|split]]]].
    - eapply upd_trans; [exact U1|]. eapply upd_trans; [apply (um_upd _ _ (f_updm _ _ X)) | exact U3].
    - rewrite (raw_ids_view _ _ V3), R2. exact P1.
    - rewrite L3, (f_log _ _ X), L1. reflexivity.
    - rewrite V3, (f_view _ _ X). exact V1. }
  destruct (focus_follow s1).
  - rewrite (bind_ok (focus_set_flow_shown id s1 C1 Hin1)). apply Tail; [apply foc_set_focus|].
    intros g [= <-]. exact Hin1.
  - msimp. apply Tail; [apply foc_refl|].
    intros g Hg. rewrite F1 in Hg. apply (Permutation_in _ (Permutation_sym P1)). right. auto.
Qed.

Lemma hide_flow_spec id idx s : CoreV s -> FocusOk s -> In id (raw_ids s) ->
  ok (hide_flow id idx s) (fun _ s' => upd s s' /\ CoreV s' /\ FocusOk s'
    /\ ~ In id (raw_ids s') /\ Permutation (raw_ids s) (id :: raw_ids s')
    /\ log s' = log s ++ [ViewRemove id idx] /\ incl (view s') (view s)).
Proof.
  intros C F Hin. unfold hide_flow.
  destruct (view_remove_spec id s C Hin) as (v' & E & C2 & Hn & P & Sub). rewrite (bind_ok E).
  eapply ok_mono; [apply (send_view_remove_spec id idx (set_view v' s) C2)|].
  { (* the focus is the removed flow or one that is still listed *)
    unfold FocusOk in F. simpl. destruct (focus s) as [g|].
    - apply (Permutation_in _ P) in F. destruct F as [<-|F]; auto.
    - unfold raw_ids in Hin. rewrite F in Hin. destruct Hin. }
  intros _ s3 (U3 & V3 & L3 & C3 & F3).
  pose proof (raw_ids_view _ _ V3) as R3. change (raw_ids (set_view v' s)) with (map snd v') in R3.
  rewrite R3, V3. split; [|auto 7].
  apply (upd_trans _ _ _ (upd_set_view v' s) U3).
Qed.

(* the flow [id], not listed in [t], leaves the store, and its settings go with it *)
Lemma delete_spec id s t : Inv s -> upd s t -> CoreV t -> FocusOk t -> incl (view t) (view s) -> ~ In id (raw_ids t) ->
  (forall x, x <> id -> In x (raw_ids s) -> In x (raw_ids t)) ->
  ok ((modify (fun s => set_store (filter (fun i => negb (N.eqb i id)) (store s)) s) ;;; send_store_remove id) t)
     (fun _ s' => Inv s' /\ raw_ids s' = raw_ids t /\ log s' = log t ++ [StoreRemove id]).
Proof.
  intros I U [H1 H2 H3 H4] F Sub Hn Hm. split; [|split; reflexivity].
  destruct (upd_cfg _ _ U) as (St & Ot & Fl & Sm & At).
  set (p := fun i => negb (N.eqb i id)).
  assert (Pne : forall x, p x = true <-> x <> id).
  { intros x. unfold p. rewrite negb_true_iff. apply N.eqb_neq. }
  assert (Vne : forall k x, In (k, x) (view t) -> x <> id) by (intros k x H ->; apply Hn; eapply in_ids, H).
  set (t1 := set_log (log t ++ [StoreRemove id]) (set_store (filter p (store t)) t)).
  constructor; [constructor; simpl; auto| |exact F| |].
  - apply NoDup_filter, H1.
  - intros k x H. destruct (H3 _ _ H) as [Ha Hb]. pose proof (proj2 (Pne x) (Vne _ _ H)) as Hp.
    split; [apply filter_In; auto|].
    change (cache_of (set_settings (filter (fun e => p (fst e)) (settings t1)) t1) x (okey t) = Some k).
    rewrite cache_of_filter, Hp. exact Hb.
  - intros x H. apply (sids_filter t1 p) in H as [Hp H]. apply filter_In. split; [|exact Hp].
    apply (Sids_upd s t U (i_sids _ I)), H.
  - intros x. change (In x (raw_ids t) <-> In x (filter p (store t)) /\ wanted t x = true).
    rewrite filter_In, Pne, St, (wanted_cfg s t x (u_cfg _ _ U)). pose proof (i_shown _ I x) as Sx. split.
    + intros H. apply in_ids_split in H as [k H]. pose proof (Vne _ _ H). apply Sub, in_ids, Sx in H. tauto.
    + intros [[A Hne] B]. apply Hm; [exact Hne | apply Sx; auto].
  - intros k x H. change (k = generate (okey t) (attr t x)). rewrite Ot, At. apply (i_fresh _ I), Sub, H.
Qed.

Lemma do_remove id s : Inv s -> log s = [] -> ok (do_op (Remove id) s) (fun _ s' => post s s').
Proof.
  intros I L. simpl. unfold remove. simpl forM. rewrite bind_ret_r. msimp.
  pose proof (i_core _ I) as C.
  destruct (memN id (store s)) eqn:Em.
  2:{ split; [exact I | rewrite L; apply n_done; reflexivity]. }
  destruct (in_dec N.eq_dec id (raw_ids s)) as [Hin|Hn].
  - rewrite (bind_ok (view_contains_shown id s C Hin)). msimp.
    destruct (view_index_shown id s C Hin) as (idx & E2 & Hnth). rewrite (bind_ok E2).
    apply (ok_bind (hide_flow_spec id idx s C (i_focus _ I) Hin)). intros _ s3 (U3 & C3 & F3 & Hn3 & P3 & L3 & Sub3).
    eapply ok_mono; [apply (delete_spec id s s3 I U3 C3 F3 Sub3 Hn3)|].
    { intros x Hne H. apply (Permutation_in _ P3) in H. destruct H; [congruence | assumption]. }
    intros _ s' (I' & R & Lg). split; [exact I'|]. rewrite Lg, L3, L, R. simpl.
    apply (n_remove id idx _ (raw_ids s3)); [exact Hnth | exact P3 | exact Hn3 | apply n_sremove, n_done; reflexivity].
  - apply (ok_bind (view_contains_hidden id s Hn)). intros b s1 [-> X1]. msimp.
    pose proof (raw_ids_view _ _ (e_view _ _ X1)) as R1.
    eapply ok_mono; [apply (delete_spec id s s1 I (ext_upd _ _ X1) (CoreV_ext _ _ X1 C))|].
    { apply (FocusOk_eq s); [apply (e_view _ _ X1) | apply (e_focus _ _ X1) | apply (i_focus _ I)]. }
    { rewrite (e_view _ _ X1). apply incl_refl. }
    { rewrite R1. exact Hn. }
    { intros x _. rewrite R1. auto. }
    intros _ s' (I' & R & Lg). split; [exact I'|]. rewrite Lg, (e_log _ _ X1), L, R, R1.
    apply n_sremove, n_done. reflexivity.
Qed.

Definition put (f : flow) (st' : list N) (s : state) : state := set_store st' (set_heap (hset (heap s) f) s).

(* the invariant, except for what it says about flow [id] *)
Record Inv_but (id : N) (s : state) : Prop := {
  b_core : CoreV s; b_sids : SidsOk s; b_focus : FocusOk s;
  b_shown : forall x, x <> id -> (In x (raw_ids s) <-> In x (store s) /\ wanted s x = true);
  b_fresh : forall k x, In (k, x) (view s) -> x <> id -> k = generate (okey s) (attr s x) }.

Lemma attr_put f st' s x : attr (put f st' s) x = if N.eqb (fid f) x then f else attr s x.
Proof. apply hget_hset. Qed.

Lemma Inv_but_put f st' s : Inv s -> NoDup st' -> incl (store s) st' -> (forall x, In x st' -> x = fid f \/ In x (store s)) ->
  Inv_but (fid f) (put f st' s).
Proof.
  intros [[H1 H2 H3 H4] Si F Sh Fr] Nd Hi Hst.
  assert (At : forall x, x <> fid f -> attr (put f st' s) x = attr s x).
  { intros x H. rewrite attr_put. destruct (N.eqb_spec (fid f) x); [congruence | reflexivity]. }
  constructor; [constructor; simpl; auto| |exact F| |].
  - intros k x H. destruct (H3 _ _ H). auto.
  - intros x H. apply Hi, Si, H.
  - intros x Hne. change (In x (raw_ids s) <-> In x st' /\ wanted (put f st' s) x = true).
    unfold wanted. rewrite (At x Hne). fold (wanted s x). rewrite (Sh x).
    split; intros [H Hw]; (split; [|exact Hw]); [apply Hi, H | destruct (Hst x H); [contradiction | assumption]].
  - intros k x H Hne. rewrite (At x Hne). apply Fr, H.
Qed.

(* ... and what re-establishes it: [id] is listed iff wanted, under its current key, and nothing else has moved *)
Lemma Inv_but_close id s0 s' : Inv_but id s0 -> upd s0 s' -> CoreV s' -> FocusOk s' ->
  (forall x, x <> id -> (In x (raw_ids s') <-> In x (raw_ids s0))) ->
  (In id (raw_ids s') <-> In id (store s0) /\ wanted s0 id = true) ->
  (forall k x, In (k, x) (view s') ->
     (x = id /\ k = generate (okey s0) (attr s0 id)) \/ (x <> id /\ In (k, x) (view s0))) ->
  Inv s'.
Proof.
  intros [_ Si _ Sh Fr] U C F Hm Hid Hv. pose proof (u_cfg _ _ U) as Cf.
  constructor; [exact C | eapply Sids_upd; eauto | exact F | |].
  - intros x. rewrite (ce_store _ _ Cf), (wanted_cfg _ _ x Cf).
    destruct (N.eq_dec x id) as [->|Hne]; [exact Hid | rewrite (Hm x Hne); apply Sh, Hne].
  - intros k x H. rewrite (ce_okey _ _ Cf), (attr_cfg _ _ x Cf).
    destruct (Hv _ _ H) as [[-> ->]|[Hne Hin]]; [reflexivity | apply Fr; assumption].
Qed.

(* nothing to do for [id]: it is not listed and need not be *)
Lemma Inv_but_skip id s0 s1 : Inv_but id s0 -> ext s0 s1 -> ~ In id (raw_ids s0) ->
  ~ (In id (store s0) /\ wanted s0 id = true) -> Inv s1.
Proof.
  intros B X Hn Hw. pose proof (raw_ids_view _ _ (e_view _ _ X)) as R.
  apply (Inv_but_close id s0 s1 B (ext_upd _ _ X) (CoreV_ext _ _ X (b_core _ _ B))).
  - apply (FocusOk_eq s0); [apply (e_view _ _ X) | apply (e_focus _ _ X) | apply (b_focus _ _ B)].
  - intros x _. rewrite R. tauto.
  - rewrite R. tauto.
  - intros k x H. rewrite (e_view _ _ X) in H. right. split; [intros ->; apply Hn; eapply in_ids, H | exact H].
Qed.

(* [id] is stored, wanted and not listed: showing it (after a lookup that may have cached a key) closes the gap *)
Lemma show_post id s0 s1 : Inv_but id s0 -> ext s0 s1 -> In id (store s0) -> ~ In id (raw_ids s0) ->
  wanted s0 id = true -> log s0 = [] ->
  ok (show_flow id s1) (fun _ s' => Inv s' /\ notif (raw_ids s0) (log s') (raw_ids s')).
Proof.
  intros B X1 Hst Hn Ew L0. pose proof (b_core _ _ B) as C0.
  destruct (upd_cfg _ _ (ext_upd _ _ X1)) as (St1 & O1 & _ & _ & At1).
  pose proof (raw_ids_view _ _ (e_view _ _ X1)) as R1.
  eapply ok_mono; [apply (show_flow_spec id s1 (CoreV_ext _ _ X1 C0));
    [rewrite St1; exact Hst | rewrite R1; exact Hn | rewrite R1, (e_focus _ _ X1); apply (FocusOk_in s0 (b_focus _ _ B))]|].
  intros _ s2 (U2 & C2 & F2 & P2 & L2 & V2). rewrite R1 in P2. split.
  - apply (Inv_but_close id s0 s2 B (upd_trans _ _ _ (ext_upd _ _ X1) U2) C2 F2).
    + intros x Hne. rewrite P2. simpl. intuition congruence.
    + rewrite P2. simpl. tauto.
    + intros k x H. rewrite V2, O1, At1, (e_view _ _ X1) in H. apply (Permutation_in _ (sl_add_perm _ _ _)) in H.
      destruct H as [[= <- <-]|H]; [left; auto | right]. split; [intros ->; apply Hn; eapply in_ids, H | exact H].
  - rewrite L2, (e_log _ _ X1), L0.
    apply (n_add id _ (raw_ids s2)); [exact Hn | symmetry; exact P2 | apply n_done; reflexivity].
Qed.

Lemma do_add f s : Inv s -> log s = [] -> ok (do_op (Add f) s) (fun _ s' => post s s').
Proof.
  intros I L. simpl. unfold add. simpl forM. rewrite bind_ret_r. rewrite bind_gets.
  destruct (memN (fid f) (store s)) eqn:Em.
  { split; [exact I | rewrite L; apply n_done; reflexivity]. }
  apply memN_false in Em. rewrite bind_modify, bind_gets.
  set (id := fid f) in *. fold (put f (store s ++ [id]) s). set (s0 := put f (store s ++ [id]) s).
  assert (B : Inv_but id s0).
  { apply Inv_but_put; [exact I | | apply incl_appl, incl_refl |].
    - apply Permutation_NoDup with (l := id :: store s); [apply Permutation_cons_append|].
      constructor; [exact Em | apply (c_store _ (i_core _ I))].
    - intros x H. apply in_app_iff in H. destruct H as [H|[<-|[]]]; auto. }
  assert (Hst : In id (store s0)) by (apply in_or_app; right; left; reflexivity).
  assert (Hn : ~ In id (raw_ids s0)) by (intros H; apply Em, (view_stored s id (i_core _ I) H)).
  assert (W : shows s0 f = wanted s0 id).
  { rewrite <- (shows_wanted s0 id). unfold s0, id. rewrite attr_put, N.eqb_refl. reflexivity. }
  rewrite W. destruct (wanted s0 id) eqn:Ew.
  - apply (show_post id s0 s0 B (ext_refl s0) Hst Hn Ew L).
  - split; [|simpl; rewrite L; apply n_done; reflexivity].
    apply (Inv_but_skip id s0 s0 B (ext_refl s0) Hn). intros [_ H]. congruence.
Qed.

(* update: the flow object was mutated just before the call *)
Lemma put_same_store f s : set_heap (hset (heap s) f) s = put f (store s) s.
Proof. destruct s; reflexivity. Qed.

Lemma do_update f s : Inv s -> log s = [] -> ok (do_op (Update f) s) (fun _ s' => post s s').
Proof.
  intros I L. simpl. unfold mutate, update. simpl forM. msimp. rewrite put_same_store.
  set (id := fid f) in *. set (s0 := put f (store s) s).
  assert (B : Inv_but id s0).
  { apply Inv_but_put; [exact I | apply (c_store _ (i_core _ I)) | apply incl_refl | auto]. }
  pose proof (b_core _ _ B) as C0. pose proof (b_focus _ _ B) as F0.
  assert (L0 : log s0 = []) by exact L.
  destruct (memN id (store s0)) eqn:Em.
  2:{ (* the flow is not stored: nothing happens *)
    apply memN_false in Em. assert (Hn : ~ In id (raw_ids s0)) by (intros H; apply Em, (view_stored s0 id C0 H)).
    split; [|simpl; rewrite L; apply n_done; reflexivity].
    apply (Inv_but_skip id s0 s0 B (ext_refl s0) Hn). tauto. }
  apply memN_In in Em. rewrite bind_ret_r. msimp.
  assert (W : shows s0 (attr s0 id) = wanted s0 id) by apply shows_wanted.
  rewrite W. clear W.
  destruct (in_dec N.eq_dec id (raw_ids s0)) as [Hin|Hn]; destruct (wanted s0 id) eqn:Ew.
  - (* shown already: refresh its key *)
    rewrite (bind_ok (view_contains_shown id s0 C0 Hin)). cbn [negb]. msimp.
    apply (ok_bind (okey_refresh_spec id s0 C0 Hin F0)). intros _ s2 (U2 & C2 & P2 & F2 & L2 & Hv2).
    set (s3 := set_log (log s2 ++ [ViewUpdate id]) s2). split.
    + apply (Inv_but_close id s0 s3 B); [|destruct C2; constructor; assumption | exact F2 | | |exact Hv2].
      * eapply upd_trans; [exact U2 | apply um_upd, updm_same_settings; [constructor|]; reflexivity].
      * intros x _. change (raw_ids s3) with (raw_ids s2). rewrite P2. tauto.
      * change (raw_ids s3) with (raw_ids s2). rewrite P2. tauto.
    + change (raw_ids s3) with (raw_ids s2). change (log s3) with (log s2 ++ [ViewUpdate id]).
      assert (N : notif (raw_ids s0) [ViewUpdate id] (raw_ids s2)).
      { apply (n_update id _ (raw_ids s2)); [exact Hin | symmetry; exact P2 | apply n_done; reflexivity]. }
      destruct L2 as [L2|L2]; rewrite L2, L0; [exact N | apply (n_refresh _ (raw_ids s0)), N].
  - (* shown but no longer wanted: take it out of the list *)
    destruct (view_find_shown id s0 C0 Hin) as (idx & E1 & Hnth). rewrite (bind_ok E1).
    apply (ok_mono (hide_flow_spec id idx s0 C0 F0 Hin)). intros _ s3 (U3 & C3 & F3 & Hn3 & P3 & L3 & Sub3).
    split.
    + apply (Inv_but_close id s0 s3 B U3 C3 F3).
      * intros x Hne. rewrite P3. simpl. intuition congruence.
      * split; [contradiction | intros [_ H]; congruence].
      * intros k x H. right. split; [intros ->; apply Hn3; eapply in_ids, H | apply Sub3, H].
    + rewrite L3, L0.
      apply (n_remove id idx _ (raw_ids s3)); [exact Hnth | exact P3 | exact Hn3 | apply n_done; reflexivity].
  - (* not shown yet: show it *)
    apply (ok_bind (view_contains_hidden id s0 Hn)). intros b s1 [-> X1]. cbn [negb].
    apply (show_post id s0 s1 B X1 Em Hn Ew L0).
  - (* hidden and still not wanted *)
    apply (ok_bind (view_find_hidden id s0 Hn)). intros r s1 [-> X1].
    pose proof (raw_ids_view _ _ (e_view _ _ X1)) as R1.
    split.
    + apply (Inv_but_skip id s0 s1 B X1 Hn). intros [_ H]. congruence.
    + rewrite (e_log _ _ X1), R1, L0. apply n_done. reflexivity.
Qed.

Lemma do_op_ok o s : Inv s -> log s = [] -> ok (do_op o s) (fun _ s' => post s s').
Proof.
  destruct o.
  (* set_filter and toggle_marked change the configuration and refilter *)
  4, 7: intros I L; apply refilter_post; [exact L | apply (c_store _ (i_core _ I)) | apply (i_sids _ I)].
  - apply do_add.
  - apply do_update.
  - apply do_remove.
  - apply do_set_order.
  - apply do_set_reversed.
  - apply do_clear.
  - apply do_clear_not_marked.
  - apply do_focus_follow.
Qed.
