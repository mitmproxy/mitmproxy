(* Proofs/Socks5Main.v -- C21 main statements for every segmentation of the client
   stream: exact decoding on acceptance, error replies, relay of trailing bytes,
   and the converse (only well-formed handshakes are accepted). *)
From Coq Require Import List Bool Arith NArith Lia.
From MV Require Import Base.Bytes Model.Socks5 Proofs.ListFacts Proofs.Socks5Seg Proofs.Socks5Exact.
Import ListNotations.

Lemma run_stream c (segs : list bytes) : run c segs = state_greet c (concat segs) obs0.
Proof. rewrite segmentation_independent. reflexivity. Qed.

(* observables before the connect request: pre = negotiation replies sent so far,
   cr = credentials shown to the hook *)
Definition neg_obs (pre : bytes) (cr : option (bytes * bytes)) : obs :=
  mkObs pre None false false cr [].

(* a complete, accepted method negotiation (and sub-negotiation when proxyauth is on) *)
Inductive negotiated (c : cfg) : bytes -> bytes -> option (bytes * bytes) -> Prop :=
| neg_noauth methods :
    proxyauth c = false -> length methods <= 255 -> In x00 methods ->
    negotiated c (enc_greeting methods) [x05; x00] None
| neg_auth methods ver u p :
    proxyauth c = true -> length methods <= 255 -> In x02 methods ->
    length u <= 255 -> length p <= 255 -> authok c u p = true ->
    negotiated c (enc_greeting methods ++ enc_auth ver u p) [x05; x02; x01; x00] (Some (u, p)).

Lemma negotiated_greet c neg pre cr rest :
  negotiated c neg pre cr ->
  state_greet c (neg ++ rest) obs0 = state_connect c rest (neg_obs pre cr).
Proof.
  intros [methods Hpa Hl Hin | methods ver u p Hpa Hl Hin Hu Hp Hok].
  - assert (Hr : In (required c) methods) by (unfold required; rewrite Hpa; exact Hin).
    rewrite greet_accept by assumption. unfold required, next_state. rewrite Hpa. reflexivity.
  - rewrite <- app_assoc, greet_auth_step, Hok by assumption. reflexivity.
Qed.

Definition success_obs (c : cfg) pre cr (a : addr) (hi lo : byte) (trailing : bytes) : obs :=
  mkObs (pre ++ REPLY_SUCCESS) (Some (host_of a, u16be hi lo)) (eager c) false cr trailing.
Definition unreachable_obs pre cr (a : addr) (hi lo : byte) : obs :=
  mkObs (pre ++ REPLY_UNREACHABLE) (Some (host_of a, u16be hi lo)) true true cr [].
Definition accepted_state (c : cfg) pre cr a hi lo trailing : st :=
  if eager c && open_fails c then (Done, unreachable_obs pre cr a hi lo)
  else (Relay, success_obs c pre cr a hi lo trailing).
Definition rejected_state (sent_ : bytes) cr : st := (Done, mkObs sent_ None false true cr []).

Lemma connect_finish_neg c pre cr a hi lo trailing :
  connect_finish c (neg_obs pre cr) (host_of a) (u16be hi lo) trailing
  = accepted_state c pre cr a hi lo trailing.
Proof.
  unfold connect_finish, accepted_state, finish_start, neg_obs, success_obs, unreachable_obs.
  destruct (eager c), (open_fails c), trailing; reflexivity.
Qed.

Theorem accept_exact c (segs : list bytes) (neg pre : bytes) cr a (hi lo : byte) (trailing : bytes) :
  negotiated c neg pre cr -> addr_wf a ->
  concat segs = neg ++ enc_request a hi lo ++ trailing ->
  run c segs = accepted_state c pre cr a hi lo trailing.
Proof.
  intros Hn Hwf Hs. rewrite run_stream, Hs.
  rewrite (negotiated_greet _ _ _ _ _ Hn). rewrite connect_accept by exact Hwf.
  apply connect_finish_neg.
Qed.

Definition reached (s : st) : Prop := exists o, s = (Relay, o) \/ (s = (Done, o) /\ dest o <> None).

Lemma reached_decided s : reached s ->
  match fst s with Greet _ | Auth _ | Connect _ => False | _ => True end.
Proof. intros [o [->|[-> _]]]; exact I. Qed.

Lemma not_reached_done o : dest o = None -> ~ reached (Done, close o).
Proof.
  intros Hd [o' [H|[H Hn]]]; [discriminate H|]. injection H as <-. apply Hn. destruct o; exact Hd.
Qed.

Lemma socks_err_dest o code : dest (snd (socks_err o code)) = dest o.
Proof. destruct code; destruct o; reflexivity. Qed.

Lemma not_reached_err o code : dest o = None -> ~ reached (socks_err o code).
Proof.
  intros Hd [o' [H|[H Hn]]]; [discriminate H|].
  apply Hn. rewrite <- Hd, <- (socks_err_dest o code), H. reflexivity.
Qed.

Lemma connect_inv c s o :
  dest o = None -> reached (state_connect c s o) ->
  exists a hi lo trailing, s = enc_request a hi lo ++ trailing /\ addr_wf a.
Proof.
  intros Hd H. destruct (connect_shape s) as [W|[(code & R)|E]]; [| |exact E].
  - rewrite W in H. destruct (reached_decided _ H).
  - rewrite <- (app_nil_r s), R in H. destruct (not_reached_err _ _ Hd H).
Qed.

Lemma auth_inv c s o :
  dest o = None -> reached (state_auth c s o) ->
  exists ver u p rest,
    s = enc_auth ver u p ++ rest /\ length u <= 255 /\ length p <= 255 /\ authok c u p = true.
Proof.
  intros Hd H. destruct (auth_shape s) as [W|(ver & u & p & rest & -> & Hu & Hp)].
  - rewrite W in H. destruct (reached_decided _ H).
  - exists ver, u, p, rest. rewrite auth_step in H by assumption.
    destruct (authok c u p); [auto|destruct (not_reached_err (send (set_creds o u p) _) _ Hd H)].
Qed.

Lemma greet_inv c s o :
  dest o = None -> reached (state_greet c s o) ->
  exists methods rest,
    s = enc_greeting methods ++ rest /\ length methods <= 255 /\ In (required c) methods.
Proof.
  intros Hd H. destruct (greet_shape s) as [W|[R|(methods & rest & -> & Hl)]].
  - rewrite W in H. destruct (reached_decided _ H).
  - rewrite <- (app_nil_r s), R in H. destruct (not_reached_err _ _ Hd H).
  - exists methods, rest. rewrite greet_step in H by exact Hl.
    destruct (existsb _ methods) eqn:E; [apply (existsb_eqb_In _ byte_eqb_eq) in E; auto|destruct (not_reached_err _ _ Hd H)].
Qed.

Lemma negotiated_inv c s :
  reached (state_greet c s obs0) ->
  exists neg pre cr rest, negotiated c neg pre cr /\ s = neg ++ rest.
Proof.
  intros H.
  pose proof H as X. eapply greet_inv in X; [|reflexivity]. destruct X as (methods & rest & -> & Hl & Hin).
  rewrite greet_accept in H by assumption.
  unfold next_state, required in H, Hin.
  destruct (proxyauth c) eqn:Hpa.
  - eapply auth_inv in H; [|reflexivity]. destruct H as (ver & u & p & rest2 & -> & Hu & Hp & Hok).
    exists (enc_greeting methods ++ enc_auth ver u p), [x05; x02; x01; x00], (Some (u, p)), rest2.
    split; [apply neg_auth; assumption | apply app_assoc].
  - exists (enc_greeting methods), [x05; x00], None, rest.
    split; [apply neg_noauth; assumption | reflexivity].
Qed.

(* Only a well-formed handshake makes the layer set a destination or relay:
   if the layer ends up relaying, or closed after having chosen a destination, the
   stream is negotiation ++ CONNECT request ++ trailing, and the state is exactly the
   accepted state of that request. *)
Theorem accepted_only_wellformed c (segs : list bytes) :
  reached (run c segs) ->
  exists neg pre cr a hi lo trailing,
    negotiated c neg pre cr /\ addr_wf a /\
    concat segs = neg ++ enc_request a hi lo ++ trailing /\
    run c segs = accepted_state c pre cr a hi lo trailing.
Proof.
  intros H. rewrite run_stream in H.
  destruct (negotiated_inv c _ H) as (neg & pre & cr & rest & Hn & Hs).
  rewrite Hs, (negotiated_greet _ _ _ _ _ Hn) in H.
  eapply connect_inv in H; [|reflexivity]. destruct H as (a & hi & lo & trailing & -> & Hwf).
  exists neg, pre, cr, a, hi, lo, trailing.
  split; [exact Hn|]. split; [exact Hwf|]. split; [exact Hs|].
  exact (accept_exact c segs _ _ _ a hi lo trailing Hn Hwf Hs).
Qed.

(* domain names: exact for ASCII names, lossy otherwise (finding) *)
Lemma domain_exact_partial c (segs : list bytes) (neg pre : bytes) cr (name : bytes) (hi lo : byte)
      (trailing : bytes) :
  negotiated c neg pre cr -> length name <= 255 -> all_ascii name ->
  concat segs = neg ++ enc_request (ADom name) hi lo ++ trailing ->
  dest (snd (run c segs)) = Some (HText name, u16be hi lo).
Proof.
  intros Hn Hl Ha Hs.
  rewrite (accept_exact c segs neg pre cr (ADom name) hi lo trailing Hn Hl Hs).
  unfold accepted_state, success_obs, unreachable_obs, host_of.
  rewrite (decode_ascii_exact name Ha).
  destruct (eager c && open_fails c); reflexivity.
Qed.

(* the configurations of the concrete instances in Props/C21.v *)
Definition cfg0 : cfg := mkCfg false (fun _ _ => true) false false.
Definition cfg_auth : cfg := mkCfg true (fun u p => bytes_eqb u [x75] && bytes_eqb p [x70; x77]) true false.
