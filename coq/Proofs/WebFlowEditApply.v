(* Proofs/WebFlowEditApply.v -- an accepted edit applies completely (C47): the value of a field after an
   accepted PUT is a function of the submitted document alone (last submitted value wins) and of the old value
   when the document does not mention the field. *)
From Coq Require Import Strings.String.
From Coq Require Import List Bool NArith ZArith.
From MV Require Import Base.Bytes Model.WebFlowEdit Proofs.EqbIff Proofs.WebFlowEdit.
From MV Require Model.Headers.
Import ListNotations.

Lemma ustr_eqb_true : forall a b, ustr_eqb a b = true -> a = b.
Proof. intros a b. apply (list_eqb_eq _ N.eqb_eq). Qed.

(* a projection of the state that every successful step updates by a known function is, after the whole
   fold, the left fold of that function over the items *)
Lemma fold_fields_proj : forall (S V : Type) (step : ustr -> jv -> S -> res S) (pi : S -> V)
                                (upd : ustr -> jv -> V -> V),
  (forall k v s s', step k v s = Ok s' -> pi s' = upd k v (pi s)) ->
  forall items s s', fold_fields step items s = Ok s' ->
  pi s' = fold_left (fun acc kv => upd (fst kv) (snd kv) acc) items (pi s).
Proof.
  intros S V step pi upd Hstep. induction items as [|[k v] rest IH]; intros s s' H.
  - cbn in H. inversion H. reflexivity.
  - cbn [fold_fields] in H. destruct (step k v s) as [s1|e s1|] eqn:E; try discriminate.
    cbn [fold_left fst snd]. rewrite <- (Hstep _ _ _ _ E). apply IH. exact H.
Qed.

(* the Host header and the authority follow host and port; port and method stay *)
Lemma update_host_scalars : forall r r', _update_host_and_authority r = Ok r' ->
  q_port r' = q_port r /\ q_method r' = q_method r.
Proof.
  intros r r' H. unfold _update_host_and_authority in H.
  destruct (Headers.contains (m_headers (q_msg r)) (blit "Host"));
    [destruct (always_bytes_se _) as [b|e|]; try discriminate; cbn [q_authority q_with_msg] in H|];
    (destruct (q_authority r); [|destruct (is_ascii _); try discriminate]; inversion H; split; reflexivity).
Qed.

(* the fall-back to [old] (here and in str_bytes_or) is never taken on an accepted edit: a value that
   int() or str().encode() refuses makes the assignment raise *)
Definition int_or (v : jv) (old : Z) : Z := match py_int v with COk z => z | _ => old end.
Definition upd_port (k : ustr) (v : jv) (old : Z) : Z := if ustr_eqb k k_port then int_or v old else old.

Definition str_bytes_or (v : jv) (old : bytes) : bytes :=
  match py_str v with
  | Some s => match encode_utf8_se s with Some b => b | None => old end
  | None => old
  end.
Definition upd_method (k : ustr) (v : jv) (old : bytes) : bytes :=
  if ustr_eqb k k_method then str_bytes_or v old else old.

Lemma request_field_port_method : forall k v r r', put_request_field k v r = Ok r' ->
  q_port r' = upd_port k v (q_port r) /\ q_method r' = upd_method k v (q_method r).
Proof.
  intros k v r r' H. unfold put_request_field in H. unfold upd_port, upd_method.
  destruct (is_request_str_key k) eqn:Ek.
  - assert (Hp : ustr_eqb k k_port = false).
    { unfold is_request_str_key in Ek. repeat rewrite orb_true_iff in Ek.
      destruct Ek as [[[[E|E]|E]|E]|E]; apply ustr_eqb_true in E; subst k; reflexivity. }
    rewrite Hp. destruct (py_str v) as [s|] eqn:Es; try discriminate.
    unfold setattr_request in H. destruct (ustr_eqb k k_host) eqn:Eh.
    + apply ustr_eqb_true in Eh. subst k.
      unfold set_host in H. apply update_host_scalars in H. destruct H as [H1 H2]. cbn in H1, H2. auto.
    + unfold str_bytes_or. rewrite Es. unfold always_bytes_se in H.
      destruct (encode_utf8_se s) as [b|]; try discriminate.
      destruct (ustr_eqb k k_method); [inversion H; auto|].
      destruct (ustr_eqb k k_scheme); [inversion H; auto|].
      destruct (ustr_eqb k k_path); inversion H; auto.
  - destruct (ustr_eqb k k_port) eqn:Ep.
    + apply ustr_eqb_true in Ep. subst k.
      unfold int_or. destruct (py_int v) as [z|e|]; try discriminate.
      unfold set_port in H. apply update_host_scalars in H. destruct H as [H1 H2]. cbn in H1, H2. auto.
    + assert (Em : ustr_eqb k k_method = false).
      { unfold is_request_str_key in Ek. repeat rewrite orb_false_iff in Ek. tauto. }
      rewrite Em.
      destruct (ustr_eqb k k_headers); [apply res_map_ok_inv in H; destruct H as [m [_ ->]]; auto|].
      destruct (ustr_eqb k k_trailers); [apply res_map_ok_inv in H; destruct H as [m [_ ->]]; auto|].
      destruct (ustr_eqb k k_content); [apply res_map_ok_inv in H; destruct H as [m [_ ->]]; auto|].
      discriminate.
Qed.

Definition upd_code (k : ustr) (v : jv) (old : Z) : Z := if ustr_eqb k k_code then int_or v old else old.

Lemma response_field_code : forall k v p p', put_response_field k v p = Ok p' ->
  p_code p' = upd_code k v (p_code p).
Proof.
  intros k v p p' H. unfold put_response_field in H. unfold upd_code.
  destruct (ustr_eqb k k_reason) eqn:E1.
  { apply ustr_eqb_true in E1. subst k.
    destruct (py_str v); try discriminate. destruct (encode_latin1 u); inversion H. reflexivity. }
  destruct (ustr_eqb k k_http_version) eqn:E2.
  { apply ustr_eqb_true in E2. subst k.
    destruct (py_str v); try discriminate. destruct (always_bytes_se u); inversion H. reflexivity. }
  destruct (ustr_eqb k k_code).
  { unfold int_or. destruct (py_int v); inversion H. reflexivity. }
  destruct (ustr_eqb k k_headers); [apply res_map_ok_inv in H; destruct H as [m [_ ->]]; reflexivity|].
  destruct (ustr_eqb k k_trailers); [apply res_map_ok_inv in H; destruct H as [m [_ ->]]; reflexivity|].
  destruct (ustr_eqb k k_content); [apply res_map_ok_inv in H; destruct H as [m [_ ->]]; reflexivity|].
  discriminate.
Qed.

(* the expected value of a request scalar: walk the document, inside every request object take the last
   submitted value *)
Definition in_request {V : Type} (upd : ustr -> jv -> V -> V) (a : ustr) (b : jv) (old : V) : V :=
  if ustr_eqb a k_request then
    match b with
    | JDict items => fold_left (fun acc kv => upd (fst kv) (snd kv) acc) items old
    | _ => old
    end
  else old.
Definition in_response {V : Type} (upd : ustr -> jv -> V -> V) (a : ustr) (b : jv) (old : V) : V :=
  if ustr_eqb a k_response then
    match b with
    | JDict items => fold_left (fun acc kv => upd (fst kv) (snd kv) acc) items old
    | _ => old
    end
  else old.
Definition expected {V : Type} (f : ustr -> jv -> V -> V) (items : list (ustr * jv)) (old : V) : V :=
  fold_left (fun acc ab => f (fst ab) (snd ab) acc) items old.

Definition upd_comment (a : ustr) (b : jv) (old : jv) : jv := if ustr_eqb a k_comment then b else old.
Definition upd_marked (a : ustr) (b : jv) (old : jv) : jv := if ustr_eqb a k_marked then b else old.

Definition code_of (c : core) : option Z := option_map p_code (c_response c).

Lemma top_step : forall a b c c', put_top a b c = Ok c' ->
  q_port (c_request c') = in_request upd_port a b (q_port (c_request c))
  /\ q_method (c_request c') = in_request upd_method a b (q_method (c_request c))
  /\ c_comment c' = upd_comment a b (c_comment c)
  /\ c_marked c' = upd_marked a b (c_marked c)
  /\ code_of c' = option_map (in_response upd_code a b) (code_of c).
Proof.
  intros a b c c' H. unfold put_top in H. unfold in_request, in_response, upd_comment, upd_marked, code_of.
  (* once a is a literal key, the other key tests of the expected values compute *)
  destruct (ustr_eqb a k_request) eqn:E1.
  { apply ustr_eqb_true in E1. subst a.
    destruct b; try discriminate. apply res_map_ok_inv in H. destruct H as [r [Hf ->]].
    cbn [c_with_request c_request c_comment c_marked c_response]. repeat split.
    - exact (fold_fields_proj _ _ put_request_field q_port upd_port
               (fun k v s s' Hs => proj1 (request_field_port_method k v s s' Hs)) _ _ _ Hf).
    - exact (fold_fields_proj _ _ put_request_field q_method upd_method
               (fun k v s s' Hs => proj2 (request_field_port_method k v s s' Hs)) _ _ _ Hf).
    - destruct (c_response c); reflexivity. }
  destruct (ustr_eqb a k_response) eqn:E2.
  { apply ustr_eqb_true in E2. subst a.
    destruct b; try discriminate. destruct (c_response c) as [p|] eqn:Ep.
    - apply res_map_ok_inv in H. destruct H as [p' [Hf ->]].
      cbn [c_with_response c_request c_comment c_marked c_response option_map]. repeat split. f_equal.
      exact (fold_fields_proj _ _ put_response_field p_code upd_code response_field_code _ _ _ Hf).
    - apply res_map_ok_inv in H. destruct H as [u [Hf ->]]. rewrite Ep. repeat split. }
  destruct (ustr_eqb a k_marked) eqn:E3.
  { apply ustr_eqb_true in E3. subst a.
    inversion H. cbn. repeat split. destruct (c_response c); reflexivity. }
  destruct (ustr_eqb a k_comment); [|discriminate].
  inversion H. cbn. repeat split. destruct (c_response c); reflexivity.
Qed.

Lemma put_done_inv : forall vx vb body f f', put vx vb body f = (f', Done) ->
  exists items, body = Some (JDict items) /\ fold_fields put_top items (f_cur f) = Ok (f_cur f').
Proof.
  intros vx vb body f f' H. unfold put in H.
  assert (Hc : f_cur (backup f) = f_cur f) by (unfold backup; destruct (f_backup f); reflexivity).
  rewrite Hc in H.
  destruct (put_body body (f_cur f)) as [c'|e c'|] eqn:E.
  - inversion H; subst. cbn [f_cur]. unfold put_body in E.
    destruct body as [[| | | | |items]|]; try discriminate. exists items. split; [reflexivity|exact E].
  - destruct (vx || is_api e); discriminate.
  - discriminate.
Qed.

Lemma accepted_applies : forall vx vb body f f', put vx vb body f = (f', Done) ->
  exists items, body = Some (JDict items)
  /\ q_port (c_request (f_cur f')) = expected (in_request upd_port) items (q_port (c_request (f_cur f)))
  /\ q_method (c_request (f_cur f')) = expected (in_request upd_method) items (q_method (c_request (f_cur f)))
  /\ c_comment (f_cur f') = expected upd_comment items (c_comment (f_cur f))
  /\ c_marked (f_cur f') = expected upd_marked items (c_marked (f_cur f)).
Proof.
  intros vx vb body f f' H. apply put_done_inv in H. destruct H as [items [-> Hf]].
  exists items. split; [reflexivity|]. unfold expected.
  split; [|split; [|split]].
  - exact (fold_fields_proj _ _ put_top (fun c => q_port (c_request c)) (in_request upd_port)
             (fun a b s s' Hs => proj1 (top_step a b s s' Hs)) _ _ _ Hf).
  - exact (fold_fields_proj _ _ put_top (fun c => q_method (c_request c)) (in_request upd_method)
             (fun a b s s' Hs => proj1 (proj2 (top_step a b s s' Hs))) _ _ _ Hf).
  - exact (fold_fields_proj _ _ put_top c_comment upd_comment
             (fun a b s s' Hs => proj1 (proj2 (proj2 (top_step a b s s' Hs)))) _ _ _ Hf).
  - exact (fold_fields_proj _ _ put_top c_marked upd_marked
             (fun a b s s' Hs => proj1 (proj2 (proj2 (proj2 (top_step a b s s' Hs))))) _ _ _ Hf).
Qed.

Lemma fold_left_option_map {A V : Type} (f : A -> V -> V) : forall l x,
  fold_left (fun acc a => option_map (f a) acc) l (Some x) = Some (fold_left (fun acc a => f a acc) l x).
Proof. induction l as [|a l IH]; intro x; [reflexivity | apply IH]. Qed.

Lemma accepted_applies_code : forall vx vb body f f' p, put vx vb body f = (f', Done) ->
  c_response (f_cur f) = Some p ->
  exists items, body = Some (JDict items)
  /\ code_of (f_cur f') = Some (expected (in_response upd_code) items (p_code p)).
Proof.
  intros vx vb body f f' p H Hp. apply put_done_inv in H. destruct H as [items [-> Hf]].
  exists items. split; [reflexivity|]. unfold expected.
  rewrite <- (fold_left_option_map (fun ab => in_response upd_code (fst ab) (snd ab))).
  replace (Some (p_code p)) with (code_of (f_cur f)) by (unfold code_of; rewrite Hp; reflexivity).
  exact (fold_fields_proj _ _ put_top code_of (fun a b => option_map (in_response upd_code a b))
           (fun a b s s' Hs => proj2 (proj2 (proj2 (proj2 (top_step a b s s' Hs))))) _ _ _ Hf).
Qed.
