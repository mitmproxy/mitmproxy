(* Proofs/ServerPlaybackKey.v -- key_eqb decides equality; equality of _hash keys is exactly
   field-wise equality of the matching key of the property statement (same_key); an option
   update outside HASH_OPTIONS leaves every key as it is. *)
From Coq Require Import NArith List Bool.
From MV Require Import Base.Bytes Model.ServerPlayback Proofs.EqbIff.
Import ListNotations.

Lemma kc_eqb_eq a b : kc_eqb a b = true <-> a = b.
Proof.
  destruct a, b; simpl; try (split; intro E; discriminate).
  - rewrite bytes_eqb_eq. split; congruence.
  - rewrite andb_true_iff, !bytes_eqb_eq. split; [intros [-> ->]; reflexivity | intro E; injection E; auto].
  - rewrite andb_true_iff, !bytes_eqb_eq. split; [intros [-> ->]; reflexivity | intro E; injection E; auto].
  - rewrite N.eqb_eq. split; congruence.
  - rewrite (list_eqb_eq _ (pair_eqb_eq _ _ bytes_eqb_eq (option_eqb_eq _ bytes_eqb_eq))).
    split; congruence.
Qed.

Lemma key_eqb_eq a b : key_eqb a b = true <-> a = b.
Proof. apply list_eqb_eq. exact kc_eqb_eq. Qed.

Lemma key_eqb_refl a : key_eqb a a = true.
Proof. apply key_eqb_eq. reflexivity. Qed.

Lemma key_eqb_neq a b : key_eqb a b = false <-> a <> b.
Proof. apply (eqb_false_iff _ key_eqb_eq). Qed.

(* the body as it is matched: non-ignored form fields (multipart or urlencoded) or the raw body *)
Inductive body_view :=
| BFields (mp ue : list (bytes * bytes))
| BRaw (c : bytes).

Definition body_of (o : options) (r : request) : body_view :=
  if nonempty (o_ignore_payload_params o) && nonempty (rq_multipart r) then
    BFields (map (fun f => (snd (fst f), snd f))
                 (filter (fun f => negb (mem (fst (fst f)) (o_ignore_payload_params o))) (rq_multipart r))) []
  else if nonempty (o_ignore_payload_params o) && nonempty (rq_urlencoded r) then
    BFields [] (filter (fun f => negb (mem (fst f) (o_ignore_payload_params o))) (rq_urlencoded r))
  else BRaw (rq_content r).

Definition same_key (o : options) (a b : request) : Prop :=
  rq_scheme a = rq_scheme b /\ rq_method a = rq_method b /\ rq_path a = rq_path b
  /\ filtered_query o a = filtered_query o b
  /\ (o_ignore_host o = false -> rq_host a = rq_host b)
  /\ (o_ignore_port o = false -> rq_port a = rq_port b)
  /\ (o_ignore_content o = false -> body_of o a = body_of o b)
  /\ map (fun i => headers_get i (rq_headers a)) (o_use_headers o)
     = map (fun i => headers_get i (rq_headers b)) (o_use_headers o).

Definition encode_body (v : body_view) : key :=
  match v with
  | BFields mp ue => map (fun p => KBPair (fst p) (snd p)) mp ++ map (fun p => KSPair (fst p) (snd p)) ue
  | BRaw c => [KStr c]
  end.

Lemma content_part_encode o r :
  content_part o r = if o_ignore_content o then [] else encode_body (body_of o r).
Proof.
  unfold content_part, body_of, multipart_part, urlencoded_part.
  destruct (o_ignore_content o); [reflexivity|].
  destruct (nonempty (o_ignore_payload_params o) && nonempty (rq_multipart r)).
  - simpl. rewrite app_nil_r, map_map. reflexivity.
  - destruct (nonempty (o_ignore_payload_params o) && nonempty (rq_urlencoded r)); reflexivity.
Qed.

(* the form fields are the longest run of pair components: what follows never starts with one *)
Definition is_pair (x : kc) : bool :=
  match x with KBPair _ _ | KSPair _ _ => true | _ => false end.

Definition no_pair_head (t : key) : Prop :=
  match t with x :: _ => is_pair x = false | [] => True end.

Lemma pairs_split : forall l1 l2 t1 t2,
  forallb is_pair l1 = true -> forallb is_pair l2 = true ->
  no_pair_head t1 -> no_pair_head t2 ->
  l1 ++ t1 = l2 ++ t2 -> l1 = l2 /\ t1 = t2.
Proof.
  induction l1 as [|x l1 IH]; intros [|y l2] t1 t2 H1 H2 N1 N2 E; simpl in *.
  - auto.
  - subst t1. simpl in N1. apply andb_true_iff in H2. destruct H2 as [H2 _]. congruence.
  - subst t2. simpl in N2. apply andb_true_iff in H1. destruct H1 as [H1 _]. congruence.
  - injection E as -> E. apply andb_true_iff in H1. apply andb_true_iff in H2.
    destruct (IH l2 t1 t2) as [-> ->]; tauto.
Qed.

Lemma encode_fields_pairs mp ue : forallb is_pair (encode_body (BFields mp ue)) = true.
Proof.
  simpl. rewrite forallb_app. apply andb_true_iff.
  split; apply forallb_forall; intros x Hx; apply in_map_iff in Hx; destruct Hx as [p [<- _]]; reflexivity.
Qed.

Lemma encode_fields_inj : forall mp ue mp2 ue2,
  encode_body (BFields mp ue) = encode_body (BFields mp2 ue2) -> mp = mp2 /\ ue = ue2.
Proof.
  induction mp as [|[k v] mp IH]; intros ue [|[k2 v2] mp2] ue2 E; simpl in E.
  - split; [reflexivity|]. revert ue2 E. induction ue as [|[a b] ue IHu]; intros [|[a2 b2] ue2] E;
      simpl in E; try discriminate; [reflexivity|].
    injection E as -> -> E. f_equal. auto.
  - destruct ue as [|[a b] ue]; discriminate.
  - destruct ue2 as [|[a b] ue2]; discriminate.
  - injection E as -> -> E. destruct (IH ue mp2 ue2 E) as [-> ->]. auto.
Qed.

Definition tail_part (o : options) (r : request) : key :=
  host_part o r ++ port_part o r ++ flat_query (filtered_query o r) ++ headers_part o r.

Fixpoint odd_str (k : key) : bool :=
  match k with
  | [] => false
  | KStr _ :: t => negb (odd_str t)
  | _ :: t => odd_str t
  end.

Lemma odd_str_app a b : odd_str (a ++ b) = xorb (odd_str a) (odd_str b).
Proof.
  induction a as [|x a IH]; simpl; [symmetry; apply xorb_false_l|].
  destruct x; rewrite IH; try reflexivity. apply negb_xorb_l.
Qed.

Lemma odd_str_flat q : odd_str (flat_query q) = false.
Proof. induction q as [|[k v] q IH]; simpl; [reflexivity|]. rewrite IH. reflexivity. Qed.

Lemma odd_str_tail o r : odd_str (tail_part o r) = negb (o_ignore_host o).
Proof.
  unfold tail_part, host_part, port_part, headers_part. rewrite !odd_str_app, odd_str_flat.
  destruct (o_ignore_host o), (o_ignore_port o), (nonempty (o_use_headers o)); reflexivity.
Qed.

Lemma tail_no_pair_head o r : no_pair_head (tail_part o r).
Proof.
  unfold tail_part, host_part, port_part, headers_part.
  destruct (o_ignore_host o), (o_ignore_port o); simpl; try reflexivity;
    destruct (filtered_query o r) as [|[k v] q]; simpl; try reflexivity;
    destruct (nonempty (o_use_headers o)); simpl; reflexivity.
Qed.

Lemma flat_query_split o : forall q1 q2 r1 r2,
  flat_query q1 ++ headers_part o r1 = flat_query q2 ++ headers_part o r2 ->
  q1 = q2 /\ headers_part o r1 = headers_part o r2.
Proof.
  unfold headers_part.
  induction q1 as [|[k v] q1 IH]; intros [|[k2 v2] q2] r1 r2 E; simpl in E.
  - auto.
  - destruct (nonempty (o_use_headers o)); discriminate.
  - destruct (nonempty (o_use_headers o)); discriminate.
  - injection E as -> -> E. destruct (IH q2 r1 r2 E) as [-> H]. auto.
Qed.

Lemma map_pair_iff {A B} (f g : A -> B) l :
  map (fun i => (i, f i)) l = map (fun i => (i, g i)) l <-> map f l = map g l.
Proof. rewrite !map_ext_in_iff. split; intros H i Hi; specialize (H i Hi); congruence. Qed.

Lemma headers_part_eq_iff o a b :
  headers_part o a = headers_part o b <->
  map (fun i => headers_get i (rq_headers a)) (o_use_headers o)
  = map (fun i => headers_get i (rq_headers b)) (o_use_headers o).
Proof.
  unfold headers_part. destruct (nonempty (o_use_headers o)) eqn:N.
  - rewrite <- map_pair_iff. split; [intro E; injection E as E; exact E | intros ->; reflexivity].
  - destruct (o_use_headers o); [split; reflexivity | discriminate].
Qed.

(* an optional single component in front: host_part and port_part *)
Lemma opt_part_split (ign : bool) (x y : kc) (s t : key) :
  (if ign then [] else [x]) ++ s = (if ign then [] else [y]) ++ t <-> (ign = false -> x = y) /\ s = t.
Proof.
  destruct ign; simpl; split.
  - intros ->. split; [discriminate | reflexivity].
  - intros [_ ->]. reflexivity.
  - intro E. injection E as -> ->. auto.
  - intros [-> ->]; reflexivity.
Qed.

Lemma tail_eq_iff o a b :
  tail_part o a = tail_part o b <->
  filtered_query o a = filtered_query o b
  /\ (o_ignore_host o = false -> rq_host a = rq_host b)
  /\ (o_ignore_port o = false -> rq_port a = rq_port b)
  /\ map (fun i => headers_get i (rq_headers a)) (o_use_headers o)
     = map (fun i => headers_get i (rq_headers b)) (o_use_headers o).
Proof.
  unfold tail_part, host_part, port_part. rewrite !opt_part_split, <- headers_part_eq_iff. split.
  - intros [Hh [Hp E]]. apply flat_query_split in E. destruct E as [Eq Eh].
    repeat split; auto; intro X; [specialize (Hh X) | specialize (Hp X)]; congruence.
  - intros [-> [Hh [Hp ->]]]. repeat split; auto; intro X; f_equal; auto.
Qed.

(* An empty list of form fields against a raw body: the tails would differ by one leading KStr,
   but both hold the host (or not) and an even number of query strings. *)
Lemma fields_raw_differ o x y mp ue c :
  encode_body (BFields mp ue) ++ tail_part o x <> encode_body (BRaw c) ++ tail_part o y.
Proof.
  intro E. destruct mp as [|p mp]; [destruct ue as [|p ue]|]; simpl in E; try discriminate.
  apply (f_equal odd_str) in E. simpl in E. rewrite !odd_str_tail in E. destruct (o_ignore_host o); discriminate.
Qed.

Lemma body_tail_split o a b :
  encode_body (body_of o a) ++ tail_part o a = encode_body (body_of o b) ++ tail_part o b ->
  body_of o a = body_of o b /\ tail_part o a = tail_part o b.
Proof.
  intro E. destruct (body_of o a) as [mp ue|c], (body_of o b) as [mp2 ue2|c2].
  - destruct (pairs_split _ _ _ _ (encode_fields_pairs mp ue) (encode_fields_pairs mp2 ue2)
                (tail_no_pair_head o a) (tail_no_pair_head o b) E) as [E1 E2].
    apply encode_fields_inj in E1. destruct E1 as [-> ->]. auto.
  - destruct (fields_raw_differ _ _ _ _ _ _ E).
  - symmetry in E. destruct (fields_raw_differ _ _ _ _ _ _ E).
  - simpl in E. injection E as -> E. auto.
Qed.

Theorem hash_eq_iff o a b : _hash o a = _hash o b <-> same_key o a b.
Proof.
  unfold _hash. fold (tail_part o a) (tail_part o b). rewrite !content_part_encode. unfold same_key. split.
  - intro E. simpl in E. injection E as Es Em Ep E.
    destruct (o_ignore_content o).
    + simpl in E. apply tail_eq_iff in E. destruct E as [Eq [Hh [Hp Ehd]]].
      repeat split; auto. discriminate.
    + apply body_tail_split in E. destruct E as [Eb E].
      apply tail_eq_iff in E. destruct E as [Eq [Hh [Hp Ehd]]]. repeat split; auto.
  - intros [Es [Em [Ep [Eq [Hh [Hp [Hb Ehd]]]]]]].
    assert (Et : tail_part o a = tail_part o b) by (apply tail_eq_iff; auto).
    rewrite Es, Em, Ep, Et. destruct (o_ignore_content o); [reflexivity|].
    rewrite (Hb eq_refl). reflexivity.
Qed.

Lemma hash_apply_set_other o u r : in_hash_options u = false -> _hash (apply_set o u) r = _hash o r.
Proof. destruct u; simpl; intro E; try discriminate; reflexivity. Qed.

Lemma hash_fold_other : forall upd o r,
  existsb in_hash_options upd = false -> _hash (fold_left apply_set upd o) r = _hash o r.
Proof.
  induction upd as [|u upd IH]; intros o r E; simpl in *; [reflexivity|].
  apply orb_false_iff in E. destruct E as [E1 E2].
  rewrite IH by exact E2. apply hash_apply_set_other. exact E1.
Qed.
