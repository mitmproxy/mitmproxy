(* Proofs/UrlNormal.v -- for EVERY accepted URL the path and port that url.parse returns are already
   normal: parsing the URL that is read back returns them unchanged. *)
From Coq Require Import List Bool Arith NArith ZArith Lia.
From MV Require Import Base.Bytes Model.Url Proofs.UrlLemmas Proofs.UrlDec Proofs.UrlParse Proofs.UrlRequest.
Import ListNotations.

(* unparse_path piece by piece: params, query and fragment are joined on only when non-empty; SPJ is the
   params split of urlparse followed by that join, slash the leading-slash repair of url.parse *)
Definition join_params (pp params : bytes) : bytes := if is_nil params then pp else pp ++ cSEMI :: params.
Definition qpart (q : bytes) : bytes := if is_nil q then [] else cQM :: q.
Definition fpart (f : bytes) : bytes := if is_nil f then [] else cHASH :: f.
Definition SPJ (x : bytes) : bytes := let '(pp, params) := split_params_of s_http x in join_params pp params.
Definition slash (x : bytes) : bytes := if starts_with [cSLASH] x then x else cSLASH :: x.

Lemma unparse_path_eq pp params q f :
  unparse_path pp params q f = join_params pp params ++ qpart q ++ fpart f.
Proof.
  unfold unparse_path, join_params, qpart, fpart.
  destruct (is_nil params), (is_nil q), (is_nil f); rewrite ?app_nil_r, <- ?app_assoc; reflexivity.
Qed.

Lemma forallb_app_l {A} (P : A -> bool) a b : forallb P (a ++ b) = true -> forallb P a = true.
Proof. rewrite forallb_app. intros H. apply andb_true_iff in H. tauto. Qed.
Lemma forallb_app_r {A} (P : A -> bool) a b : forallb P (a ++ b) = true -> forallb P b = true.
Proof. rewrite forallb_app. intros H. apply andb_true_iff in H. tauto. Qed.
Lemma mem_app_false c a b : mem c (a ++ b) = false -> mem c a = false /\ mem c b = false.
Proof. rewrite mem_app. apply orb_false_iff. Qed.

Lemma SPJ_plain a s1 : mem cSLASH s1 = false -> mem cSEMI s1 = false -> SPJ (a ++ cSLASH :: s1) = a ++ cSLASH :: s1.
Proof.
  intros NS NM. unfold SPJ, split_params_of. change (in_list s_http uses_params) with true. cbn [andb].
  destruct (mem cSEMI (a ++ cSLASH :: s1)) eqn:M; [|reflexivity].
  unfold splitparams.
  assert (mem cSLASH (a ++ cSLASH :: s1) = true) as MS
    by (rewrite mem_app, mem_cons, byte_eqb_refl, orb_true_r; reflexivity).
  rewrite MS, (rpartition_app _ _ _ NS), (partition_notin _ _ NM). reflexivity.
Qed.

(* the params split either gives the text back or only drops a final semicolon of the last segment *)
Lemma SPJ_cases x : mem cSLASH x = true ->
  SPJ x = x \/ exists a s1, x = (a ++ cSLASH :: s1) ++ [cSEMI] /\ mem cSLASH s1 = false
                            /\ mem cSEMI s1 = false /\ SPJ x = a ++ cSLASH :: s1.
Proof.
  intros MS. unfold SPJ, split_params_of. change (in_list s_http uses_params) with true. cbn [andb].
  destruct (mem cSEMI x) eqn:M; [|left; reflexivity].
  unfold splitparams. rewrite MS.
  destruct (rpartition cSLASH x) as [[a fl] seg] eqn:RP.
  destruct (rpartition_spec _ _ _ _ _ RP) as [NS E]. destruct fl.
  2:{ destruct E as [-> _]. congruence. }
  destruct (partition cSEMI seg) as [[s1 found] params] eqn:PP.
  destruct (partition_spec _ _ _ _ _ PP) as (NM & E2 & _). destruct found; [|left; reflexivity].
  subst seg. destruct (mem_app_false _ _ _ NS) as [NS1 _].
  unfold join_params. destruct params as [|c params]; cbn [is_nil].
  - right. exists a, s1. subst x. rewrite <- app_assoc. auto.
  - left. subst x. rewrite <- app_assoc. reflexivity.
Qed.

Lemma SPJ_props x : starts_with [cSLASH] x = true ->
  SPJ (SPJ x) = SPJ x /\ starts_with [cSLASH] (SPJ x) = true
  /\ (forall P : byte -> bool, forallb P x = true -> forallb P (SPJ x) = true)
  /\ (forall c, mem c x = false -> mem c (SPJ x) = false).
Proof.
  intros ST. destruct (starts_slash _ ST) as [t Ex].
  assert (mem cSLASH x = true) as MS by (subst x; reflexivity).
  destruct (SPJ_cases x MS) as [E | (a & s1 & Ex2 & NS & NM & E)].
  - rewrite !E. auto.
  - rewrite E. split; [apply SPJ_plain; assumption|]. split.
    + destruct a as [|a0 a']; [reflexivity|]. rewrite Ex2 in Ex. inversion Ex. subst. reflexivity.
    + split.
      * intros P H. rewrite Ex2 in H. apply (forallb_app_l _ _ _ H).
      * intros c H. rewrite Ex2 in H. apply (mem_app_false _ _ _ H).
Qed.

Lemma mem_qpart c q : c <> cQM -> mem c q = false -> mem c (qpart q) = false.
Proof.
  intros NE H. unfold qpart. destruct (is_nil q); [reflexivity|]. rewrite mem_cons, H, orb_false_r.
  apply byte_eqb_neq. exact NE.
Qed.

Lemma reparse_build Y q f :
  starts_with [cSLASH] Y = true -> mem cHASH Y = false -> mem cQM Y = false -> mem cHASH q = false ->
  SPJ Y = Y ->
  reparse_path (Y ++ qpart q ++ fpart f) = Y ++ qpart q ++ fpart f.
Proof.
  intros ST NH NQ NHq ID. unfold reparse_path, split_fq.
  assert (mem cHASH (Y ++ qpart q) = false) as NH2.
  { rewrite mem_app, NH, (mem_qpart cHASH q) by (discriminate || exact NHq). reflexivity. }
  assert (partition cHASH (Y ++ qpart q ++ fpart f) = (Y ++ qpart q, negb (is_nil f), f)) as P1.
  { unfold fpart. destruct f as [|c f]; cbn [is_nil negb].
    - rewrite app_nil_r. apply partition_notin. exact NH2.
    - rewrite app_assoc. apply partition_app. exact NH2. }
  rewrite P1.
  assert (partition cQM (Y ++ qpart q) = (Y, negb (is_nil q), q)) as P2.
  { unfold qpart. destruct q as [|c q]; cbn [is_nil negb].
    - rewrite app_nil_r. apply partition_notin. exact NQ.
    - apply partition_app. exact NQ. }
  rewrite P2. unfold SPJ in ID. destruct (split_params_of s_http Y) as [pp params].
  rewrite unparse_path_eq, ID.
  destruct (starts_slash _ ST) as [t ->]. reflexivity.
Qed.

Lemma parsed_path_normal p1 q f :
  p1 = [] \/ starts_with [cSLASH] p1 = true ->
  mem cHASH p1 = false -> mem cQM p1 = false -> mem cHASH q = false ->
  let '(pp, params) := split_params_of s_http p1 in
  let pa := slash (unparse_path pp params q f) in
  reparse_path pa = pa /\ starts_with [cSLASH] pa = true
  /\ (forall P : byte -> bool, P cSLASH = true -> P cQM = true -> P cHASH = true ->
        forallb P p1 = true -> forallb P q = true -> forallb P f = true -> forallb P pa = true).
Proof.
  intros SH NH NQ NHq.
  destruct (split_params_of s_http p1) as [pp params] eqn:SP. cbv zeta.
  rewrite unparse_path_eq.
  assert (join_params pp params = SPJ p1) as EJ by (unfold SPJ; rewrite SP; reflexivity).
  rewrite EJ.
  assert (forall P : byte -> bool, P cQM = true -> P cHASH = true -> forallb P q = true -> forallb P f = true ->
          forallb P (qpart q ++ fpart f) = true) as QF.
  { intros P Pq Ph Fq Ff. unfold qpart, fpart. rewrite forallb_app.
    destruct (is_nil q), (is_nil f); simpl; rewrite ?Pq, ?Ph, ?Fq, ?Ff; reflexivity. }
  destruct SH as [-> | ST].
  - change (SPJ []) with (@nil byte). cbn [app].
    assert (slash (qpart q ++ fpart f) = [cSLASH] ++ qpart q ++ fpart f) as ES.
    { unfold slash, qpart, fpart. destruct (is_nil q), (is_nil f); reflexivity. }
    rewrite ES. split; [apply reparse_build; reflexivity || assumption|]. split; [reflexivity|].
    intros P Ps Pq Ph _ Fq Ff. cbn [app forallb]. rewrite Ps. apply QF; assumption.
  - destruct (SPJ_props p1 ST) as (ID & ST2 & FP & MP).
    assert (slash (SPJ p1 ++ qpart q ++ fpart f) = SPJ p1 ++ qpart q ++ fpart f) as ES.
    { unfold slash. destruct (starts_slash _ ST2) as [t ->]. reflexivity. }
    rewrite ES. split; [apply reparse_build; auto|]. split.
    + destruct (starts_slash _ ST2) as [t ->]. reflexivity.
    + intros P Ps Pq Ph Fp Fq Ff. rewrite forallb_app, (FP P Fp). apply QF; assumption.
Qed.

Lemma lstrip_forallb (P : byte -> bool) s : forallb P s = true -> forallb P (lstrip_c0 s) = true.
Proof.
  induction s as [|x s IH]; simpl; intros H; [reflexivity|].
  destruct (c0_or_space x); [apply andb_true_iff in H; apply IH; tauto | exact H].
Qed.

Lemma split_scheme_forallb (P : byte -> bool) u s url :
  forallb P u = true -> split_scheme u = (s, url) -> forallb P url = true.
Proof.
  intros H. unfold split_scheme. destruct (partition cCOLON u) as [[pre found] post] eqn:PP.
  destruct (partition_forallb P _ _ _ _ _ PP H) as [_ Hp].
  destruct pre as [|c pre']; [|destruct (found && is_alpha c && forallb scheme_char (c :: pre'))];
    intros X; inversion X; subst; assumption.
Qed.

Lemma skipn_forallb {A} (P : A -> bool) n l : forallb P l = true -> forallb P (skipn n l) = true.
Proof.
  revert l. induction n as [|n IH]; intros l H; [exact H|]. destruct l as [|x l]; [reflexivity|].
  simpl in *. apply andb_true_iff in H. apply IH. tauto.
Qed.

Lemma urlsplit_inv u s nl p1 q f :
  all_ascii u = true -> urlsplit u = Some (s, nl, p1, q, f) -> nl <> [] ->
  (p1 = [] \/ starts_with [cSLASH] p1 = true)
  /\ mem cHASH p1 = false /\ mem cQM p1 = false /\ mem cHASH q = false
  /\ forallb path_char p1 = true /\ forallb path_char q = true /\ forallb path_char f = true.
Proof.
  intros AA. unfold urlsplit.
  assert (forallb path_char (remove_unsafe (lstrip_c0 u)) = true) as PC.
  { unfold path_char. apply forallb_forall. intros b Hb. unfold remove_unsafe in Hb.
    apply filter_In in Hb as [Hb1 Hb2]. rewrite Hb2, andb_true_r.
    pose proof (lstrip_forallb is_ascii u AA) as L. rewrite forallb_forall in L. apply L. exact Hb1. }
  destruct (split_scheme (remove_unsafe (lstrip_c0 u))) as [s' url] eqn:SS.
  pose proof (split_scheme_forallb _ _ _ _ PC SS) as PU.
  unfold urlsplit_rest. destruct (starts_with [cSLASH; cSLASH] url).
  2:{ destruct (split_fq url) as [[? ?] ?]. intros H; inversion H; subst. congruence. }
  destruct (span (fun b => negb (is_delim b)) (skipn 2 url)) as [netloc rest] eqn:SP.
  destruct (span_spec _ _ _ _ SP) as (E & _ & HD).
  destruct (netloc_ok netloc); [|discriminate].
  assert (forallb path_char rest = true) as PR.
  { pose proof (skipn_forallb path_char 2 url PU) as K. rewrite E in K. apply (forallb_app_r _ _ _ K). }
  unfold split_fq. destruct (partition cHASH rest) as [[url1 fl1] frag] eqn:P1.
  destruct (partition cQM url1) as [[url2 fl2] query] eqn:P2.
  intros H _. inversion H; subst; clear H.
  destruct (partition_spec _ _ _ _ _ P1) as (NH & ER & _). destruct (partition_spec _ _ _ _ _ P2) as (NQ & EU1 & _).
  destruct (partition_forallb path_char _ _ _ _ _ P1 PR) as [PU1 PF].
  destruct (partition_forallb path_char _ _ _ _ _ P2 PU1) as [PP1 PQ].
  destruct (partition_mem cHASH _ _ _ _ _ P2 NH) as [NHp NHq].
  repeat split; auto.
  destruct p1 as [|x t]; [left; reflexivity|right].
  rewrite ER, EU1 in HD. cbn [app] in HD.
  simpl in NHp, NQ. apply orb_false_iff in NHp as [X1 _]. apply orb_false_iff in NQ as [X2 _].
  unfold is_delim in HD. apply negb_false_iff in HD.
  rewrite (byte_eqb_sym x cQM), X2, (byte_eqb_sym x cHASH), X1, !orb_false_r in HD.
  simpl. rewrite byte_eqb_sym, HD. reflexivity.
Qed.

Section Accepted.
Variable ace : bytes -> option str.
Variable uenc : str -> option bytes.

Theorem parse_port_path_normal u s hb p pa :
  parse ace uenc u = Some (s, hb, p, pa) -> http_scheme s ->
  (1 <= p <= 65535)%Z /\ wf_path pa.
Proof.
  unfold parse. destruct (all_ascii u) eqn:AA; [|discriminate]. cbn [negb].
  unfold urlparse. destruct (urlsplit u) as [[[[[s0 nl] p1] q] f]|] eqn:US; [|discriminate].
  destruct (split_params_of s0 p1) as [pp params] eqn:SP.
  destruct (hostname nl) as [hn|] eqn:HN; [|discriminate].
  destruct (idna_encode uenc hn) as [host|]; [|discriminate].
  destruct (port_of nl) as [po|] eqn:PO; [|discriminate].
  destruct (is_valid_host_b ace host); [|discriminate].
  intros H Hs. inversion H; subst; clear H.
  assert (nl <> []) as NN by (intros ->; discriminate).
  destruct (urlsplit_inv _ _ _ _ _ _ AA US NN) as (SH & NHp & NQp & NHq & P1 & PQ & PF).
  rewrite (split_params_scheme s p1 Hs) in SP. pose proof (parsed_path_normal p1 q f SH NHp NQp NHq) as N. rewrite SP in N.
  cbv zeta in N. unfold slash in N. destruct N as (N1 & N2 & N3).
  split.
  - unfold port_of in PO. destruct (snd (hostinfo nl)) as [pt|].
    + destruct (forallb is_digit pt); [|discriminate].
      destruct (dec_value pt <=? 65535)%N eqn:B; [|discriminate]. inversion PO; subst.
      apply N.leb_le in B. destruct (dec_value pt =? 0)%N eqn:Z0.
      * destruct (bytes_eqb s s_https); lia.
      * apply N.eqb_neq in Z0. lia.
    + inversion PO; subst. destruct (bytes_eqb s s_https); lia.
  - split; [exact N2|]. split; [|exact N1].
    apply (N3 path_char); auto.
Qed.

(* the host-related half of wf_dest, as a condition on the host that was read back *)
Definition host_wf (h : bytes) : Prop :=
  h <> [] /\ forallb host_char h = true
  /\ (if mem cCOLON h then starts_with [cLBR] h = false /\ check_bracketed_host h = true else mem cLBR h = false)
  /\ lower (fst (fst (partition cPCT h))) = fst (fst (partition cPCT h))
  /\ label_len_ok (split cDOT h) = true
  /\ is_valid_host_b ace h = true.

Lemma host_wf_b_spec h : host_wf_b ace h = true <-> host_wf h.
Proof.
  unfold host_wf_b, host_wf. rewrite !andb_true_iff, negb_true_iff, is_nil_false, bytes_eqb_eq.
  change (forallb host_char_b h) with (forallb host_char h).
  destruct (mem cCOLON h); rewrite ?andb_true_iff, ?negb_true_iff; tauto.
Qed.

(* every accepted http(s) URL: if the host read back is one that round-trips, assigning the URL
   read back changes nothing *)
Theorem accepted_url_reassignable r u r1 :
  set_url ace uenc r u = (r1, true) -> r_connect r = false ->
  http_scheme (r_scheme r1) -> host_wf (r_host r1) ->
  idna_decode ace (r_host r1) = Some (r_host r1) ->
  set_url ace uenc r1 (get_url r1) = (r1, true).
Proof.
  intros SU NC Hs HW D.
  pose proof (set_url_ok_consistent ace uenc _ _ _ SU) as C.
  destruct (set_url_fields _ _ _ _ _ SU) as (s & hb & p & pa & h & P & _ & ->).
  destruct (assigned_fields uenc r s h p pa) as (F1 & F2 & F3 & F4 & F5).
  rewrite F1 in Hs. rewrite F2 in HW. destruct HW as (W1 & W2 & W3 & W4 & W5 & W6).
  destruct (parse_port_path_normal _ _ _ _ _ P Hs) as [PB WP].
  apply url_fixpoint; [exact C | congruence | | rewrite F4; exact WP | exact D].
  rewrite F1, F2, F3. constructor; auto.
Qed.

End Accepted.
