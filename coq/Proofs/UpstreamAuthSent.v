(* Proofs/UpstreamAuthSent.v -- C24, the other direction: the credential is sent where the statement says it is
   (CONNECT heads, plain requests forwarded to the upstream proxy, requests of reverse-mode clients), for both values
   of c_fixed (the tunnelled set never suppresses it on a client that is not tunnelled). *)
From Coq Require Import List Bool NArith.
From MV Require Import Base.Bytes Model.UpstreamAuth Proofs.UpstreamAuthStep Proofs.UpstreamAuthWorld.
Import ListNotations.
Open Scope N_scope.

(* the converse of requestheaders_carries: in the two situations the hook tests for, it writes the credential *)
Lemma requestheaders_sends cfg cred pm https in_set hs :
  cfg.(c_auth) = Some cred -> cred <> [] ->
  (is_upstream pm = true /\ https = false /\ (cfg.(c_fixed) && in_set) = false) \/ is_reverse pm = true ->
  carries cred (requestheaders cfg pm https in_set hs).
Proof.
  intros Ha Hne Hw. unfold requestheaders. rewrite Ha. destruct cred as [|x r]; [contradiction|]. cbn [truthy].
  destruct (is_upstream pm && negb https && negb (c_fixed cfg && in_set)) eqn:E; [apply set_all1_has|].
  destruct Hw as [(H1 & H2 & H3)|H]; [rewrite H1, H2, H3 in E; discriminate | rewrite H; apply set_all1_has].
Qed.

Lemma step_sent cfg cred in_set st ev st' wr conn w :
  cfg.(c_auth) = Some cred -> cred <> [] -> inv st ->
  ((cfg.(c_fixed) && in_set) = true -> st.(cs_tunnel) = true) ->
  step cfg in_set st ev = (st', wr, conn) -> In w wr ->
  w.(w_kind) = WConnect \/ (w.(w_via) = true /\ w.(w_tunnelled) = false) \/ is_reverse w.(w_pm) = true ->
  carries cred w.(w_fields).
Proof.
  intros Ha Hne Hi Hset H Hin Hwhere.
  destruct (proj2 (step_spec _ _ _ _ _ _ _ Hi H) w Hin)
    as [Hpm [(_ & _ & a & ->)|(tgt & hh & hs & ok & tls & a & -> & Er & Hk & Hf & Hv & Ht & Hh)]];
    [apply connect_head_carries; assumption|].
  destruct Hi as (Hc & Hs & Hu). rewrite Hf. destruct Hwhere as [Hwk|[[Hwv Hwt]|Hwr]].
  - rewrite Hk in Hwk. discriminate.
  - (* to the proxy, outside a tunnel: upstream HTTPMode, plain http *)
    rewrite Hv in Hwv. rewrite Ht, Hwv in Hwt. cbn in Hwt. unfold send_connect in Hwt.
    apply orb_false_iff in Hwt. destruct Hwt as [Htls Hm]. apply negb_false_iff in Hm.
    unfold shape_ok in Hs. destruct (hl_mode (cs_layer st)); try discriminate.
    destruct Hs as (Hp & _ & Hnt). apply requestheaders_sends; try assumption. left. split; [exact Hp|]. split; [exact Htls|].
    destruct (c_fixed cfg && in_set) eqn:Efs; [|reflexivity]. rewrite (Hset eq_refl) in Hnt. discriminate.
  - apply requestheaders_sends; try assumption. right. rewrite <- Hpm. exact Hwr.
Qed.

Lemma wstep_sent cfg cred ws e ws' wr c w :
  ws.(ws_auth) = Some cred -> cred <> [] -> winv cfg ws ->
  wstep cfg ws e = (ws', wr) -> In (c, w) wr ->
  w.(w_kind) = WConnect \/ (w.(w_via) = true /\ w.(w_tunnelled) = false) \/ is_reverse w.(w_pm) = true ->
  carries cred w.(w_fields).
Proof.
  intros Ha Hne Hw H Hin Hwhere.
  destruct (wstep_writes _ _ _ _ _ _ _ H Hin) as (ev & st & st' & w1 & conn & -> & El & Es & Hin1).
  destruct (winv_at _ _ _ _ Hw El) as (Hi & _ & Hm2).
  eapply step_sent; try eassumption.
  - cbn. assumption.
  - intros Hfs. cbn in Hfs. apply andb_true_iff in Hfs. apply Hm2, Hfs.
Qed.
