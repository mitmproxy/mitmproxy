(* Proofs/ClientHelloParse.v -- C13: the kaitai reader inverts the reference encoding (RFC grammar), and the
   ClientHello properties (sni, alpn_protocols, cipher_suites, extensions) read what the reference reads. *)
From Coq Require Import List Bool Arith NArith Lia ZifyBool.
From MV Require Import Base.Bytes Model.ClientHello Model.TlsRef Proofs.ClientHelloBase.
Import ListNotations.
Local Open Scope N_scope.

(* TlsRef has its own len because it does not import the model; it is convertible to the model's blen *)
Lemma len_app a b : len (a ++ b) = len a + len b.
Proof. exact (blen_app a b). Qed.
Lemma len_cons c s : len (c :: s) = 1 + len s.
Proof. exact (blen_cons c s). Qed.
Lemma len_vec16 b : len (vec16 b) = 2 + len b.
Proof. unfold vec16. rewrite len_app. reflexivity. Qed.
Lemma len_vec8 b : len (vec8 b) = 1 + len b.
Proof. unfold vec8. rewrite len_app. reflexivity. Qed.

Lemma read_vec8 b r : len b < 256 ->
  (let* (l, s) := read_u1 (vec8 b ++ r) in read_bytes l s) = Ok (b, r).
Proof.
  intros H. unfold vec8, put_u8. cbn [app]. rewrite read_u1_Nb by exact H. cbn [bind].
  apply read_bytes_app. reflexivity.
Qed.

Lemma read_vec16 b r : len b < 65536 ->
  (let* (l, s) := read_u2be (vec16 b ++ r) in read_bytes l s) = Ok (b, r).
Proof.
  intros H. unfold vec16. rewrite <- app_assoc. rewrite read_u2be_put by exact H. cbn [bind].
  apply read_bytes_app. reflexivity.
Qed.

(* the same inside a longer chain of reads *)
Lemma bind_cont {A B C} (m : rd (A * bytes)) (f : A -> bytes -> rd B) (k : B -> rd C) x :
  (let* (a, s) := m in f a s) = Ok x -> (let* (a, s) := m in bind (f a s) k) = k x.
Proof. destruct m as [[a s]| |]; cbn [bind]; [intros ->; reflexivity | discriminate..]. Qed.

Lemma read_vec8_then {B} b r (k : bytes * bytes -> rd B) : len b < 256 ->
  (let* (l, s) := read_u1 (vec8 b ++ r) in bind (read_bytes l s) k) = k (b, r).
Proof. intros H. apply bind_cont, read_vec8, H. Qed.

Lemma read_protocol_enc p r : len p < 256 -> read_protocol (vec8 p ++ r) = Ok (p, r).
Proof. intros H. unfold read_protocol. rewrite read_vec8_then by exact H. reflexivity. Qed.

Definition enc_name (h : bytes) : bytes := x00 :: vec16 h.
Definition dec_name (h : bytes) : server_name := {| sn_type := 0; sn_length := len h; sn_host := h |}.

Lemma read_server_name_enc h r : len h < 65536 -> read_server_name (enc_name h ++ r) = Ok (dec_name h, r).
Proof.
  intros H. unfold read_server_name, enc_name, vec16. cbn [app read_u1 bind].
  rewrite <- app_assoc. rewrite read_u2be_put by exact H. cbn [bind].
  rewrite read_bytes_app by reflexivity. reflexivity.
Qed.

Definition parsed_body (e : rext) : ext_body :=
  match e with
  | RSni ls => BodySni (len (enc_name (join_dot ls))) [dec_name (join_dot ls)]
  | RAlpn ps => BodyAlpn (len (concat (map vec8 ps))) ps
  | ROther _ _ => BodyRaw
  end.
Definition parsed_ext (e : rext) : extension :=
  {| ext_type := ext_type_of e; ext_len_ := len (ext_data e); ext_raw := ext_data e; ext_body_ := parsed_body e |}.

Lemma read_sni_enc ls : len (join_dot ls) <= 253 ->
  read_sni (ext_data (RSni ls)) = Ok (parsed_body (RSni ls)).
Proof.
  intros H. unfold read_sni. cbn [ext_data]. fold (enc_name (join_dot ls)).
  unfold vec16 at 1. rewrite read_u2be_put.
  2:{ unfold enc_name. rewrite len_cons, len_vec16. lia. }
  cbn [bind].
  assert (E : enc_name (join_dot ls) = concat (map enc_name [join_dot ls]))
    by (cbn [map concat]; rewrite app_nil_r; reflexivity).
  rewrite E at 1 2.
  rewrite (many_concat read_server_name enc_name dec_name).
  - reflexivity.
  - intros x r [<-|[]]. apply read_server_name_enc. lia.
  - intros x _. discriminate.
  - lia.
Qed.

Lemma read_alpn_enc ps :
  Forall (fun p => 1 <= len p <= 255) ps -> len (concat (map vec8 ps)) < 65534 ->
  read_alpn (ext_data (RAlpn ps)) = Ok (parsed_body (RAlpn ps)).
Proof.
  intros Hp H. unfold read_alpn. cbn [ext_data]. unfold vec16 at 1. rewrite read_u2be_put by lia.
  cbn [bind].
  rewrite (many_concat read_protocol vec8 (fun p => p)).
  - cbn [bind parsed_body]. rewrite map_id. reflexivity.
  - intros x r Hin. apply read_protocol_enc. rewrite Forall_forall in Hp. specialize (Hp x Hin). lia.
  - intros x _. discriminate.
  - lia.
Qed.

Lemma wf_ext_bounds e : wf_ext e -> ext_type_of e < 65536 /\ len (ext_data e) < 65536.
Proof.
  destruct e as [ls|ps|ty body]; cbn [wf_ext ext_type_of ext_data].
  - intros (_ & _ & H). split; [lia|]. rewrite len_vec16, len_cons, len_vec16. lia.
  - intros (_ & _ & H). split; [lia|]. rewrite len_vec16. lia.
  - intros (H1 & _ & _ & H2). split; assumption.
Qed.

Lemma read_extension_enc e r : wf_ext e -> read_extension (enc_ext e ++ r) = Ok (parsed_ext e, r).
Proof.
  intros W. destruct (wf_ext_bounds e W) as [Ht Hl].
  unfold read_extension, enc_ext, vec16. rewrite <- !app_assoc.
  rewrite read_u2be_put by exact Ht. cbn [bind].
  rewrite read_u2be_put by exact Hl. cbn [bind].
  rewrite read_bytes_app by reflexivity. cbn [bind].
  destruct e as [ls|ps|ty body]; cbn [ext_type_of wf_ext] in *.
  - cbn [N.eqb]. destruct W as (_ & _ & H). rewrite read_sni_enc by exact H. reflexivity.
  - replace (16 =? 0) with false by reflexivity. replace (16 =? 16) with true by reflexivity.
    destruct W as (_ & H1 & H2). rewrite read_alpn_enc by assumption. reflexivity.
  - destruct W as (_ & H0 & H16 & _).
    destruct (ty =? 0) eqn:E0; [lia|]. destruct (ty =? 16) eqn:E16; [lia|]. reflexivity.
Qed.

Lemma read_n_u2be_enc cs r :
  Forall (fun c => c < 65536) cs ->
  read_n_u2be (length cs) (concat (map put_u16be cs) ++ r) = Ok (cs, r).
Proof.
  induction 1 as [|c cs Hc _ IH]; [reflexivity|].
  cbn [length map concat read_n_u2be]. rewrite <- app_assoc.
  rewrite read_u2be_put by exact Hc. cbn [bind]. rewrite IH. reflexivity.
Qed.

Lemma len_ciphers cs : len (concat (map put_u16be cs)) = 2 * N.of_nat (length cs).
Proof.
  induction cs as [|c cs IH]; [reflexivity|].
  cbn [map concat length]. rewrite len_app, IH. unfold len at 1. cbn [put_u16be length]. lia.
Qed.

Lemma read_ciphers_then {B} cs r (k : list N * bytes -> rd B) :
  Forall (fun c => c < 65536) cs -> N.of_nat (length cs) <= 32767 ->
  (let* (cslen, s) := read_u2be (vec16 (concat (map put_u16be cs)) ++ r) in
   bind (read_n_u2be (N.to_nat (cslen / 2)) s) k) = k (cs, r).
Proof.
  intros Hc Hl. unfold vec16. rewrite <- app_assoc, read_u2be_put by (rewrite len_ciphers; lia).
  cbn [bind]. rewrite len_ciphers, N.mul_comm, N.div_mul, Nat2N.id by lia.
  rewrite read_n_u2be_enc by exact Hc. reflexivity.
Qed.

Lemma read_cookie_enc (dtls : bool) cookie r : len cookie < 256 ->
  (if dtls
   then let* (cl, s) := read_u1 ((if dtls then vec8 cookie else []) ++ r) in
        let* (c, s) := read_bytes cl s in Ok (Some c, s)
   else Ok (None, (if dtls then vec8 cookie else []) ++ r))
  = Ok (if dtls then Some cookie else None, r).
Proof.
  intros H. destruct dtls; [|reflexivity].
  exact (read_vec8_then cookie r (fun '(c, s) => Ok (Some c, s)) H).
Qed.

Lemma read_exts_enc es :
  Forall wf_ext es -> len (concat (map enc_ext es)) < 65536 ->
  (let* (el, s) := read_u2be (vec16 (concat (map enc_ext es))) in
   let* l := many read_extension (length s) s in Ok (Some (el, l)))
  = Ok (Some (len (concat (map enc_ext es)), map parsed_ext es)).
Proof.
  intros We Hel. unfold vec16.
  rewrite <- (app_nil_r (concat (map enc_ext es))) at 2. rewrite read_u2be_put by exact Hel. cbn [bind].
  rewrite app_nil_r, (many_concat read_extension enc_ext parsed_ext); [reflexivity| | |lia].
  - intros x r Hin. apply read_extension_enc. rewrite Forall_forall in We. apply We, Hin.
  - intros x _. unfold enc_ext, put_u16be. discriminate.
Qed.

Lemma read_hello_enc dtls r :
  wf_hello r ->
  exists h, read_client_hello dtls (enc_hello dtls r) = Ok h
            /\ h_ciphers h = r_ciphers r /\ exts_of h = map parsed_ext (exts_list r).
Proof.
  destruct r as [[v1 v2] random sid cookie ciphers comp exts].
  unfold wf_hello, exts_list, enc_hello. cbn [r_ver r_random r_sid r_cookie r_ciphers r_comp r_exts fst snd].
  intros (Hr & Hs & Hk & Hcne & Hc & Hcl & Hcm & He).
  (* gmt_unix_time is the first four of the 32 random bytes *)
  do 4 (destruct random as [|? random]; [cbn in Hr; lia|]).
  assert (Hr28 : blen random = 28) by (unfold len in Hr; unfold blen; cbn [length] in Hr; lia).
  unfold read_client_hello. cbn [app read_u1 read_u4be bind].
  rewrite (read_bytes_app random _ 28 Hr28). cbn [bind].
  rewrite read_vec8_then by lia. cbn [bind].
  rewrite read_cookie_enc by lia. cbn [bind].
  rewrite read_ciphers_then by assumption. cbn [bind].
  rewrite read_vec8_then by lia. cbn [bind].
  destruct exts as [es|].
  - change (is_nil (vec16 _)) with false. cbv iota. destruct He as [We Hel]. rewrite (read_exts_enc es We Hel).
    eexists. repeat split.
  - eexists. repeat split.
Qed.

Lemma alpn_parsed es : Forall wf_ext es -> alpn_loop (map parsed_ext es) = find_alpn es.
Proof.
  induction 1 as [|e es W _ IH]; [reflexivity|].
  cbn [map alpn_loop find_alpn]. destruct e as [ls|ps|ty body]; cbn [parsed_ext ext_type ext_type_of ext_body_ parsed_body].
  - replace (0 =? 16) with false by reflexivity. exact IH.
  - reflexivity.
  - destruct W as (_ & _ & H16 & _). destruct (ty =? 16) eqn:E; [lia|]. exact IH.
Qed.

Lemma sni_parsed ace_ok es :
  Forall wf_ext es ->
  (forall ls, In (RSni ls) es -> is_valid_host ace_ok (join_dot ls) = true) ->
  sni_loop ace_ok (map parsed_ext es) = find_sni es.
Proof.
  induction 1 as [|e es W _ IH]; intros Hv; [reflexivity|].
  cbn [map sni_loop find_sni]. destruct e as [ls|ps|ty body];
    unfold valid_sni_extension; cbn [parsed_ext ext_type ext_type_of ext_body_ parsed_body].
  - cbn [N.eqb dec_name sn_type sn_host andb]. rewrite Hv by (left; reflexivity). reflexivity.
  - replace (16 =? 0) with false by reflexivity. apply IH. intros; apply Hv; right; assumption.
  - destruct W as (_ & H0 & _). destruct (ty =? 0) eqn:E; [lia|]. apply IH. intros; apply Hv; right; assumption.
Qed.
