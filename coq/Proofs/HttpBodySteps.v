(* Proofs/HttpBodySteps.v -- what one event does to the request side / the response side of a stream: first every
   outcome of every handler, then (step_sides) the same read uniformly for both sides as an [outcome] on the event's
   own side and a [frame] around the other one.  The invariants in HttpBodyBound.v and HttpBodyForward.v are proved
   against step_sides, the relay theorems in HttpBodyRelay.v against the lemmas for the streaming states. *)
From Coq Require Import List Bool NArith ZArith.
From MV Require Import Base.Bytes Model.HttpBody Proofs.HttpBodyBase.
Import ListNotations.
Open Scope Z_scope.

Definition rejq (c : list cmd) : Prop := In (CSend Client (MErr ReqTooLarge)) c.
Definition rejs (c : list cmd) : Prop := In (CSend Client (MErr RespTooLarge)) c.

(* [cbn] is used below to compute the fields of updated states; these stay folded *)
Local Arguments rejq : simpl never.
Local Arguments rejs : simpl never.
Local Arguments server_content : simpl never.
Local Arguments client_content : simpl never.

Section Steps.
Variable S : Type.
Variable fq fs : S -> bytes -> S * sres.
Variable cfg : config.

Notation st := (st S).
Notation handle_event := (handle_event S fq fs cfg).
Notation check_body_size := (check_body_size S fq fs cfg).
Notation abort_body := (abort_body S cfg).
Notation start_request_stream := (start_request_stream S cfg).

Definition truthy_opts : bool := opt_truthy (o_stream cfg) || opt_truthy (o_limit cfg).

(* the server cannot be reached: handle_protocol_error errors the response side and tells the client, unless the
   request side is errored already; nothing goes to the server *)
Lemma connect_failed (s : st) :
  c_ok cfg = false ->
  let '(ok, s', c) := make_server_connection S cfg s in
  ok = false /\ client_state s' = client_state s /\ server_state s' = Errored
  /\ request_body_buf s' = request_body_buf s /\ response_body_buf s' = response_body_buf s
  /\ ~ rejq c /\ ~ rejs c /\ server_content c = [] /\ client_content c = [].
Proof.
  intros OK. unfold make_server_connection, handle_protocol_error_connect, rejq, rejs, server_content, client_content.
  rewrite OK.
  destruct (negb _); [destruct (hstate_eqb (client_state (set_error S s true)) Errored)
                     |destruct (hstate_eqb (client_state s) Errored)]; cbn; intuition congruence.
Qed.

Lemma start_request_stream_failed (s s' : st) c :
  c_ok cfg = false -> start_request_stream s = (s', c) ->
  client_state s' = Errored /\ server_state s' = Errored
  /\ request_body_buf s' = request_body_buf s /\ response_body_buf s' = response_body_buf s
  /\ ~ rejq c /\ ~ rejs c /\ server_content c = [] /\ client_content c = [].
Proof.
  intros OK. unfold HttpBody.start_request_stream. pose proof (connect_failed s OK) as CF.
  destruct (make_server_connection S cfg s) as [[ok s1] c1]. destruct CF as (-> & _ & CF).
  intros [= <- <-]. exact (conj eq_refl CF).
Qed.

(* the two sides uniformly: r = true is the request side, r = false the response side *)
Definition own_state (r : bool) (s : st) : hstate := if r then client_state s else server_state s.
Definition own_buf (r : bool) (s : st) : bytes := if r then request_body_buf s else response_body_buf s.
Definition rej (r : bool) (c : list cmd) : Prop := if r then rejq c else rejs c.
Definition forwarded (r : bool) (c : list cmd) : list cmd := if r then server_content c else client_content c.
Definition data_of (e : event) : bytes := match e with ReqData d | RespData d => d | _ => [] end.
(* nothing of the message has been passed on yet *)
Definition early (r : bool) (s : st) : Prop :=
  own_state r s = Uninit \/ own_state r s = WaitHeaders \/ own_state r s = Consume.

(* what an event of side r does to its own side *)
Inductive outcome (r : bool) (s s' : st) (e : event) (c : list cmd) : Prop :=
| OReject :      (* too large: errored, the bytes received stay in the buffer *)
    early r s -> own_state r s' = Errored -> rej r c -> forwarded r c = [] ->
    own_buf r s' = own_buf r s ++ data_of e -> outcome r s s' e c
| OFail :        (* the server cannot be reached *)
    ~ rej r c -> own_state r s' = Errored -> forwarded r c = [] -> own_buf r s' = [] -> outcome r s s' e c
| OBuffer :      (* buffered on, the size check having passed *)
    early r s -> own_state r s' = Consume -> ~ rej r c -> forwarded r c = [] ->
    own_buf r s' = own_buf r s ++ data_of e ->
    (nonempty (own_buf r s') = true -> truthy_opts = true ->
     over (parse_size (o_limit cfg)) (blen (own_buf r s')) = false) -> outcome r s s' e c
| OForward :     (* streamed or complete: only store_streamed_bodies keeps bytes *)
    own_state r s <> Errored -> ~ rej r c -> own_state r s' = Streaming \/ own_state r s' = Done ->
    (o_store cfg = false -> own_buf r s' = [] \/ (own_state r s = Streaming /\ own_buf r s' = own_buf r s)) ->
    (own_state r s' = Done -> o_store cfg = true -> own_buf r s' = []) -> outcome r s s' e c
| OIgnore :      (* state_errored swallows the event *)
    own_state r s = Errored -> s' = s -> c = [] -> outcome r s s' e c.

(* its own event never leaves a side before its head *)
Lemma outcome_not_waiting r (s s' : st) e c :
  outcome r s s' e c -> own_state r s' = Uninit \/ own_state r s' = WaitHeaders -> False.
Proof. intros [_ C1|_ C1|_ C1|_ _ [C1|C1]|C0 -> _] [X|X]; rewrite X in *; discriminate. Qed.

(* ... and to the other side: its buffer is left alone, nothing of it is rejected or (unless it is complete: flow_done)
   passed on; its state is kept or errored, but for the request head, which sets the response side waiting, and a
   rejected response, which errors the request side too *)
Definition frame (r : bool) (s s' : st) (c : list cmd) : Prop :=
  own_buf (negb r) s' = own_buf (negb r) s /\ ~ rej (negb r) c
  /\ (own_state (negb r) s <> Done -> forwarded (negb r) c = [])
  /\ (own_state (negb r) s' = own_state (negb r) s \/ own_state (negb r) s' = Errored
      \/ (r = true /\ own_state r s = WaitHeaders /\ own_state (negb r) s' = WaitHeaders))
  /\ (rej r c -> r = false -> own_state (negb r) s' = Errored).

Lemma quiet_nil r : ~ rej r [] /\ forwarded r [] = [].
Proof. destruct r; split; auto; intros []. Qed.

(* the abort branch of check_body_size, seen from both sides: a rejected response errors the request side too *)
Lemma abort_body_sides r (s : st) :
  let '(s', c) := abort_body r s in
  own_state r s' = Errored /\ own_buf r s' = own_buf r s /\ rej r c /\ forwarded r c = []
  /\ own_buf (negb r) s' = own_buf (negb r) s /\ ~ rej (negb r) c /\ forwarded (negb r) c = []
  /\ own_state (negb r) s' = (if r then own_state (negb r) s else Errored).
Proof.
  unfold HttpBody.abort_body, hook_requestheaders, hook_responseheaders, rej, forwarded, rejq, rejs, server_content,
    client_content.
  destruct r;
    [destruct (nonempty (request_body_buf s)); [|destruct (p_req cfg)]
    |destruct (nonempty (response_body_buf s)); [|destruct (p_resp cfg)]]; cbn; intuition congruence.
Qed.

(* the size check on a head, nothing being buffered yet: it rejects, or leaves the state alone but for the mark *)
Lemma headers_check r (s0 s1 : st) (skip : bool) b c1 :
  own_buf r s0 = [] ->
  (if skip then Some (false, s0, []) else check_body_size r s0) = Some (b, s1, c1) ->
  (b = true /\ (s1, c1) = abort_body r s0)
  \/ (b = false /\ c1 = []
      /\ (s1 = s0 \/ s1 = if r then set_req_stream S s0 STrue else set_resp_stream S s0 STrue)).
Proof.
  intros Hb EC. destruct skip; [injection EC as <- <- <-; auto|].
  apply check_body_size_cases in EC.
  destruct EC as [(-> & -> & -> & _)|(x & _ & _ & [(-> & EA & _)|(-> & SW & _)])]; auto.
  rewrite switch_to_stream_empty in SW by (destruct r; exact Hb). injection SW as <- <-. auto.
Qed.

(* ReqData / RespData in state_consume_*_body: buffered on, rejected, or switched to streaming *)
Lemma step_consume_data r (s s' : st) d c :
  own_state r s = Consume ->
  handle_event s (if r then ReqData d else RespData d) = Some (s', c) ->
  frame r s s' c /\ outcome r s s' (if r then ReqData d else RespData d) c.
Proof.
  intros Hc H.
  set (e := if r then ReqData d else RespData d).
  set (s0 := if r then set_reqbuf S s (request_body_buf s ++ d) else set_respbuf S s (response_body_buf s ++ d)).
  assert (EC : exists b, check_body_size r s0 = Some (b, s', c)).
  { unfold HttpBody.handle_event in H.
    destruct r; cbn [is_request_event own_state] in *; rewrite Hc in H;
      [unfold state_consume_request_body in H|unfold state_consume_response_body in H];
      destruct (HttpBody.check_body_size S fq fs cfg _ _) as [[[b s1] c1]|]; try discriminate H;
      injection H as <- <-; exists b; reflexivity. }
  destruct EC as (b & EC).
  assert (Z : own_buf r s0 = own_buf r s ++ data_of e /\ own_buf (negb r) s0 = own_buf (negb r) s
              /\ own_state r s0 = own_state r s /\ own_state (negb r) s0 = own_state (negb r) s)
    by (destruct r; cbn; auto).
  destruct Z as (Z1 & Z2 & Z3 & Z4).
  assert (E : early r s) by (right; right; exact Hc).
  destruct (quiet_nil r) as (QR & QF). destruct (quiet_nil (negb r)) as (QR' & QF').
  apply check_body_size_cases in EC.
  destruct EC as [(-> & -> & -> & SIDE)|(x & EX & POS & [(-> & EA & OV)|(-> & SW & OL & OT)])].
  - split; [unfold frame; rewrite Z2, Z4; tauto|].
    apply OBuffer; auto; [congruence|]. intros NE TR. rewrite Z1 in *. apply (SIDE TR); [|apply nonempty_true_blen; exact NE].
    unfold expected. subst s0 e. destruct r; cbn in *; rewrite NE; reflexivity.
  - pose proof (abort_body_sides r s0) as AB. rewrite <- EA in AB.
    destruct AB as (A1 & A2 & A3 & A4 & A5 & A6 & A7 & A8).
    split; [|apply OReject; auto; congruence].
    unfold frame. rewrite A5, A8, Z2. repeat split; auto.
    + destruct r; [left; exact Z4|right; left; reflexivity].
    + intros _ ->. reflexivity.
  - destruct (nonempty (own_buf r s0)) eqn:NE.
    + (* late switch to streaming: the buffered bytes go out, kept only by store_streamed_bodies *)
      subst s0 e. unfold frame. destruct r; cbn in NE, Hc |- *.
      * rewrite switch_to_stream_req in SW by exact NE. cbn zeta in SW. destruct (c_ok cfg) eqn:OK.
        -- injection SW as <- <-. unfold rejq, rejs, server_content, client_content.
           split; [destruct (o_store cfg); cbn; intuition congruence|].
           apply OForward; destruct (o_store cfg); cbn; unfold rejq; cbn; rewrite ?Hc; intuition congruence.
        -- injection SW as SW.
           destruct (start_request_stream_failed _ _ _ OK SW) as (F1 & F2 & F3 & F4 & F5 & F6 & F7 & F8).
           split; [rewrite F2, F4, F8; intuition congruence|apply OFail; cbn; auto].
      * rewrite switch_to_stream_resp in SW by exact NE. injection SW as <- <-.
        unfold rejq, rejs, server_content, client_content.
        split; [destruct (o_store cfg); cbn; intuition congruence|].
        apply OForward; destruct (o_store cfg); cbn; unfold rejs; cbn; rewrite ?Hc; intuition congruence.
    + (* nothing received yet: only marked for streaming *)
      rewrite switch_to_stream_empty in SW by (destruct r; apply nonempty_false; exact NE). injection SW as <- <-.
      subst s0 e. unfold frame. destruct r; cbn in NE, Hc, QR, QF, QR', QF' |- *;
        (split; [tauto|apply OBuffer; cbn; auto; rewrite NE; discriminate]).
Qed.

(* holds of everything (its last disjunct); nothing refers to it *)
Definition req_step_post (s s' : st) (e : event) (c : list cmd) : Prop :=
  response_body_buf s' = response_body_buf s /\ ~ rejs c /\ client_content c = [] \/ True.

Lemma step_wait_request_headers (s s' : st) fr e100 c :
  client_state s = WaitHeaders -> request_body_buf s = [] ->
  handle_event s (ReqHeaders fr e100) = Some (s', c) ->
  frame true s s' c /\ outcome true s s' (ReqHeaders fr e100) c.
Proof.
  intros Hc Hb. unfold HttpBody.handle_event. cbn [is_request_event]. rewrite Hc.
  unfold state_wait_for_request_headers, frame. cbn [negb own_state own_buf rej forwarded].
  set (s0 := set_live S (set_req_framing S s fr) true).
  destruct (if end_stream_of fr then Some (false, s0, []) else check_body_size true s0) as [[[b s1] c1]|] eqn:EC;
    [|discriminate].
  assert (E : early true s) by (right; left; exact Hc).
  destruct (headers_check true s0 _ _ _ _ Hb EC) as [(-> & EA)|(-> & -> & E1)].
  - intros [= <- <-]. pose proof (abort_body_sides true s0) as AB. rewrite <- EA in AB.
    destruct AB as (A1 & A2 & A3 & A4 & A5 & A6 & A7 & A8). cbn in A5, A6, A7, A8.
    split; [rewrite A5, A8; intuition discriminate|apply OReject; auto; cbn in *; rewrite A2, Hb; reflexivity].
  - set (s2 := hook_requestheaders S cfg s1).
    assert (B2 : request_body_buf s2 = [] /\ response_body_buf s2 = response_body_buf s).
    { subst s2. unfold hook_requestheaders. destruct E1 as [-> | ->]; destruct (p_req cfg); auto. }
    destruct B2 as [B2 R2]. cbn [app].
    assert (N : forall tl, (~ rejq tl /\ ~ rejs tl /\ client_content tl = []) ->
                let c := CHook HRequestHeaders :: (if e100 then [CSend Client MContinue] else []) ++ tl in
                ~ rejq c /\ ~ rejs c /\ client_content c = [] /\ server_content c = server_content tl).
    { intros tl (T1 & T2 & T3). unfold rejq, rejs, client_content, server_content in *.
      destruct e100; cbn; intuition congruence. }
    destruct (stream_truthy (req_stream s2) && negb (end_stream_of fr)).
    + destruct (c_ok cfg) eqn:OK.
      * rewrite start_request_stream_ok by exact OK. intros [= <- <-].
        destruct (N [CGetConn; CSend Server (MHeaders false)]) as (N1 & N2 & N3 & N4).
        { unfold rejq, rejs, client_content; cbn; intuition congruence. }
        split; [cbn; rewrite R2; intuition congruence|apply OForward; cbn; rewrite ?Hc, ?B2; auto; try discriminate].
      * destruct (HttpBody.start_request_stream S cfg s2) as [s3 c3] eqn:ES.
        destruct (start_request_stream_failed _ _ _ OK ES) as (F1 & F2 & F3 & F4 & F5 & F6 & F7 & F8).
        intros [= <- <-]. destruct (N c3) as (N1 & N2 & N3 & N4); auto.
        split; [cbn; rewrite F4, R2; intuition congruence|apply OFail; cbn; rewrite ?N4, ?F3; auto].
    + intros [= <- <-]. destruct (N []) as (N1 & N2 & N3 & N4); [unfold rejq, rejs; cbn; tauto|].
      split; [cbn; rewrite R2; intuition congruence|].
      apply OBuffer; cbn; rewrite ?B2, ?Hb; auto; discriminate.
Qed.

Lemma step_consume_request_eom (s s' : st) c :
  client_state s = Consume ->
  handle_event s ReqEom = Some (s', c) ->
  frame true s s' c /\ outcome true s s' ReqEom c.
Proof.
  intros Hc. unfold HttpBody.handle_event. cbn [is_request_event]. rewrite Hc.
  unfold state_consume_request_body, frame. cbn [negb own_state own_buf rej forwarded].
  set (s1 := set_client S _ Done).
  destruct (c_ok cfg) eqn:OK.
  - unfold make_server_connection. rewrite OK. cbn. intros [= <- <-]. unfold rejq, rejs, client_content.
    split; [|apply OForward; cbn; unfold rejq; rewrite ?Hc]; destruct (nonempty (request_body_buf s)); cbn; intuition congruence.
  - pose proof (connect_failed s1 OK) as CF. destruct (make_server_connection S cfg s1) as [[ok s2] c2].
    destruct CF as (-> & F1 & F2 & F3 & F4 & F5 & F6 & F7 & F8). cbn. intros [= <- <-].
    assert (Q : ~ rejq (CHook HRequest :: c2) /\ ~ rejs (CHook HRequest :: c2) /\ client_content (CHook HRequest :: c2) = [])
      by (unfold rejq, rejs, client_content in *; cbn; intuition congruence).
    split; [rewrite F2, F4; intuition congruence|apply OForward; cbn; rewrite ?Hc, ?F1, ?F3; intuition congruence].
Qed.

Lemma map_data_quiet p ds :
  let c := map (fun d => CSend p (MData d)) ds in
  ~ rejq c /\ ~ rejs c /\ match p with Client => server_content c | Server => client_content c end = [].
Proof.
  unfold rejq, rejs, server_content, client_content.
  induction ds as [|d ds IH]; destruct p; cbn in *; intuition congruence.
Qed.

Lemma stream_request_data (s : st) d :
  client_state s = Streaming ->
  let pieces := match req_stream s with SCall => data_chunks (snd (fq (fq_st s) d)) | _ => [d] end in
  exists s', handle_event s (ReqData d) = Some (s', map (fun c => CSend Server (MData c)) pieces)
    /\ client_state s' = Streaming
    /\ request_body_buf s' = (if o_store cfg then request_body_buf s ++ concat pieces else request_body_buf s)
    /\ req_stream s' = req_stream s /\ req_content s' = req_content s
    /\ fq_st s' = match req_stream s with SCall => fst (fq (fq_st s) d) | _ => fq_st s end
    /\ server_state s' = server_state s /\ response_body_buf s' = response_body_buf s.
Proof.
  intros Hc. unfold HttpBody.handle_event. cbn [is_request_event]. rewrite Hc.
  unfold state_stream_request_body.
  destruct (req_stream s) eqn:A; try destruct (fq (fq_st s) d) as [q r]; rewrite relay_chunks_eq;
    destruct (o_store cfg); eexists; (split; [reflexivity|]); cbn; rewrite ?app_nil_r; auto 10.
Qed.

(* ReqEom in state_stream_request_body: the callable is flushed with b"", then the end of message follows; the
   exchange is finished (flow_done) if the response is complete already *)
Lemma stream_request_eom (s : st) :
  client_state s = Streaming ->
  let pieces := match req_stream s with SCall => flush_chunks (snd (fq (fq_st s) [])) | _ => [] end in
  exists s', handle_event s ReqEom
             = Some (s', map (fun c => CSend Server (MData c)) pieces ++ [CHook HRequest; CSend Server MEom]
                         ++ (if hstate_eqb (server_state s) Done then [CDrop; CSend Client MEom] else []))
    /\ client_state s' = Done
    /\ req_content s' = (if o_store cfg then Some (request_body_buf s ++ concat pieces) else req_content s)
    /\ request_body_buf s' = (if o_store cfg then [] else request_body_buf s)
    /\ server_state s' = server_state s /\ response_body_buf s' = response_body_buf s.
Proof.
  intros Hc. unfold HttpBody.handle_event. cbn [is_request_event]. rewrite Hc.
  unfold state_stream_request_body, flow_done.
  destruct (req_stream s); try destruct (fq (fq_st s) []) as [q r]; rewrite relay_chunks_eq;
    destruct (o_store cfg); cbn; destruct (hstate_eqb (server_state s) Done);
    eexists; (split; [reflexivity|]); cbn; rewrite ?app_nil_r; auto 10.
Qed.

Lemma step_stream_request (s s' : st) e c :
  client_state s = Streaming -> is_request_event e = true ->
  handle_event s e = Some (s', c) ->
  frame true s s' c /\ outcome true s s' e c.
Proof.
  intros Hc He H. unfold frame. cbn [negb own_state own_buf rej forwarded].
  destruct e; try discriminate He.
  - unfold HttpBody.handle_event in H. rewrite Hc in H. discriminate H.
  - destruct (stream_request_data s d Hc) as (s1 & HE & C1 & B1 & _ & _ & _ & S1 & R1).
    rewrite HE in H. injection H as <- <-.
    destruct (map_data_quiet Server (match req_stream s with SCall => data_chunks (snd (fq (fq_st s) d)) | _ => [d] end))
      as (Q1 & Q2 & Q3).
    split; [intuition congruence|].
    apply OForward; cbn; rewrite ?Hc, ?C1, ?B1; auto; try discriminate. intros ->. auto.
  - destruct (stream_request_eom s Hc) as (s1 & HE & C1 & _ & B1 & S1 & R1).
    rewrite HE in H. injection H as <- EC.
    destruct (map_data_quiet Server (match req_stream s with SCall => flush_chunks (snd (fq (fq_st s) [])) | _ => [] end))
      as (Q1 & Q2 & Q3).
    assert (Q : ~ rejq c /\ ~ rejs c /\ (server_state s <> Done -> client_content c = [])).
    { rewrite <- EC. unfold rejq, rejs in *. rewrite client_content_app, Q3, !in_app_iff.
      destruct (server_state s); cbn; intuition congruence. }
    split; [intuition congruence|].
    apply OForward; cbn; rewrite ?Hc, ?C1, ?B1; [discriminate|tauto|auto|intros ->; auto|intros _ ->; reflexivity].
Qed.

Lemma step_request_errored (s : st) e :
  client_state s = Errored -> is_request_event e = true -> handle_event s e = Some (s, []).
Proof. intros Hc He. unfold HttpBody.handle_event. rewrite He, Hc. reflexivity. Qed.

Lemma step_wait_response_headers (s s' : st) fr c :
  server_state s = WaitHeaders -> response_body_buf s = [] ->
  handle_event s (RespHeaders fr) = Some (s', c) ->
  frame false s s' c /\ outcome false s s' (RespHeaders fr) c.
Proof.
  intros Hc Hb. unfold HttpBody.handle_event. cbn [is_request_event]. rewrite Hc.
  unfold state_wait_for_response_headers, frame. cbn [negb own_state own_buf rej forwarded].
  set (s0 := set_resp_framing S s (Some fr)).
  destruct (if end_stream_of fr then Some (false, s0, []) else check_body_size false s0) as [[[b s1] c1]|] eqn:EC;
    [|discriminate].
  assert (E : early false s) by (right; left; exact Hc).
  destruct (headers_check false s0 _ _ _ _ Hb EC) as [(-> & EA)|(-> & -> & E1)].
  - intros [= <- <-]. pose proof (abort_body_sides false s0) as AB. rewrite <- EA in AB.
    destruct AB as (A1 & A2 & A3 & A4 & A5 & A6 & A7 & A8). cbn in A5, A6, A7, A8.
    split; [rewrite A5, A8; intuition discriminate|apply OReject; auto; cbn in *; rewrite A2, Hb; reflexivity].
  - set (s2 := hook_responseheaders S cfg s1).
    assert (B2 : response_body_buf s2 = [] /\ request_body_buf s2 = request_body_buf s
                 /\ client_state s2 = client_state s).
    { subst s2. unfold hook_responseheaders. destruct E1 as [-> | ->]; destruct (p_resp cfg); auto. }
    destruct B2 as (B2 & R2 & K2). unfold start_response_stream.
    destruct (stream_truthy (resp_stream s2) && negb (end_stream_of fr)); intros [= <- <-];
      (split; [unfold rejq, rejs, server_content; cbn; rewrite R2, K2; intuition congruence|]).
    + apply OForward; cbn; unfold rejs; cbn; rewrite ?Hc, ?B2; intuition congruence.
    + apply OBuffer; cbn; unfold rejs, client_content; cbn; rewrite ?B2, ?Hb; try discriminate; intuition congruence.
Qed.

Lemma step_consume_response_eom (s s' : st) c :
  server_state s = Consume ->
  handle_event s RespEom = Some (s', c) ->
  frame false s s' c /\ outcome false s s' RespEom c.
Proof.
  intros Hc. unfold HttpBody.handle_event. cbn [is_request_event]. rewrite Hc.
  unfold state_consume_response_body, send_response, flow_done, frame. cbn.
  destruct (nonempty (response_body_buf s)), (hstate_eqb (client_state s) Done); intros [= <- <-];
    unfold rejq, rejs, server_content;
    (split; [|apply OForward; cbn; unfold rejs; rewrite ?Hc]); cbn; intuition congruence.
Qed.

Lemma stream_response_data (s : st) d :
  server_state s = Streaming ->
  let pieces := match resp_stream s with SCall => data_chunks (snd (fs (fs_st s) d)) | _ => [d] end in
  exists s', handle_event s (RespData d) = Some (s', map (fun c => CSend Client (MData c)) pieces)
    /\ server_state s' = Streaming
    /\ response_body_buf s' = (if o_store cfg then response_body_buf s ++ concat pieces else response_body_buf s)
    /\ resp_stream s' = resp_stream s /\ resp_content s' = resp_content s
    /\ fs_st s' = match resp_stream s with SCall => fst (fs (fs_st s) d) | _ => fs_st s end
    /\ client_state s' = client_state s /\ request_body_buf s' = request_body_buf s.
Proof.
  intros Hc. unfold HttpBody.handle_event. cbn [is_request_event]. rewrite Hc.
  unfold state_stream_response_body.
  destruct (resp_stream s) eqn:A; try destruct (fs (fs_st s) d) as [q r]; rewrite relay_chunks_eq;
    destruct (o_store cfg); eexists; (split; [reflexivity|]); cbn; rewrite ?app_nil_r; auto 10.
Qed.

(* RespEom in state_stream_response_body; the client is told the end only once its request is complete (flow_done) *)
Lemma stream_response_eom (s : st) :
  server_state s = Streaming ->
  let pieces := match resp_stream s with SCall => flush_chunks (snd (fs (fs_st s) [])) | _ => [] end in
  exists s', handle_event s RespEom
             = Some (s', map (fun c => CSend Client (MData c)) pieces
                         ++ CHook HResponse :: (if hstate_eqb (client_state s) Done then [CDrop; CSend Client MEom] else []))
    /\ server_state s' = Done
    /\ resp_content s' = (if o_store cfg then Some (response_body_buf s ++ concat pieces) else resp_content s)
    /\ response_body_buf s' = (if o_store cfg then [] else response_body_buf s)
    /\ client_state s' = client_state s /\ request_body_buf s' = request_body_buf s.
Proof.
  intros Hc. unfold HttpBody.handle_event. cbn [is_request_event]. rewrite Hc.
  unfold state_stream_response_body, send_response, flow_done.
  destruct (resp_stream s); try destruct (fs (fs_st s) []) as [q r]; rewrite relay_chunks_eq;
    destruct (o_store cfg); cbn; destruct (hstate_eqb (client_state s) Done);
    eexists; (split; [reflexivity|]); cbn; rewrite ?app_nil_r; auto 10.
Qed.

Lemma step_stream_response (s s' : st) e c :
  server_state s = Streaming -> is_request_event e = false ->
  handle_event s e = Some (s', c) ->
  frame false s s' c /\ outcome false s s' e c.
Proof.
  intros Hc He H. unfold frame. cbn [negb own_state own_buf rej forwarded].
  destruct e; try discriminate He.
  - unfold HttpBody.handle_event in H. rewrite Hc in H. discriminate H.
  - destruct (stream_response_data s d Hc) as (s1 & HE & C1 & B1 & _ & _ & _ & S1 & R1).
    rewrite HE in H. injection H as <- <-.
    destruct (map_data_quiet Client (match resp_stream s with SCall => data_chunks (snd (fs (fs_st s) d)) | _ => [d] end))
      as (Q1 & Q2 & Q3).
    split; [intuition congruence|].
    apply OForward; cbn; rewrite ?Hc, ?C1, ?B1; auto; try discriminate. intros ->. auto.
  - destruct (stream_response_eom s Hc) as (s1 & HE & C1 & _ & B1 & S1 & R1).
    rewrite HE in H. injection H as <- EC.
    destruct (map_data_quiet Client (match resp_stream s with SCall => flush_chunks (snd (fs (fs_st s) [])) | _ => [] end))
      as (Q1 & Q2 & Q3).
    assert (Q : ~ rejq c /\ ~ rejs c /\ server_content c = []).
    { rewrite <- EC. unfold rejq, rejs in *. rewrite server_content_app, Q3, !in_app_iff.
      destruct (hstate_eqb (client_state s) Done); cbn; intuition congruence. }
    split; [intuition congruence|].
    apply OForward; cbn; rewrite ?Hc, ?C1, ?B1; [discriminate|tauto|auto|intros ->; auto|intros _ ->; reflexivity].
Qed.

Lemma step_response_errored (s : st) e :
  server_state s = Errored -> is_request_event e = false -> handle_event s e = Some (s, []).
Proof. intros Hc He. unfold HttpBody.handle_event. rewrite He, Hc. reflexivity. Qed.

Theorem step_sides (s s' : st) e c :
  handle_event s e = Some (s', c) ->
  (client_state s = WaitHeaders -> request_body_buf s = []) ->
  (server_state s = WaitHeaders -> response_body_buf s = []) ->
  let r := is_request_event e in frame r s s' c /\ outcome r s s' e c.
Proof.
  intros H HQ HS. cbn zeta.
  destruct (is_request_event e) eqn:RQ; [destruct (client_state s) eqn:CS|destruct (server_state s) eqn:SS];
    try (unfold HttpBody.handle_event in H; rewrite RQ, ?CS, ?SS in H; discriminate H).
  - destruct e; try discriminate RQ; try (unfold HttpBody.handle_event in H; rewrite CS in H; discriminate H).
    apply step_wait_request_headers; auto.
  - destruct e; try discriminate RQ.
    + unfold HttpBody.handle_event in H. rewrite CS in H. discriminate H.
    + exact (step_consume_data true s s' d c CS H).
    + apply step_consume_request_eom; auto.
  - apply step_stream_request; auto.
  - rewrite (step_request_errored s e CS RQ) in H. injection H as <- <-.
    split; [|apply OIgnore; auto]. unfold frame. cbn. unfold rejq, rejs, client_content. cbn. intuition congruence.
  - destruct e; try discriminate RQ; try (unfold HttpBody.handle_event in H; rewrite SS in H; discriminate H).
    apply step_wait_response_headers; auto.
  - destruct e; try discriminate RQ.
    + unfold HttpBody.handle_event in H. rewrite SS in H. discriminate H.
    + exact (step_consume_data false s s' d c SS H).
    + apply step_consume_response_eom; auto.
  - apply step_stream_response; auto.
  - rewrite (step_response_errored s e SS RQ) in H. injection H as <- <-.
    split; [|apply OIgnore; auto]. unfold frame. cbn. unfold rejq, rejs, server_content. cbn. intuition congruence.
Qed.
End Steps.
