(* Proofs/Http1Edit.v -- addon edits through Message.set_content keep the framing: afterwards the head carries
   Content-Length = len(raw body) unless a Transfer-Encoding header is present, for every header list, every
   new body and whatever encoding.encode did; hence the edited request is forwarded framing-consistently. *)
From Coq Require Import List Bool NArith ZArith Lia.
From MV Require Import Base.Bytes Proofs.DecOfN Model.Http1Msg Model.BodySizePrelude Gen.BodySize Model.Http1Conn Model.Rfc9112 Model.Http1Edit
  Proofs.Http1Regex Proofs.Http1TeNorm Proofs.Http1Lower Proofs.Http1Framing
  Proofs.Http1Lines Proofs.Http1Chunks Proofs.Http1Roundtrip Proofs.Http1EndToEnd.
Import ListNotations.

Lemma dec_of_N_spec n :
  dec_value (dec_of_N n) 0%N = Some n /\ forallb is_digit (dec_of_N n) = true /\ dec_of_N n <> [].
Proof.
  rewrite (dec_value_digits _ _ (dec_of_N_digits n)), dec_of_N_val. auto using dec_of_N_digits, dec_of_N_nonempty.
Qed.

(* Headers.__setitem__ / __delitem__ against get_all *)
Lemma get_all_hset_go_same key v hs : forall used,
  get_all key (hset_go key v hs used) = if used then [] else [v].
Proof.
  induction hs as [|[n x] hs IH]; intros used; simpl.
  - destruct used; [reflexivity|]. rewrite get_all_cons, bytes_eqb_refl. reflexivity.
  - destruct (bytes_eqb (lower n) (lower key)) eqn:E.
    + destruct used; [apply IH|]. rewrite get_all_cons, E, IH. reflexivity.
    + rewrite get_all_cons, E. apply IH.
Qed.

Lemma get_all_hset_same key v hs : get_all key (hset key v hs) = [v].
Proof. apply (get_all_hset_go_same key v hs false). Qed.

Lemma get_all_hset_go_other key k v hs : bytes_eqb (lower key) (lower k) = false -> forall used,
  get_all k (hset_go key v hs used) = get_all k hs.
Proof.
  intros Hk. induction hs as [|[n x] hs IH]; intros used; simpl.
  - destruct used; [reflexivity|]. rewrite get_all_cons, Hk. reflexivity.
  - rewrite get_all_cons. destruct (bytes_eqb (lower n) (lower key)) eqn:E.
    + apply bytes_eqb_eq in E. rewrite E, Hk. destruct used; [apply IH|]. rewrite get_all_cons, E, Hk. apply IH.
    + rewrite get_all_cons, IH. reflexivity.
Qed.

Lemma get_all_hdel_other key k hs : bytes_eqb (lower key) (lower k) = false ->
  get_all k (hdel key hs) = get_all k hs.
Proof.
  intros Hk. induction hs as [|[n x] hs IH]; simpl; auto.
  rewrite get_all_cons. destruct (bytes_eqb (lower n) (lower key)) eqn:E; simpl.
  - apply bytes_eqb_eq in E. rewrite E, Hk. exact IH.
  - rewrite get_all_cons, IH. reflexivity.
Qed.

Lemma hcontains_false key hs : hcontains key hs = false -> get_all key hs = [].
Proof. unfold hcontains. destruct (get_all key hs); [reflexivity|discriminate]. Qed.

Theorem set_content_refreshes_length enc hs value :
  let '(hs', raw) := set_content enc hs value in
  if hcontains TRANSFER_ENCODING hs'
  then get_all TRANSFER_ENCODING hs' = get_all TRANSFER_ENCODING hs /\ get_all CONTENT_LENGTH hs' = get_all CONTENT_LENGTH hs
  else get_all CONTENT_LENGTH hs' = [dec_of_N (N.of_nat (length raw))]
       /\ forall version is_request, fields_body_length is_request version hs' = Some (BLLen (N.of_nat (length raw))).
Proof.
  unfold set_content.
  set (p := match enc with Some r => (r, hs) | None => (value, hdel CONTENT_ENCODING hs) end).
  assert (Hte : get_all TRANSFER_ENCODING (snd p) = get_all TRANSFER_ENCODING hs
                /\ get_all CONTENT_LENGTH (snd p) = get_all CONTENT_LENGTH hs).
  { destruct enc; simpl; auto. split; apply get_all_hdel_other; reflexivity. }
  destruct p as [raw hs1]. simpl in Hte. destruct Hte as [T C].
  destruct (hcontains TRANSFER_ENCODING hs1) eqn:H.
  - rewrite H. auto.
  - assert (Hn : hcontains TRANSFER_ENCODING (hset CONTENT_LENGTH (dec_of_N (N.of_nat (length raw))) hs1) = false).
    { unfold hcontains. unfold hset. rewrite (get_all_hset_go_other CONTENT_LENGTH TRANSFER_ENCODING) by reflexivity.
      exact H. }
    rewrite Hn. split; [apply get_all_hset_same|].
    intros version is_request. unfold fields_body_length.
    rewrite field_values_te, field_values_cl, (hcontains_false _ _ Hn), get_all_hset_same.
    destruct (dec_of_N_spec (N.of_nat (length raw))) as (V & D & NE).
    apply (ref_cl_single _ _ NE D V).
Qed.

Lemma hset_go_inv key v hs : field_inv (key, v) -> Forall field_inv hs -> forall used,
  Forall field_inv (hset_go key v hs used).
Proof.
  intros Hk. induction 1 as [|[n x] hs Hf _ IH]; intros used; simpl.
  - destruct used; constructor; auto.
  - destruct (bytes_eqb (lower n) (lower key)).
    + destruct used; [apply IH|]. constructor; [|apply IH].
      destruct Hf as (A & _ & _). destruct Hk as (_ & B & C). repeat split; assumption.
    + constructor; [exact Hf | apply IH].
Qed.

Lemma hdel_inv key hs : Forall field_inv hs -> Forall field_inv (hdel key hs).
Proof.
  intros H. rewrite Forall_forall in *. intros f Hin. apply filter_In in Hin as [Hin _]. auto.
Qed.

Theorem edited_request_reads_as_recorded o r enc value :
  Inv_req r ->
  let '(hs', raw) := set_content enc (rq_headers r) value in
  hcontains TRANSFER_ENCODING hs' = false ->
  forwarded_reads_as_recorded o (with_headers r hs') [raw].
Proof.
  intros I. pose proof (set_content_refreshes_length enc (rq_headers r) value) as S.
  destruct (set_content enc (rq_headers r) value) as [hs' raw] eqn:E. intros H. rewrite H in S. destruct S as [Scl Sfb].
  apply forwarded_reads_as_recorded_partial.
  - destruct I as [M T V F]. constructor; try assumption.
    simpl. unfold set_content in E.
    assert (Hcl : forall n, field_inv (CONTENT_LENGTH, dec_of_N n)).
    { intros n. destruct (dec_of_N_spec n) as (_ & Dn & _). repeat split; simpl; [apply digits_clean, Dn | apply trim_digits, Dn]. }
    destruct enc as [e|]; injection E as <- <-.
    + destruct (hcontains TRANSFER_ENCODING (rq_headers r)); [exact F | apply hset_go_inv; auto].
    + destruct (hcontains TRANSFER_ENCODING (hdel CONTENT_ENCODING (rq_headers r)));
        [apply hdel_inv, F | apply hset_go_inv; auto using hdel_inv].
  - unfold framing_matches, request_body_length. simpl rq_headers. simpl rq_version. rewrite Sfb.
    split.
    + unfold send_chunked, hget_default, hget. rewrite (hcontains_false _ _ H). reflexivity.
    + simpl. rewrite app_nil_r. reflexivity.
Qed.
