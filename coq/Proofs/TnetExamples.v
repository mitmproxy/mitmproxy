(* Proofs/TnetExamples.v -- concrete witnesses: non-vacuity of the hypotheses and the input
   that refutes full totality of FlowReader.stream under the handler sets outer_current /
   inner_current (those of io.py up to /repo commit e10908913). *)
From Coq Require Import List Bool Arith NArith ZArith Lia.
From MV Require Import Base.Bytes Model.Tnet Proofs.TnetBase Proofs.TnetRoundtrip Proofs.TnetReader Proofs.TnetTrunc.
Import ListNotations.

(* float(): knows the single literal 1.5 *)
Definition pf_sample (tok : bytes) : option (bytes * option Z) :=
  if bytes_eqb tok [x31; x2e; x35] then Some ([x31; x2e; x35], None) else None.

(* {"version": 21, "k": [1.5, b"\xff", None, True, "e-acute"], "type": "http"} *)
Definition sample : tv :=
  TDict [ (TStr [x76;x65;x72;x73;x69;x6f;x6e], TInt 21);
          (TStr [x6b], TList [TFloat [x31;x2e;x35]; TBytes [xff]; TNull; TBool true; TStr [xc3;xa9]]);
          (TStr [x74;x79;x70;x65], TStr [x68;x74;x74;x70]) ].
Definition sample2 : tv := TDict [ (TStr [x69;x64], TInt (-7)) ].

Lemma samples_wf : wf pf_sample sample /\ wf pf_sample sample2.
Proof.
  cbn [wf sample sample2 fold_right fst snd map]. repeat (split || constructor); cbn [fst snd];
    try (vm_compute; (reflexivity || discriminate)); eexists; vm_compute; reflexivity.
Qed.

Fixpoint nest (n : nat) (v : tv) : tv := match n with O => v | S n' => TList [nest n' v] end.

Lemma nest_S n w : nest (S n) w = nest n (TList [w]).
Proof. induction n as [|n IH]; [reflexivity|]. cbn [nest] in *. now rewrite IH. Qed.

(* every list wrapper costs one pop frame *)
Lemma frames_nest n w : frames (nest n w) = (n + frames w)%nat.
Proof. induction n as [|n IH]; [reflexivity|]. cbn [nest frames fold_right]. now rewrite IH, Nat.max_0_r. Qed.

(* a file whose first record takes more frames than the stack has: load raises RecursionError *)
Lemma stream_too_deep pyfloat outer inner from_state depth v :
  wf pyfloat v -> top_ok v -> (S depth < frames v)%nat ->
  snd (stream pyfloat outer inner from_state depth (dumps v))
  = if outer RecursionError then ReadError else Other RecursionError.
Proof.
  intros W T F. rewrite stream_not_har.
  - cbn [stream_loop]. rewrite <- (app_nil_r (dumps v)), load_dumps_frames by assumption.
    now rewrite (proj2 (Nat.leb_gt _ _)) by exact F.
  - rewrite dumps_is_spec. now destruct (dumps_spec_digit v) as (c & r & -> & Hc).
Qed.

(* the encoded length of nest n w from that of w, computed on numbers, not on the encoding;
   None if a length prefix on the way has more than 4300 digits *)
Fixpoint nest_len (n : nat) (l : N) : option N :=
  match n with
  | O => Some l
  | S n' => if (blen (dec_N l) <=? 4300)%N then nest_len n' (2 + blen (dec_N l) + l) else None
  end.

Lemma nest_len_spec pyfloat n : forall w m, wf pyfloat w -> nest_len n (blen (dumps_spec w)) = Some m ->
  wf pyfloat (nest n w) /\ blen (dumps_spec (nest n w)) = m.
Proof.
  induction n as [|n IH]; intros w m Hw Hl; [split; [exact Hw | now injection Hl]|].
  rewrite nest_S. cbn [nest_len] in Hl.
  destruct (blen (dec_N (blen (dumps_spec w))) <=? 4300)%N eqn:H1; [|discriminate].
  apply IH.
  - cbn [wf payload map concat fold_right]. rewrite app_nil_r. split; [apply N.leb_le; exact H1 | tauto].
  - rewrite dumps_spec_frame, blen_frame. cbn [payload map concat]. rewrite app_nil_r. exact Hl.
Qed.

(* {"m": [[...[]...]]} with 498 brackets: 499 frames with the dict's. 496 = the depth measured for
   CPython at recursion limit 1000; load at depth d has d + 1 frames, so 498 is the least depth
   that reads it (stream_whole asks for height = 499) *)
Definition nofloat (_ : bytes) : option (bytes * option Z) := None.
Definition accept (_ : tv) : option pyexc := None.
Definition deep_list : tv := nest 497 (TList []).
Definition deep : tv := TDict [(TStr [x6d], deep_list)].

Lemma deep_list_ok : wf nofloat deep_list /\ blen (dumps_spec deep_list) = 2752%N.
Proof. apply nest_len_spec; [split; [vm_compute; discriminate | exact I] | vm_compute; reflexivity]. Qed.

Lemma deep_ok : wf nofloat deep /\ top_ok deep.
Proof.
  destruct deep_list_ok as [W L]. unfold deep. revert W L. generalize deep_list. intros v W L.
  assert (P : blen (payload (TDict [(TStr [x6d], v)])) = 2756%N).
  { cbn [payload map rev app concat]. unfold enc_pair. cbn [fst snd]. rewrite app_nil_r, blen_app, L. reflexivity. }
  unfold top_ok. cbn [wf]. unfold len_ok. rewrite P. cbn [fold_right map fst snd distinct_keys].
  repeat split; try assumption; try (vm_compute; (discriminate || lia)); repeat constructor.
Qed.

Lemma recursion_error_escapes :
  snd (stream nofloat outer_current inner_current accept 496 (dumps deep)) = Other RecursionError
  /\ stream nofloat outer_current inner_current accept 499 (file_of [deep]) = ([mirror deep], Clean).
Proof.
  destruct deep_ok as [W T]. split.
  - rewrite stream_too_deep; [reflexivity | exact W | exact T |].
    unfold deep. cbn [frames fold_right fst snd]. unfold deep_list. rewrite frames_nest. cbn. lia.
  - apply stream_whole; [reflexivity | reflexivity |]. constructor; [|constructor].
    split; [exact W|]. split; [exact T|]. split; [vm_compute; lia | split; reflexivity].
Qed.

Lemma samples_loadable : Forall (loadable pf_sample (fun _ => None) 5) [sample; sample2].
Proof.
  destruct samples_wf as [W W2].
  constructor; [|constructor; [|constructor]]; (split; [assumption|]); repeat split; vm_compute; lia.
Qed.
