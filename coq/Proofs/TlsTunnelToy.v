(* Proofs/TlsTunnelToy.v -- the record-layer contract of Proofs/TlsTunnelData.v is satisfiable:
   a null-cipher record layer (every byte is a record, the peer reads what was written)
   satisfies it, and the theorems apply to a concrete run of the model over it. *)
From Coq Require Import List Bool NArith.
From MV Require Import Base.Bytes Model.TlsTunnel Proofs.TlsTunnelBase Proofs.TlsTunnelData.
Import ListNotations.

(* A record whose byte is 0xff is a corrupted record: recv fails on it for ever, and the
   connection object then refuses to send (what OpenSSL does after a fatal record error). *)
Definition is_ff (b : byte) : bool := byte_eqb b xff.
Record toy := mkToy { t_pout : bytes; t_unread : bytes; t_wout : bytes; t_pend : bytes; t_broken : bool }.
Definition toy_bio_write (r : toy) (d : bytes) : toy :=
  mkToy (t_pout r) (t_unread r ++ d) (t_wout r) (t_pend r) (t_broken r).
Definition toy_recv (r : toy) : toy * recv_res :=
  if existsb is_ff (t_unread r) then (mkToy (t_pout r) (t_unread r) (t_wout r) (t_pend r) true, RError)
  else match t_unread r with
       | [] => (r, RWantRead)
       | b => (mkToy (t_pout r ++ b) [] (t_wout r) (t_pend r) (t_broken r), RData b)
       end.
Definition toy_bio_read (r : toy) : toy * option bytes :=
  match t_pend r with
  | [] => (r, None)
  | b => (mkToy (t_pout r) (t_unread r) (t_wout r ++ b) [] (t_broken r), Some b)
  end.
Definition toy_sendall (r : toy) (d : bytes) : toy * send_res :=
  if t_broken r then (r, SRaise)
  else (mkToy (t_pout r) (t_unread r) (t_wout r) (t_pend r ++ d) (t_broken r), SOk).
Definition toy_do_handshake (r : toy) : toy * hs_res := (r, HsDone).
Definition toy_parse_hello (b : bytes) : hello_res := match b with [] => HelloIncomplete | _ => HelloOk end.

Definition toy_win (r : toy) := t_pout r ++ t_unread r.
Definition toy_pin (r : toy) := t_wout r ++ t_pend r.
(* the null cipher: plain and peer_plain are the identity *)
Definition idb (b : bytes) := b.
Definition toy_bad (w : bytes) : Prop := existsb is_ff w = true.

Lemma toy_bio_write_spec r d :
  toy_win (toy_bio_write r d) = toy_win r ++ d /\ t_pout (toy_bio_write r d) = t_pout r /\
  toy_pin (toy_bio_write r d) = toy_pin r /\ t_wout (toy_bio_write r d) = t_wout r.
Proof. unfold toy_win, toy_pin; simpl. rewrite app_assoc. auto. Qed.
Lemma toy_recv_spec r :
  toy_win (fst (toy_recv r)) = toy_win r /\ toy_pin (fst (toy_recv r)) = toy_pin r /\
  t_wout (fst (toy_recv r)) = t_wout r /\
  match snd (toy_recv r) with
  | RData b => b <> [] /\ t_pout (fst (toy_recv r)) = t_pout r ++ b
  | RWantRead => t_pout (fst (toy_recv r)) = t_pout r /\ t_pout r = idb (toy_win r) /\ false = false
  | RZeroReturn => t_pout (fst (toy_recv r)) = t_pout r /\ t_pout r = idb (toy_win r) /\ false = true
  | RError => t_pout (fst (toy_recv r)) = t_pout r /\ toy_bad (toy_win r)
  | RRaise => True
  end.
Proof.
  unfold toy_recv, toy_win, toy_pin, idb, toy_bad. destruct (existsb is_ff (t_unread r)) eqn:Eb; simpl.
  - repeat split; auto. rewrite existsb_app, Eb. apply orb_true_r.
  - destruct (t_unread r) eqn:E; simpl; rewrite ?E, ?app_nil_r.
    + auto 6.
    + repeat split; auto. discriminate.
Qed.
Lemma toy_bio_read_spec r :
  toy_win (fst (toy_bio_read r)) = toy_win r /\ t_pout (fst (toy_bio_read r)) = t_pout r /\
  toy_pin (fst (toy_bio_read r)) = toy_pin r /\
  match snd (toy_bio_read r) with
  | Some b => t_wout (fst (toy_bio_read r)) = t_wout r ++ b
  | None => t_wout (fst (toy_bio_read r)) = t_wout r /\ idb (t_wout r) = toy_pin r
  end.
Proof.
  unfold toy_bio_read, toy_win, toy_pin, idb. destruct (t_pend r) eqn:E; simpl; rewrite ?E, ?app_nil_r; auto.
Qed.
Lemma toy_sendall_spec r d :
  toy_win (fst (toy_sendall r d)) = toy_win r /\ t_pout (fst (toy_sendall r d)) = t_pout r /\
  t_wout (fst (toy_sendall r d)) = t_wout r /\
  match snd (toy_sendall r d) with
  | SOk => toy_pin (fst (toy_sendall r d)) = toy_pin r ++ d
  | SZeroReturn | SSysCall => toy_pin (fst (toy_sendall r d)) = toy_pin r
  | SRaise => True
  end.
Proof. unfold toy_sendall, toy_win, toy_pin. destruct (t_broken r); simpl; rewrite ?app_assoc; auto. Qed.

(* a child that echoes application data and logs what it got *)
Definition echo_child (log : list event) (e : event) : list event * list cmd * bool :=
  (log ++ [e], match e with EData c d => [CSend c d] | _ => [] end, false).

Definition toy_cfg : cfg := mkCfg Client true false true 50.
Definition toy_run :=
  run toy toy_bio_write toy_recv toy_bio_read toy_sendall toy_do_handshake toy_parse_hello (list event) echo_child toy_cfg.
Definition toy_init : st toy (list event) := init (mkToy [] [] [] [] false) [] [].
Definition hello_evs : list event := [EStart; EOther 7; EData Client [x16; x03; x01]].
Definition app_evs : list event :=
  [EData Client [x61]; EOther 1; EData Client [x62; x63]; EData Server [x7a]; EData Client []; EData Client [x64]].

Definition toy_inbound :=
  inbound_transparent toy toy_bio_write toy_recv toy_bio_read toy_sendall toy_do_handshake toy_parse_hello
    (list event) echo_child toy_cfg toy_win t_pout toy_pin t_wout idb (fun _ => false) toy_bad idb
    toy_bio_write_spec toy_recv_spec toy_bio_read_spec toy_sendall_spec.
Definition toy_outbound :=
  outbound_transparent toy toy_bio_write toy_recv toy_bio_read toy_sendall toy_do_handshake toy_parse_hello
    (list event) echo_child toy_cfg toy_win t_pout toy_pin t_wout idb (fun _ => false) toy_bad idb
    toy_bio_write_spec toy_recv_spec toy_bio_read_spec toy_sendall_spec.

(* The known finding as a fact about the model: after a corrupted record (recv raised
   SSL.Error, which receive_data logs and ignores) the next SendData of the child makes
   sendall raise, send_data does not catch it, the layer dies and the bytes never leave. *)
Definition talk_child (log : list event) (e : event) : list event * list cmd * bool :=
  (log ++ [e], match e with EOther _ => [CSend Client [x68; x69]] | _ => [] end, false).
Definition talk_run :=
  run toy toy_bio_write toy_recv toy_bio_read toy_sendall toy_do_handshake toy_parse_hello (list event) talk_child toy_cfg.
Definition broken_evs : list event := [EData Client [xff]; EOther 1].
Theorem toy_send_after_error :
  let s := fst (talk_run toy_init [EStart; EData Client [x16]]) in
  let s' := fst (talk_run s broken_evs) in
  let tr := snd (talk_run s broken_evs) in
  crashed s = None /\ tunnel_state s = OPEN /\ has_tls s = true /\ errored s = false /\
  child_sends Client tr = [x68; x69] /\ has_open Client tr = false /\ drops tr = 0 /\
  crashed s' = Some SendRaise /\ sent_wire Client tr = [] /\ toy_bad (toy_win (tls s')).
Proof. vm_compute. repeat split; reflexivity. Qed.
