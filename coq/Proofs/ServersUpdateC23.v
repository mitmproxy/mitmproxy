(* Proofs/ServersUpdateC23.v -- C23: the registry of running listeners (Model/ServersUpdate.v) under
   histories of mode updates, and its composition with the self-connect guard (Gen/SelfConnect.v). *)
From Coq Require Import NArith List Bool Lia String.
From MV Require Import Base.Bytes Model.SelfConnectBase Model.SelfSpec Gen.SelfConnect Model.ServersUpdate Proofs.ListFacts Proofs.SelfConnectC23.
Import ListNotations.
Open Scope N_scope.

Lemma lookup_in : forall spec reg i, lookup spec reg = Some i -> In (spec, i) reg.
Proof.
  induction reg as [|[s j] r IH]; intros i H; cbn [lookup] in H; [discriminate|].
  destruct (s =? spec) eqn:E.
  - apply N.eqb_eq in E. inversion H. subst. left. reflexivity.
  - right. apply IH. exact H.
Qed.

Lemma lookup_none_mem : forall spec reg, lookup spec reg = None -> mem spec (map fst reg) = false.
Proof.
  induction reg as [|[s j] r IH]; intros H; cbn [lookup] in H; cbn [map fst mem existsb]; [reflexivity|].
  destruct (s =? spec) eqn:E; [discriminate|].
  rewrite N.eqb_sym, E. cbn [orb]. apply IH. exact H.
Qed.

Definition build_reg (reg : registry) modes n mk fails : registry := fst (fst (build reg modes n mk fails)).

Lemma build_reg_cons : forall reg spec rest n mk fails, exists j n',
  build_reg reg (spec :: rest) n mk fails = (spec, j) :: build_reg reg rest n' mk fails
  /\ forall i, lookup spec reg = Some i -> j = i.
Proof.
  intros. unfold build_reg. cbn [build]. destruct (lookup spec reg) as [i|].
  - exists i, n. destruct (build reg rest n mk fails) as [[r m] ok].
    split; [reflexivity|]. intros i' [= ->]. reflexivity.
  - eexists _, (n + 1). destruct (build reg rest (n + 1) mk fails) as [[r m] ok].
    split; [reflexivity | discriminate].
Qed.

(* a spec that was registered is in the new registry exactly when it is in the new mode list, and then with
   ITS instance, whatever happens to the others *)
Lemma lookup_build : forall reg modes n mk fails spec i, lookup spec reg = Some i ->
  lookup spec (build_reg reg modes n mk fails) = if mem spec modes then Some i else None.
Proof.
  induction modes as [|s rest IH]; intros n mk fails spec i Hl; [reflexivity|].
  destruct (build_reg_cons reg s rest n mk fails) as (j & n' & -> & Hj).
  cbn [lookup mem existsb]. rewrite (N.eqb_sym spec s). destruct (s =? spec) eqn:E.
  - apply N.eqb_eq in E. subst s. rewrite (Hj i Hl). reflexivity.
  - apply IH, Hl.
Qed.

Lemma mem_In : forall spec l, In spec l -> mem spec l = true.
Proof. intros spec l. apply (existsb_eqb_In _ N.eqb_eq). Qed.

Lemma update_reg_cases : forall reg on modes n mk fails,
  r_reg (update reg on modes n mk fails) = reg
  \/ (r_reg (update reg on modes n mk fails) = (if on then build_reg reg modes n mk fails else [])
      /\ r_stopped (update reg on modes n mk fails)
         = map snd (filter (fun p => negb (mem (fst p) (map fst (if on then build_reg reg modes n mk fails else [])))) reg)).
Proof.
  intros. unfold update, build_reg. destruct on.
  - destruct (build reg modes n mk fails) as [[r m] ok]. cbn [fst].
    destruct ((m =? n) && _); [left; reflexivity|right; split; reflexivity].
  - destruct ((n =? n) && _); [left; reflexivity|right; split; reflexivity].
Qed.

Theorem kept_stays : forall reg modes n mk fails spec i,
  lookup spec reg = Some i -> In spec modes ->
  lookup spec (r_reg (update reg true modes n mk fails)) = Some i.
Proof.
  intros reg modes n mk fails spec i Hl Hin.
  destruct (update_reg_cases reg true modes n mk fails) as [H|[H _]]; rewrite H; [exact Hl|].
  rewrite (lookup_build _ _ _ _ _ _ _ Hl), (mem_In _ _ Hin). reflexivity.
Qed.

Theorem never_replaced : forall reg on modes n mk fails spec i j,
  lookup spec reg = Some i -> lookup spec (r_reg (update reg on modes n mk fails)) = Some j -> j = i.
Proof.
  intros reg on modes n mk fails spec i j Hl H.
  destruct (update_reg_cases reg on modes n mk fails) as [E|[E _]]; rewrite E in H.
  - rewrite Hl in H. inversion H. reflexivity.
  - destruct on; [|discriminate]. rewrite (lookup_build _ _ _ _ _ _ _ Hl) in H.
    destruct (mem spec modes); inversion H. reflexivity.
Qed.

(* only stopped instances leave the registry; a spec in the new mode list never leaves *)
Theorem only_stopped_leave : forall reg on modes n mk fails spec i,
  lookup spec reg = Some i -> lookup spec (r_reg (update reg on modes n mk fails)) = None ->
  In i (r_stopped (update reg on modes n mk fails)) /\ (on = false \/ ~ In spec modes).
Proof.
  intros reg on modes n mk fails spec i Hl H.
  destruct (update_reg_cases reg on modes n mk fails) as [E|[E S]].
  - rewrite E, Hl in H. discriminate.
  - rewrite E in H. split.
    + rewrite S. apply in_map_iff. exists (spec, i). split; [reflexivity|].
      apply filter_In. split; [apply lookup_in; exact Hl|]. cbn [fst].
      apply negb_true_iff. exact (lookup_none_mem _ _ H).
    + destruct on; [right|left; reflexivity]. intros Hin.
      rewrite (lookup_build _ _ _ _ _ _ _ Hl), (mem_In _ _ Hin) in H. discriminate.
Qed.

(* over histories: as long as the server option is on and the spec stays in the mode list, the same
   instance stays registered through every update -- whatever is added, fails or is removed around it *)
Theorem kept_through_history : forall h reg n spec i,
  lookup spec reg = Some i ->
  (forall s, In s h -> s_server_on s = true /\ In spec (s_modes s)) ->
  forall res, In res (run_updates reg n h) -> lookup spec (r_reg res) = Some i.
Proof.
  induction h as [|s r IH]; intros reg n spec i Hl Hall res Hin; [destruct Hin|].
  cbn [run_updates] in Hin.
  destruct (Hall s (or_introl eq_refl)) as [Hon Hm].
  assert (K : lookup spec (r_reg (update reg (s_server_on s) (s_modes s) n (s_mk s) (s_fails s))) = Some i).
  { rewrite Hon. apply kept_stays; assumption. }
  destruct Hin as [Hin|Hin]; [subst res; exact K|].
  eapply IH; [exact K| |exact Hin]. intros s' Hs'. apply Hall. right. exact Hs'.
Qed.

(* composition with the guard: a destination on a kept listener is still refused after the update *)
Theorem kept_listener_guarded : forall reg modes n mk fails spec i la ch ct,
  lookup spec reg = Some i -> In spec modes ->
  In la (listen_addrs (i_server i)) -> recognised ch (fst la) ->
  transport_compatible (mode_transport (i_server i)) ct ->
  server_connect (servers_of (r_reg (update reg true modes n mk fails))) ch (snd la) ct = Some error_message.
Proof.
  intros reg modes n mk fails spec i la ch ct Hl Hin Hla Hr Ht.
  apply exact. exists (i_server i), la.
  split; [|auto].
  unfold servers_of. apply in_map_iff. exists (spec, i). split; [reflexivity|].
  apply lookup_in. apply kept_stays; assumption.
Qed.

(* non-vacuity: keep one running instance, add one whose start fails: the kept one is still there,
   the failed one is registered without listen addresses, the update reports failure *)
Definition sv (p : N) : server := {| mode_transport := TCP; listen_addrs := [(s_127_0_0_1, p)] |}.
Definition reg0 : registry := r_reg (update [] true [1] 0 (fun _ => sv 8080) (fun _ => false)).

Theorem update_nonvacuous :
  let res := update reg0 true [1; 2] 1 (fun _ => sv 9090) (fun s => s =? 2) in
  lookup 1 reg0 = Some {| i_id := 0; i_running := true; i_server := sv 8080 |}
  /\ lookup 1 (r_reg res) = lookup 1 reg0
  /\ option_map i_running (lookup 2 (r_reg res)) = Some false
  /\ r_ok res = false /\ r_stopped res = []
  /\ server_connect (servers_of (r_reg res)) s_localhost 8080 TCP = Some error_message
  /\ server_connect (servers_of (r_reg res)) s_localhost 9090 TCP = None
  /\ r_stopped (update (r_reg res) true [2] 2 (fun _ => sv 9090) (fun _ => false))
     = [{| i_id := 0; i_running := true; i_server := sv 8080 |}].
Proof. repeat split; vm_compute; reflexivity. Qed.
