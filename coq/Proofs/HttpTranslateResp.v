(* Proofs/HttpTranslateResp.v -- C06, response direction HTTP/2 -> HTTP/1: every response header block that the h2
   contract and mitmproxy accept is written to the HTTP/1 client as exactly one response with the same status, fields
   and body, framed by Content-Length or by closing the connection. *)
From Coq Require Import List Bool NArith ZArith Lia.
From MV Require Import Base.Bytes Model.Http1Msg Model.Rfc9112 Model.HttpTranslate Gen.StatusReasons
  Proofs.DecOfN Proofs.Http1Lines Proofs.Http1Roundtrip Proofs.Http1Chunks Proofs.HttpTranslateBase Proofs.HttpTranslateReq.
Import ListNotations.

(* every reason phrase of the table passes, checked once by evaluation; reason_of only looks one up *)
Definition reason_ok (r : bytes) : bool := forallb is_reason_char r && clean r.

Lemma reasons_table_ok : forallb (fun e => reason_ok (snd e)) RESPONSES = true.
Proof. vm_compute. reflexivity. Qed.

Lemma reason_of_ok st : reason_ok (reason_of st RESPONSES) = true.
Proof.
  pose proof reasons_table_ok as T. induction RESPONSES as [|[c r] t IH]; [reflexivity|].
  cbn [forallb snd] in T. apply andb_true_iff in T as [T1 T2]. cbn [reason_of].
  destruct (Z.eqb c st); [exact T1 | apply IH; exact T2].
Qed.

Record Inv_resp (r : response_head) : Prop := {
  iv_version : rs_version r = V_HTTP11;
  iv_status : (100 <= rs_status r <= 999)%Z;
  iv_reason : reason_ok (rs_reason r) = true;
  iv_fields : Forall field_inv (rs_headers r) }.

Lemma status_line_props r : Inv_resp r ->
  clean (_assemble_response_line r) = true /\ _assemble_response_line r <> []
  /\ parse_status_line (_assemble_response_line r) = Some (V_HTTP11, Z.to_N (rs_status r), rs_reason r).
Proof.
  intros [V S R _]. unfold _assemble_response_line. rewrite V, dec_of_Z_nonneg by lia.
  pose proof (dec_of_N_digits (Z.to_N (rs_status r))) as D. pose proof (dec_of_N_val (Z.to_N (rs_status r))) as VAL.
  destruct (dec_of_N_three (Z.to_N (rs_status r))) as (d1 & d2 & d3 & E); [lia|]. rewrite E in *.
  unfold reason_ok in R. apply andb_true_iff in R as [R1 R2].
  split; [|split].
  - rewrite !clean_app, (digits_clean _ D), R2. reflexivity.
  - discriminate.
  - cbn [forallb] in D. apply andb_true_iff in D as [D1 D]. apply andb_true_iff in D as [D2 D].
    apply andb_true_iff in D as [D3 _]. cbn [app V_HTTP11 parse_status_line]. rewrite D1, D2, D3, R1. cbn [dec_val] in VAL.
    replace ((bN d1 - 48) * 100 + (bN d2 - 48) * 10 + (bN d3 - 48))%N with (Z.to_N (rs_status r)) by lia. reflexivity.
Qed.

Theorem head_roundtrip_response o r rest : Inv_resp r ->
  parse_response_head o (assemble_response_head r ++ rest)
  = POk (V_HTTP11, Z.to_N (rs_status r), rs_reason r, rs_headers r, rest).
Proof.
  intros I. destruct (status_line_props r I) as (C0 & N0 & P0). destruct I as [_ _ _ F].
  unfold assemble_response_head, parse_response_head.
  destruct (head_wire o _ _ rest C0 N0 F) as (raws & -> & -> & ->).
  change (clean_line o [rCR]) with (Some (@nil byte)). rewrite P0. reflexivity.
Qed.

Lemma parse_resp_spec h st fields : parse_h2_response_headers h = Some (st, fields) ->
  exists q, h = q ++ fields /\ Forall (fun x => is_pseudo (fst x) = true) q.
Proof.
  unfold parse_h2_response_headers. intros H.
  destruct (split_pseudo_headers h []) as [[pseudo fs]|] eqn:S; [|discriminate].
  destruct (split_pseudo_spec _ _ _ _ S) as (q & E1 & E2 & F & _). cbn [app] in E1. subst pseudo.
  destruct (dict_pop P_STATUS q) as [[s|] p1]; [|discriminate].
  destruct (py_int_ws s); [|discriminate]. destruct p1; [|discriminate]. injection H as <- <-.
  exists q. auto.
Qed.

(* the body length a client works out from the request method and the status *)
(* a body is not allowed: HEAD, 1xx / 204 / 304, or a successful CONNECT (complement of the finding
   body-after-bodiless-response) *)
Definition bodiless (m : bytes) (st : Z) : bool :=
  bytes_eqb m HEAD || no_body_status st || ((Z.leb 200 st && Z.leb st 299) && bytes_eqb m CONNECT).

Lemma N_leb_Z a b : (a <=? b)%N = (Z.of_N a <=? Z.of_N b)%Z.
Proof. unfold N.leb, Z.leb. rewrite N2Z.inj_compare. reflexivity. Qed.

Lemma N_eqb_Z a b : (a =? b)%N = (Z.of_N a =? Z.of_N b)%Z.
Proof. destruct (N.eqb_spec a b) as [->|N]; symmetry; [apply Z.eqb_refl | apply Z.eqb_neq; lia]. Qed.

Lemma response_length m st v fs : (0 <= st)%Z ->
  response_body_length m (Z.to_N st) v fs
  = if bytes_eqb m HEAD || no_body_status st then Some BLZero
    else if (Z.leb 200 st && Z.leb st 299) && bytes_eqb m CONNECT then Some BLTunnel
    else fields_body_length false v fs.
Proof.
  intros H. unfold response_body_length, no_body_status. rewrite !N_leb_Z, !N_eqb_Z, Z2N.id by exact H.
  change r_HEAD with HEAD. change r_CONNECT with CONNECT.
  destruct (bytes_eqb m HEAD); [reflexivity|]. destruct (_ && _); [reflexivity|]. destruct (_ || _); [reflexivity|].
  cbn [orb]. rewrite andb_comm. reflexivity.
Qed.

Theorem down_response_one_message m h body out c :
  down_response m h body None = OForward out c ->
  exists st fields, parse_h2_response_headers h = Some (st, fields) /\
    ((100 <= st <= 999)%Z -> upper m = m -> length_guard (Some m) h body ->
     (bodiless m st = true -> content_of body = []) ->
     forall o, parse_response o m out
       = POk (mkRefResp V_HTTP11 (Z.to_N st) (reason_of st RESPONSES) fields (content_of body) [] c, [])).
Proof.
  unfold down_response. intros H.
  destruct (h2_validate true false h) eqn:V; [|discriminate]. cbn [negb] in H.
  destruct (h2_expected_length (Some m) h) as [expected|] eqn:EL; [|discriminate].
  destruct (is_informational h); [discriminate|].
  destruct (h2_length_ok expected body false) eqn:LO; [|discriminate]. cbn [negb] in H.
  destruct (parse_h2_response_headers h) as [[st fields]|] eqn:P; [|discriminate].
  destruct (validate_headers fields) eqn:VR; try discriminate.
  injection H as <- <-. exists st, fields. split; [reflexivity|]. intros ST UP LG BG o.
  fold (content_of body). unfold h1_response_bytes.
  destruct (parse_resp_spec h st fields P) as (q & Eh & Fq).
  destruct (accepted_fields h q fields (h2_validate_all _ _ _ V) Eh Fq VR) as (F0 & NoTE & XL & CLs).
  set (r := h1_of_h2_response st fields).
  assert (INV : Inv_resp r) by (constructor; [reflexivity | exact ST | apply reason_of_ok | exact (Forall_impl _ sendable_inv F0)]).
  unfold parse_response. rewrite (head_roundtrip_response o r (content_of body) INV).
  cbn [r h1_of_h2_response rs_status rs_reason rs_headers].
  (* no body where HTTP/1 allows none *)
  rewrite response_length by lia. unfold until_close, bodiless in *. rewrite UP.
  destruct (bytes_eqb m HEAD) eqn:MH, (no_body_status st), ((Z.leb 200 st && Z.leb st 299) && bytes_eqb m CONNECT);
    cbn [orb negb andb] in *; try (rewrite (BG eq_refl); reflexivity).
  (* otherwise the body follows the head as it is, and the content-length field, if any, gives its length *)
  unfold length_guard, h2_expected_length in *. rewrite MH, XL in *.
  rewrite EL in LG.
  destruct (framed_body o false fields expected body NoTE CLs EL LO LG) as (bl & -> & -> & ->); [discriminate|].
  reflexivity.
Qed.
