(* Proofs/QuicDemuxWrite.v -- write discipline: once a FIN or reset has been sent on a stream,
   nothing more is written to it (CAN_WRITE of the virtual connection is the witness). *)
From Coq Require Import NArith Arith List Bool Lia.
From MV Require Import Base.Bytes Model.QuicIdsPrelude Gen.QuicIds Model.QuicDemux
  Proofs.QuicIds Proofs.QuicDemuxCore Proofs.QuicDemuxInv Proofs.QuicDemuxRun.
Import ListNotations.
Open Scope N_scope.

Definition side_eqb (a b : side) : bool := match a, b with Cl, Cl | Sv, Sv => true | _, _ => false end.
Lemma side_eqb_eq a b : side_eqb a b = true <-> a = b.
Proof. destruct a, b; cbn; split; congruence. Qed.

(* o writes to (is a STREAM or RESET_STREAM frame on) side s of layer L *)
Definition writes (o : out) (L : nat) (s : side) : bool :=
  match o with
  | OSend L' s' _ _ _ | OReset L' s' _ _ => Nat.eqb L L' && side_eqb s s'
  | _ => false
  end.
(* o ends the sending direction of side s of layer L *)
Definition closes (o : out) (L : nat) (s : side) : bool :=
  match o with
  | OSend L' s' _ _ true | OReset L' s' _ _ => Nat.eqb L L' && side_eqb s s'
  | _ => false
  end.
Definition closed_in (os : list out) (L : nat) (s : side) : bool := existsb (fun o => closes o L s) os.

(* os is newest first *)
Fixpoint wf_outs (os : list out) : Prop :=
  match os with
  | [] => True
  | o :: rest => wf_outs rest /\ forall L s, writes o L s = true -> closed_in rest L s = false
  end.

Lemma closes_writes o L s : closes o L s = true -> writes o L s = true.
Proof. destruct o; cbn; auto. destruct fin; auto. discriminate. Qed.

Lemma closes_target C (st : state C) o L s : target C st o -> closes o L s = true -> exists id, has_id C st L s id.
Proof.
  intros Ht Hc. destruct o as [L2 s2 i2 d2 [|]|L2 s2 i2 c2| | |]; cbn in Hc; try discriminate.
  all: apply andb_true_iff in Hc as [A B]; apply Nat.eqb_eq in A; apply side_eqb_eq in B; subst; eauto.
Qed.

Lemma wf_outs_app a o b L s : wf_outs (a ++ o :: b) -> closes o L s = true ->
  forall o', In o' a -> writes o' L s = false.
Proof.
  induction a as [|x t IH]; intros Hwf Hc o' Hin; [destruct Hin|].
  cbn in Hwf. destruct Hwf as [Hw Hx]. destruct Hin as [->|Hin]; [|eapply IH; eauto].
  destruct (writes o' L s) eqn:E; auto.
  specialize (Hx L s E). unfold closed_in in Hx. rewrite existsb_app in Hx. cbn in Hx.
  rewrite Hc in Hx. rewrite orb_true_r in Hx. discriminate.
Qed.

Section Write.
Variable C : Type.
Variable child_step : C -> connst * connst -> cevent -> C * list ccmd.
Variable new_child : nat -> C.
Notation state := (state C).
Notation Inv := (Inv C).

Definition WD (st : state) : Prop :=
  wf_outs (outs st) /\
  forall L l s, nth_error (layers st) L = Some l -> closed_in (outs st) L s = true -> can_write (conn_of s l) = false.
Definition Disciplined (st : state) : Prop := Inv st /\ WD st.

(* a layer changes without making any connection writable again *)
Lemma WD_upd L f st : (forall l s, can_write (conn_of s l) = false -> can_write (conn_of s (f l)) = false) ->
  WD st -> WD (upd_layer C L f st).
Proof.
  intros Hf [Hw Hc]. split; [exact Hw|].
  intros L' l' s Hn Hcl. unfold upd_layer in Hn; cbn in Hn. rewrite nth_upd in Hn.
  destruct (Nat.eqb L L'); [|eapply Hc; eauto].
  destruct (nth_error (layers st) L') as [l|] eqn:E; cbn in Hn; [|discriminate].
  inversion Hn; subst l'. apply Hf. eapply Hc; eauto.
Qed.

Lemma WD_fail e st : WD st -> WD (fail C e st).
Proof. intros H; exact H. Qed.

Lemma WD_push_quiet o st : (forall L s, writes o L s = false) -> WD st -> WD (push C o st).
Proof.
  intros Hq [Hw Hc]. split; cbn.
  - split; auto. intros L s E. rewrite Hq in E; discriminate.
  - intros L l s Hn Hcl. unfold closed_in in Hcl; cbn in Hcl.
    destruct (closes o L s) eqn:E; [apply closes_writes in E; rewrite Hq in E; discriminate|].
    eapply Hc; eauto.
Qed.

Lemma conn_set_conn_same s g (l : slayer C) : conn_of s (set_conn C s g l) = g (conn_of s l).
Proof. destruct s; reflexivity. Qed.
Lemma conn_set_conn_other s s' g (l : slayer C) : s <> s' -> conn_of s' (set_conn C s g l) = conn_of s' l.
Proof. destruct s, s'; try reflexivity; intros H; exfalso; apply H; reflexivity. Qed.

Lemma WD_set_conn L s g st : (forall c, can_write c = false -> can_write (g c) = false) -> WD st ->
  WD (upd_layer C L (set_conn C s g) st).
Proof.
  intros Hg. apply WD_upd. intros l s' H. destruct s, s'; cbn in *; auto.
Qed.

Lemma open_not_closed st L l s : WD st -> nth_error (layers st) L = Some l -> can_write (conn_of s l) = true ->
  closed_in (outs st) L s = false.
Proof.
  intros [_ Hc] Hn Hw. destruct (closed_in (outs st) L s) eqn:E; [|reflexivity].
  rewrite (Hc L l s Hn E) in Hw. discriminate.
Qed.

(* a write to (L, s), which is not closed so far; if it closes (L, s), CAN_WRITE has been cleared *)
Lemma WD_push_write st o L s : WD st -> (forall L' s', writes o L' s' = true -> L' = L /\ s' = s) ->
  closed_in (outs st) L s = false ->
  (closes o L s = true -> forall l, nth_error (layers st) L = Some l -> can_write (conn_of s l) = false) ->
  WD (push C o st).
Proof.
  intros [Hw Hc] Hwr Hnc Hcl. split; cbn.
  - split; auto. intros L' s' E. destruct (Hwr L' s' E) as [-> ->]. exact Hnc.
  - intros L' l' s' Hn Hx. unfold closed_in in Hx; cbn in Hx. destruct (closes o L' s') eqn:E.
    + destruct (Hwr L' s' (closes_writes _ _ _ E)) as [-> ->]. eapply Hcl; eauto.
    + eapply Hc; eauto.
Qed.

(* SendData / the FIN of a close, through any filter (the reset wrapper may turn the FIN into a reset) *)
Lemma WD_emit_write w st L s id d fin : WD st -> closed_in (outs st) L s = false ->
  (fin = true -> forall l, nth_error (layers st) L = Some l -> can_write (conn_of s l) = false) ->
  WD (emit C w L (OSend L s id d fin) st).
Proof.
  intros H Hnc Hcl.
  assert (At : forall L' s', Nat.eqb L' L && side_eqb s' s = true -> L' = L /\ s' = s).
  { intros L' s' E. apply andb_true_iff in E as [A B]. apply Nat.eqb_eq in A. apply side_eqb_eq in B. auto. }
  destruct (emit_cases C w L (OSend L s id d fin) st) as [E|[E|(L' & to & id' & d' & code & Eo & E)]]; rewrite E; auto.
  - apply (WD_push_write st (OSend L s id d fin) L s H At Hnc). cbn. destruct fin; [auto | discriminate].
  - inversion Eo; subst. apply (WD_push_write st (OReset L' to id' code) L' to H At Hnc). auto.
Qed.

Lemma WD_emit_quiet w L o st : (forall L' s, writes o L' s = false) -> WD st -> WD (emit C w L o st).
Proof.
  intros Hq H. destruct (emit_cases C w L o st) as [E|[E|(L' & to & id & d & code & -> & E)]]; rewrite E; auto.
  - apply WD_push_quiet; auto.
  - specialize (Hq L' to). cbn in Hq. rewrite Nat.eqb_refl in Hq. destruct to; discriminate.
Qed.

Lemma closed_has_id st L s : Inv st -> closed_in (outs st) L s = true -> exists id, has_id C st L s id.
Proof.
  intros [HA _] Hx. unfold closed_in in Hx. apply existsb_exists in Hx. destruct Hx as (o & Hin & Hcl).
  pose proof (inv_outs _ _ HA) as Ht. rewrite Forall_forall in Ht. exact (closes_target C st o L s (Ht o Hin) Hcl).
Qed.

Lemma Disciplined_etc fuel w L ev st : Disciplined st -> Disciplined (etc C child_step fuel w L ev st).
Proof.
  apply (etc_P C child_step Disciplined w L).
  - intros s c [H1 H2]. split; [apply Inv_upd; auto; apply keeps_set_cst|]. apply WD_upd; auto.
  - intros s sd [H1 H2]. split; [apply Inv_upd; auto; apply keeps_set_conn|]. apply WD_set_conn; auto.
  - intros s sd [H1 H2]. split; [apply Inv_upd; auto; apply keeps_set_conn|]. apply WD_set_conn; auto.
  - intros s e [H1 H2] _. split; [apply Inv_fail, H1 | exact H2].
  - intros s l n [H1 H2] Hl. split; [|apply WD_emit_quiet; auto].
    apply Inv_emit; auto. cbn. apply nth_error_Some. congruence.
  - intros s l sd id d [H1 H2] Hl Hi Hw. split; [apply Inv_emit; auto; exists l; auto|].
    apply (WD_emit_write w s L sd id d false H2 (open_not_closed s L l sd H2 Hl Hw)). discriminate.
  - intros s l sd id [H1 H2] Hl Hi Hw.
    set (s' := upd_layer C L (set_conn C sd (set_write false)) s).
    split.
    + apply Inv_emit; [apply Inv_upd; auto; apply keeps_set_conn|].
      apply has_id_upd; [apply keeps_set_conn | exists l; auto].
    + apply (WD_emit_write w s' L sd id [] true (WD_set_conn L sd (set_write false) s (fun c _ => eq_refl) H2) (open_not_closed s L l sd H2 Hl Hw)).
      intros _ l' Hn. unfold s', upd_layer in Hn; cbn in Hn. rewrite nth_upd, Nat.eqb_refl, Hl in Hn.
      inversion Hn; subst l'. rewrite conn_set_conn_same. reflexivity.
  - intros s l sd id [H1 H2] Hl Hi. split; [apply Inv_emit; auto; exists l; auto | apply WD_emit_quiet; auto].
  - intros s l id nx [H1 H2] Hl Hs Hg. split; [eapply Inv_open; eauto|].
    destruct H2 as [Hw Hc]. split; [exact Hw|].
    intros L' l' sx Hn Hx. cbn in Hn, Hx. unfold open_server_stream, upd_layer in Hn; cbn in Hn. rewrite nth_upd in Hn.
    destruct (Nat.eqb_spec L L') as [<-|_]; [|eapply Hc; eauto].
    rewrite Hl in Hn; cbn in Hn. inversion Hn; subst l'.
    destruct sx; [cbn; eapply (Hc L l Cl); eauto|].
    (* a closing command for (L, Sv) would need a server id *)
    destruct (closed_has_id s L Sv H1 Hx) as (i & l2 & E2 & Hk). rewrite Hl in E2. inversion E2; subst l2. cbn in Hk. congruence.
Qed.

Lemma not_closed_beyond st L s : Inv st -> (length (layers st) <= L)%nat -> closed_in (outs st) L s = false.
Proof.
  intros HI Hle. destruct (closed_in (outs st) L s) eqn:E; [|reflexivity].
  destruct (closed_has_id st L s HI E) as (i & Hh). apply has_id_lt in Hh. lia.
Qed.

Lemma Disciplined_create from id st L st2 : Disciplined st ->
  dict_get id (match from with Cl => client_ids st | Sv => server_ids st end) = None ->
  negb (Bool.eqb (stream_is_client_initiated id) (is_cl from)) = false ->
  create_layer C new_child from id st = Some (L, st2) -> Disciplined st2.
Proof.
  intros [H1 [Hw Hc]] Eg Ei Ec.
  destruct (create_shape C new_child from id st L st2 Ec) as (HL & Ho & _ & (l' & Hl) & _).
  split; [eapply Inv_create; eauto|]. split; rewrite Ho; auto.
  intros L' l'' s Hn Hx. rewrite Hl in Hn.
  destruct (Nat.lt_ge_cases L' (length (layers st))) as [Hlt|Hge].
  - rewrite nth_error_app1 in Hn by auto. eapply Hc; eauto.
  - rewrite (not_closed_beyond st L' s H1 Hge) in Hx. discriminate.
Qed.

Theorem Disciplined_run evs : Disciplined (run C child_step new_child evs).
Proof.
  apply (run_keeps C child_step new_child Disciplined (fun _ => False)).
  - intros e [].
  - intros e st _ [A B]. split; [apply Inv_fail, A | exact B].
  - intros L s g st Hg [H1 H2]. split; [apply Inv_upd; auto; apply keeps_set_conn | apply WD_set_conn; auto].
  - intros; apply Disciplined_etc; assumption.
  - apply Disciplined_create.
  - intros s code st [A B]. split; [apply Inv_push; cbn; auto | apply WD_push_quiet; auto].
  - intros c s d st [A B]. split; [apply Inv_roots, A | exact B].
  - intros from id c _ [].
  - split; [apply Inv_init|]. split; cbn; auto. intros [|?] l s Hn; discriminate.
Qed.

Definition on_stream (o : out) (to : side) (id : N) : bool :=
  match o with
  | OSend _ s i _ _ | OReset _ s i _ => side_eqb s to && (i =? id)
  | _ => false
  end.
Definition ends_stream (o : out) (to : side) (id : N) : bool :=
  match o with
  | OSend _ s i _ true | OReset _ s i _ => side_eqb s to && (i =? id)
  | _ => false
  end.

Lemma owner_unique st L1 L2 s id : Inv st -> has_id C st L1 s id -> has_id C st L2 s id -> L1 = L2.
Proof. intros [HA _] H1 H2. apply (inv_map _ _ HA) in H1, H2. congruence. Qed.

Lemma on_stream_writes st o to id : target C st o -> on_stream o to id = true ->
  exists L, has_id C st L to id /\ writes o L to = true /\ closes o L to = ends_stream o to id.
Proof.
  intros Ht Eo. destruct o as [L s i d f|L s i c| | |]; cbn in Eo; try discriminate.
  all: apply andb_true_iff in Eo as [A B]; apply side_eqb_eq in A; apply N.eqb_eq in B; subst.
  all: exists L; cbn; rewrite Nat.eqb_refl, N.eqb_refl; destruct to; auto.
Qed.

Lemma ends_on_stream o to id : ends_stream o to id = true -> on_stream o to id = true.
Proof. destruct o as [L s i d [|]|L s i c| | |]; cbn; auto. discriminate. Qed.

(* [rev (outs st)] is the chronological command list *)
Theorem no_write_after_fin st : Disciplined st -> forall pre o post to id,
  rev (outs st) = pre ++ o :: post ->
  ends_stream o to id = true ->
  forall o', In o' post -> on_stream o' to id = false.
Proof.
  intros [HI [Hw _]] pre o post to id Hrev He o' Hin.
  assert (Hos : outs st = rev post ++ o :: rev pre).
  { rewrite <- (rev_involutive (outs st)), Hrev, rev_app_distr. cbn. rewrite <- app_assoc. reflexivity. }
  pose proof (inv_outs _ _ (proj1 HI)) as Ht. rewrite Forall_forall in Ht.
  assert (Io : In o (outs st)) by (rewrite Hos; apply in_or_app; right; left; reflexivity).
  assert (Io' : In o' (outs st)) by (rewrite Hos; apply in_or_app; left; apply in_rev in Hin; exact Hin).
  destruct (on_stream o' to id) eqn:Eo; auto. exfalso.
  destruct (on_stream_writes _ o to id (Ht o Io) (ends_on_stream o to id He)) as (L1 & Hh1 & _ & Hc1).
  destruct (on_stream_writes _ o' to id (Ht o' Io') Eo) as (L2 & Hh2 & Hw2 & _).
  rewrite He in Hc1.
  assert (L1 = L2) by (eapply owner_unique; eauto). subst L2.
  rewrite Hos in Hw. pose proof (wf_outs_app _ _ _ _ _ Hw Hc1 o') as Hx.
  rewrite Hx in Hw2; [discriminate|]. apply in_rev in Hin. exact Hin.
Qed.

End Write.
