(* Proofs/Http1TeNorm.v -- re.sub(r"[\t ]*,[\t ]*", ",", s) (the model re_sub_trim) against the RFC 9110 5.6.1
   list reading of the reference parser: for every string, splitting the substituted string at commas and trimming
   OWS gives the same elements as splitting and trimming the original. *)
From Coq Require Import List Bool NArith ZArith Lia.
From MV Require Import Base.Bytes Model.Http1Msg Model.BodySizePrelude Gen.BodySize Model.Rfc9112.
Import ListNotations.

Definition WS : cls := [(9%N, 9%N); (32%N, 32%N)].
Definition COMMA : byte := x2c.
Definition norm (s : bytes) : bytes := re_sub_trim WS COMMA WS [COMMA] s.

Lemma ws_ows : forall b, in_cls WS b = is_ows b.
Proof. intros b. apply eqb_prop. revert b. apply forall_bytes. vm_compute. reflexivity. Qed.

Definition all_ows (s : bytes) : bool := forallb is_ows s.

Lemma ltrim_all_ows s : all_ows s = true -> ltrim_ows s = [].
Proof. induction s as [|x s IH]; simpl; auto. intros H. apply andb_true_iff in H as [A B]. rewrite A. auto. Qed.

Lemma ltrim_app_ows l s : all_ows l = true -> ltrim_ows (l ++ s) = ltrim_ows s.
Proof. induction l as [|x l IH]; simpl; auto. intros H. apply andb_true_iff in H as [A B]. rewrite A. auto. Qed.

Lemma rtrim_all_ows s : all_ows s = true -> rtrim_ows s = [].
Proof.
  induction s as [|x s IH]; simpl; auto. intros H. apply andb_true_iff in H as [A B].
  rewrite (IH B), A. reflexivity.
Qed.

Lemma rtrim_app_ows s p : all_ows p = true -> rtrim_ows (s ++ p) = rtrim_ows s.
Proof.
  intros H. induction s as [|x s IH]; simpl.
  - apply rtrim_all_ows, H.
  - rewrite IH. reflexivity.
Qed.

Lemma ltrim_app_nonows a p : ltrim_ows a <> [] -> ltrim_ows (a ++ p) = ltrim_ows a ++ p.
Proof.
  induction a as [|x a IH]; simpl; [congruence|].
  destruct (is_ows x); auto.
Qed.

Lemma trim_app_ows a p : all_ows p = true -> trim_ows (a ++ p) = trim_ows a.
Proof.
  intros H. unfold trim_ows.
  destruct (ltrim_ows a) eqn:E.
  - assert (all_ows a = true).
    { clear -E. induction a as [|x a IH]; simpl in *; auto. destruct (is_ows x) eqn:Ex; [simpl; auto | discriminate]. }
    rewrite ltrim_app_ows by assumption. simpl. rewrite (ltrim_all_ows _ H). reflexivity.
  - rewrite ltrim_app_nonows by congruence. rewrite E. apply rtrim_app_ows, H.
Qed.

Lemma trim_lead l a : all_ows l = true -> trim_ows (l ++ a) = trim_ows a.
Proof. intros H. unfold trim_ows. rewrite ltrim_app_ows; auto. Qed.

Lemma all_ows_app a b : all_ows (a ++ b) = all_ows a && all_ows b.
Proof. apply forallb_app. Qed.

Lemma split_comma_app_nocomma p s cur :
  existsb (byte_eqb COMMA) p = false -> split_comma (p ++ s) cur = split_comma s (rev p ++ cur).
Proof.
  revert cur. induction p as [|x p IH]; intros cur H; simpl in *; auto.
  apply orb_false_iff in H as [A B].
  assert (byte_eqb x x2c = false).
  { destruct (byte_eqb x x2c) eqn:E; auto. apply byte_eqb_eq in E; subst. discriminate. }
  rewrite H. rewrite IH by assumption. rewrite <- app_assoc. reflexivity.
Qed.

Lemma split_comma_nocomma p cur :
  existsb (byte_eqb COMMA) p = false -> split_comma p cur = [rev cur ++ p].
Proof.
  intros H. rewrite <- (app_nil_r p) at 1. rewrite split_comma_app_nocomma by assumption.
  simpl. rewrite rev_app_distr, rev_involutive. reflexivity.
Qed.

Lemma ows_not_comma p : all_ows p = true -> existsb (byte_eqb COMMA) p = false.
Proof.
  induction p as [|x p IH]; simpl; auto. intros H. apply andb_true_iff in H as [A B].
  rewrite (IH B), orb_false_r.
  destruct (byte_eqb COMMA x) eqn:E; auto. apply byte_eqb_eq in E; subst. discriminate.
Qed.

(* the joint invariant: [cur] is the current element of the original string (reversed), [cur'] the current
   element of the substituted string (reversed), [pend] its buffered whitespace, and [lead] the whitespace after a
   comma that the substitution dropped but the original's current element still starts with *)
Lemma norm_split_inv s : forall cur cur' pend lead skipping,
  all_ows lead = true -> all_ows pend = true ->
  rev cur = lead ++ rev cur' ++ pend ->
  (skipping = true -> cur' = [] /\ pend = []) ->
  map trim_ows (split_comma s cur) =
  map trim_ows (split_comma (re_sub_trim_go WS COMMA WS [COMMA] s pend skipping) cur').
Proof.
  induction s as [|x s IH]; intros cur cur' pend lead sk Hl Hp Hinv Hsk.
  - simpl. rewrite (split_comma_nocomma pend cur' (ows_not_comma _ Hp)). simpl. f_equal.
    rewrite Hinv. apply trim_lead, Hl.
  - cbn [re_sub_trim_go]. rewrite !ws_ows.
    destruct (sk && is_ows x) eqn:E1.
    + apply andb_true_iff in E1 as [Es Ex]. subst sk. destruct (Hsk eq_refl) as [-> ->].
      assert (Hc : byte_eqb x x2c = false).
      { destruct (byte_eqb x x2c) eqn:E; auto. apply byte_eqb_eq in E; subst. discriminate. }
      simpl split_comma at 1. rewrite Hc.
      apply (IH (x :: cur) [] [] (lead ++ [x]) true); auto.
      * rewrite all_ows_app, Hl. simpl. rewrite Ex. reflexivity.
      * simpl. rewrite Hinv. simpl. rewrite !app_nil_r. reflexivity.
    + destruct (byte_eqb x COMMA) eqn:E2.
      * simpl split_comma at 1. unfold COMMA in E2. rewrite E2.
        simpl app. simpl split_comma at 2. cbn [map]. f_equal.
        -- rewrite Hinv. rewrite trim_lead by assumption. apply trim_app_ows, Hp.
        -- apply (IH [] [] [] [] true); auto. 
      * simpl split_comma at 1. unfold COMMA in E2. rewrite E2.
        destruct (is_ows x) eqn:Ex.
        -- assert (sk = false) by (destruct sk; simpl in E1; congruence). subst sk.
           apply (IH (x :: cur) cur' (pend ++ [x]) lead false); auto.
           ++ rewrite all_ows_app, Hp. simpl. rewrite Ex. reflexivity.
           ++ simpl. rewrite Hinv. rewrite <- !app_assoc. reflexivity.
           ++ discriminate.
        -- assert (Hpc : existsb (byte_eqb COMMA) pend = false) by (apply ows_not_comma, Hp).
           rewrite split_comma_app_nocomma by assumption.
           simpl split_comma at 2. rewrite E2.
           apply (IH (x :: cur) (x :: rev pend ++ cur') [] lead false); auto.
           ++ simpl. rewrite Hinv. rewrite rev_app_distr, rev_involutive, app_nil_r, <- !app_assoc. reflexivity.
           ++ discriminate.
Qed.

Theorem norm_same_elements s :
  map trim_ows (split_comma s []) = map trim_ows (split_comma (norm s) []).
Proof. apply (norm_split_inv s [] [] [] [] false); auto; discriminate. Qed.
