(* Proofs/Http2StreamsBuf.v -- BufferedH2Connection (C05): what is handed to h2 plus what stays buffered is exactly
   what was given, per stream and in order (send_data and the window-update flush loop); trailers leave only when the
   stream buffer is empty and are the last frame of the flush; with fx = true send_data does not raise, whatever the
   window. *)
From Coq Require Import List Bool NArith ZArith Lia.
From MV Require Import Base.Bytes Model.Http2Streams Proofs.Http2StreamsMap.
Import ListNotations.
Open Scope N_scope.

Definition bufbytes (b : bconn) (j : N) : bytes :=
  match dget j (bufs b) with Some l => concat (map fst l) | None => [] end.

Fixpoint dsent (j : N) (l : list frame) : bytes :=
  match l with
  | [] => []
  | FData s d _ :: t => if s =? j then d ++ dsent j t else dsent j t
  | _ :: t => dsent j t
  end.

Lemma dsent_app j a b : dsent j (a ++ b) = dsent j a ++ dsent j b.
Proof. induction a as [|f t IH]; [reflexivity|]. destruct f; cbn; try exact IH.
  destruct (sid =? j); [rewrite IH; now rewrite app_assoc|exact IH]. Qed.

Lemma send_data_emits h sid d es h' : h2_send_data h sid d es = Ok h' -> pending h' = pending h ++ [FData sid d es].
Proof. unfold h2_send_data. destruct (conn_closed h); [discriminate|]. destruct (dget sid (hstreams h)); [|discriminate].
  destruct ((0 <? blen d)%Z && (Z.min (conn_win h) (win h0) <? blen d)%Z); [discriminate|].
  destruct (max_frame h <? N.of_nat (length d)); [discriminate|]. destruct (negb (can_send_st (st h0))); [discriminate|].
  now intros [= <-]. Qed.

Lemma send_headers_emits h sid k tok es h' : h2_send_headers h sid k tok es = Ok h' -> pending h' = pending h ++ [FHeaders sid k tok es].
Proof. unfold h2_send_headers. destruct (conn_closed h); [discriminate|]. destruct (dget sid (hstreams h)).
  - destruct (negb (can_send_st (st h0))); [discriminate|]. destruct (hsent h0 && negb es); [discriminate|]. now intros [= <-].
  - destruct (r_maxconc h <? open_outbound h + 1); [discriminate|]. destruct (negb (is_outbound h sid)); [discriminate|].
    destruct (sid <=? highest_out h); [discriminate|]. now intros [= <-]. Qed.

Lemma slice_split k d : slice_to k d ++ slice_from k d = d.
Proof. apply firstn_skipn. Qed.

Lemma bufbytes_append b sid c j :
  bufbytes (buf_append b sid c) j = bufbytes b j ++ (if j =? sid then fst c else []).
Proof. unfold bufbytes, buf_append. cbn [bufs set_bufs]. destruct (j =? sid) eqn:E.
  - apply N.eqb_eq in E; subst j. rewrite dget_dset_same. destruct (dget sid (bufs b)).
    + now rewrite map_app, concat_app; cbn; rewrite app_nil_r.
    + cbn. now rewrite app_nil_r.
  - apply N.eqb_neq in E. rewrite dget_dset_other by congruence. now rewrite app_nil_r. Qed.

Theorem b_send_data1_conserve b sid d es b' : b_send_data1 b sid d es = Ok b' ->
  exists new, pending (bh b') = pending (bh b) ++ new /\
    forall j, dsent j new ++ bufbytes b' j = bufbytes b j ++ (if j =? sid then d else []).
Proof.
  unfold b_send_data1. destruct (buf_nonempty b sid) eqn:En.
  - intros [= <-]. exists []. split; [now rewrite app_nil_r|]. intros j. apply bufbytes_append.
  - intros H. dres H.
    assert (Hb0 : bufbytes b sid = []).
    { unfold bufbytes, buf_nonempty in *. destruct (dget sid (bufs b)) as [[|]|]; [reflexivity|discriminate|reflexivity]. }
    destruct (blen d <=? a)%Z.
    + dres H. injection H as <-. exists [FData sid d es]. split; [cbn; eapply send_data_emits; eauto|].
      intros j. cbn [dsent]. unfold bufbytes. cbn [bufs set_bh]. fold (bufbytes b j). rewrite N.eqb_sym.
      destruct (j =? sid) eqn:Ej; [apply N.eqb_eq in Ej; subst j; rewrite Hb0|]; cbn; now rewrite ?app_nil_r.
    + dres H. injection H as <-. destruct (if fx b then (0 <? a)%Z else negb (a =? 0)%Z).
      * dres E0. injection E0 as <-. exists [FData sid (slice_to a d) false].
        split; [cbn; eapply send_data_emits; eauto|]. intros j. cbn [fst snd]. rewrite bufbytes_append. cbn [fst dsent].
        unfold bufbytes at 1. cbn [bufs set_bh]. fold (bufbytes b j). rewrite N.eqb_sym.
        destruct (j =? sid) eqn:Ej.
        -- apply N.eqb_eq in Ej; subst j. rewrite Hb0. cbn. rewrite ?app_nil_r. apply slice_split.
        -- cbn. now rewrite ?app_nil_r.
      * injection E0 as <-. exists []. split; [now rewrite app_nil_r|]. intros j. cbn [fst snd dsent app]. apply bufbytes_append.
Qed.

(* what a flush of stream sid does: what is handed to h2 on the stream ++ what stays buffered = what was
   buffered; other streams are untouched; queued trailers leave only once the buffer is empty, as the last frame *)
Definition flushed (b : bconn) (sid : N) (b' : bconn) : Prop :=
  NoDup (dkeys (bufs b')) /\
  exists new, pending (bh b') = pending (bh b) ++ new
    /\ dsent sid new ++ bufbytes b' sid = bufbytes b sid
    /\ (forall j, j <> sid -> dsent j new = [] /\ dget j (bufs b') = dget j (bufs b))
    /\ (forall tok e, In (FHeaders sid HTrail tok e) new ->
          dget sid (bufs b') = None /\ exists pre, new = pre ++ [FHeaders sid HTrail tok e]).

Lemma flushed_refl b sid : NoDup (dkeys (bufs b)) -> flushed b sid b.
Proof.
  intros Hnd. split; [exact Hnd|]. exists []. split; [now rewrite app_nil_r|]. split; [reflexivity|].
  split; [auto|]. intros ? ? [].
Qed.

Lemma flushed_data b sid d es b2 b' :
  pending (bh b2) = pending (bh b) ++ [FData sid d es] ->
  bufbytes b sid = d ++ bufbytes b2 sid ->
  (forall j, j <> sid -> dget j (bufs b2) = dget j (bufs b)) ->
  flushed b2 sid b' -> flushed b sid b'.
Proof.
  intros Hp Hb Ho (Hn & new & P1 & P2 & P3 & P4). split; [exact Hn|]. exists (FData sid d es :: new).
  split; [now rewrite P1, Hp, <- app_assoc|].
  split; [cbn [dsent]; now rewrite N.eqb_refl, <- app_assoc, P2|]. split.
  - intros j Hj. destruct (P3 j Hj) as [Q1 Q2]. split; [|now rewrite Q2, Ho].
    cbn [dsent]. destruct (N.eqb_spec sid j); [congruence|exact Q1].
  - intros tok e' [X|X]; [discriminate|]. destruct (P4 _ _ X) as [Q1 [pre Q2]]. split; [exact Q1|].
    exists (FData sid d es :: pre). now rewrite Q2.
Qed.

Lemma flushed_trailers b sid tok b' :
  pending (bh b') = pending (bh b) ++ [FHeaders sid HTrail tok true] -> bufs b' = bufs b ->
  dget sid (bufs b) = None -> NoDup (dkeys (bufs b)) -> flushed b sid b'.
Proof.
  intros Hp Hb Hd Hn. unfold flushed, bufbytes. rewrite Hb. split; [exact Hn|]. exists [FHeaders sid HTrail tok true].
  split; [exact Hp|]. split; [reflexivity|]. split; [auto|].
  intros tok' e [[= <- <-]|[]]. split; [exact Hd|]. now exists [].
Qed.

Theorem flush_loop_conserve f : forall b sid aw sent b' s',
  flush_loop f b sid aw sent = Ok (b', s') -> NoDup (dkeys (bufs b)) -> flushed b sid b'.
Proof.
  induction f as [|f IH]; intros b sid aw sent b' s' H Hnd; [discriminate|]. cbn [flush_loop] in H.
  destruct (negb (0 <? aw)%Z); [injection H as <- _; now apply flushed_refl|].
  destruct (dget sid (bufs b)) as [[|[d es] rest]|] eqn:Eg; [discriminate| |injection H as <- _; now apply flushed_refl].
  set (tr := if (aw <? blen d)%Z then (slice_to aw d, false, (slice_from aw d, es) :: rest) else (d, es, rest)) in *.
  assert (Htr : bufbytes b sid = fst (fst tr) ++ concat (map fst (snd tr))).
  { unfold bufbytes, tr. rewrite Eg. destruct (aw <? blen d)%Z; cbn; [now rewrite app_assoc, slice_split|reflexivity]. }
  destruct tr as [[d1 es1] rest1]. cbn [fst snd] in Htr.
  dres H. pose proof (send_data_emits _ _ _ _ _ E) as Hp.
  destruct rest1 as [|c1 r1].
  - (* buffer drained: delete the entry, maybe send the queued trailers *)
    set (b2 := set_bufs (set_bh b a) (ddel sid (bufs (set_bh b a)))) in *.
    assert (Hd2 : dget sid (bufs b2) = None) by (now apply dget_ddel_same).
    assert (Hn2 : NoDup (dkeys (bufs b2))) by (now apply nodup_ddel).
    apply (flushed_data b sid d1 es1 b2); [exact Hp| |intros j Hj; apply dget_ddel_other; congruence|].
    { unfold bufbytes at 2. rewrite Hd2. exact Htr. }
    destruct (dget sid (trls b2)) as [tok|]; [|exact (IH _ _ _ _ _ _ H Hn2)].
    dres H. set (b3 := set_trls (set_bh b2 a0) (ddel sid (trls b2))) in *.
    (* the next round finds no buffer and stops *)
    assert (b' = b3) as ->.
    { destruct f; [discriminate|]. cbn [flush_loop] in H. destruct (negb (0 <? aw - blen d1)%Z); [now injection H as <- _|].
      replace (dget sid (bufs b3)) with (@None (list chunk)) in H by (symmetry; exact Hd2). now injection H as <- _. }
    apply (flushed_trailers b2 sid tok b3); [exact (send_headers_emits _ _ _ _ _ _ E0)|reflexivity|exact Hd2|exact Hn2].
  - set (b2 := set_bufs (set_bh b a) (dset sid (c1 :: r1) (bufs (set_bh b a)))) in *.
    apply (flushed_data b sid d1 es1 b2); [exact Hp| |intros j Hj; apply dget_dset_other; congruence|].
    { unfold bufbytes at 2, b2. cbn [bufs set_bufs set_bh]. rewrite dget_dset_same. exact Htr. }
    apply (IH _ _ _ _ _ _ H). unfold b2. cbn [bufs set_bufs set_bh]. now rewrite (dkeys_dset_old _ _ _ _ Eg).
Qed.

Theorem b_send_data1_fixed_ok b sid d es s :
  fx b = true -> dget sid (hstreams (bh b)) = Some s -> can_send_st (st s) = true -> conn_closed (bh b) = false ->
  N.of_nat (length d) <= max_frame (bh b) -> exists b', b_send_data1 b sid d es = Ok b'.
Proof.
  intros Hfx Hs Hc Ho Hm. unfold b_send_data1. destruct (buf_nonempty b sid); [eauto|].
  unfold local_window. rewrite Hs. cbn [bind]. set (aw := Z.min (conn_win (bh b)) (win s)).
  assert (Send : forall d0 e0, (blen d0 <= aw)%Z -> (length d0 <= length d)%nat -> exists h, h2_send_data (bh b) sid d0 e0 = Ok h).
  { intros d0 e0 Hl Hle. unfold h2_send_data. rewrite Ho, Hs. fold aw.
    destruct ((0 <? blen d0)%Z && (aw <? blen d0)%Z) eqn:X; [apply andb_true_iff in X as [_ X]; apply Z.ltb_lt in X; lia|].
    destruct (max_frame (bh b) <? N.of_nat (length d0)) eqn:Y; [apply N.ltb_lt in Y; lia|]. rewrite Hc. cbn. eauto. }
  destruct (blen d <=? aw)%Z eqn:El.
  - apply Z.leb_le in El. destruct (Send d es El (le_n _)) as [h Hh]. rewrite Hh. cbn. eauto.
  - apply Z.leb_gt in El. rewrite Hfx. destruct (0 <? aw)%Z eqn:Ea; cbn [bind]; [|eauto].
    apply Z.ltb_lt in Ea.
    assert (Hlen : length (slice_to aw d) = Z.to_nat aw).
    { unfold slice_to. destruct (aw <? 0)%Z eqn:X; [apply Z.ltb_lt in X; lia|]. apply firstn_length_le. unfold blen in El. lia. }
    destruct (Send (slice_to aw d) false) as [h Hh]; [unfold blen; rewrite Hlen; lia|rewrite Hlen; unfold blen in El; lia|].
    rewrite Hh. cbn. eauto.
Qed.

(* with fx = false (send_data before /repo commit 46ab3e958) it raises: a stream window driven below zero by
   SETTINGS_INITIAL_WINDOW_SIZE makes data[:window] slice from the end, and h2 raises FlowControlError *)
Definition negwin_conn (fixd : bool) : bconn :=
  mkB (mkH2 true [(1, mkS SOpen (-1)%Z true)] false 65535 16384 100 0 1 []) [] [] fixd.

Theorem b_send_data1_shipped_crashes :
  b_send_data1 (negwin_conn false) 1 [x00; x00] false = Crash /\
  (exists b', b_send_data1 (negwin_conn true) 1 [x00; x00] false = Ok b').
Proof. split; [vm_compute; reflexivity|]. eexists. vm_compute. reflexivity. Qed.
