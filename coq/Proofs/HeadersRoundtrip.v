(* Proofs/HeadersRoundtrip.v -- bytes(Headers(fields)) + blank line, cut into lines by h11 and
   parsed by _read_headers, gives back exactly the fields, for every list of valid fields. *)
From Coq Require Import List Bool NArith Lia.
From MV Require Import Base.Bytes Model.Headers Proofs.ListFacts.
Import ListNotations.

Definition line_of (f : field) : bytes := fst f ++ COLON_SP ++ snd f.
Definition ser (fs : list field) : bytes := flat_map (fun f => line_of f ++ CRLF) fs.
Definition no_lf (s : bytes) : bool := forallb (fun b => negb (byte_eqb b x0a)) s.

Lemma join_crlf l ls : join CRLF (l :: ls) ++ CRLF = flat_map (fun l => l ++ CRLF) (l :: ls).
Proof.
  revert l. induction ls as [|l' ls IH]; intros l.
  - simpl. rewrite app_nil_r. reflexivity.
  - change (join CRLF (l :: l' :: ls)) with (l ++ CRLF ++ join CRLF (l' :: ls)).
    rewrite <- !app_assoc, IH. cbn [flat_map]. rewrite <- !app_assoc. reflexivity.
Qed.

Lemma headers_bytes_ser fs : headers_bytes fs = ser fs.
Proof.
  destruct fs as [|f fs]; [reflexivity|].
  unfold headers_bytes. cbv beta iota.
  set (g := fun field : field => join COLON_SP [fst field; snd field]).
  change (join CRLF (g f :: map g fs) ++ CRLF = ser (f :: fs)). rewrite join_crlf.
  change (g f :: map g fs) with (map g (f :: fs)). rewrite flat_map_map.
  unfold ser, g. apply flat_map_ext. intros [n v]. unfold line_of. simpl.
  reflexivity.
Qed.

Lemma split_lf_line l rest :
  no_lf l = true -> split_lf (l ++ x0d :: x0a :: rest) = (l ++ [x0d]) :: split_lf rest.
Proof.
  induction l as [|c l IH]; intros H.
  - reflexivity.
  - simpl in H. apply andb_true_iff in H as [Hc Hl]. apply negb_true_iff in Hc.
    simpl. rewrite Hc, (IH Hl). reflexivity.
Qed.

Lemma split_lf_ser fs :
  forallb (fun f => no_lf (line_of f)) fs = true ->
  split_lf (ser fs ++ CRLF) = map (fun f => line_of f ++ [x0d]) fs ++ [[x0d]; []].
Proof.
  induction fs as [|f fs IH]; intros H.
  - reflexivity.
  - simpl in H. apply andb_true_iff in H as [Hf Hfs].
    change (ser (f :: fs)) with ((line_of f ++ CRLF) ++ ser fs).
    rewrite <- !app_assoc. change (CRLF ++ ser fs ++ CRLF) with (x0d :: x0a :: (ser fs ++ CRLF)).
    rewrite (split_lf_line _ _ Hf), (IH Hfs). reflexivity.
Qed.

Lemma strip_cr_line l : strip_cr (l ++ [x0d]) = l.
Proof.
  induction l as [|c l IH]; [reflexivity|].
  change ((c :: l) ++ [x0d]) with (c :: (l ++ [x0d])).
  unfold strip_cr; fold strip_cr. rewrite IH.
  destruct (l ++ [x0d]) eqn:E; [|reflexivity].
  destruct l; discriminate.
Qed.

Lemma is_blank_line c l : is_blank ((c :: l) ++ [x0d]) = false.
Proof. destruct l as [|d l]; [reflexivity|]. destruct l; reflexivity. Qed.

(* a field line holds at least the colon, so none of them is taken for the blank line *)
Lemma take_head_lines fs :
  take_head (map (fun f => line_of f ++ [x0d]) fs ++ [[x0d]; []]) = Some (map line_of fs).
Proof.
  induction fs as [|f fs IH]; [reflexivity|].
  assert (El : exists c l, line_of f = c :: l) by (destruct f as [[|c n] v]; eexists; eexists; reflexivity).
  destruct El as (c & l & El).
  rewrite map_cons, <- app_comm_cons. unfold take_head; fold take_head.
  rewrite IH, El, is_blank_line, strip_cr_line.
  destruct (map (fun f0 => line_of f0 ++ [x0d]) fs ++ [[x0d]; []]) eqn:E;
    [|cbn [map]; rewrite El; reflexivity].
  destruct fs; discriminate.
Qed.

(* what h11 hands to _read_headers, for fields without LF *)
Lemma read_back_lines fs :
  forallb (fun f => no_lf (fst f) && no_lf (snd f)) fs = true ->
  read_back fs = Some (read_headers_loop (map line_of fs) []).
Proof.
  intros H. unfold read_back, maybe_extract_lines, _read_headers.
  rewrite headers_bytes_ser, split_lf_ser, take_head_lines; [reflexivity|].
  revert H. apply forallb_impl. intros f Hf. apply andb_true_iff in Hf as [Hn Hv].
  unfold line_of, no_lf in *. rewrite !forallb_app, Hn, Hv. reflexivity.
Qed.

Lemma split_colon_name n rest :
  forallb (fun b => negb (byte_eqb b x3a)) n = true ->
  split_colon (n ++ x3a :: rest) = Some (n, rest).
Proof.
  induction n as [|c n IH]; intros H.
  - reflexivity.
  - simpl in H. apply andb_true_iff in H as [Hc Hn]. apply negb_true_iff in Hc.
    simpl. rewrite Hc, (IH Hn). reflexivity.
Qed.

Lemma lstrip_id v : match v with [] => true | c :: _ => negb (is_ws c) end = true -> lstrip v = v.
Proof.
  destruct v as [|c v]; [reflexivity|]. intros H. apply negb_true_iff in H. simpl. rewrite H. reflexivity.
Qed.

Lemma strip_valid v : valid_value v = true -> strip (x20 :: v) = v.
Proof.
  unfold valid_value. intros H. apply andb_true_iff in H as [H Hr]. apply andb_true_iff in H as [_ Hl].
  unfold strip. change (lstrip (x20 :: v)) with (lstrip v). rewrite (lstrip_id v Hl).
  unfold rstrip. rewrite (lstrip_id (rev v) Hr). apply rev_involutive.
Qed.

Lemma valid_name_chars n : valid_name n = true ->
  forallb (fun b => negb (byte_eqb b x3a)) n = true /\ no_lf n = true.
Proof.
  unfold valid_name, no_lf. destruct n as [|c n]; [discriminate|]. intros H.
  apply andb_true_iff in H as [_ H].
  split; revert H; apply forallb_impl; intros x Hx; apply negb_true_iff in Hx;
    apply orb_false_iff in Hx as [H1 H2]; [rewrite H1 | rewrite H2]; reflexivity.
Qed.

Lemma valid_field_nolf f : valid_field f = true -> no_lf (fst f) && no_lf (snd f) = true.
Proof.
  unfold valid_field, valid_value. intros H. apply andb_true_iff in H as [Hn Hv].
  apply andb_true_iff in Hv as [Hv _]. apply andb_true_iff in Hv as [Hv _].
  rewrite (proj2 (valid_name_chars _ Hn)). exact Hv.
Qed.

Lemma read_headers_loop_valid fs : forall acc,
  forallb valid_field fs = true ->
  read_headers_loop (map line_of fs) acc = RhOk (acc ++ fs).
Proof.
  induction fs as [|[n v] fs IH]; intros acc H.
  - simpl. rewrite app_nil_r. reflexivity.
  - simpl in H. apply andb_true_iff in H as [Hf Hfs].
    unfold valid_field in Hf. simpl in Hf. apply andb_true_iff in Hf as [Hn Hv].
    pose proof (proj1 (valid_name_chars n Hn)) as Hnc.
    destruct n as [|c n]; [discriminate|].
    simpl in Hn. apply andb_true_iff in Hn as [Hc _]. apply negb_true_iff in Hc.
    rewrite map_cons. unfold line_of at 1. simpl fst. simpl snd.
    change ((c :: n) ++ COLON_SP ++ v) with (c :: (n ++ x3a :: x20 :: v)).
    unfold read_headers_loop; fold read_headers_loop. rewrite Hc.
    change (c :: n ++ x3a :: x20 :: v) with ((c :: n) ++ x3a :: x20 :: v).
    rewrite (split_colon_name (c :: n) (x20 :: v) Hnc), (strip_valid v Hv).
    rewrite (IH _ Hfs), <- app_assoc. reflexivity.
Qed.

Theorem roundtrip : forall fs,
  forallb valid_field fs = true -> read_back fs = Some (RhOk fs).
Proof.
  intros fs H. rewrite read_back_lines, (read_headers_loop_valid fs [] H); [reflexivity|].
  revert H. apply forallb_impl, valid_field_nolf.
Qed.
