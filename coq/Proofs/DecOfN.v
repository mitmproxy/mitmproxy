(* Proofs/DecOfN.v -- decimal printing of naturals (Base.Bytes.dec_of_N, Python's str(int)):
   the result is a non-empty string of digits whose value is the number printed. *)
From Coq Require Import List Bool NArith Lia.
From MV Require Import Base.Bytes Proofs.Radix.
Import ListNotations.
Local Open Scope N_scope.

(* the number a digit string denotes when read after digits worth [a] *)
Fixpoint dec_val (s : bytes) (a : N) : N :=
  match s with [] => a | b :: r => dec_val r (a * 10 + (bN b - 48)) end.

(* the same loop written as a left fold, as Python-style int() models have it *)
Lemma dec_val_fold s a : fold_left (fun acc d => acc * 10 + (bN d - 48)) s a = dec_val s a.
Proof. revert a. induction s as [|d s IH]; intros a; [reflexivity | apply IH]. Qed.

Lemma is_digit_range b : is_digit b = true <-> 48 <= bN b <= 57.
Proof. unfold is_digit. rewrite andb_true_iff, !N.leb_le. reflexivity. Qed.

Lemma digit_byte d : d < 10 -> is_digit (Nb (48 + d)) = true /\ bN (Nb (48 + d)) - 48 = d.
Proof. intro H. rewrite is_digit_range, bN_Nb by lia. lia. Qed.

(* dec_digits and dec_val are Radix.digits and Radix.value in base 10, so the printing facts are its instance *)
Lemma dec_of_N_spec n : dec_val (dec_of_N n) 0 = n /\ forallb is_digit (dec_of_N n) = true /\ dec_of_N n <> [].
Proof. exact (of_N_spec 10 (fun d => Nb (48 + d)) (fun b => bN b - 48) is_digit ltac:(lia) digit_byte n). Qed.

Lemma dec_of_N_digits n : forallb is_digit (dec_of_N n) = true.
Proof. apply dec_of_N_spec. Qed.

Lemma dec_of_N_nonempty n : dec_of_N n <> [].
Proof. apply dec_of_N_spec. Qed.

Lemma dec_of_N_val n : dec_val (dec_of_N n) 0 = n.
Proof. apply dec_of_N_spec. Qed.

Lemma dec_of_N_inj x y : dec_of_N x = dec_of_N y -> x = y.
Proof. intro H. rewrite <- (dec_of_N_val x), H. apply dec_of_N_val. Qed.
