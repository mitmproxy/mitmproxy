(* Proofs/ClientPlaybackStop.v -- stop_replay: what it does to every flow, and when that is the
   pre-replay state.  Everything an operation other than stop_replay / a user revert does to one
   flow is a revert-free history of that flow in the sense of C40 (Model/FlowBackup.v), so the
   C40 theorem revert_restores applies to the whole time a flow spends in the queue. *)
From Coq Require Import List Bool Arith NArith Relations.
From MV Require Import Base.Bytes Model.FlowBackup Proofs.FlowBackup Model.ClientPlayback
  Proofs.ClientPlaybackSent Proofs.ClientPlaybackLog.
Import ListNotations.
Local Open Scope nat_scope.

Definition fr (f : fl) (h : list (fop obj)) : fl := frun obj obj gc scx f h.
Definition nr (h : list (fop obj)) : Prop := no_revert obj h.

Lemma gc_scx : forall (c o : obj), gc (scx c o) = c.
Proof. reflexivity. Qed.

Lemma fr_app : forall f a b, fr f (a ++ b) = fr (fr f a) b.
Proof. intros. unfold fr, frun. apply fold_left_app. Qed.

Lemma nr_app : forall a b, nr a -> nr b -> nr (a ++ b).
Proof. unfold nr, no_revert. intros a b A B I. apply in_app_or in I. tauto. Qed.

Ltac nr_list := unfold nr, no_revert; simpl; intuition discriminate.

(* g is f after a revert-free history *)
Definition rf_later (f g : cflow) : Prop := exists h, nr h /\ g = mkCf (fr (cf f) h) (c_http f).

Lemma rf_later_refl : forall f, rf_later f f.
Proof. intros [c h]. exists []. split; [nr_list|reflexivity]. Qed.

Lemma rf_later_trans : forall f g k, rf_later f g -> rf_later g k -> rf_later f k.
Proof.
  intros f g k (h1 & N1 & E1) (h2 & N2 & E2). exists (h1 ++ h2). split; [apply nr_app; auto|].
  subst g. simpl in E2. rewrite fr_app. exact E2.
Qed.

Lemma rf_later_hist : forall f (g : fl -> fl) h, nr h -> (forall x, g x = fr x h) -> rf_later f (on_fl g f).
Proof. intros f g h N E. exists h. split; auto. unfold on_fl. rewrite E. reflexivity. Qed.

Lemma rf_later_prepare : forall f, rf_later f (on_fl prepare f).
Proof. intros f. apply rf_later_hist with (h := [FBackup; FEdit prepare_edit]); [nr_list|reflexivity]. Qed.

Lemma rf_later_begin : forall b f, rf_later f (on_fl (begin b) f).
Proof. intros b f. apply rf_later_hist with (h := [FEdit begin_edit; FLive b]); [nr_list|reflexivity]. Qed.

Lemma rf_later_finish : forall t f, rf_later f (on_fl (fun x => set_live false (on_obj (finish_edit t) x)) f).
Proof. intros t f. apply rf_later_hist with (h := [FEdit (finish_edit t); FLive false]); [nr_list|reflexivity]. Qed.

Lemma rf_later_edit : forall e f, e <> ERevert -> rf_later f (on_fl (edit_fl e) f).
Proof.
  intros e f NE. destruct e; try congruence.
  1-5: eapply rf_later_hist with (h := [FEdit _]); [nr_list|reflexivity].
  - apply rf_later_hist with (h := [FLive b]); [nr_list|reflexivity].
  - apply rf_later_hist with (h := [FBackup]); [nr_list|reflexivity].
Qed.

Definition rf_later_at (i : nat) (fs fs' : list cflow) : Prop :=
  forall f, nth_error fs i = Some f -> exists g, nth_error fs' i = Some g /\ rf_later f g.

Lemma rf_later_at_refl : forall i fs, rf_later_at i fs fs.
Proof. intros i fs f N. exists f. split; auto. apply rf_later_refl. Qed.

Lemma rf_later_at_trans : forall i a b c, rf_later_at i a b -> rf_later_at i b c -> rf_later_at i a c.
Proof.
  intros i a b c P Q f N. destruct (P f N) as (g & N1 & P1). destruct (Q g N1) as (k & N2 & P2).
  exists k. split; auto. eapply rf_later_trans; eauto.
Qed.

Lemma rf_later_at_updf : forall i j g fs, (j = i -> forall f, rf_later f (g f)) -> rf_later_at i fs (updf j g fs).
Proof.
  intros i j g fs H f N. destruct (Nat.eq_dec j i) as [->|D].
  - rewrite updf_same, N. simpl. eauto.
  - rewrite updf_other by exact D. exists f. split; auto. apply rf_later_refl.
Qed.

Lemma start_loop_rf_later : forall ids infl fs q next upd fs' q' nx' upd' i,
  start_loop infl ids fs q next upd = (fs', q', nx', upd') -> rf_later_at i fs fs'.
Proof.
  induction ids as [|j r IH]; intros infl fs q next upd fs' q' nx' upd' i H; simpl in H.
  - inversion H; subst. apply rf_later_at_refl.
  - destruct (nth_error fs j) as [f|]; [|eapply IH; eauto].
    destruct (check _ f); [eapply IH; eauto|].
    eapply rf_later_at_trans; [|eapply IH; eauto]. apply rf_later_at_updf. intros _. apply rf_later_prepare.
Qed.

Lemma tick_rf_later : forall s s' i, tick s s' -> rf_later_at i (flows s) (flows s').
Proof.
  intros s s' i T. destruct T; unfold finish; simpl; try apply rf_later_at_refl; apply rf_later_at_updf; intros _.
  - apply rf_later_finish.
  - apply rf_later_begin.
  - apply rf_later_begin.
Qed.

(* operations that do not revert flow i *)
Definition safe (i : nat) (o : op) : Prop := o <> Stop /\ o <> Edit i ERevert.

Lemma step_rf_later : forall s o i, safe i o -> rf_later_at i (flows s) (flows (step s o)).
Proof.
  intros s o i [S1 S2]. destruct o as [ids| | |r|j e]; simpl; try congruence.
  - unfold start_replay. destruct (start_loop _ _ _ _ _ _) as [[[fs q] nx] upd] eqn:SL. simpl.
    eapply start_loop_rf_later; eauto.
  - induction (loop_ticks s) as [|s1 s2 _ IH T] using clos_refl_trans_ind_left; [apply rf_later_at_refl|].
    eapply rf_later_at_trans; [exact IH|]. apply tick_rf_later. exact T.
  - destruct (net_cases s r) as [->|(a & _ & _ & _ & ->)]; apply rf_later_at_refl.
  - apply rf_later_at_updf. intros -> f. apply rf_later_edit. congruence.
Qed.

Lemma run_rf_later : forall h s i, Forall (safe i) h -> rf_later_at i (flows s) (flows (run s h)).
Proof.
  induction h as [|o r IH]; intros s i F; simpl; [apply rf_later_at_refl|].
  inversion F; subst. eapply rf_later_at_trans; [apply step_rf_later; eauto|]. apply IH. assumption.
Qed.

(* an accepted flow starts its stay in the queue with backup() *)
Lemma prepare_backup : forall x, prepare x = fr (f_backup x) [FEdit prepare_edit].
Proof. reflexivity. Qed.

Lemma start_loop_backup : forall ids infl fs q next upd fs' q' nx' upd',
  start_loop infl ids fs q next upd = (fs', q', nx', upd') ->
  forall i f, nth_error fs i = Some f -> In i upd' ->
  In i upd \/ exists g, nth_error fs' i = Some g /\ rf_later (on_fl f_backup f) g.
Proof.
  induction ids as [|j r IH]; intros infl fs q next upd fs' q' nx' upd' H i f N I; simpl in H.
  - inversion H; subst. left. exact I.
  - destruct (nth_error fs j) as [fj|] eqn:NJ; [|eapply IH; eauto].
    destruct (check _ fj); [eapply IH; eauto|].
    destruct (Nat.eq_dec i j) as [->|D].
    + right. destruct (start_loop_rf_later _ _ _ _ _ _ _ _ _ _ j H (on_fl prepare f)) as (g & G & P).
      { rewrite updf_same, N. reflexivity. }
      exists g. split; [exact G|]. eapply rf_later_trans; [|exact P].
      apply (rf_later_hist (on_fl f_backup f) _ [FEdit prepare_edit]); [nr_list|reflexivity].
    + destruct (IH _ _ _ _ _ _ _ _ _ H i f) as [X|X]; auto.
      * rewrite updf_other; auto.
      * apply in_app_or in X. destruct X as [X|[X|[]]]; auto. congruence.
Qed.

Lemma revert_all_notin : forall q fs i, ~ In i (map snd q) -> nth_error (revert_all q fs) i = nth_error fs i.
Proof.
  induction q as [|[n j] r IH]; intros fs i NI; simpl; auto.
  simpl in NI. rewrite IH by tauto. apply updf_other. intros E. apply NI. left. exact E.
Qed.

Lemma revert_all_in : forall q fs i f, nth_error fs i = Some f -> In i (map snd q) ->
  nth_error (revert_all q fs) i = Some (on_fl f_revert f).
Proof.
  induction q as [|[n j] r IH]; intros fs i f N I; simpl in *; [contradiction|].
  destruct (Nat.eq_dec j i) as [->|D].
  - assert (N1 : nth_error (updf i (on_fl f_revert) fs) i = Some (on_fl f_revert f)).
    { rewrite updf_same, N. reflexivity. }
    destruct (in_dec Nat.eq_dec i (map snd r)) as [Y|Y].
    + rewrite (IH _ _ _ N1 Y). unfold on_fl, f_revert. simpl. rewrite revert_idem. reflexivity.
    + rewrite revert_all_notin by exact Y. exact N1.
  - destruct I as [I|I]; [congruence|]. apply IH; auto. rewrite updf_other; auto.
Qed.

(* what stop_replay does: the queue is emptied, every flow that was in it is reverted, every other
   flow is untouched, and the update hook names exactly the queued flows *)
Theorem stop_spec : forall s,
  queue (stop_replay s) = []
  /\ log (stop_replay s) = log s ++ [LStopped (queue s)]
  /\ length (flows (stop_replay s)) = length (flows s)
  /\ forall i f, nth_error (flows s) i = Some f ->
       nth_error (flows (stop_replay s)) i =
         Some (if in_dec Nat.eq_dec i (map snd (queue s)) then on_fl f_revert f else f).
Proof.
  intros s. unfold stop_replay. simpl. repeat split.
  - generalize (flows s). induction (queue s) as [|[n j] r IH]; intros fs; simpl; auto.
    rewrite IH. apply updf_length.
  - intros i f N. destruct (in_dec Nat.eq_dec i (map snd (queue s))) as [Y|Y].
    + apply revert_all_in; auto.
    + rewrite revert_all_notin; auto.
Qed.

(* The pre-replay state.  Flow i has no backup pending when start_replay accepts it; then any
   history without stop_replay and without a user revert of flow i (more submissions, loop runs,
   network results, replays of other entries and even of an earlier entry for flow i, edits of
   any flow); flow i is still queued; stop_replay.  Flow i then has exactly the state it had
   before it was submitted, and no backup. *)
(* upd is named through the log equation: it is the list start_replay announces in its update hook *)
Theorem stop_restores : forall s ids upd h i f0,
  nth_error (flows s) i = Some f0 -> fbackup (cf f0) = None ->
  log (step s (Submit ids)) = log s ++ [LSubmit (next_seq s) upd] -> In i upd ->
  Forall (safe i) h ->
  let s2 := run (step s (Submit ids)) h in
  In i (map snd (queue s2)) ->
  exists g, nth_error (flows (step s2 Stop)) i = Some g
    /\ f_state (cf g) = f_state (cf f0) /\ fbackup (cf g) = None /\ c_http g = c_http f0
    /\ queue (step s2 Stop) = [].
Proof.
  intros s ids upd h i f0 N B L I F s2 Q.
  assert (A : exists g, nth_error (flows (step s (Submit ids))) i = Some g /\ rf_later (on_fl f_backup f0) g).
  { simpl in *. unfold start_replay in *. destruct (start_loop _ _ _ _ _ _) as [[[fs q] nx] u] eqn:SL.
    simpl in *. apply app_inv_head in L. inversion L; subst u.
    destruct (start_loop_backup _ _ _ _ _ _ _ _ _ _ SL _ _ N I) as [[]|X]. exact X. }
  destruct A as (g1 & N1 & P1). destruct (run_rf_later h _ i F _ N1) as (g2 & N2 & P2). fold s2 in N2.
  destruct (rf_later_trans _ _ _ P1 P2) as (hh & NH & ->).
  destruct (stop_spec s2) as (Q0 & _ & _ & SP). change (step s2 Stop) with (stop_replay s2).
  rewrite (SP _ _ N2). destruct (in_dec Nat.eq_dec i (map snd (queue s2))) as [_|NI]; [|contradiction].
  eexists. split; [reflexivity|]. simpl.
  pose proof (revert_restores obj obj gc scx gc_scx (cf f0) hh NH) as R.
  simpl in R. rewrite B in R. destruct R as (R1 & R2 & _).
  repeat split; auto.
Qed.

(* In general (backup pending or not): after stop_replay a flow that was queued with a backup
   pending has the state saved in THAT backup -- which is older than the replay whenever the flow
   had been edited, or replayed before, and not reverted since. *)
Theorem stop_reverts_to_backup : forall s i f b,
  nth_error (flows s) i = Some f -> In i (map snd (queue s)) -> fbackup (cf f) = Some b ->
  exists g, nth_error (flows (step s Stop)) i = Some g
    /\ f_state (cf g) = St (sid b) (sc b) None /\ fbackup (cf g) = None.
Proof.
  intros s i f b N Q B. destruct (stop_spec s) as (_ & _ & _ & SP).
  change (step s Stop) with (stop_replay s). rewrite (SP _ _ N).
  destruct (in_dec Nat.eq_dec i (map snd (queue s))) as [_|NI]; [|contradiction].
  eexists. split; [reflexivity|]. simpl. split; [|apply revert_clears].
  apply (revert_state obj obj gc scx gc_scx _ b B).
Qed.

(* the flow the concrete histories of Proofs/ClientPlaybackWitness.v start from: a replayable HTTP
   flow, with or without a response *)
Definition http_flow (id : N) (resp : option nat) : cflow :=
  mkCf (Flow id (mkObj true (Some 0%nat) false resp false false false) false None) true.
