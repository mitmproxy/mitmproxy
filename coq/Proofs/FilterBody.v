(* Proofs/FilterBody.v -- the body filters search exactly the bodies that are present (empty ones included). *)
From Coq Require Import List Bool.
From MV Require Import Base.Bytes Model.FilterBody.
Import ListNotations.

Lemma existsb_map_filter (s : bytes -> bool) (p : msg -> bool) ms :
  existsb s (map snd (filter p ms)) = existsb (fun m => p m && s (snd m)) ms.
Proof.
  induction ms as [| m ms IH]; [reflexivity |]. simpl. destruct (p m); simpl; rewrite IH; reflexivity.
Qed.
Lemma existsb_map_snd (s : bytes -> bool) (ms : list msg) :
  existsb s (map snd ms) = existsb (fun m => s (snd m)) ms.
Proof. induction ms as [| m ms IH]; [reflexivity |]. simpl. rewrite IH. reflexivity. Qed.
Lemma existsb_opt (s : bytes -> bool) o : existsb s (opt_list o) = search_opt s o.
Proof. destruct o; simpl; [apply orb_false_r | reflexivity]. Qed.

Lemma fbod_spec s f : fbod s f = existsb s (parts_any f).
Proof.
  destruct f as [rq rs ws | ms | rq rs |]; simpl; try reflexivity.
  - rewrite !existsb_app, existsb_opt, existsb_map_snd.
    destruct (search_opt s rq); [reflexivity |]. simpl.
    destruct rs as [c |]; simpl.
    + rewrite existsb_opt. destruct (search_opt s c); [reflexivity |]. destruct ws; reflexivity.
    + destruct ws; reflexivity.
  - symmetry. apply existsb_map_snd.
  - rewrite existsb_opt. destruct (s rq); reflexivity.
Qed.
Lemma fbod_request_spec s f : fbod_request s f = existsb s (parts_request f).
Proof.
  destruct f as [rq rs ws | ms | rq rs |]; simpl; try reflexivity.
  - rewrite existsb_app, existsb_opt, existsb_map_filter.
    destruct (search_opt s rq); [reflexivity |]. destruct ws; reflexivity.
  - symmetry. apply existsb_map_filter.
  - rewrite orb_false_r. reflexivity.
Qed.
Lemma fbod_response_spec s f : fbod_response s f = existsb s (parts_response f).
Proof.
  destruct f as [rq rs ws | ms | rq rs |]; simpl; try reflexivity.
  - rewrite existsb_app, (existsb_map_filter s (fun m => negb (fst m))).
    destruct rs as [c |]; simpl.
    + rewrite existsb_opt. destruct (search_opt s c); [reflexivity |]. destruct ws; reflexivity.
    + destruct ws; reflexivity.
  - symmetry. apply (existsb_map_filter s (fun m => negb (fst m))).
  - apply eq_sym, existsb_opt.
Qed.
