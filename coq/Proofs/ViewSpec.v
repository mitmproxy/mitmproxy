(* Proofs/ViewSpec.v -- how a call may change the state (relations between states), the invariants of the
   View, writes to the per-flow settings, and _OrderKey.__call__. *)
From Coq Require Import List Bool Arith NArith ZArith Lia Permutation Sorted.
From MV Require Import Base.Bytes Model.View Proofs.ViewBase.
Import ListNotations.

Definition cache_of (s : state) (id : N) (o : order) : option N :=
  match sget (settings s) id with Some c => cget o c | None => None end.

Record cfg_eq (s s' : state) : Prop := {
  ce_heap : heap s' = heap s; ce_store : store s' = store s; ce_filt : filt s' = filt s;
  ce_okey : okey s' = okey s; ce_sm : show_marked s' = show_marked s }.

Definition cache_new (s s' : state) := forall id o k, cache_of s' id o = Some k ->
  cache_of s id o = Some k \/ (In id (store s) /\ k = generate o (attr s id)).
Definition cache_mono (s s' : state) := forall id o k, cache_of s id o = Some k -> cache_of s' id o = Some k.
Definition sids_sub (s s' : state) := forall id, In id (settings_ids s') -> In id (settings_ids s) \/ In id (store s).

(* upd: cfg_eq, and a cache slot may be (over)written only with the current key of a stored flow, as regen does;
   updm: moreover no slot is lost or changed *)
Record upd (s s' : state) : Prop := { u_cfg : cfg_eq s s'; u_new : cache_new s s'; u_ids : sids_sub s s' }.
Record updm (s s' : state) : Prop := { um_upd : upd s s'; um_mono : cache_mono s s' }.
(* nothing but the settings changed, and they only grew by fresh keys of stored flows *)
Record ext (s s' : state) : Prop := {
  e_updm : updm s s'; e_view : view s' = view s; e_focus : focus s' = focus s; e_log : log s' = log s }.

Lemma cfg_eq_refl s : cfg_eq s s. Proof. constructor; reflexivity. Qed.
Lemma cfg_eq_trans a b c : cfg_eq a b -> cfg_eq b c -> cfg_eq a c.
Proof. intros [] []. constructor; congruence. Qed.
Lemma attr_cfg s s' id : cfg_eq s s' -> attr s' id = attr s id.
Proof. intros []. unfold attr. congruence. Qed.

Lemma upd_refl s : upd s s.
Proof. constructor; [apply cfg_eq_refl | intros id o k H; auto | intros id H; auto]. Qed.
Lemma upd_trans a b c : upd a b -> upd b c -> upd a c.
Proof.
  intros [C1 N1 I1] [C2 N2 I2]. constructor.
  - eapply cfg_eq_trans; eauto.
  - intros id o k H. destruct (N2 _ _ _ H) as [H1|[H1 H2]].
    + apply N1; exact H1.
    + right. rewrite (ce_store _ _ C1) in H1. rewrite (attr_cfg _ _ id C1) in H2. auto.
  - intros id H. destruct (I2 _ H) as [H1|H1].
    + apply I1; exact H1.
    + right. rewrite (ce_store _ _ C1) in H1. exact H1.
Qed.
Lemma updm_refl s : updm s s.
Proof. constructor; [apply upd_refl | intros id o k H; exact H]. Qed.
Lemma updm_trans a b c : updm a b -> updm b c -> updm a c.
Proof. intros [U1 M1] [U2 M2]. constructor; [eapply upd_trans; eauto | intros id o k H; auto]. Qed.
Lemma ext_refl s : ext s s.
Proof. constructor; [apply updm_refl | reflexivity..]. Qed.
Lemma ext_trans a b c : ext a b -> ext b c -> ext a c.
Proof. intros [] []. constructor; [eapply updm_trans; eauto | congruence..]. Qed.
Lemma ext_upd s s' : ext s s' -> upd s s'.
Proof. intros X. apply um_upd, e_updm, X. Qed.

Lemma upd_cfg s s' : upd s s' ->
  store s' = store s /\ okey s' = okey s /\ filt s' = filt s /\ show_marked s' = show_marked s
  /\ forall id, attr s' id = attr s id.
Proof. intros [C _ _]. pose proof (fun id => attr_cfg s s' id C). destruct C. auto. Qed.

Record CoreV (s : state) : Prop := {
  c_store : NoDup (store s);
  c_sorted : ksorted (view s);
  c_cached : forall k id, In (k, id) (view s) -> In id (store s) /\ cache_of s id (okey s) = Some k;
  c_nodup : NoDup (raw_ids s) }.
Definition SidsOk (s : state) : Prop := forall id, In id (settings_ids s) -> In id (store s).
Definition FocusOk (s : state) : Prop :=
  match focus s with Some f => In f (raw_ids s) | None => view s = [] end.
Definition wanted (s : state) (id : N) : bool :=
  fmatches (filt s) (attr s id) && implb (show_marked s) (fmarked (attr s id)).
(* M1-M3 and Fresh are clause-wise forms; the invariant (ViewOps.Inv) is stated with Shown and FreshV below.
   M1, M2: every shown flow matches the filter; every stored, matching (and, in marked-only mode, marked) flow is shown *)
Definition M1 (s : state) : Prop := forall id, In id (raw_ids s) -> fmatches (filt s) (attr s id) = true.
Definition M2 (s : state) : Prop := forall id, In id (store s) -> wanted s id = true -> In id (raw_ids s).
Definition M3 (s : state) : Prop := show_marked s = true -> forall id, In id (raw_ids s) -> fmarked (attr s id) = true.
(* every cached sort key is the current key of the flow: not an invariant of view.py (see FreshV) and not used *)
Definition Fresh (s : state) : Prop := forall id o k, cache_of s id o = Some k -> k = generate o (attr s id).

Definition Shown (s : state) : Prop := forall id, In id (raw_ids s) <-> In id (store s) /\ wanted s id = true.
(* [Fresh] does not survive the update of a hidden flow; what does is its restriction to the shown flows and the
   selected order: a shown flow is filed under its current key *)
Definition FreshV (s : state) : Prop := forall k id, In (k, id) (view s) -> k = generate (okey s) (attr s id).

Lemma raw_ids_view s s' : view s' = view s -> raw_ids s' = raw_ids s.
Proof. unfold raw_ids. intros ->. reflexivity. Qed.
Lemma view_stored s id : CoreV s -> In id (raw_ids s) -> In id (store s).
Proof. intros C H. apply in_ids_split in H as [k H]. apply (c_cached _ C _ _ H). Qed.

Lemma shows_wanted s id : shows s (attr s id) = wanted s id.
Proof. unfold shows, wanted. destruct (show_marked s), (fmarked (attr s id)); reflexivity. Qed.
Lemma CoreV_updm s s' : updm s s' -> view s' = view s -> CoreV s -> CoreV s'.
Proof.
  intros [[C _ _] Mo] V [H1 H2 H3 H4]. unfold raw_ids in *. rewrite <- V in H2, H3, H4. rewrite <- (ce_store _ _ C) in H1, H3.
  constructor; auto. intros k id Hin. rewrite (ce_okey _ _ C). destruct (H3 _ _ Hin). auto.
Qed.
Lemma CoreV_ext s s' : ext s s' -> CoreV s -> CoreV s'.
Proof. intros [U V _ _]. apply CoreV_updm; assumption. Qed.
Lemma Sids_upd s s' : upd s s' -> SidsOk s -> SidsOk s'.
Proof.
  intros [C _ I] H id Hin. rewrite (ce_store _ _ C). destruct (I _ Hin) as [A|A]; [apply H; exact A | exact A].
Qed.
Lemma wanted_cfg s s' id : cfg_eq s s' -> wanted s' id = wanted s id.
Proof. intros C. unfold wanted. rewrite (attr_cfg _ _ id C), (ce_filt _ _ C), (ce_sm _ _ C). reflexivity. Qed.
Lemma Shown_cfg s s' : cfg_eq s s' -> (forall id, In id (raw_ids s') <-> In id (raw_ids s)) -> Shown s -> Shown s'.
Proof. intros C V H id. rewrite V, (ce_store _ _ C), (wanted_cfg _ _ id C). apply H. Qed.
Lemma FreshV_cfg s s' : cfg_eq s s' -> view s' = view s -> FreshV s -> FreshV s'.
Proof. intros C V H k id Hin. rewrite V in Hin. rewrite (ce_okey _ _ C), (attr_cfg _ _ id C). apply H, Hin. Qed.
Lemma Fresh_upd s s' : upd s s' -> Fresh s -> Fresh s'.
Proof.
  intros [C Nw _] H id o k Hc. rewrite (attr_cfg _ _ id C).
  destruct (Nw _ _ _ Hc) as [A|[_ A]]; [apply H; exact A | exact A].
Qed.
Lemma FocusOk_eq s s' : view s' = view s -> focus s' = focus s -> FocusOk s -> FocusOk s'.
Proof. unfold FocusOk, raw_ids. intros -> ->. auto. Qed.
Lemma FocusOk_some s f : focus s = Some f -> In f (raw_ids s) -> FocusOk s.
Proof. unfold FocusOk. intros ->. auto. Qed.
Lemma FocusOk_in s : FocusOk s -> forall g, focus s = Some g -> In g (raw_ids s).
Proof. unfold FocusOk. intros H g E. rewrite E in H. exact H. Qed.

Lemma cache_of_sset s id c id' o :
  cache_of (set_settings (sset (settings s) id c) s) id' o = if N.eqb id id' then cget o c else cache_of s id' o.
Proof. unfold cache_of. simpl. rewrite sget_sset. destruct (N.eqb id id'); reflexivity. Qed.

Lemma upd_sset s id c : In id (settings_ids s) \/ In id (store s) ->
  (forall o k, cget o c = Some k -> cache_of s id o = Some k \/ (In id (store s) /\ k = generate o (attr s id))) ->
  upd s (set_settings (sset (settings s) id c) s).
Proof.
  intros Hid Hc. constructor.
  - constructor; reflexivity.
  - intros id' o k. rewrite cache_of_sset. destruct (N.eqb_spec id id') as [<-|_]; auto.
  - intros id' H. apply sset_ids in H. destruct H as [->|H]; auto.
Qed.
Lemma ext_sset s id c : In id (settings_ids s) \/ In id (store s) ->
  (forall o k, cget o c = Some k -> cache_of s id o = Some k \/ (In id (store s) /\ k = generate o (attr s id))) ->
  (forall o k, cache_of s id o = Some k -> cget o c = Some k) ->
  ext s (set_settings (sset (settings s) id c) s).
Proof.
  intros Hid Hc Hm. constructor; try reflexivity. constructor; [apply upd_sset; assumption|].
  intros id' o k. rewrite cache_of_sset. destruct (N.eqb_spec id id') as [<-|_]; auto.
Qed.

Lemma okey_call_cached o id k s : In id (store s) -> cache_of s id o = Some k -> okey_call o id s = Ok (k, s).
Proof.
  intros Hst Hc. unfold okey_call. rewrite (proj2 (memN_In _ _) Hst). unfold cache_of in Hc.
  destruct (sget (settings s) id); [rewrite Hc; reflexivity | discriminate].
Qed.

Lemma okey_call_fresh o id s : In id (store s) -> cache_of s id o = None ->
  ok (okey_call o id s) (fun k s' => k = generate o (attr s id) /\ ext s s' /\ cache_of s' id o = Some k).
Proof.
  intros Hst Ec.
  (* the slot is filled, in the existing entry or in a new one *)
  assert (Fill : forall c, (forall o', cget o' c = cache_of s id o') ->
            let s' := set_settings (sset (settings s) id (cset o (generate o (attr s id)) c)) s in
            ext s s' /\ cache_of s' id o = Some (generate o (attr s id))).
  { intros c Hc. split.
    - apply ext_sset; auto; intros o' k; rewrite cget_cset, Hc;
        (destruct (order_eqb o' o) eqn:E; [apply order_eqb_eq in E; subst o'|]; auto).
      + intros [= <-]. auto.
      + rewrite Ec. discriminate.
    - rewrite cache_of_sset, N.eqb_refl, cget_cset, order_eqb_refl. reflexivity. }
  unfold okey_call. rewrite (proj2 (memN_In _ _) Hst). unfold cache_of in Ec.
  destruct (sget (settings s) id) as [c|] eqn:Es; [rewrite Ec|]; (split; [reflexivity|]); apply Fill;
    intros o'; unfold cache_of; rewrite Es; [reflexivity | apply cget_cempty].
Qed.

Lemma okey_call_spec o id s : ok (okey_call o id s) (fun _ s' => ext s s').
Proof.
  destruct (in_dec N.eq_dec id (store s)) as [Hst|Hn]; [destruct (cache_of s id o) as [k|] eqn:Ec|].
  - rewrite (okey_call_cached o id k s Hst Ec). apply ext_refl.
  - apply (ok_mono (okey_call_fresh o id s Hst Ec)). intros k s' (_ & X & _). exact X.
  - unfold okey_call. rewrite (proj2 (memN_false _ _) Hn). apply ext_refl.
Qed.
