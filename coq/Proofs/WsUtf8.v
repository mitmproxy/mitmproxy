(* Proofs/WsUtf8.v -- facts about the UTF-8 model: encoding the replace-decoding of a byte string
   gives the byte string back exactly when it is valid UTF-8; validity splits at code-point boundaries. *)
From Coq Require Import List Bool Arith NArith ZArith Lia ZifyBool.
From MV Require Import Base.Bytes Model.WsUtf8 Proofs.ListFacts.
Import ListNotations.
Local Open Scope N_scope.

Lemma second_ok_cont b0 b1 : second_ok b0 b1 = true -> is_cont b1 = true.
Proof. unfold second_ok. intros H. apply andb_true_iff in H as [H _]. exact H. Qed.

Lemma add_sub_l k y : k + y - k = y.
Proof. rewrite N.add_comm. apply N.add_sub. Qed.

(* a continuation byte carries six bits *)
Lemma is_cont_bits b : is_cont b = true -> exists y, y < 64 /\ bN b = 128 + y.
Proof. unfold is_cont. intros H. apply andb_true_iff in H as [H1 H2]. exists (bN b - 128). lia. Qed.

Lemma lead_bits n lo hi : (n <? lo) = false -> (n <? hi) = true -> exists x, x < hi - lo /\ n = lo + x.
Proof. intros H1 H2. exists (n - lo). lia. Qed.

(* the second byte after E0 / F0 excludes the overlong forms *)
Lemma second_ok_low b0 b1 : second_ok b0 b1 = true ->
  (bN b0 = 224 -> 160 <= bN b1) /\ (bN b0 = 240 -> 144 <= bN b1).
Proof.
  unfold second_ok. intros H. apply andb_true_iff in H as [_ H].
  destruct (bN b0 =? 224) eqn:E; [lia|]. destruct (bN b0 =? 237) eqn:E'; [lia|]. destruct (bN b0 =? 240) eqn:E''; lia.
Qed.

(* encode_cp on a code point given by its groups of bits: lead bits x, then six bits each *)
Lemma encode_cp2 x y : 2 <= x -> x < 32 -> y < 64 -> encode_cp (x * 64 + y) = [Nb (192 + x); Nb (128 + y)].
Proof.
  intros Hx Hx' Hy. unfold encode_cp.
  destruct (_ <? 128) eqn:E1; [lia|]. destruct (_ <? 2048) eqn:E2; [|lia].
  rewrite digit_div, digit_mod by exact Hy. reflexivity.
Qed.

Lemma encode_cp3 x y z : x < 16 -> y < 64 -> z < 64 -> 32 <= x * 64 + y ->
  encode_cp (x * 4096 + y * 64 + z) = [Nb (224 + x); Nb (128 + y); Nb (128 + z)].
Proof.
  intros Hx Hy Hz Hlo. unfold encode_cp.
  destruct (_ <? 128) eqn:E1; [lia|]. destruct (_ <? 2048) eqn:E2; [lia|]. destruct (_ <? 65536) eqn:E3; [|lia].
  replace (x * 4096 + y * 64 + z) with ((x * 64 + y) * 64 + z) by lia.
  rewrite (digit_div _ z 64), (digit_mod _ z 64), (digit_mod x y 64) by assumption.
  replace ((x * 64 + y) * 64 + z) with (x * 4096 + (y * 64 + z)) by lia.
  rewrite digit_div by lia. reflexivity.
Qed.

Lemma encode_cp4 x y z w : x < 5 -> y < 64 -> z < 64 -> w < 64 -> 16 <= x * 64 + y ->
  encode_cp (x * 262144 + y * 4096 + z * 64 + w) = [Nb (240 + x); Nb (128 + y); Nb (128 + z); Nb (128 + w)].
Proof.
  intros Hx Hy Hz Hw Hlo. unfold encode_cp.
  destruct (_ <? 128) eqn:E1; [lia|]. destruct (_ <? 2048) eqn:E2; [lia|]. destruct (_ <? 65536) eqn:E3; [lia|].
  replace (x * 262144 + y * 4096 + z * 64 + w) with (((x * 64 + y) * 64 + z) * 64 + w) by lia.
  rewrite (digit_div _ w 64), (digit_mod _ w 64), (digit_mod _ z 64) by assumption.
  replace (((x * 64 + y) * 64 + z) * 64 + w) with ((x * 64 + y) * 4096 + (z * 64 + w)) by lia.
  rewrite (digit_div _ (z * 64 + w) 4096), (digit_mod x y 64) by lia.
  replace ((x * 64 + y) * 4096 + (z * 64 + w)) with (x * 262144 + (y * 4096 + z * 64 + w)) by lia.
  rewrite digit_div by lia. reflexivity.
Qed.

(* a well-formed sequence is what its code point encodes to; the hypotheses are the tests of the scanners *)
Lemma enc1 b : (bN b <? 128) = true -> encode_cp (bN b) = [b].
Proof. intros H. unfold encode_cp. rewrite H, Nb_bN. reflexivity. Qed.

Lemma enc2 b0 b1 : (bN b0 <? 194) = false -> (bN b0 <? 224) = true -> is_cont b1 = true ->
  encode_cp (cp2 b0 b1) = [b0; b1].
Proof.
  intros L0 L0' H1. destruct (lead_bits (bN b0) 192 224) as (x & Hx & E0); [lia|exact L0'|].
  destruct (is_cont_bits _ H1) as (y & Hy & E1). assert (Hx2 : 2 <= x) by lia.
  unfold cp2. rewrite E0, E1, !add_sub_l.
  rewrite (encode_cp2 _ _ Hx2 Hx Hy), <- E0, <- E1, !Nb_bN. reflexivity.
Qed.

Lemma enc3 b0 b1 b2 : (bN b0 <? 224) = false -> (bN b0 <? 240) = true -> second_ok b0 b1 = true ->
  is_cont b2 = true -> encode_cp (cp3 b0 b1 b2) = [b0; b1; b2].
Proof.
  intros L0 L0' H1 H2. destruct (second_ok_low _ _ H1) as [Hlo _].
  destruct (lead_bits _ _ _ L0 L0') as (x & Hx & E0).
  destruct (is_cont_bits _ (second_ok_cont _ _ H1)) as (y & Hy & E1). destruct (is_cont_bits _ H2) as (z & Hz & E2).
  assert (Hxy : 32 <= x * 64 + y) by lia.
  unfold cp3. rewrite E0, E1, E2, !add_sub_l.
  rewrite (encode_cp3 _ _ _ Hx Hy Hz Hxy), <- E0, <- E1, <- E2, !Nb_bN. reflexivity.
Qed.

Lemma enc4 b0 b1 b2 b3 : (bN b0 <? 240) = false -> (bN b0 <? 245) = true -> second_ok b0 b1 = true ->
  is_cont b2 = true -> is_cont b3 = true -> encode_cp (cp4 b0 b1 b2 b3) = [b0; b1; b2; b3].
Proof.
  intros L0 L0' H1 H2 H3. destruct (second_ok_low _ _ H1) as [_ Hlo].
  destruct (lead_bits _ _ _ L0 L0') as (x & Hx & E0).
  destruct (is_cont_bits _ (second_ok_cont _ _ H1)) as (y & Hy & E1).
  assert (Hxy : 16 <= x * 64 + y) by lia.
  destruct (is_cont_bits _ H2) as (z & Hz & E2). destruct (is_cont_bits _ H3) as (w & Hw & E3).
  unfold cp4. rewrite E0, E1, E2, E3, !add_sub_l.
  rewrite (encode_cp4 _ _ _ _ Hx Hy Hz Hw Hxy), <- E0, <- E1, <- E2, <- E3, !Nb_bN. reflexivity.
Qed.

(* induction on proper suffixes, for the scanners that consume 1 to 4 bytes per step *)
Lemma suffix_ind (P : bytes -> Prop) :
  (forall s, (forall p t, p <> [] -> s = p ++ t -> P t) -> P s) -> forall s, P s.
Proof.
  intros H s. remember (length s) as n eqn:En. revert s En.
  induction n as [n IH] using lt_wf_ind. intros s ->. apply H. intros p t Hp ->.
  apply (IH (length t)); [|reflexivity]. rewrite app_length. destruct p; [congruence|cbn; lia].
Qed.

Lemma encode_cons c s : encode (c :: s) = encode_cp c ++ encode s.
Proof. reflexivity. Qed.

(* a run of one ASCII byte goes through the three functions unchanged *)
Lemma valid_ascii_run b n r : (bN b <? 128) = true -> utf8_valid (repeat b n ++ r) = utf8_valid r.
Proof. intros H. induction n as [|n IH]; [reflexivity|]. cbn [repeat app utf8_valid]. now rewrite H. Qed.

Lemma decode_ascii_run b n r : (bN b <? 128) = true ->
  decode_replace (repeat b n ++ r) = repeat (bN b) n ++ decode_replace r.
Proof. intros H. induction n as [|n IH]; [reflexivity|]. cbn [repeat app decode_replace]. now rewrite H, IH. Qed.

Lemma encode_ascii_run b n s : (bN b <? 128) = true -> encode (repeat (bN b) n ++ s) = repeat b n ++ encode s.
Proof. intros H. induction n as [|n IH]; [reflexivity|]. cbn [repeat app]. now rewrite encode_cons, (enc1 _ H), IH. Qed.

Definition starts_ok (s : bytes) : bool :=
  match s with [] => true | b :: _ => negb (is_cont b) end.

Lemma second_ok_not_cont b0 b1 : is_cont b1 = false -> second_ok b0 b1 = false.
Proof. unfold second_ok. intros ->. reflexivity. Qed.

Lemma valid_starts_ok b : utf8_valid b = true -> starts_ok b = true.
Proof.
  destruct b as [|x r]; [reflexivity|]. cbn [utf8_valid starts_ok]. unfold is_cont.
  destruct (bN x <? 128) eqn:E1; [lia|]. destruct (bN x <? 194) eqn:E2; [discriminate|lia].
Qed.

(* validity splits at a cut where the next byte does not continue a character: a character cut
   short by the end of a makes both sides false, since x cannot complete it *)
Lemma valid_cut : forall a b : bytes, starts_ok b = true -> utf8_valid (a ++ b) = utf8_valid a && utf8_valid b.
Proof.
  intros a [|x r] S; [now rewrite app_nil_r, andb_true_r|].
  apply negb_true_iff in S. pose proof (fun b0 => second_ok_not_cont b0 x S) as S2. revert a.
  induction a as [a IH] using suffix_ind. destruct a as [|b0 a0]; [reflexivity|].
  cbn [app utf8_valid].
  destruct (bN b0 <? 128); [apply (IH [b0]); [discriminate|reflexivity]|].
  destruct (bN b0 <? 194); [reflexivity|].
  destruct (bN b0 <? 224).
  { destruct a0 as [|b1 a1]; cbn [app]; [now rewrite S|].
    rewrite (IH [b0; b1] a1); [apply andb_assoc|discriminate|reflexivity]. }
  destruct (bN b0 <? 240).
  { destruct a0 as [|b1 [|b2 a2]]; cbn [app].
    - destruct r as [|y r2]; [reflexivity|]. now rewrite S2.
    - now rewrite S, andb_false_r.
    - rewrite (IH [b0; b1; b2] a2); [apply andb_assoc|discriminate|reflexivity]. }
  destruct (bN b0 <? 245); [|reflexivity].
  destruct a0 as [|b1 [|b2 [|b3 a3]]]; cbn [app].
  - destruct r as [|y [|z r3]]; try reflexivity. now rewrite S2.
  - destruct r as [|z r3]; [reflexivity|]. now rewrite S, andb_false_r.
  - now rewrite S, andb_false_r.
  - rewrite (IH [b0; b1; b2; b3] a3); [apply andb_assoc|discriminate|reflexivity].
Qed.

(* pieces of a valid string, each starting at a code-point boundary, are all valid *)
Lemma starts_ok_concat : forall ps, Forall (fun p => starts_ok p = true) ps -> starts_ok (concat ps) = true.
Proof.
  induction 1 as [|p ps Hp _ IH]; [reflexivity|]. cbn [concat].
  destruct p; [exact IH|exact Hp].
Qed.

Lemma pieces_valid : forall ps, utf8_valid (concat ps) = true ->
  Forall (fun p => starts_ok p = true) ps -> Forall (fun p => utf8_valid p = true) ps.
Proof.
  induction ps as [|p ps IH]; intros V S; [constructor|].
  inversion S as [|? ? Sp Sps]; subst. cbn [concat] in V.
  rewrite (valid_cut _ _ (starts_ok_concat _ Sps)) in V. apply andb_true_iff in V as [Vp Vr].
  constructor; [exact Vp|apply IH; assumption].
Qed.

Lemma concat_valid : forall ps, Forall (fun p => utf8_valid p = true) ps -> utf8_valid (concat ps) = true.
Proof.
  induction 1 as [|p ps Hp _ IH]; [reflexivity|]. cbn [concat].
  now rewrite (valid_cut _ _ (valid_starts_ok _ IH)), Hp, IH.
Qed.

Lemma repl_bytes : encode_cp REPL = [xef; xbf; xbd].
Proof. reflexivity. Qed.

(* encoding the replace-decoding gives the bytes back exactly when they are valid UTF-8: after a
   well-formed sequence both sides reduce to the rest; a replacement character stands for bytes
   that are not EF BF BD *)
Theorem sent_unchanged_iff_valid : forall s : bytes, encode (decode_replace s) = s <-> utf8_valid s = true.
Proof.
  induction s as [s IH] using suffix_ind. destruct s as [|b0 r0]; [split; reflexivity|].
  assert (Good : forall ch r, ch <> [] -> b0 :: r0 = ch ++ r ->
            (ch ++ encode (decode_replace r) = ch ++ r <-> utf8_valid r = true)).
  { intros ch r Hne E. rewrite <- (IH ch r Hne E). split; [apply app_inv_head | intros ->; reflexivity]. }
  cbn [utf8_valid decode_replace].
  destruct (bN b0 <? 128) eqn:E1.
  { rewrite encode_cons, (enc1 _ E1). exact (Good [b0] r0 ltac:(discriminate) eq_refl). }
  destruct (bN b0 <? 194) eqn:E2.
  { split; [|discriminate]. rewrite encode_cons, repl_bytes. cbn [app]. intros H. injection H as Hb _. subst b0. discriminate E2. }
  destruct (bN b0 <? 224) eqn:E3.
  { destruct r0 as [|b1 r1]; [split; discriminate|].
    destruct (is_cont b1) eqn:C1.
    - rewrite encode_cons, (enc2 _ _ E2 E3 C1). exact (Good [b0; b1] r1 ltac:(discriminate) eq_refl).
    - split; [|discriminate]. rewrite encode_cons, repl_bytes. cbn [app]. intros H. injection H as Hb _. subst b0. discriminate E3. }
  destruct (bN b0 <? 240) eqn:E4.
  { destruct r0 as [|b1 r1]; [split; discriminate|].
    destruct (second_ok b0 b1) eqn:S1.
    - destruct r1 as [|b2 r2]; [split; discriminate|].
      destruct (is_cont b2) eqn:C2.
      + rewrite encode_cons, (enc3 _ _ _ E3 E4 S1 C2). exact (Good [b0; b1; b2] r2 ltac:(discriminate) eq_refl).
      + split; [|discriminate]. rewrite encode_cons, repl_bytes. cbn [app]. intros H. injection H as _ _ Hb _. subst b2. discriminate C2.
    - split; [|destruct r1; discriminate]. rewrite encode_cons, repl_bytes. cbn [app]. intros H. injection H as Hb0 Hb1 _. subst b0 b1. discriminate S1. }
  destruct (bN b0 <? 245) eqn:E5.
  { (* a replacement character here stands for a lead byte F0..F4, not EF *)
    assert (Bad : forall t u, encode (REPL :: t) = b0 :: u -> False).
    { intros t u. rewrite encode_cons, repl_bytes. cbn [app]. intros H. injection H as Hb _. subst b0. discriminate E4. }
    destruct r0 as [|b1 r1]; [split; discriminate|].
    destruct (second_ok b0 b1) eqn:S1; [|split; [intros H; destruct (Bad _ _ H) | destruct r1 as [|? [|? ?]]; discriminate]].
    destruct r1 as [|b2 r2]; [split; discriminate|].
    destruct (is_cont b2) eqn:C2; [|split; [intros H; destruct (Bad _ _ H) | destruct r2; discriminate]].
    destruct r2 as [|b3 r3]; [split; [intros H; destruct (Bad _ _ H) | discriminate]|].
    destruct (is_cont b3) eqn:C3; [|split; [intros H; destruct (Bad _ _ H) | discriminate]].
    rewrite encode_cons, (enc4 _ _ _ _ E4 E5 S1 C2 C3). exact (Good [b0; b1; b2; b3] r3 ltac:(discriminate) eq_refl). }
  split; [|discriminate]. rewrite encode_cons, repl_bytes. cbn [app]. intros H. injection H as Hb _. subst b0. discriminate E5.
Qed.

Lemma enc_dec_valid s : utf8_valid s = true -> encode (decode_replace s) = s.
Proof. apply sent_unchanged_iff_valid. Qed.
