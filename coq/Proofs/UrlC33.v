(* Proofs/UrlC33.v -- edits keep the Host header and the authority on the destination; the refutations that hold
   for every codec; the values the computed witnesses of Props/C33.v are about; non-vacuity. *)
From Coq Require Import List Bool Arith NArith ZArith Lia.
From MV Require Import Base.Bytes Model.Url Proofs.UrlLemmas Proofs.UrlDec Proofs.UrlParse
  Proofs.UrlRequest Proofs.UrlDest.
Import ListNotations.

(* the port a Host header shows: none when it is the default of the scheme *)
Definition shown_port (s : bytes) (p : Z) : option Z :=
  match default_port s with
  | Some d => if (d =? p)%Z then None else Some p
  | None => Some p
  end.

(* a destination that a Host header can denote *)
Definition dest_ok (ace : bytes -> option str) (uenc : str -> option bytes) (h : str) (p : Z) : Prop :=
  all_ascii h = true /\ h <> [] /\ is_valid_host_s ace uenc h = true
  /\ starts_with [cLBR] h = false /\ mem cLF h = false /\ (0 <= p <= 65535)%Z.

Section Statements.
Variable ace : bytes -> option str.
Variable uenc : str -> option bytes.

Lemma bracket_nonempty h : h <> [] -> bracket h <> [].
Proof. unfold bracket. destruct (mem cCOLON h && negb (starts_with [cLBR] h)); [discriminate | auto]. Qed.

Lemma encode_authority_ascii v : all_ascii v = true -> encode_authority uenc v = v.
Proof.
  intros A. unfold encode_authority, idna_encode. destruct (is_nil v) eqn:N.
  - apply is_nil_true in N. subst. reflexivity.
  - rewrite A. destruct (label_len_ok _); reflexivity.
Qed.

(* on a consistent request (so after any successful edit) a Host header that exists denotes the destination *)
Theorem host_header_denotes_http1 r1 :
  consistent uenc r1 ->
  r_h2 r1 = false -> has_header s_Host (r_headers r1) = true ->
  dest_ok ace uenc (r_host r1) (r_port r1) ->
  exists a, host_header ace r1 = Some a
    /\ get_all s_Host (r_headers r1) = [a]
    /\ parse_authority ace uenc a = PA_ok (r_host r1) (shown_port (r_scheme r1) (r_port r1)).
Proof.
  intros C H2 HH (A & NE & V & NB & NL & P).
  destruct C as [C _]. exists (dest_text r1). split; [|split; [exact (C HH)|]].
  { unfold host_header, get_header. rewrite H2, (C HH). reflexivity. } apply (parse_authority_hostport ace uenc); assumption.
Qed.

(* the same for the authority of an HTTP/2 or HTTP/3 request *)
Theorem authority_denotes_http2 r1 :
  consistent uenc r1 ->
  r_h2 r1 = true -> r_authority r1 <> [] ->
  dest_ok ace uenc (r_host r1) (r_port r1) ->
  idna_decode ace (dest_text r1) = Some (dest_text r1) ->
  r_authority r1 = dest_text r1
  /\ host_header ace r1 = Some (dest_text r1)
  /\ parse_authority ace uenc (dest_text r1) = PA_ok (r_host r1) (shown_port (r_scheme r1) (r_port r1)).
Proof.
  intros [_ C] H2 NA (A & NE & V & NB & NL & P) D.
  assert (all_ascii (dest_text r1) = true) as AD by (apply hostport_ascii; [exact A | lia]).
  assert (r_authority r1 = dest_text r1) as EA by (rewrite (C NA); apply encode_authority_ascii; exact AD).
  split; [exact EA|]. split.
  - unfold host_header, get_authority. rewrite H2, EA, D.
    assert (dest_text r1 <> []) as NE2.
    { unfold dest_text. rewrite hostport_eq. pose proof (bracket_nonempty _ NE).
      destruct (bracket (r_host r1)); [congruence | discriminate]. }
    destruct (dest_text r1); [congruence | reflexivity].
  - apply (parse_authority_hostport ace uenc); assumption.
Qed.

Lemma bracket_not_ascii h : all_ascii h = false -> all_ascii (bracket h) = false.
Proof.
  intros H. unfold bracket. destruct (mem cCOLON h && negb (starts_with [cLBR] h)); [|exact H].
  simpl. rewrite all_ascii_app, H. reflexivity.
Qed.

Theorem non_ascii_url_rejected r u : all_ascii u = false -> set_url ace uenc r u = (r, false).
Proof. intros H. unfold set_url, parse. rewrite H. reflexivity. Qed.

Theorem idn_host_not_reassignable r :
  all_ascii (r_host r) = false -> r_connect r = false ->
  set_url ace uenc r (get_url r) = (r, false).
Proof.
  intros H NC. apply non_ascii_url_rejected. unfold get_url, unparse. rewrite NC.
  rewrite hostport_eq, !all_ascii_app, (bracket_not_ascii _ H).
  rewrite andb_false_l, !andb_false_r. reflexivity.
Qed.

End Statements.

Module Wit.
Import Strings.String.
Definition S (s : String.string) : bytes := UrlLit.B s.
Arguments S _%string_scope.
Definition req0 : request :=
  mkReq s_http (S "example.com") 8080 (S "/") (S "example.com:8080") [(s_Host, S "example.com:8080")] false false.

(* the real codec maps the ACE label xn--bcher-kva to b-u-umlaut-cher (UTF-8: 62 c3 bc 63 68 65 72);
   this single fact is re-checked against CPython by the corpus seed of the correspondence *)
Definition bucher : bytes := [x62; xc3; xbc; x63; x68; x65; x72].
Definition ace0 (l : bytes) : option str := if bytes_eqb l (S "xn--bcher-kva") then Some bucher else None.
Definition uenc0 (s : str) : option bytes := None.

(* url.hostport as it was before /repo commit ce9f9b96e, host:port written verbatim: for an IPv6 destination
   that is not a valid authority *)
Definition hostport_unrepaired (scheme host : bytes) (port : Z) : bytes :=
  match default_port scheme with
  | Some d => if (d =? port)%Z then host else host ++ cCOLON :: dec_of_Z port
  | None => host ++ cCOLON :: dec_of_Z port
  end.

Lemma wf_dest_ipv6 ace : wf_dest ace s_http (S "::1") 8080.
Proof.
  constructor; try (vm_compute; reflexivity).
  - left. reflexivity.
  - discriminate.
  - vm_compute. split; reflexivity.
  - lia.
Qed.

Lemma wf_dest_name ace : wf_dest ace s_https (S "exa_mple.com.") 443.
Proof.
  constructor; try (vm_compute; reflexivity).
  - right. reflexivity.
  - discriminate.
  - lia.
Qed.

Lemma wf_path_sample : wf_path (S "/a;b/c;d?x=1#f").
Proof. repeat split; vm_compute; reflexivity. Qed.

Lemma nonvacuous : forall ace uenc,
  wf_dest ace s_http (S "::1") 8080 /\ wf_path (S "/a;b/c;d?x=1#f")
  /\ idna_decode ace (S "::1") = Some (S "::1")
  /\ unparse s_http (S "::1") 8080 (S "/a;b/c;d?x=1#f") = S "http://[::1]:8080/a;b/c;d?x=1#f"
  /\ dest_ok ace uenc (S "::1") 8080
  /\ fst (step ace uenc req0 (SetHost (S "::1")))
     = mkReq s_http (S "::1") 8080 (S "/") (S "[::1]:8080") [(s_Host, S "[::1]:8080")] false false.
Proof.
  intros. split; [apply wf_dest_ipv6|]. split; [apply wf_path_sample|].
  split; [reflexivity|]. split; [vm_compute; reflexivity|]. split.
  - unfold dest_ok. repeat split; try (vm_compute; reflexivity); try discriminate; lia.
  - vm_compute. reflexivity.
Qed.
End Wit.
Export Wit.
