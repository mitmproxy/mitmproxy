(* Proofs/HookSeq.v -- what the monitor summary says about a hook sequence (pure list facts). *)
From Coq Require Import List Bool NArith.
From MV Require Import Base.Bytes Model.HttpStream.
Import ListNotations.

Definition mem (h : hook) (l : list hook) : bool := existsb (hook_eqb h) l.
(* may hook h fire after the hooks pre? *)
Definition rule (h : hook) (pre : list hook) : bool :=
  match h with
  | HkReqHeaders | HkConnect => isnil pre
  | HkRequest => mem HkReqHeaders pre && negb (mem HkRequest pre)
  | HkRespHeaders => mem HkReqHeaders pre && negb (mem HkRespHeaders pre)
  | HkResponse => mem HkReqHeaders pre && mem HkRespHeaders pre && negb (mem HkResponse pre)
  | HkError => mem HkReqHeaders pre
  end.

Lemma summ_snoc hs h : summ (hs ++ [h]) = mon_step (summ hs) h.
Proof. unfold summ. rewrite fold_left_app. reflexivity. Qed.

Lemma mem_snoc h l x : mem h (l ++ [x]) = mem h l || hook_eqb h x.
Proof. unfold mem. rewrite existsb_app. simpl. rewrite orb_false_r. reflexivity. Qed.

Lemma bits_mem hs :
  m_qh (summ hs) = mem HkReqHeaders hs /\ m_q (summ hs) = mem HkRequest hs /\ m_rh (summ hs) = mem HkRespHeaders hs
  /\ m_r (summ hs) = mem HkResponse hs /\ m_er (summ hs) = mem HkError hs /\ m_cn (summ hs) = mem HkConnect hs.
Proof.
  induction hs as [|x l IH] using rev_ind; [repeat split|].
  destruct IH as (A & B & C & D & E & F). rewrite summ_snoc, !mem_snoc.
  destruct x; simpl; rewrite ?orb_false_r, ?orb_true_r; repeat split; assumption.
Qed.

Lemma any_spec hs :
  let m := summ hs in m_qh m || m_q m || m_rh m || m_r m || m_er m || m_cn m = negb (isnil hs).
Proof.
  induction hs as [|x l IH] using rev_ind; [reflexivity|].
  rewrite summ_snoc. destruct l; destruct x; simpl; rewrite ?orb_true_r; reflexivity.
Qed.

Lemma snoc_split {A} (l : list A) x pre h post :
  l ++ [x] = pre ++ h :: post ->
  (post = [] /\ pre = l /\ h = x) \/ (exists post', post = post' ++ [x] /\ l = pre ++ h :: post').
Proof.
  destruct (rev post) as [|y rp] eqn:R.
  - assert (post = []) as -> by (rewrite <- (rev_involutive post), R; reflexivity).
    intros H. left.
    apply app_inj_tail in H. destruct H as [-> ->]. auto.
  - assert (post = rev rp ++ [y]) as -> by (rewrite <- (rev_involutive post), R; reflexivity).
    intros H. right. exists (rev rp).
    change (pre ++ h :: rev rp ++ [y]) with (pre ++ (h :: rev rp) ++ [y]) in H.
    rewrite app_assoc in H. apply app_inj_tail in H. destruct H as [-> ->]. auto.
Qed.

Lemma ok_mono l x : m_ok (summ (l ++ [x])) = true -> m_ok (summ l) = true.
Proof. rewrite summ_snoc. destruct x; simpl; intros H; repeat (apply andb_prop in H; destruct H as [H ?]); assumption. Qed.

Lemma ok_last l x : m_ok (summ (l ++ [x])) = true -> rule x l = true.
Proof.
  rewrite summ_snoc. pose proof (bits_mem l) as (A & B & C & D & E & F). pose proof (any_spec l) as Any. cbv zeta in Any.
  destruct x; simpl; intros H; repeat (apply andb_prop in H; destruct H as [H ?]);
    rewrite <- ?A, <- ?B, <- ?C, <- ?D, <- ?E;
    repeat match goal with G : ?b = true |- context [?b] => rewrite G end; simpl; try reflexivity.
  - rewrite Any in *. destruct l; simpl in *; congruence.
  - rewrite Any in *. destruct l; simpl in *; congruence.
Qed.

(* A property of the whole list that passes to every prefix, and that says something about the last element given
   the ones before it, says that about every element. *)
Lemma by_last (G : list hook -> Prop) (Q : hook -> list hook -> Prop) :
  (forall l x, G (l ++ [x]) -> G l /\ Q x l) ->
  forall hs, G hs -> forall pre h post, hs = pre ++ h :: post -> Q h pre.
Proof.
  intros Step. induction hs as [|x l IH] using rev_ind; intros Hg pre h post E.
  - destruct pre; discriminate.
  - destruct (Step l x Hg) as [Gl Ql]. apply snoc_split in E. destruct E as [(-> & -> & ->) | (post' & -> & ->)].
    + exact Ql.
    + exact (IH Gl pre h post' eq_refl).
Qed.

Theorem ok_rule hs : m_ok (summ hs) = true -> forall pre h post, hs = pre ++ h :: post -> rule h pre = true.
Proof.
  apply (by_last (fun l => m_ok (summ l) = true) (fun h pre => rule h pre = true)).
  intros l x H. split; [apply (ok_mono l x H) | apply ok_last, H].
Qed.

Theorem early_rule hs : m_early (summ hs) = false ->
  forall pre post, hs = pre ++ HkRespHeaders :: post -> mem HkRequest pre = true.
Proof.
  intros He pre post E.
  refine (by_last (fun l => m_early (summ l) = false) (fun h pre => h = HkRespHeaders -> mem HkRequest pre = true)
                  _ hs He pre _ post E eq_refl).
  intros l x H. rewrite summ_snoc in H. pose proof (bits_mem l) as (_ & B & _). rewrite <- B.
  destruct x; simpl in H; split; try exact H; try discriminate; apply orb_false_elim in H; destruct H as [H1 H2]; auto.
  intros _. destruct (m_q (summ l)); [reflexivity | discriminate].
Qed.

Theorem er2_rule hs : m_er2 (summ hs) = false ->
  forall pre post, hs = pre ++ HkError :: post -> mem HkError pre = false.
Proof.
  intros He pre post E.
  refine (by_last (fun l => m_er2 (summ l) = false) (fun h pre => h = HkError -> mem HkError pre = false)
                  _ hs He pre _ post E eq_refl).
  intros l x H. rewrite summ_snoc in H. pose proof (bits_mem l) as (_ & _ & _ & _ & B & _). rewrite <- B.
  destruct x; simpl in H; split; try exact H; try discriminate; apply orb_false_elim in H; destruct H as [H1 H2]; auto.
Qed.
