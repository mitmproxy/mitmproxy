(* Proofs/CertStoreC17.v -- corollaries, witnesses and the wildcard-form characterisation
   used by Props/C17.v. *)
From Coq Require Import List Bool Arith Lia.
From MV Require Import Base.Bytes Model.CertStore Proofs.CertStoreInv Proofs.CertStoreStable.
Import ListNotations.

Lemma split_nonempty cur s : split_dot_aux cur s <> [].
Proof.
  revert cur. induction s as [|c r IH]; intros cur; simpl; [discriminate|].
  destruct (byte_eqb c x2e); [discriminate | apply IH].
Qed.

Lemma join_split cur s : join_dot (split_dot_aux cur s) = rev cur ++ s.
Proof.
  revert cur. induction s as [|c r IH]; intros cur; simpl.
  - rewrite app_nil_r. reflexivity.
  - destruct (byte_eqb c x2e) eqn:E.
    + apply byte_eqb_eq in E. subst c.
      pose proof (IH []) as J. pose proof (split_nonempty [] r) as N.
      simpl. destruct (split_dot_aux [] r) as [|y l]; [contradiction|].
      rewrite J. reflexivity.
    + rewrite IH. simpl. rewrite <- app_assoc. reflexivity.
Qed.

Lemma tails_split cur s t :
  In t (tails1 (split_dot_aux cur s)) -> exists p, s = p ++ x2e :: join_dot t.
Proof.
  revert cur. induction s as [|c r IH]; intros cur; simpl; [intros []|].
  destruct (byte_eqb c x2e) eqn:E.
  - apply byte_eqb_eq in E. subst c. simpl.
    pose proof (split_nonempty [] r) as N. pose proof (join_split [] r) as J.
    destruct (split_dot_aux [] r) as [|y l] eqn:S; [contradiction|].
    intros [H|H].
    + subst t. exists []. simpl in *. rewrite J. reflexivity.
    + rewrite <- S in H. apply IH in H as [p Hp]. exists (x2e :: p). simpl. rewrite <- Hp. reflexivity.
  - intros H. apply IH in H as [p Hp]. exists (c :: p). simpl. rewrite <- Hp. reflexivity.
Qed.

Lemma asterisk_forms_str_spec dn f :
  In f (asterisk_forms_str dn) -> f = dn \/ exists p t, dn = p ++ x2e :: t /\ f = x2a :: x2e :: t.
Proof.
  unfold asterisk_forms_str. intros [H|H]; [left; symmetry; exact H|].
  apply in_map_iff in H as [t [Hf Ht]]. unfold split_dot in Ht. apply tails_split in Ht as [p Hp].
  right. exists p, (join_dot t). split; [exact Hp | symmetry; exact Hf].
Qed.

(* the names under which a custom certificate can be served for a request *)
Definition covers (cn : option name) (sans : list san) (n : name) : Prop :=
  n = [x2a]
  \/ (exists c, cn = Some c /\ c <> [] /\ (n = c \/ exists p t, c = p ++ x2e :: t /\ n = x2a :: x2e :: t))
  \/ (exists v, In (DNS v) sans /\ (n = v \/ exists p t, v = p ++ x2e :: t /\ n = x2a :: x2e :: t))
  \/ (exists v, In (Other v) sans /\ n = v).

Lemma potential_names_covers cn sans n : In n (potential_names cn sans) -> covers cn sans n.
Proof.
  unfold potential_names. intros H. apply in_app_or in H as [H|H].
  - destruct cn as [c|]; [|contradiction]. destruct c as [|b c]; [contradiction|]. simpl truthy_name in H.
    right. left. exists (b :: c). split; [reflexivity | split; [discriminate|]]. apply asterisk_forms_str_spec, H.
  - apply in_app_or in H as [H|[H|[]]].
    + apply in_flat_map in H as [s [Hs H]]. destruct s as [v|v]; simpl in H.
      * right. right. left. exists v. split; [exact Hs | apply asterisk_forms_str_spec, H].
      * destruct H as [H|[]]. right. right. right. exists v. split; [exact Hs | symmetry; exact H].
    + left. symmetry. exact H.
Qed.

(* a freshly generated entry survives fewer than cap further generations *)
Lemma stable_fresh cap truthy cn sans pre mid st1 e :
  let st0 := run truthy cap pre empty_store in
  get_cert truthy cap st0 cn sans = Some (st1, e) ->
  next_gen st1 = S (next_gen st0) ->
  let st2 := run truthy cap mid st1 in
  no_touch cn sans mid ->
  (truthy = true -> ~ empty_hit cn sans st0) ->
  next_gen st2 - next_gen st1 < cap ->
  get_cert truthy cap st2 cn sans = Some (st2, e).
Proof.
  intros st0 H Hn st2 NT G Hc. apply (stable cap truthy cn sans pre mid st1 e H NT G).
  intros i c s He.
  assert (I0 : Inv cap st0) by apply Inv_reachable.
  subst st0 st2.
  destruct (get_cert_cases _ _ _ _ _ _ _ H) as [E|Hg]; [rewrite E in Hn; lia|].
  destruct (generate_spec _ _ _ _ _ _ I0 Hg) as [_ [He' _]]. rewrite He in He'. inversion He'; subst.
  lia.
Qed.

Definition w_empty : list op := [AddCert 0 None [] [[]]].      (* add_cert(entry, "") *)
Definition w_sans : list san := [DNS []].                       (* DNSName("") *)

(* the unguarded statement fails for the [if name:] code: same request twice in a row,
   capacity 2, nothing in between, two different certificates *)
Lemma stable_refuted :
  exists cap pre cn sans st1 e st2 e',
    get_cert true cap (run true cap pre empty_store) cn sans = Some (st1, e)
    /\ no_touch cn sans [] /\ next_gen (run true cap [] st1) - gid e <= cap
    /\ get_cert true cap (run true cap [] st1) cn sans = Some (st2, e') /\ e' <> e.
Proof.
  exists 2, w_empty, None, w_sans.
  eexists. eexists. eexists. eexists.
  split; [vm_compute; reflexivity|]. split; [constructor|]. split; [vm_compute; lia|].
  split; [vm_compute; reflexivity|]. discriminate.
Qed.

Definition nA : name := [x61]. Definition nB : name := [x62]. Definition nC : name := [x63].
(* non-vacuity: capacity 2; a custom cert for *.b, a request for a.b served by it; a request for c
   generated, one more generation and an unrelated registration in between, then c again from the
   cache; the bound is attained *)
Definition n_ab : name := [x61; x2e; x62].
Definition n_sb : name := [x2a; x2e; x62].
Definition w_pre : list op := [AddCert 0 None [DNS n_sb] []; GetCert (Some n_ab) [DNS n_ab]].
Definition w_mid : list op := [GetCert (Some nB) []; AddCert 1 (Some n_ab) [] []; GetCert (Some n_ab) []].

Lemma nonvacuous :
  let st0 := run true 2 w_pre empty_store in
  exists st1,
    get_cert true 2 st0 (Some nC) [] = Some (st1, EGen 0 (Some nC) [])
    /\ no_touch (Some nC) [] w_mid
    /\ ~ empty_hit (Some nC) [] st0
    /\ next_gen (run true 2 w_mid st1) - 0 <= 2
    /\ gen_count (certs (run true 2 w_mid st1)) = 2
    /\ snd (step true 2 empty_store (GetCert (Some n_ab) [DNS n_ab])) = Some (EGen 0 (Some n_ab) [DNS n_ab])
    /\ snd (step true 2 (run true 2 [AddCert 0 None [DNS n_sb] []] empty_store) (GetCert (Some n_ab) [DNS n_ab]))
       = Some (ECustom 0).
Proof.
  eexists. split; [vm_compute; reflexivity|]. split.
  - unfold no_touch, w_mid. constructor; [|constructor; [|constructor; [|constructor]]].
    + simpl. intros [].
    + simpl. intros [n [H1 H2]]. vm_compute in H1, H2.
      destruct H1 as [<-|[]]. destruct H2 as [H2|[H2|[]]]; discriminate.
    + simpl. intros [].
  - split; [intros [e H]; vm_compute in H; discriminate|].
    split; [vm_compute; lia|]. split; [vm_compute; reflexivity|]. split; vm_compute; reflexivity.
Qed.
