(* Proofs/HttpStreamHooks.v -- HM: the ghost summary msum of a stream is the monitor run over its hook list; every
   function of the model preserves it.  What the monitor bits say about a hook list is in Proofs/HookSeq.v. *)
From Coq Require Import List Bool NArith.
From MV Require Import Base.Bytes Model.HttpStream Proofs.HttpStreamAbs Proofs.HttpStreamSound Proofs.HookSeq.
Import ListNotations.

Definition HM (s : stream) : Prop := msum s = summ (hooks s).

(* Only emit_hook writes hooks and msum, and it keeps them in step; every other update leaves both alone, so HM of
   an updated stream is HM of the stream by conversion.  The stream stays a variable throughout. *)
Lemma HM_emit h k s : HM s -> HM (fst (emit_hook h k s)).
Proof. unfold HM. simpl. intros ->. symmetry. apply summ_snoc. Qed.
Lemma HM_seq r f : HM (fst r) -> (forall s, HM s -> HM (fst (f s))) -> HM (fst (seq_res r f)).
Proof. destruct r as [s c]. simpl. intros H F. specialize (F s H). destruct (f s). exact F. Qed.
Lemma HM_unless_killed emit s k : HM s -> HM (fst k) -> HM (fst match check_killed emit s with Some r => r | None => k end).
Proof.
  intros H K. unfold check_killed, finish_killed.
  destruct (killed_by_us s || killed_by_remote s); [|exact K].
  destruct emit, (killed_by_remote s), (ferr s); try apply HM_emit; exact H.
Qed.

(* a cbres carries a stream either way *)
Definition HMcb (r : cbres) : Prop := match r with CbNo s1 => HM s1 | CbStop r => HM (fst r) end.
Lemma HM_cb (r : cbres) (k : stream -> res) :
  HMcb r -> (forall s, HM s -> HM (fst (k s))) -> HM (fst match r with CbNo s1 => k s1 | CbStop r => r end).
Proof. destruct r; simpl; auto. Qed.

(* [hm f]: f preserves HM.  Case analysis on what f itself branches on; its callees stay folded and are handled by
   their own lemmas. *)
Create HintDb hm.
#[local] Hint Resolve HM_emit HM_seq HM_unless_killed : hm.
#[local] Hint Extern 1 (HM _) => match goal with H : HM _ |- _ => exact H end : hm.
(* strips one field update upd_x v s: HM reads only msum and hooks, which no update but emit_hook's writes *)
#[local] Hint Extern 2 (HM (_ _ ?s)) => change (HM s) : hm.
Ltac hm f := intros; unfold f, crash; cbn beta iota zeta;
  repeat (first [apply HM_unless_killed | apply HM_seq; [|intros ? ?] | apply HM_cb; [|intros ? ?] | destr]; cbn beta iota zeta); cbn [fst HMcb]; auto with hm.

Lemma HM_new id : HM (new_stream id).
Proof. reflexivity. Qed.
Lemma HM_act h a s : HM s -> HM (apply_act h a s).
Proof. hm apply_act. Qed.
Lemma HM_queue q s : HM s -> HM (upd_queue q s).
Proof. intros H. exact H. Qed.
Lemma HM_pc s : HM s -> HM (upd_pc None s).
Proof. intros H. exact H. Qed.
Lemma HM_crash s : HM s -> HM (fst (crash s)).
Proof. intros H. exact H. Qed.

Lemma HM_flow_done s : HM s -> HM (fst (flow_done s)).
Proof. hm flow_done. Qed.
Lemma HM_send_response a s : HM s -> HM (fst (send_response a s)).
Proof. hm send_response. Qed.
#[local] Hint Resolve HM_flow_done HM_send_response : hm.
Lemma HM_send_response_cont a s : HM s -> HM (fst (send_response_cont a s)).
Proof. hm send_response_cont. Qed.
Lemma HM_perr_tail i c af s : HM s -> HM (fst (perr_tail i c af s)).
Proof.
  intros H. unfold perr_tail.
  assert (L : forall r : res, HM (fst r) -> HM (fst (let '(s2, c2) := r in (apply_after af s2, c2)))).
  { intros [s2 c2] K. destruct af; exact K. }
  apply L, HM_unless_killed; [exact H | destruct i; exact H].
Qed.
#[local] Hint Resolve HM_send_response_cont HM_perr_tail : hm.
Lemma HM_handle_perr i c af s : HM s -> HM (fst (handle_perr i c af s)).
Proof. hm handle_perr. Qed.
Lemma HM_start_request_stream l s : HM s -> HM (fst (start_request_stream l s)).
Proof. hm start_request_stream. Qed.
Lemma HM_stream_req_data o d s : HM s -> HM (fst (stream_req_data o d s)).
Proof. hm stream_req_data. Qed.
#[local] Hint Resolve HM_handle_perr HM_start_request_stream HM_stream_req_data : hm.
Lemma HM_resume_conn_stream o l c s : HM s -> HM (fst (resume_conn_stream o l c s)).
Proof. hm resume_conn_stream. Qed.
Lemma HM_resume_conn_consume c s : HM s -> HM (fst (resume_conn_consume c s)).
Proof. hm resume_conn_consume. Qed.
#[local] Hint Resolve HM_resume_conn_stream HM_resume_conn_consume : hm.
Lemma HM_cbs_req o s : HM s -> HMcb (cbs_req o s).
Proof. hm cbs_req. Qed.
Lemma HM_start_response_stream s : HM s -> HM (fst (start_response_stream s)).
Proof. hm start_response_stream. Qed.
Lemma HM_stream_resp_data o d s : HM s -> HM (fst (stream_resp_data o d s)).
Proof. hm stream_resp_data. Qed.
Lemma HM_set_rstream s : HM s -> HM (set_rstream s).
Proof. hm set_rstream. Qed.
Lemma HM_set_content b s : HM s -> HM (set_content b s).
Proof. hm set_content. Qed.
#[local] Hint Resolve HM_start_response_stream HM_stream_resp_data HM_set_rstream HM_set_content : hm.
Lemma HM_cbs_resp o s : HM s -> HMcb (cbs_resp o s).
Proof. hm cbs_resp. Qed.

Lemma HM_cont_req_headers es s : HM s -> HM (fst (cont_req_headers es s)).
Proof. hm cont_req_headers. Qed.
Lemma HM_cont_req s : HM s -> HM (fst (cont_req s)).
Proof. hm cont_req. Qed.
Lemma HM_cont_req_stream s : HM s -> HM (fst (cont_req_stream s)).
Proof. hm cont_req_stream. Qed.
Lemma HM_cont_resp_headers es s : HM s -> HM (fst (cont_resp_headers es s)).
Proof. hm cont_resp_headers. Qed.
Lemma HM_cont_connect s : HM s -> HM (fst (cont_connect s)).
Proof. hm cont_connect. Qed.
#[local] Hint Resolve HM_cbs_req HM_cbs_resp HM_cont_req_headers HM_cont_req HM_cont_req_stream HM_cont_resp_headers HM_cont_connect : hm.

Lemma HM_resume o k inp s : HM s -> HM (fst (resume o k inp s)).
Proof. hm resume. Qed.

Lemma HM_state_wait_req_headers o h es s : HM s -> HM (fst (state_wait_req_headers o h es s)).
Proof. hm state_wait_req_headers. Qed.
Lemma HM_state_consume_req o e s : HM s -> HM (fst (state_consume_req o e s)).
Proof. hm state_consume_req. Qed.
Lemma HM_state_stream_req o e s : HM s -> HM (fst (state_stream_req o e s)).
Proof. hm state_stream_req. Qed.
Lemma HM_state_wait_resp_headers o h es s : HM s -> HM (fst (state_wait_resp_headers o h es s)).
Proof. hm state_wait_resp_headers. Qed.
Lemma HM_state_consume_resp o e s : HM s -> HM (fst (state_consume_resp o e s)).
Proof. hm state_consume_resp. Qed.
Lemma HM_state_stream_resp o e s : HM s -> HM (fst (state_stream_resp o e s)).
Proof. hm state_stream_resp. Qed.
#[local] Hint Resolve HM_state_wait_req_headers HM_state_consume_req HM_state_stream_req
  HM_state_wait_resp_headers HM_state_consume_resp HM_state_stream_resp : hm.
Lemma HM_note_event e s : HM s -> HM (note_event e s).
Proof. hm note_event. Qed.
#[local] Hint Resolve HM_note_event : hm.
Lemma HM_event o s e : HM s -> HM (fst (run_event o s e)).
Proof. hm run_event. Qed.

