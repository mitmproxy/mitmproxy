(* Proofs/ViewPrim.v -- specifications of the SortedKeyList methods on self._view, of View.__getitem__,
   of the Focus and Settings receivers and of the signals.
   Looking up a shown flow finds its key cached and leaves the state as it is; looking up a hidden one may
   cache a key ([ext]). *)
From Coq Require Import List Bool Arith NArith ZArith Lia Permutation Sorted.
From MV Require Import Base.Bytes Model.View Proofs.ViewBase Proofs.ViewSpec.
Import ListNotations.

(* run the computation up to the next call that is not gets/modify/ret, reassociating binds on the way *)
Ltac msimp := repeat (rewrite bind_assoc || rewrite bind_gets || rewrite bind_modify || rewrite bind_ret).

Lemma view_key_cached k id s : In id (store s) -> cache_of s id (okey s) = Some k -> _view_key id s = Ok (k, s).
Proof. apply (okey_call_cached (okey s)). Qed.
Lemma view_key_shown k id s : CoreV s -> In (k, id) (view s) -> _view_key id s = Ok (k, s).
Proof. intros C H. destruct (c_cached _ C _ _ H). apply view_key_cached; assumption. Qed.

Lemma view_key_spec id s : ok (_view_key id s) (fun _ s' => ext s s').
Proof. apply (okey_call_spec (okey s)). Qed.

Lemma view_find_shown id s : CoreV s -> In id (raw_ids s) ->
  exists i, _view_find id s = Ok (Some i, s) /\ nth_error (raw_ids s) i = Some id.
Proof.
  intros C Hin. apply in_ids_split in Hin as [k Hin].
  destruct (sl_find_in _ _ _ (c_sorted _ C) Hin) as [[i Hi] _]. exists i.
  split; [|apply (map_nth_error snd _ _ (sl_index_some _ _ _ _ Hi))].
  unfold _view_find. msimp. destruct (view s) eqn:V; [destruct Hin|]. rewrite <- V in *.
  rewrite (bind_ok (view_key_shown k id s C Hin)). msimp. rewrite Hi. reflexivity.
Qed.
Lemma view_find_hidden id s : ~ In id (raw_ids s) -> ok (_view_find id s) (fun r s' => r = None /\ ext s s').
Proof.
  intros Hn. unfold _view_find. msimp. destruct (view s) eqn:V.
  - split; [reflexivity | apply ext_refl].
  - apply (ok_bind (view_key_spec id s)). intros k s1 X. msimp.
    rewrite (e_view _ _ X), (sl_index_none k id (view s) Hn). split; [reflexivity | exact X].
Qed.

Lemma view_contains_shown id s : CoreV s -> In id (raw_ids s) -> _view_contains id s = Ok (true, s).
Proof.
  intros C Hin. destruct (view_find_shown id s C Hin) as (i & E & _). unfold _view_contains. rewrite (bind_ok E). reflexivity.
Qed.
Lemma view_contains_hidden id s : ~ In id (raw_ids s) -> ok (_view_contains id s) (fun b s' => b = false /\ ext s s').
Proof.
  intros Hn. apply (ok_bind (view_find_hidden id s Hn)). intros r s' [-> X]. split; [reflexivity | exact X].
Qed.

Lemma view_index_shown id s : CoreV s -> In id (raw_ids s) ->
  exists i, _view_index id s = Ok (i, s) /\ nth_error (raw_ids s) i = Some id.
Proof.
  intros C Hin. destruct (view_find_shown id s C Hin) as (i & E & Hi). exists i. unfold _view_index. rewrite (bind_ok E). auto.
Qed.

Lemma NoDup_ids_split (l1 l2 : list (N * N)) k id :
  NoDup (map snd (l1 ++ (k, id) :: l2)) -> ~ In id (map snd (l1 ++ l2)) /\ NoDup (map snd (l1 ++ l2)).
Proof.
  rewrite !map_app. simpl. intros H. split; [apply NoDup_remove_2 in H; exact H | apply NoDup_remove_1 in H; exact H].
Qed.

Lemma view_remove_spec id s : CoreV s -> In id (raw_ids s) ->
  exists v', _view_remove id s = Ok (tt, set_view v' s) /\ CoreV (set_view v' s)
  /\ ~ In id (map snd v') /\ Permutation (raw_ids s) (id :: map snd v') /\ incl v' (view s).
Proof.
  intros C Hin. apply in_ids_split in Hin as [k Hin].
  destruct (sl_find_in _ _ _ (c_sorted _ C) Hin) as [_ [v' Hv]]. exists v'.
  destruct (sl_remove_some _ _ _ _ Hv) as (l1 & l2 & V & ->).
  assert (Sub : incl (l1 ++ l2) (view s)).
  { rewrite V. intros x H. apply in_app_iff in H. apply in_or_app. simpl. tauto. }
  destruct (NoDup_ids_split l1 l2 k id) as [Hn Nd]; [rewrite <- V; apply (c_nodup _ C)|].
  split; [|split; [|split; [exact Hn | split; [|exact Sub]]]].
  - unfold _view_remove. msimp. destruct (view s) eqn:E; [destruct Hin|]. rewrite <- E in *.
    rewrite (bind_ok (view_key_shown k id s C Hin)). msimp. rewrite Hv. reflexivity.
  - constructor; simpl.
    + apply (c_store _ C).
    + apply (ksorted_app_remove l1 (k, id) l2). rewrite <- V. apply (c_sorted _ C).
    + intros k' id' H. apply (c_cached _ C), Sub, H.
    + exact Nd.
  - unfold raw_ids. rewrite V, !map_app. simpl. symmetry. apply Permutation_middle.
Qed.

Lemma view_add_cached k id s : CoreV s -> In id (store s) -> ~ In id (raw_ids s) -> cache_of s id (okey s) = Some k ->
  let s' := set_view (sl_add k id (view s)) s in
  _view_add id s = Ok (tt, s') /\ CoreV s' /\ Permutation (raw_ids s') (id :: raw_ids s).
Proof.
  intros C Hst Hn Hk s'.
  assert (P : Permutation (raw_ids s') (id :: raw_ids s)).
  { change (id :: raw_ids s) with (map snd ((k, id) :: view s)). apply Permutation_map, sl_add_perm. }
  split; [|split; [|exact P]].
  - unfold _view_add. rewrite (bind_ok (view_key_cached k id s Hst Hk)). reflexivity.
  - constructor; simpl.
    + apply (c_store _ C).
    + apply sl_add_sorted, (c_sorted _ C).
    + intros k' id' Hin. apply (Permutation_in _ (sl_add_perm k id (view s))) in Hin. destruct Hin as [Hin|Hin].
      * inversion Hin; subst. auto.
      * apply (c_cached _ C), Hin.
    + eapply Permutation_NoDup; [symmetry; exact P|]. constructor; [exact Hn | apply (c_nodup _ C)].
Qed.

Lemma view_getitem_spec offset s : (0 <= offset < Z.of_nat (length (view s)))%Z ->
  exists a, view_getitem offset s = Ok (a, s) /\ In a (raw_ids s).
Proof.
  intros Ho. unfold view_getitem, _rev, view_len. msimp.
  assert (G : forall i, (0 <= i < Z.of_nat (length (view s)))%Z ->
             exists a, _view_getitem i s = Ok (a, s) /\ In a (raw_ids s)).
  { intros i Hi. unfold _view_getitem. msimp.
    (* i <? 0 is asked twice: to normalise the index, then to check its range *)
    do 2 (destruct (Z.ltb_spec i 0); [lia|]). destruct (Z.leb_spec (Z.of_nat (length (view s))) i); [lia|]. cbn [orb].
    destruct (nth_error (view s) (Z.to_nat i)) as [e|] eqn:E.
    - exists (snd e). split; [reflexivity|]. apply nth_error_In in E. unfold raw_ids. apply in_map. exact E.
    - apply nth_error_None in E. lia. }
  destruct (reversed s).
  - destruct (Z.ltb_spec offset 0); [lia|]. msimp.
    destruct (Z.ltb_spec (Z.of_nat (length (view s)) - offset - 1) 0); [lia|]. msimp. apply G. lia.
  - msimp. apply G. exact Ho.
Qed.

Lemma bisect_spec id s : ok (_bisect id s) (fun r s' => ext s s' /\ (0 <= r)%Z).
Proof.
  unfold _bisect, _view_bisect_right. msimp.
  apply (ok_bind (view_key_spec id s)). intros k s1 X. msimp.
  pose proof (sl_bisect_right_le k (view s1)) as Hle.
  unfold _rev, view_len. msimp. destruct (reversed s1).
  - destruct (Z.ltb_spec (Z.of_nat (sl_bisect_right k (view s1)) - 1) 0); msimp.
    + split; [exact X | lia].
    + destruct (Z.ltb_spec (Z.of_nat (length (view s1)) - (Z.of_nat (sl_bisect_right k (view s1)) - 1) - 1) 0); [lia|].
      msimp. split; [exact X | lia].
  - msimp. split; [exact X | lia].
Qed.

(* result of a Focus receiver: only focus (and settings, monotonically) changed *)
Record foc (s s' : state) : Prop := { f_updm : updm s s'; f_view : view s' = view s; f_log : log s' = log s }.
Lemma foc_ext s s' : ext s s' -> foc s s'. Proof. intros []. constructor; assumption. Qed.
Lemma foc_refl s : foc s s. Proof. apply foc_ext, ext_refl. Qed.
Lemma foc_trans a b c : foc a b -> foc b c -> foc a c.
Proof. intros [] []. constructor; [eapply updm_trans; eauto | congruence..]. Qed.
Lemma updm_same_settings s s' : cfg_eq s s' -> settings s' = settings s -> updm s s'.
Proof.
  intros C E. constructor; [constructor|].
  - exact C.
  - intros id o k H. left. unfold cache_of in *. rewrite E in H. exact H.
  - intros id H. left. unfold settings_ids in *. rewrite E in H. exact H.
  - intros id o k H. unfold cache_of in *. rewrite E. exact H.
Qed.
Lemma foc_set_focus f s : foc s (set_focus f s).
Proof. constructor; [apply updm_same_settings; [constructor; reflexivity | reflexivity] | reflexivity..]. Qed.
Lemma CoreV_foc s s' : foc s s' -> CoreV s -> CoreV s'.
Proof. intros [U V _]. apply CoreV_updm; assumption. Qed.
Lemma raw_ids_foc s s' : foc s s' -> raw_ids s' = raw_ids s.
Proof. intros [_ V _]. apply raw_ids_view, V. Qed.

Lemma focus_set_flow_shown id s : CoreV s -> In id (raw_ids s) ->
  focus_set_flow (Some id) s = Ok (tt, set_focus (Some id) s).
Proof.
  intros C Hin. unfold focus_set_flow, view_contains. rewrite (bind_ok (view_contains_shown id s C Hin)). reflexivity.
Qed.

Lemma focus_set_index_spec idx s : CoreV s -> (0 <= idx < Z.of_nat (length (view s)))%Z ->
  exists f, focus_set_index idx s = Ok (tt, set_focus (Some f) s) /\ In f (raw_ids s).
Proof.
  intros C Hi. unfold focus_set_index, view_len. msimp.
  replace (Z.ltb idx 0 || Z.ltb (Z.of_nat (length (view s)) - 1) idx) with false.
  2:{ symmetry. apply orb_false_iff. split; apply Z.ltb_ge; lia. }
  destruct (view_getitem_spec idx s Hi) as (f & E & Hin).
  rewrite (bind_ok E). exists f. split; [apply focus_set_flow_shown; assumption | exact Hin].
Qed.

Lemma view_len_zero s : Z.eqb (Z.of_nat (length (view s))) 0 = true -> view s = [].
Proof. intros H. apply Z.eqb_eq in H. destruct (view s); [reflexivity | simpl in H; lia]. Qed.

Lemma focus_sig_view_refresh_spec s : CoreV s ->
  ok (focus_sig_view_refresh s) (fun _ s' => foc s s' /\ FocusOk s').
Proof.
  intros C. unfold focus_sig_view_refresh, view_len. msimp.
  destruct (Z.eqb (Z.of_nat (length (view s))) 0) eqn:En.
  - split; [apply foc_set_focus | apply view_len_zero, En].
  - apply Z.eqb_neq in En. msimp.
    (* every branch but one ends by focusing the flow at a valid position of the list *)
    assert (Pick : forall i s1, ext s s1 -> (0 <= i)%Z ->
              ok ((f <- view_getitem (Z.min i (Z.of_nat (length (view s1)) - 1)) ;; focus_set_flow (Some f)) s1)
                 (fun _ s' => foc s s' /\ FocusOk s')).
    { intros i s1 X Hi. pose proof (CoreV_ext _ _ X C) as C1.
      destruct (view_getitem_spec (Z.min i (Z.of_nat (length (view s1)) - 1)) s1) as (f & E & Hin); [rewrite (e_view _ _ X); lia|].
      rewrite (bind_ok E), (focus_set_flow_shown f s1 C1 Hin).
      split; [eapply foc_trans; [apply foc_ext, X | apply foc_set_focus] | exact Hin]. }
    destruct (focus s) as [g|] eqn:Fo.
    + unfold view_contains. destruct (in_dec N.eq_dec g (raw_ids s)) as [Hin|Hn].
      * rewrite (bind_ok (view_contains_shown g s C Hin)).
        split; [apply foc_refl | exact (FocusOk_some s g Fo Hin)].
      * apply (ok_bind (view_contains_hidden g s Hn)). intros b s1 [-> X1].
        unfold focus_nearest, view_len. msimp.
        apply (ok_bind (bisect_spec g s1)). intros r s2 [X2 Hr]. msimp.
        apply Pick; [eapply ext_trans; eauto | exact Hr].
    + replace 0%Z with (Z.min 0 (Z.of_nat (length (view s)) - 1)) by lia. apply Pick; [apply ext_refl | lia].
Qed.

Lemma focus_sig_view_remove_spec id idx s : CoreV s ->
  match focus s with Some g => g = id \/ In g (raw_ids s) | None => False end ->
  ok (focus_sig_view_remove id idx s) (fun _ s' => foc s s' /\ FocusOk s').
Proof.
  intros C Hf. unfold focus_sig_view_remove, view_len. msimp.
  destruct (Z.eqb (Z.of_nat (length (view s))) 0) eqn:En.
  - split; [apply foc_set_focus | apply view_len_zero, En].
  - apply Z.eqb_neq in En. msimp. destruct (focus s) as [g|] eqn:Fo; [|contradiction].
    destruct (N.eqb_spec g id) as [_|Hne].
    + destruct (focus_set_index_spec (Z.min (Z.of_nat idx) (Z.of_nat (length (view s)) - 1)) s C) as (f & E & Hin); [lia|].
      rewrite E. split; [apply foc_set_focus | exact Hin].
    + split; [apply foc_refl|].
      apply (FocusOk_some s g Fo). destruct Hf; [contradiction | assumption].
Qed.

Lemma focus_sig_view_add_spec id s : CoreV s -> In id (raw_ids s) ->
  (forall g, focus s = Some g -> In g (raw_ids s)) ->
  ok (focus_sig_view_add id s) (fun _ s' => foc s s' /\ FocusOk s').
Proof.
  intros C Hin Hf. unfold focus_sig_view_add. msimp. destruct (focus s) as [g|] eqn:Fo.
  - split; [apply foc_refl | exact (FocusOk_some s g Fo (Hf g eq_refl))].
  - rewrite (focus_set_flow_shown id s C Hin). split; [apply foc_set_focus | exact Hin].
Qed.

Lemma emit_foc e s : foc s (set_log (log s ++ [e]) s) -> True. Proof. trivial. Qed.

Lemma CoreV_set_log l s : CoreV s -> CoreV (set_log l s).
Proof. intros []. constructor; assumption. Qed.

Lemma send_spec e (h : M unit) s : CoreV s ->
  ok (h (set_log (log s ++ [e]) s)) (fun _ s' => foc (set_log (log s ++ [e]) s) s' /\ FocusOk s') ->
  ok ((emit e ;;; h) s) (fun _ s' => upd s s' /\ view s' = view s /\ log s' = log s ++ [e] /\ CoreV s' /\ FocusOk s').
Proof.
  intros C H. apply (ok_mono H). intros _ s' [[U V L] F].
  split; [|split; [exact V | split; [exact L | split; [|exact F]]]].
  - (* upd does not read the log *) destruct U as [[[] Nw Ids] _]. constructor; [constructor|..]; assumption.
  - apply (CoreV_updm _ _ U V), CoreV_set_log, C.
Qed.

Lemma send_view_refresh_spec s : CoreV s ->
  ok (send_view_refresh s) (fun _ s' => upd s s' /\ view s' = view s /\ log s' = log s ++ [ViewRefresh]
                                          /\ CoreV s' /\ FocusOk s').
Proof. intros C. apply send_spec; [exact C | apply focus_sig_view_refresh_spec, CoreV_set_log, C]. Qed.
Lemma send_view_remove_spec id idx s : CoreV s ->
  match focus s with Some g => g = id \/ In g (raw_ids s) | None => False end ->
  ok (send_view_remove id idx s) (fun _ s' => upd s s' /\ view s' = view s /\ log s' = log s ++ [ViewRemove id idx]
                                               /\ CoreV s' /\ FocusOk s').
Proof.
  intros C Hf. apply send_spec; [exact C | apply focus_sig_view_remove_spec; [apply CoreV_set_log, C | exact Hf]].
Qed.
Lemma send_view_add_spec id s : CoreV s -> In id (raw_ids s) ->
  (forall g, focus s = Some g -> In g (raw_ids s)) ->
  ok (send_view_add id s) (fun _ s' => upd s s' /\ view s' = view s /\ log s' = log s ++ [ViewAdd id]
                                        /\ CoreV s' /\ FocusOk s').
Proof.
  intros C Hin Hf. apply send_spec; [exact C | apply focus_sig_view_add_spec; [apply CoreV_set_log, C | exact Hin | exact Hf]].
Qed.

Lemma settings_getitem_spec id s : In id (store s) ->
  ok (settings_getitem id s) (fun c s' => ext s s' /\ sget (settings s') id = Some c
                                          /\ (forall id' o', cache_of s' id' o' = cache_of s id' o')).
Proof.
  intros Hst. unfold settings_getitem. msimp. rewrite (proj2 (memN_In _ _) Hst). msimp.
  destruct (sget (settings s) id) as [c|] eqn:Es.
  - split; [apply ext_refl | auto].
  - msimp.
    assert (Q : forall o, cache_of s id o = None) by (intros o; unfold cache_of; rewrite Es; reflexivity).
    split; [|split].
    + apply ext_sset; auto; intros o k; [rewrite cget_cempty | rewrite Q]; discriminate.
    + simpl. rewrite sget_sset, N.eqb_refl. reflexivity.
    + intros id' o'. rewrite cache_of_sset. destruct (N.eqb_spec id id') as [<-|_]; [|reflexivity].
      rewrite Q. apply cget_cempty.
Qed.

(* writing back a value that is already cached changes nothing observable *)
Lemma ext_cache_same s id o k c :
  sget (settings s) id = Some c -> cget o c = Some k ->
  ext s (set_settings (sset (settings s) id (cset o k c)) s).
Proof.
  intros Es Ec.
  assert (Q : forall o' k', cget o' (cset o k c) = Some k' <-> cache_of s id o' = Some k').
  { intros o' k'. unfold cache_of. rewrite Es, cget_cset.
    destruct (order_eqb o' o) eqn:E; [apply order_eqb_eq in E; subst o'; rewrite Ec|]; tauto. }
  apply ext_sset; [left; eapply sget_ids; eauto | |]; intros o' k' H; [left|]; apply Q, H.
Qed.
