(* Proofs/QuicDemuxLocal.v -- locality: every command produced while a stream event is handled
   is caused by the one stream layer registered for (side, id) of that event; and the only way to
   reach the Unexpected-stream-event failure is a QuicStreamStopSending event. *)
From Coq Require Import NArith Arith List Bool.
From MV Require Import Base.Bytes Model.QuicIdsPrelude Gen.QuicIds Model.QuicDemux
  Proofs.QuicIds Proofs.QuicDemuxCore Proofs.QuicDemuxInv Proofs.QuicDemuxRun.
Import ListNotations.
Open Scope N_scope.

Definition ghost_is (L : nat) (o : out) : Prop :=
  match o with
  | OSend L' _ _ _ _ | OReset L' _ _ _ | OStop L' _ _ _ | OPass L' _ => L' = L
  | OCloseConn _ _ => False
  end.

Section Local.
Variable C : Type.
Variable child_step : C -> connst * connst -> cevent -> C * list ccmd.
Variable new_child : nat -> C.
Notation state := (state C).

Section Fixed.
Variable outs0 : list out.
Variable L : nat.
Variable s0 : side.
Variable id0 : N.

Definition CausedBy (st : state) : Prop :=
  (exists new, outs st = new ++ outs0 /\ Forall (ghost_is L) new) /\ has_id C st L s0 id0.

Lemma CausedBy_upd L' f st : keeps_ids C f -> CausedBy st -> CausedBy (upd_layer C L' f st).
Proof. intros K [H1 H2]. split; [exact H1 | apply has_id_upd; auto]. Qed.

Lemma CausedBy_emit w o st : ghost_is L o -> CausedBy st -> CausedBy (emit C w L o st).
Proof.
  intros G [(new & E & F) H2].
  destruct (emit_cases C w L o st) as [Ee|[Ee|(L' & to & id & d & code & -> & Ee)]]; rewrite Ee.
  - split; eauto.
  - split; [|exact H2]. exists (o :: new). cbn. rewrite E. split; auto.
  - split; [|exact H2]. exists (OReset L' to id code :: new). cbn. rewrite E. split; auto.
Qed.

Lemma CausedBy_etc fuel w ev st : CausedBy st -> CausedBy (etc C child_step fuel w L ev st).
Proof.
  apply (etc_P C child_step CausedBy w L).
  - intros; apply CausedBy_upd; auto; apply keeps_set_cst.
  - intros; apply CausedBy_upd; auto; apply keeps_set_conn.
  - intros; apply CausedBy_upd; auto; apply keeps_set_conn.
  - intros st0 e H _; exact H.
  - intros; apply CausedBy_emit; cbn; auto.
  - intros; apply CausedBy_emit; cbn; auto.
  - intros; apply CausedBy_emit; cbn; auto. apply CausedBy_upd; auto; apply keeps_set_conn.
  - intros; apply CausedBy_emit; cbn; auto.
  - intros st0 l id nx [H1 H2] Hl Hs _. split; [exact H1|].
    apply (has_id_open C (with_next C nx st0) L l id Hl Hs). left. exact H2.
Qed.

Lemma CausedBy_post from k st : CausedBy st -> CausedBy (post C child_step from k L st).
Proof.
  apply (post_keeps C child_step CausedBy (fun _ => False)).
  - intros e [].
  - intros e st0 _ H; exact H.
  - intros L' s g st0 _. apply CausedBy_upd, keeps_set_conn.
  - intros; apply CausedBy_etc; assumption.
  - intros c _ [].
Qed.
End Fixed.

Lemma stream_event_local st from id k : Inv C st ->
  let st' := handle_stream C child_step new_child from id k st in
  exists new, outs st' = new ++ outs st /\
    forall o, In o new -> exists L, ghost_is L o /\ has_id C st' L from id.
Proof.
  intros HI. cbn. unfold handle_stream.
  assert (Hnil : exists new, outs st = new ++ outs st /\ forall o, In o new -> exists L, ghost_is L o /\ has_id C st L from id).
  { exists []. split; auto. intros o []. }
  assert (Done : forall L st', CausedBy (outs st) L from id st' ->
            exists new, outs st' = new ++ outs st /\ forall o, In o new -> exists L, ghost_is L o /\ has_id C st' L from id).
  { intros L st' [(new & E & F) Hh]. exists new. split; auto.
    intros o Hin. exists L. split; auto. rewrite Forall_forall in F; auto. }
  destruct (dict_get id _) as [L|] eqn:Eg.
  - apply (Done L), CausedBy_post. split; [exists []; split; auto|]. apply (inv_map _ _ (proj1 HI)), Eg.
  - destruct (negb _) eqn:Ei; [exact Hnil|].
    destruct (create_layer C new_child from id st) as [[L st2]|] eqn:Ec; [|exact Hnil].
    destruct (create_shape C new_child from id st L st2 Ec) as (_ & Ho & _ & _ & Hd).
    apply (Done L), CausedBy_post, CausedBy_etc. split; [exists []; split; auto|].
    apply (inv_map _ _ (proj1 (Inv_create C new_child from id st L st2 HI Eg Ei Ec))), Hd.
Qed.

Definition NotUnexpected (st : state) : Prop := err st <> Some UnexpectedStreamEvent.

Lemma err_emit w L o (st : state) : err (emit C w L o st) = err st.
Proof. destruct (emit_cases C w L o st) as [E|[E|(? & ? & ? & ? & ? & _ & E)]]; rewrite E; reflexivity. Qed.

Lemma NotUnexpected_fail e st : e <> UnexpectedStreamEvent -> NotUnexpected st -> NotUnexpected (fail C e st).
Proof. intros He H. unfold NotUnexpected, fail in *; cbn. destruct (err st); congruence. Qed.

Lemma NotUnexpected_etc fuel w L ev st : NotUnexpected st -> NotUnexpected (etc C child_step fuel w L ev st).
Proof.
  apply (etc_P C child_step NotUnexpected w L); try (intros; unfold NotUnexpected in *; rewrite ?err_emit; cbn; auto; fail).
  intros st0 e H [->|[->|[->|[->|[->|[->| ->]]]]]]; apply NotUnexpected_fail; auto; discriminate.
Qed.

Definition is_stop (ev : sevent) : bool := match ev with SStream _ _ (KStop _) => true | _ => false end.

Theorem stop_sending_only_cause evs :
  forallb (fun ev => negb (is_stop ev)) evs = true ->
  err (run C child_step new_child evs) <> Some UnexpectedStreamEvent.
Proof.
  intros Hf. apply (run_keeps C child_step new_child NotUnexpected (eq UnexpectedStreamEvent)).
  - intros e H; symmetry; exact H.
  - intros e st Hb. apply NotUnexpected_fail. intros ->. apply Hb. reflexivity.
  - intros L s g st _ H; exact H.
  - intros; apply NotUnexpected_etc; assumption.
  - intros from id st L st2 H _ _ Ec. unfold NotUnexpected.
    destruct (create_shape C new_child from id st L st2 Ec) as (_ & _ & E & _). congruence.
  - intros s code st H; exact H.
  - intros c s d st H; exact H.
  - intros from id c Hin _. rewrite forallb_forall in Hf. specialize (Hf _ Hin). discriminate.
  - unfold NotUnexpected; cbn; discriminate.
Qed.

End Local.
