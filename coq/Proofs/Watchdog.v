(* Proofs/Watchdog.v — invariants of the TimeoutWatchdog automaton for all schedules. *)
From Coq Require Import ZArith List Bool Lia ZifyBool.
From MV Require Import Gen.WatchdogCond Model.Watchdog.
Import ListNotations.
Local Open Scope Z_scope.

(* what the schedule itself says, independently of the watcher *)
Record spec := mkSpec { s_now : Z; s_last : Z; s_pending : Z }.
Definition spec_step (p : spec) (e : wevent) : spec :=
  match e with
  | Advance d => mkSpec (s_now p + Z.max 0 d) (s_last p) (s_pending p)
  | Activity => mkSpec (s_now p) (s_now p) (s_pending p)
  | HookStart => mkSpec (s_now p) (s_last p) (s_pending p + 1)
  | HookEnd =>
    if s_pending p <=? 0 then p
    else if s_pending p =? 1 then mkSpec (s_now p) (s_now p) 0   (* idle period restarts here *)
    else mkSpec (s_now p) (s_last p) (s_pending p - 1)
  | WatcherStep => p
  end.
Fixpoint spec_run (p : spec) (evs : list wevent) : spec :=
  match evs with [] => p | e :: evs' => spec_run (spec_step p e) evs' end.
Definition spec_init (t0 : Z) : spec := mkSpec t0 t0 0.

Definition agrees (s : wd) (p : spec) : Prop :=
  now s = s_now p /\ la s = s_last p /\ blocker s = s_pending p.

(* what the program counter of the watcher promises: a blocked watcher has a hook pending, and a
   sleeping one is due no later than the end of the idle period (or is overdue) *)
Definition pc_ok (T : Z) (s : wd) : Prop :=
  match pc s with
  | Blocked => 0 < blocker s
  | Sleeping tgt => tgt <= la s + T \/ tgt <= now s
  | _ => True
  end.

(* the event can_timeout mirrors the counter of pending hooks: it is set exactly when none is pending *)
Definition inv (T : Z) (s : wd) : Prop :=
  timeout s = T /\ 0 <= blocker s /\ can_timeout s = (blocker s =? 0) /\ la s <= now s /\ pc_ok T s.

Lemma inv_init T t0 : inv T (init T t0).
Proof. unfold inv, pc_ok, init; simpl. lia. Qed.

Lemma agrees_init T t0 : agrees (init T t0) (spec_init t0).
Proof. repeat split. Qed.

Lemma step_inv T s e : inv T s -> inv T (step s e).
Proof.
  destruct s as [n l b c p t]. unfold inv, pc_ok. cbn. intros (-> & Hb & -> & Hla & Hp).
  destruct e; cbn.
  - destruct p; lia.
  - destruct p; lia.
  - destruct p; lia.
  - destruct (b <=? 0) eqn:E0; [cbn; destruct p; lia|]. destruct (b =? 1) eqn:E1; destruct p; cbn; lia.
  - unfold watcher_step, from_wait, sleep_delay, fire_cond. cbn.
    destruct p as [| | |tgt|]; cbn; try lia.
    + destruct (b =? 0) eqn:E; cbn; lia.
    + destruct (tgt <=? n); cbn; [|lia].
      destruct ((b =? 0) && (l + T <? n)); cbn; [lia|]. destruct (b =? 0) eqn:E; cbn; lia.
Qed.

Lemma step_agrees s p e : agrees s p -> agrees (step s e) (spec_step p e).
Proof.
  destruct s as [n l b c pc t], p as [pn pl pb]. unfold agrees. cbn. intros (-> & -> & ->).
  destruct e; cbn; auto.
  - destruct (pb <=? 0); [cbn; auto|]. destruct (pb =? 1); cbn; auto.
  - unfold watcher_step. cbn. destruct pc as [| | |tgt|]; cbn; auto.
    destruct (tgt <=? pn); cbn; auto. destruct (fire_cond _ _ _ _ _); cbn; auto.
Qed.

Lemma run_inv T evs : forall s p, inv T s -> agrees s p ->
  inv T (run s evs) /\ agrees (run s evs) (spec_run p evs).
Proof.
  induction evs as [|e evs IH]; intros s p Hi Ha; simpl; [split; assumption|].
  apply IH; [apply step_inv; exact Hi | apply step_agrees; exact Ha].
Qed.

Lemma fires_only_idle s e :
  is_fired s = false -> is_fired (step s e) = true ->
  blocker s = 0 /\ la s + timeout s < now s.
Proof.
  destruct s as [n l b c p t]. unfold is_fired. cbn. intros Hn Hf.
  destruct e; cbn in Hf; try (rewrite Hn in Hf; discriminate).
  - destruct (b <=? 0); [cbn in Hf; rewrite Hn in Hf; discriminate|].
    destruct (b =? 1); cbn in Hf; destruct p; discriminate.
  - (* only a due sleeper whose test succeeds reaches Fired *)
    unfold watcher_step, from_wait in Hf. cbn in Hf.
    destruct p as [| | |tgt|]; cbn in Hf; try discriminate.
    + destruct c; discriminate.
    + destruct (tgt <=? n); [|discriminate].
      destruct (fire_cond l t n b c) eqn:Ef; [unfold fire_cond in Ef; lia|].
      destruct c; discriminate.
Qed.

(* the callback fires only when no hook is pending and the last activity
   (an event, or the end of the last pending hook) is older than the timeout *)
Theorem fire_is_justified T t0 evs e :
  let s := run (init T t0) evs in
  let p := spec_run (spec_init t0) evs in
  is_fired s = false -> is_fired (step s e) = true ->
  s_pending p = 0 /\ s_last p + T < s_now p.
Proof.
  intros s p Hn Hf.
  destruct (run_inv T evs (init T t0) (spec_init t0) (inv_init T t0) (agrees_init T t0)) as [Hi Ha].
  fold s in Hi, Ha. fold p in Ha.
  destruct (fires_only_idle s e Hn Hf) as [Hb Hl].
  destruct Ha as (An & Al & Ab). destruct Hi as (HT & _).
  rewrite <- Ab, <- Al, <- An, <- HT. split; assumption.
Qed.

(* an idle connection is closed: in every state that satisfies the invariant, with no hook pending
   and the last activity older than the timeout, running the watcher (at most twice) fires the callback *)
Lemma inv_idle_fires T s :
  inv T s -> blocker s = 0 -> la s + T < now s ->
  is_fired (watcher_step (watcher_step s)) = true.
Proof.
  destruct s as [n l b c p t]. unfold inv, pc_ok, is_fired. cbn.
  intros (-> & _ & -> & Hla & Hp) -> Hidle. cbn in *.
  (* a watcher that passes the wait sleeps until [now], the idle period being over, and then fires *)
  assert (Hsleep : n + Z.max 0 (sleep_delay l T n 0 true) = n) by (unfold sleep_delay; lia).
  assert (Hfire : fire_cond l T n 0 true = true) by (unfold fire_cond; lia).
  unfold watcher_step, from_wait. destruct p as [| | |tgt|]; cbn -[fire_cond sleep_delay] in *; [| lia | | | reflexivity].
  - rewrite Hsleep, Z.leb_refl, Hfire. reflexivity.
  - rewrite Hsleep, Z.leb_refl, Hfire. reflexivity.
  - assert (tgt <=? n = true) as -> by lia. rewrite Hfire. reflexivity.
Qed.

Theorem idle_fires T t0 evs :
  let s := run (init T t0) evs in
  is_fired s = false -> blocker s = 0 -> la s + T < now s ->
  is_fired (watcher_step (watcher_step s)) = true.
Proof.
  intros s _. apply (inv_idle_fires T), (run_inv T evs _ _ (inv_init T t0) (agrees_init T t0)).
Qed.

(* no timeout while there was activity within the timeout, stated on the state alone *)
Theorem active_not_fired s e :
  is_fired s = false -> now s <= la s + timeout s -> is_fired (step s e) = false.
Proof.
  intros Hn Hact. destruct (is_fired (step s e)) eqn:Hf; [|reflexivity].
  destruct (fires_only_idle s e Hn Hf). lia.
Qed.
