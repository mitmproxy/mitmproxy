(* Proofs/Http1Chunks.v -- the reference de-chunker applied to the chunk stream written by
   Http1Client.send / Http1Server.send / assemble_body gives back the concatenation of the chunks, for every
   list of non-empty chunks; and the Content-Length case. *)
From Coq Require Import List Bool NArith ZArith Lia.
From MV Require Import Base.Bytes Model.Http1Msg Model.Rfc9112 Proofs.ListFacts Proofs.Radix Proofs.Http1Lines.
Import ListNotations.

Definition digit_ok (d : N) : bool :=
  is_hexdig (hex_digit d) && N.eqb (hexval (hex_digit d)) d
  && negb (is_cr_or_nul (hex_digit d)) && negb (byte_eqb rLF (hex_digit d)).

Lemma digit_ok_lt d : (d < 16)%N -> digit_ok d = true.
Proof. apply (forall_below digit_ok 16). vm_compute. reflexivity. Qed.

Definition hex_clean (s : bytes) : bool :=
  forallb (fun b => is_hexdig b && negb (is_cr_or_nul b) && negb (byte_eqb rLF b)) s.

(* hex_digits / hex_value are Radix.digits / Radix.value in base 16 *)
Lemma hex_of_N_spec n :
  hex_value (hex_of_N n) 0%N = n /\ hex_clean (hex_of_N n) = true /\ hex_of_N n <> [].
Proof.
  apply (of_N_spec 16 hex_digit hexval); [lia|].
  intros d H. apply digit_ok_lt in H. unfold digit_ok in H.
  apply andb_true_iff in H as [H D4]. apply andb_true_iff in H as [H D3]. apply andb_true_iff in H as [D1 D2].
  rewrite D1, D3, D4. split; [reflexivity | apply N.eqb_eq, D2].
Qed.

Lemma hex_clean_hexdig s : hex_clean s = true -> forallb is_hexdig s = true.
Proof.
  induction s as [|x s IH]; simpl; auto. intros H. apply andb_true_iff in H as [A B].
  apply andb_true_iff in A as [A _]. apply andb_true_iff in A as [A _]. rewrite A, IH; auto.
Qed.

Lemma hex_clean_clean s : hex_clean s = true -> clean s = true.
Proof.
  apply forallb_clean. intros b H. apply andb_true_iff in H as [H L]. apply andb_true_iff in H as [_ C].
  split; apply negb_true_iff; assumption.
Qed.

Lemma parse_chunk_header_hex n : parse_chunk_header (hex_of_N n) = Some n.
Proof.
  destruct (hex_of_N_spec n) as (V & C & NE).
  unfold parse_chunk_header.
  rewrite <- (app_nil_r (hex_of_N n)) at 1.
  rewrite (span_all is_hexdig (hex_of_N n) [] (hex_clean_hexdig _ C) eq_refl).
  destruct (hex_of_N n); [congruence|]. simpl ltrim_ows. rewrite V. reflexivity.
Qed.

Lemma dechunk_chunk o fuel c s : c <> [] ->
  dechunk o (S fuel) (emit_chunk c ++ s) =
  match dechunk o fuel s with
  | POk (body, tr, rest) => POk (c ++ body, tr, rest)
  | PErr e => PErr e
  end.
Proof.
  intros Hc. unfold emit_chunk. cbn [dechunk].
  destruct (hex_of_N_spec (N.of_nat (length c))) as (_ & C & _).
  change CRLF with [rCR; rLF]. rewrite <- !app_assoc.
  rewrite (read_line_crlf o _ _ (hex_clean_clean _ C)), parse_chunk_header_hex.
  destruct (N.of_nat (length c)) eqn:E; [destruct c; [congruence|discriminate]|].
  rewrite <- E.
  assert (L : (N.of_nat (length (c ++ [rCR; rLF] ++ s)) <? N.of_nat (length c) + 2)%N = false).
  { apply N.ltb_ge. rewrite !app_length. simpl. lia. }
  rewrite L. cbv zeta. rewrite Nat2N.id, firstn_exact, skipn_exact. cbn [app skipn].
  change (byte_eqb rCR rCR && byte_eqb rLF rLF) with true. cbv iota. reflexivity.
Qed.

Lemma dechunk_last o fuel rest : dechunk o (S fuel) (LAST_CHUNK ++ rest) = POk ([], [], rest).
Proof.
  unfold LAST_CHUNK. cbn [dechunk].
  change ([x30; x0d; x0a; x0d; x0a] ++ rest) with ([x30] ++ [rCR; rLF] ++ ([rCR; rLF] ++ rest)).
  rewrite (read_line_crlf o [x30] _ eq_refl).
  change (parse_chunk_header [x30]) with (Some 0%N). cbv iota.
  change ([rCR; rLF] ++ rest) with (wire [] ++ [rCR; rLF] ++ rest).
  rewrite (head_lines_wire [] rest eq_refl). cbn [map clean_lines parse_fields rev].
  unfold clean_line. simpl. reflexivity.
Qed.

(* no trailers, and nothing of what follows is consumed *)
Theorem body_reframe_chunked o cs : forall fuel rest,
  Forall (fun c => c <> []) cs -> (length cs < fuel)%nat ->
  dechunk o fuel (concat (map emit_chunk cs) ++ LAST_CHUNK ++ rest) = POk (concat cs, [], rest).
Proof.
  induction cs as [|c cs IH]; intros fuel rest Hne Hf.
  - destruct fuel; [simpl in Hf; lia|]. apply dechunk_last.
  - inversion Hne; subst. destruct fuel; [simpl in Hf; lia|].
    cbn [map concat]. rewrite <- app_assoc. rewrite dechunk_chunk by assumption.
    rewrite IH; auto. simpl in Hf. lia.
Qed.

Lemma emit_chunk_length c : (1 <= length (emit_chunk c))%nat.
Proof. unfold emit_chunk. rewrite !app_length. simpl. lia. Qed.

Lemma chunks_length cs : (length cs <= length (concat (map emit_chunk cs)))%nat.
Proof.
  induction cs as [|c cs IH]; simpl; auto. rewrite app_length. pose proof (emit_chunk_length c). lia.
Qed.

(* as used by the reference message parser: read_body with its own fuel *)
Theorem body_reframe_read_body o cs rest :
  Forall (fun c => c <> []) cs ->
  read_body o BLChunked (concat (map emit_chunk cs) ++ LAST_CHUNK ++ rest) = POk (concat cs, [], rest).
Proof.
  intros H. unfold read_body. apply body_reframe_chunked; auto.
  rewrite !app_length. pose proof (chunks_length cs) as K.
  unfold Bytes.bytes, Bytes.byte in *. lia.
Qed.

Theorem body_reframe_length o body rest :
  read_body o (BLLen (N.of_nat (length body))) (body ++ rest) = POk (body, [], rest).
Proof.
  unfold read_body.
  assert (L : (N.of_nat (length (body ++ rest)) <? N.of_nat (length body))%N = false)
    by (apply N.ltb_ge; rewrite app_length; lia).
  rewrite L. cbv zeta. rewrite Nat2N.id, firstn_exact, skipn_exact. reflexivity.
Qed.
