(* Proofs/EncodingToy.v -- a concrete codec family satisfying the contract (so the contract is
   satisfiable), in which the decompressors are lenient the way the real ones are: each accepts a
   second stream for the same content.  Used for the refutation witnesses and non-vacuity. *)
From Coq Require Import List Bool NArith.
From MV Require Import Base.Bytes Model.Encoding Proofs.EncodingCache.
Import ListNotations.

(* compress x = tag :: x ; decompress accepts tag :: x and alt :: x *)
Definition tcomp (tag : byte) (x : bytes) : bytes := tag :: x.
Definition tdecomp (tag alt : byte) (s : bytes) : option bytes :=
  match s with
  | a :: x => if byte_eqb a tag || byte_eqb a alt then Some x else None
  | [] => None
  end.

Definition s_utf8 : bytes := [x75; x74; x66; x38].

(* in field order: gzip compress / zlib_auto, zlib compress / decompress, raw deflate (reached only as the
   fallback of decode_deflate; no compressor emits its tag x22), brotli, zstd; utf8 is the one str codec *)
Definition toy : codecs :=
  Build_codecs (tcomp x01) (tdecomp x01 x11) (tcomp x02) (tdecomp x02 x12) (tdecomp x22 x22)
               (tcomp x03) (tdecomp x03 x13) (tcomp x04) (tdecomp x04 x14)
               (fun n _ _ => if bytes_eqb n s_utf8 then PTypeErr else PExc)
               (fun n _ _ => if bytes_eqb n s_utf8 then PStr else PExc).

Lemma toy_contract : contract toy.
Proof.
  split; intros x; cbn; try discriminate; reflexivity.
Qed.

Definition body : bytes := [x68; x69].
Definition lenient_stream : bytes := x11 :: body.     (* decodes to body, but is not what the compressor emits *)

Definition m_gzip : msg := Build_msg (Some [x47; x5a; x69; x70]) false None None.   (* GZip *)

(* non-vacuity: the contract holds for toy, a history really hits the cache in both directions,
   and the message round trip goes through a compressed, non-identical raw body *)
Lemma nonvacuous :
  contract toy
  /\ run toy false [CDecode (Some lenient_stream) s_gzip s_strict] <> None
  /\ fst (encode toy (run toy false [CDecode (Some lenient_stream) s_gzip s_strict]) (Some body) s_gzip s_strict)
     = RBytes lenient_stream
  /\ fst (decode toy (run toy false [CEncode (Some body) s_gzip s_strict]) (Some (x01 :: body)) s_gzip s_strict)
     = RBytes body
  /\ set_content toy false None m_gzip (Some body)
     = (Done, Build_msg (m_ce m_gzip) false (Some [x33]) (Some (x01 :: body)),
        Some (Build_centry (x01 :: body) s_gzip s_strict body)).
Proof.
  split; [exact toy_contract |]. split; [vm_compute; discriminate |].
  repeat split; vm_compute; reflexivity.
Qed.
