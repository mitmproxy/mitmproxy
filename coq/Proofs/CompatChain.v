(* Proofs/CompatChain.v -- facts about the translated converter table (Gen/CompatChain.v) and the
   concrete witnesses used by Props/C38.v. Re-proved on every run against the regenerated table. *)
From Coq Require Import ZArith List Bool.
From MV Require Import Model.CompatPrelude Model.Compat Gen.CompatChain Proofs.Compat.
Import ListNotations.

Lemma converters_ok : chain_ok FLOW_FORMAT_VERSION converters = true.
Proof. vm_compute. reflexivity. Qed.

Definition id_body (k : fver) (s : state unit) : option (state unit) := Some s.
(* the state a 25-byte file decodes to: one entry, bytes key, value [3, 0] *)
Definition stale_state : state unit := mk_state (Some (VSeq [EInt 3%Z; EInt 0%Z])) None tt.
Definition stale_state' : state unit := mk_state (Some (VSeq [EInt 3%Z; EInt 0%Z])) (Some (VInt 4%Z)) tt.

Lemma id_body_frame : frame unit id_body.
Proof. intros k s s1 H. inversion H. reflexivity. Qed.

(* one converter call (convert_300_4 writes the str key, the bytes key still reads [3, 0]) leads
   from either state to stale_state' with one unit of fuel less: [exact] below checks that round,
   lookup in the translated table included, by conversion *)
Lemma stale_loops' : forall fuel prev,
  snd (migrate_flow id_body converters FLOW_FORMAT_VERSION false fuel prev stale_state') = OutOfFuel.
Proof.
  induction fuel as [|f IH]; intros prev; [reflexivity|].
  exact (IH (Some (FTup [EInt 3%Z; EInt 0%Z]))).
Qed.

Lemma stale_loops : forall fuel,
  snd (migrate_flow id_body converters FLOW_FORMAT_VERSION false fuel None stale_state) = OutOfFuel.
Proof.
  destruct fuel as [|f]; [reflexivity|].
  exact (stale_loops' f (Some (FTup [EInt 3%Z; EInt 0%Z]))).
Qed.

Lemma stale_is_stale : ~ not_stale unit converters stale_state.
Proof.
  intros [H|H].
  - discriminate.
  - apply (H (FTup [EInt 3%Z; EInt 0%Z]) WS (VInt 4%Z)); reflexivity.
Qed.

(* a 0.18 state (str keys), which walks all converters but the first seven *)
Definition count_body (k : fver) (s : state nat) : option (state nat) :=
  Some (mk_state (bver s) (sver s) (S (rest s))).
Definition sample_018 : state nat := mk_state None (Some (VSeq [EInt 0%Z; EInt 18%Z; EInt 2%Z])) O.

Lemma count_body_frame : frame nat count_body.
Proof. intros k s s1 H. inversion H. reflexivity. Qed.
