(* Proofs/ClientHelloMain.v -- C13: totality, stability (layer fed piecewise = parser on the whole, ALL inputs),
   and the main theorem: every well-formed ClientHello, split into records in any way, is reported with the
   reference SNI / ALPN / cipher suites / extensions; every strict prefix is Incomplete.  DTLS handshake
   fragmentation (RFC 6347 4.2.3) is refuted by a witness. *)
From Coq Require Import List Bool Arith NArith Lia ZifyBool.
From MV Require Import Base.Bytes Model.ClientHello Model.TlsRef Proofs.ClientHelloBase
  Proofs.ClientHelloRecords Proofs.ClientHelloParse Proofs.ClientHelloHost.
Import ListNotations.
Local Open Scope N_scope.

Lemma read_u1_nf s : read_u1 s <> NoFuel. Proof. destruct s; discriminate. Qed.
Lemma read_u2be_nf s : read_u2be s <> NoFuel. Proof. destruct s as [|? [|? ?]]; discriminate. Qed.
Lemma read_u4be_nf s : read_u4be s <> NoFuel. Proof. destruct s as [|? [|? [|? [|? ?]]]]; discriminate. Qed.
Lemma read_bytes_nf n s : read_bytes n s <> NoFuel.
Proof. unfold read_bytes. destruct (blen s <? n); discriminate. Qed.

(* one step of a reader that is a chain of binds: the step is the reader covered by L, go on with the rest *)
Ltac nf_step L := apply bind_nf; [apply L | intros [? ?]].

Lemma read_server_name_progress : progress read_server_name.
Proof.
  intros s. unfold read_server_name, read_bytes. destruct s as [|t [|a [|b s]]]; try exact I. cbn [read_u1 read_u2be bind].
  destruct (blen s <? _); [exact I|]. cbn [bind]. pose proof (length_drop_le (u16be a b) s). cbn [length]. lia.
Qed.
Lemma read_protocol_progress : progress read_protocol.
Proof.
  intros s. unfold read_protocol, read_bytes. destruct s as [|l s]; [exact I|]. cbn [read_u1 bind].
  destruct (blen s <? _); [exact I|]. cbn [bind]. pose proof (length_drop_le (bN l) s). cbn [length]. lia.
Qed.

Lemma read_sni_nf raw : read_sni raw <> NoFuel.
Proof.
  unfold read_sni. nf_step read_u2be_nf.
  apply bind_nf; [|discriminate]. apply (many_total _ read_server_name_progress), le_n.
Qed.
Lemma read_alpn_nf raw : read_alpn raw <> NoFuel.
Proof.
  unfold read_alpn. nf_step read_u2be_nf.
  apply bind_nf; [|discriminate]. apply (many_total _ read_protocol_progress), le_n.
Qed.

Lemma read_extension_progress : progress read_extension.
Proof.
  intros s. unfold read_extension, read_bytes. destruct s as [|a [|b [|c [|d s]]]]; try exact I. cbn [read_u2be bind].
  pose proof (length_drop_le (u16be c d) s) as L. cbn [length].
  destruct (_ =? 0); [|destruct (_ =? 16)]; (destruct (blen s <? _); [exact I|]); cbn [bind].
  - pose proof (read_sni_nf (take (u16be c d) s)). destruct (read_sni _); cbn [bind]; [lia | exact I | congruence].
  - pose proof (read_alpn_nf (take (u16be c d) s)). destruct (read_alpn _); cbn [bind]; [lia | exact I | congruence].
  - lia.
Qed.

Lemma read_n_u2be_nf : forall n s, read_n_u2be n s <> NoFuel.
Proof.
  induction n as [|n IH]; intros s; [discriminate|]. cbn [read_n_u2be].
  nf_step read_u2be_nf. apply bind_nf; [apply IH | intros [? ?]; discriminate].
Qed.

Lemma read_client_hello_nf dtls s : read_client_hello dtls s <> NoFuel.
Proof.
  unfold read_client_hello.
  nf_step read_u1_nf. nf_step read_u1_nf. nf_step read_u4be_nf. nf_step read_bytes_nf.
  nf_step read_u1_nf. nf_step read_bytes_nf.
  apply bind_nf; [destruct dtls; [|discriminate] | intros [? ?]].
  { nf_step read_u1_nf. nf_step read_bytes_nf. discriminate. }
  nf_step read_u2be_nf. nf_step read_n_u2be_nf. nf_step read_u1_nf. nf_step read_bytes_nf.
  apply bind_nf; [|discriminate]. destruct (is_nil _); [discriminate|].
  nf_step read_u2be_nf. apply bind_nf; [|discriminate].
  apply (many_total _ read_extension_progress), le_n.
Qed.

Theorem parse_total dtls data : parse_client_hello_gen dtls data <> Fuel.
Proof.
  unfold parse_client_hello_gen. pose proof (gch_gen_no_fuel dtls data) as G.
  destruct (get_client_hello_gen dtls data) as [|ch| |]; try discriminate; [|congruence].
  destruct (is_nil ch); [discriminate|].
  pose proof (read_client_hello_nf dtls (drop (hs_hdr dtls) ch)) as R.
  destruct (read_client_hello dtls (drop (hs_hdr dtls) ch)); try discriminate. congruence.
Qed.

Lemma parse_stable dtls p t :
  parse_client_hello_gen dtls p <> Incomplete ->
  parse_client_hello_gen dtls (p ++ t) = parse_client_hello_gen dtls p.
Proof.
  unfold parse_client_hello_gen. intros H. pose proof (gch_gen_stable dtls p t) as S.
  destruct (get_client_hello_gen dtls p) as [|ch| |]; [congruence | rewrite S; reflexivity.. | contradiction].
Qed.

Lemma parse_nil dtls : parse_client_hello_gen dtls [] = Incomplete.
Proof. destruct dtls; reflexivity. Qed.

Lemma layer_whole_gen dtls : forall segs buf i,
  parse_client_hello_gen dtls buf = Incomplete ->
  snd (receive_handshake_data dtls buf segs i) = parse_client_hello_gen dtls (buf ++ concat segs).
Proof.
  induction segs as [|data tl IH]; intros buf i Hb.
  - cbn. rewrite app_nil_r. symmetry. exact Hb.
  - cbn [receive_handshake_data concat]. rewrite app_assoc.
    destruct (parse_client_hello_gen dtls (buf ++ data)) eqn:E; [apply IH; exact E|..];
      cbn [snd]; rewrite parse_stable; rewrite E; (reflexivity || discriminate).
Qed.

Lemma u24_put L : L < 16777216 ->
  bN (Nb (L / 65536 mod 256)) * 65536 + bN (Nb (L / 256 mod 256)) * 256 + bN (Nb (L mod 256)) = L.
Proof.
  intros HL. rewrite !bN_Nb by (apply N.mod_lt; lia).
  rewrite (N.mod_small (L / 65536) 256) by (apply N.div_lt_upper_bound; lia).
  pose proof (N.div_mod L 256 ltac:(lia)) as D1.
  pose proof (N.div_mod (L / 256) 256 ltac:(lia)) as D2.
  rewrite N.div_div in D2 by lia. change (256 * 256) with 65536 in D2. lia.
Qed.

Lemma hs_ok_enc dtls mseq r :
  len (enc_hello dtls r) < 16777216 -> hs_ok dtls (enc_handshake dtls mseq r).
Proof.
  intros HL. unfold hs_ok, hs_size, u24, enc_handshake, put_u24.
  (* 13 <= 12 + |body| for DTLS: the body starts with the two version bytes *)
  assert (L2 : 2 <= len (enc_hello dtls r)) by (unfold enc_hello; cbn [app]; rewrite !len_cons; lia).
  destruct dtls; cbn [app at_ nth Nat.add hs_hdr hs_min]; rewrite (u24_put _ HL);
    unfold len, blen in *; cbn [length]; lia.
Qed.

Lemma handshake_body dtls mseq r : drop (hs_hdr dtls) (enc_handshake dtls mseq r) = enc_hello dtls r.
Proof. destruct dtls; reflexivity. Qed.

Lemma len_enc_hello dtls r : wf_hello r -> len (enc_hello dtls r) < 16777216.
Proof.
  destruct r as [[v1 v2] random sid cookie ciphers comp exts].
  unfold wf_hello, enc_hello. cbn [r_ver r_random r_sid r_cookie r_ciphers r_comp r_exts fst snd].
  intros (Hr & Hs & Hk & Hcne & Hc & Hcl & Hcm & He).
  (* the return clauses are those of enc_hello, so that lia meets the same terms in the goal *)
  assert (Lk : len (if dtls return list byte then vec8 cookie else []) <= 256)
    by (destruct dtls; [rewrite len_vec8; lia | discriminate]).
  assert (Le : len (match exts return list byte with None => [] | Some es => vec16 (concat (map enc_ext es)) end)
               <= 65537)
    by (destruct exts; [rewrite len_vec16; lia | discriminate]).
  cbn [app]. rewrite !len_cons, !len_app, !len_vec8, len_vec16, len_ciphers. lia.
Qed.

Lemma hello_stream_prefix dtls r mseq recs q t :
  wf_hello r -> Forall (wf_record dtls) recs -> payloads recs = enc_handshake dtls mseq r ->
  q ++ t = stream recs ->
  get_client_hello_gen dtls q = if is_nil t then GSome (enc_handshake dtls mseq r) else GNone.
Proof.
  intros W Wr Ep Eq.
  exact (gch_stream_prefix dtls recs _ q t Wr (hs_ok_enc dtls mseq r (len_enc_hello dtls r W)) Ep Eq).
Qed.

Lemma sni_labels_in es ls l : In (RSni ls) es -> In l ls -> In l (sni_labels es).
Proof.
  induction es as [|e es IH]; intros Hin Hl; [contradiction|].
  destruct Hin as [->|Hin].
  - cbn. apply in_or_app. left. exact Hl.
  - specialize (IH Hin Hl). destruct e; cbn; [apply in_or_app; right|..]; exact IH.
Qed.

Theorem hello_any_records ace_ok dtls r mseq recs :
  wf_hello r ->
  (forall l, In l (sni_labels (exts_list r)) -> starts_with ACE l = true -> ace_ok l = true) ->
  Forall (wf_record dtls) recs -> payloads recs = enc_handshake dtls mseq r ->
  exists h, parse_client_hello_gen dtls (stream recs) = Hello h
            /\ sni ace_ok h = ref_sni r /\ alpn_protocols h = ref_alpn r
            /\ cipher_suites h = ref_ciphers r /\ extensions h = ref_exts r.
Proof.
  intros W Hace Wr Ep. unfold parse_client_hello_gen.
  rewrite (hello_stream_prefix dtls r mseq recs (stream recs) [] W Wr Ep (app_nil_r _)). cbn [is_nil].
  change (is_nil (enc_handshake dtls mseq r)) with false. rewrite handshake_body.
  destruct (read_hello_enc dtls r W) as (h & -> & Hc & He). exists h. split; [reflexivity|].
  assert (Wes : Forall wf_ext (exts_list r)).
  { destruct W as (_ & _ & _ & _ & _ & _ & _ & W). unfold exts_list. destruct (r_exts r); [apply W|constructor]. }
  unfold sni, alpn_protocols, cipher_suites, extensions, ref_sni, ref_alpn, ref_ciphers, ref_exts.
  rewrite He, Hc. repeat split.
  - apply sni_parsed; [exact Wes|]. intros ls Hin. rewrite Forall_forall in Wes.
    destruct (Wes _ Hin) as (Hne' & Hlab & Hlen). apply ref_hostname_valid; try assumption.
    intros l Hl' Hs. apply Hace; [|exact Hs]. eapply sni_labels_in; eassumption.
  - apply alpn_parsed, Wes.
  - rewrite map_map. reflexivity.
Qed.

Definition ex_host_labels : list bytes := [[x77; x77; x77]; [x65; x78; x61; x6d; x70; x6c; x65]; [x63; x6f; x6d]].
Definition ex_hello : rhello :=
  {| r_ver := (x03, x03); r_random := repeat x2a 32; r_sid := []; r_cookie := [];
     r_ciphers := [2570; 4865; 49195]; r_comp := [x00];
     r_exts := Some [ROther 6682 []; RSni ex_host_labels; RAlpn [[x68; x32]; [x68; x74; x74; x70; x2f; x31; x2e; x31]];
                     ROther 43 [x02; x03; x04]] |}.

Lemma ex_hello_wf : wf_hello ex_hello.
Proof.
  unfold wf_hello, ex_hello.
  cbn [r_ver r_random r_sid r_cookie r_ciphers r_comp r_exts].
  repeat split; try discriminate; repeat constructor; discriminate.
Qed.

(* a handshake record (header, payload): TLS with record version 0301; DTLS with FEFD, epoch and sequence
   number zero *)
Definition tls_rec (p : bytes) : bytes * bytes := ([x16; x03; x01] ++ put_u16be (len p), p).
Definition dtls_rec (p : bytes) : bytes * bytes :=
  ([x16; xfe; xfd] ++ repeat x00 8 ++ put_u16be (len p), p).

Definition ex_msg : bytes := enc_handshake false (x00, x00) ex_hello.
Definition ex_recs : list (bytes * bytes) :=
  [tls_rec (firstn 3 ex_msg); tls_rec (firstn 40 (skipn 3 ex_msg)); tls_rec (skipn 43 ex_msg)].
Definition ex_segs : list bytes :=
  let s := stream ex_recs in [firstn 2 s; firstn 50 (skipn 2 s); skipn 52 s].

Lemma tls_rec_wf p : 1 <= len p < 65536 -> wf_record false (tls_rec p).
Proof.
  intros H. split; [|exact H]. cbn [record_header fst snd tls_rec]. exists x01. split; [reflexivity|].
  vm_compute. congruence.
Qed.
Lemma dtls_rec_wf p : 1 <= len p < 65536 -> wf_record true (dtls_rec p).
Proof.
  intros H. split; [|exact H]. cbn [record_header fst snd dtls_rec]. exists xfd, (repeat x00 8).
  repeat split. right. reflexivity.
Qed.

Lemma ex_recs_wf : Forall (wf_record false) ex_recs.
Proof. repeat constructor; apply tls_rec_wf; vm_compute; split; congruence. Qed.

(* no offered name has an ACE label, so the codec that accepts nothing will do: the conclusion is
   (fun _ => false) l = true of C13_nonvacuous after beta *)
Lemma ex_no_ace l : In l (sni_labels (exts_list ex_hello)) -> starts_with ACE l = true -> false = true.
Proof. intros Hin. cbn in Hin. repeat (destruct Hin as [<-|Hin]; [vm_compute; discriminate|]). contradiction. Qed.

(* DTLS: the same hello sent as two RFC 6347 handshake fragments (each record with its own fragment header),
   cut at k; the two cuts the refutations use *)
Definition ex_dtls_body : bytes := enc_hello true ex_hello.
Definition ex_frag_recs (k : nat) : list (bytes * bytes) :=
  [dtls_rec (enc_fragment (x00, x00) ex_dtls_body 0 k);
   dtls_rec (enc_fragment (x00, x00) ex_dtls_body k (length ex_dtls_body - k))].

Lemma ex_frag k : In k [20; 46]%nat ->
  (0 < k < length ex_dtls_body)%nat /\ Forall (wf_record true) (ex_frag_recs k).
Proof.
  intros [<-|[<-|[]]]; (split; [vm_compute; lia|]);
    repeat constructor; apply dtls_rec_wf; vm_compute; split; congruence.
Qed.
