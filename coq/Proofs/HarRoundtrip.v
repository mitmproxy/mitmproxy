(* Proofs/HarRoundtrip.v -- C41: import (export f) preserves the exchange, for every abstract codec library that
   satisfies three contracts, and every flow inside the guard [flow_ok] (the complement of the recorded findings). *)
From Coq Require Import List Bool NArith Lia.
From MV Require Import Base.Bytes Model.Headers Proofs.HeadersLaws Gen.HarTables Model.Har Proofs.HarBase.
Import ListNotations.

Definition opt_body (o : option bytes) : bytes := match o with Some b => b | None => [] end.
Definition ct_of (hs : list field) : bytes := get_default hs K_CT [].
Definition postlike (rq : request) : bool := existsb (bytes_eqb (method_of rq)) post_methods.

Section Roundtrip.
  Variable L : lib.
  Variable se : bool.
  Hypothesis enc_identity : forall v, l_encode L v IDENTITY = Ok v.
  Hypothesis b64_rt : forall b, exists s, l_b64enc L b = Ok (VS s) /\ l_b64dec L s = Ok (VB b).
  Hypothesis se_rt : forall b, l_enc_se L (l_dec_se L b) = Ok (VB b).

  Definition hdr_ok (b : bytes) : Prop := se = true \/ l_utf8_ok L b = Ok true.
  Definition headers_ok (hs : list field) : Prop := Forall (fun f => hdr_ok (fst f) /\ hdr_ok (snd f)) hs.

  (* the charset is determined by the header alone and the body is the canonical encoding of a text in it *)
  Definition text_canonical (hs : list field) (c : bytes) : Prop :=
    let e := l_infer L (ct_of hs) [] in
    l_infer L (ct_of hs) c = e /\ exists t, l_decode L (VB c) e = Ok (VS t) /\ l_encode L (VS t) e = Ok (VB c).
  (* or: the body is undecodable in that charset and its surrogate-escaped text is unencodable in it *)
  Definition text_fallback (hs : list field) (c : bytes) : Prop :=
    let e := l_infer L (ct_of hs) [] in
    l_infer L (ct_of hs) c = e /\ l_decode L (VB c) e = EValue /\ l_encode L (VS (l_dec_se L c)) e = EValue.

  (* Content-Length agrees with the body, or is not maintained (Transfer-Encoding), or there is no body *)
  Definition cl_ok (hs : list field) (c : bytes) : Prop := c = [] \/ upd_cl hs c = hs.

  Definition resp_body_ok (r : response) : Prop :=
    match rs_raw r with
    | None => l_encode L (VS []) (l_infer L (ct_of (rs_headers r)) []) = Ok (VB [])
    | Some c =>
        (c <> [] /\ is_mostly_bin L c = Ok true)
        \/ ((c = [] \/ is_mostly_bin L c = Ok false)
            /\ (text_canonical (rs_headers r) c \/ text_fallback (rs_headers r) c))
    end.

  Definition flow_ok (rq : request) (r : response) : Prop :=
    (* versions: complement of http2-imports-as-http11 *)
    version_kept (rq_version rq) /\ version_kept (rs_version r)
    (* complement of non-utf8-header-import-fails *)
    /\ headers_ok (rq_headers rq) /\ headers_ok (rs_headers r)
    (* complement of connect-url-changed, url-rejected-import-fails, url-normalised-by-importer, host-header-rewritten *)
    /\ bytes_eqb (method_of rq) connect_method = false
    /\ (exists hp, l_url_set L (pretty_url L rq) = Ok (hp, pretty_url L rq)
                   /\ (contains (rq_headers rq) K_HOST = false \/ setitem (rq_headers rq) K_HOST hp = rq_headers rq))
    (* complement of request-content-encoding-dropped, missing-request-body-import-fails, request-body-*,
       request-content-type-rewritten *)
    /\ getitem (rq_headers rq) K_CE = None
    /\ (if postlike rq then exists c, rq_raw rq = Some c /\ text_canonical (rq_headers rq) c
        else exists b0, l_encode L (VS []) (l_infer L (ct_of (rq_headers rq)) []) = Ok (VB b0))
    (* complement of response-content-encoding-dropped, unknown-content-encoding-import-fails,
       response-content-length-rewritten, text-body-* *)
    /\ getitem (rs_headers r) K_CE = None
    /\ cl_ok (rs_headers r) (opt_body (rs_raw r))
    /\ resp_body_ok r.

  (* the conclusion: the fields the property lists *)
  Definition same_exchange (rq : request) (r : response) (i : iflow) : Prop :=
    i_method i = method_of rq /\ i_url i = pretty_url L rq /\ i_version i = rq_version rq
    /\ others K_CL (i_rh i) = others K_CL (rq_headers rq)
    /\ (postlike rq = true -> i_rraw i = rq_raw rq)
    /\ i_status i = rs_status r /\ i_sversion i = rs_version r /\ i_sh i = rs_headers r
    /\ opt_body (i_sraw i) = opt_body (rs_raw r).

  Lemma encode_header_ok b : hdr_ok b -> encode_header se L b = Ok b.
  Proof.
    unfold hdr_ok, encode_header. intros [H|H].
    - rewrite H. reflexivity.
    - destruct se; [reflexivity|]. rewrite H. reflexivity.
  Qed.

  Lemma fix_headers_id hs : headers_ok hs -> fix_headers se L hs = Ok hs.
  Proof.
    induction 1 as [|[k v] hs [Hk Hv] _ IH]; [reflexivity|].
    cbn [fix_headers fst snd] in *. rewrite (encode_header_ok k Hk), (encode_header_ok v Hv). cbn [bind].
    rewrite IH. reflexivity.
  Qed.

  Lemma get_text_noce hs c : getitem hs K_CE = None ->
    get_text L hs (Some c) =
    match l_decode L (VB c) (l_infer L (ct_of hs) c) with
    | Ok v => Ok (Some v)
    | EValue => Ok (Some (VS (l_dec_se L c)))
    | EOther => EOther
    | Missing => Missing
    end.
  Proof. intros H. unfold get_text. rewrite (get_content_noce L false hs (Some c) H). reflexivity. Qed.

  Lemma get_text_none hs : get_text L hs None = Ok None.
  Proof. reflexivity. Qed.

  (* what request_to_flow makes of response.content.text and .encoding, under response headers hs *)
  Definition import_content (hs : list field) (text : str) (enc : option bytes) : res val :=
    if option_eqb bytes_eqb enc (Some import_b64_tag) then l_b64dec L text
    else
      let enc := match enc with
                 | Some c => if nonempty c then c else l_infer L (get_default hs K_CT []) []
                 | None => l_infer L (get_default hs K_CT []) []
                 end in
      match l_encode L (VS text) enc with
      | Ok v => Ok v
      | EValue => l_enc_se L text
      | EOther => EOther
      | Missing => Missing
      end.

  Lemma text_roundtrip hs c : getitem hs K_CE = None ->
    text_canonical hs c \/ text_fallback hs c ->
    exists t, get_text L hs (Some c) = Ok (Some (VS t)) /\ import_content hs t None = Ok (VB c).
  Proof.
    intros Hce [[Hi [t [Hd He]]]|[Hi [Hd He]]]; rewrite (get_text_noce hs c Hce), Hi, Hd.
    - exists t. split; [reflexivity|]. unfold import_content. cbn [option_eqb]. fold (ct_of hs). rewrite He. reflexivity.
    - exists (l_dec_se L c). split; [reflexivity|]. unfold import_content. cbn [option_eqb]. fold (ct_of hs).
      rewrite He. apply se_rt.
  Qed.

  Lemma request_import hs purl hp text c :
    getitem hs K_CE = None ->
    l_url_set L purl = Ok (hp, purl) ->
    (contains hs K_HOST = false \/ setitem hs K_HOST hp = hs) ->
    l_encode L (VS text) (l_infer L (ct_of hs) []) = Ok (VB c) ->
    exists hF, request_make L purl (Some text) hs = Ok (purl, upd_cl hs c, c)
               /\ decode L (upd_cl hs c) (Some c) = Ok (hF, Some c)
               /\ others K_CL hF = others K_CL hs.
  Proof.
    intros Hce Hu Hh He.
    assert (Hm : request_make L purl (Some text) hs = Ok (purl, upd_cl hs c, c)).
    { unfold request_make. rewrite Hu. cbn [bind].
      assert (Hs : (if contains hs K_HOST then setitem hs K_HOST hp else hs) = hs).
      { destruct Hh as [Hh|Hh]; [rewrite Hh; reflexivity|]. destruct (contains hs K_HOST); [exact Hh|reflexivity]. }
      rewrite Hs. unfold set_text. fold (ct_of hs). rewrite He.
      rewrite (set_content_noce L enc_identity hs c Hce). reflexivity. }
    assert (Hce' : getitem (upd_cl hs c) K_CE = None) by (rewrite upd_cl_ce; exact Hce).
    rewrite (decode_noce L enc_identity (upd_cl hs c) c Hce').
    eexists. split; [exact Hm|]. split; [reflexivity|].
    destruct c; [|rewrite upd_cl_others]; apply upd_cl_others.
  Qed.

  Theorem roundtrip_flow rq r : flow_ok rq r ->
    exists e i, flow_entry L rq (Some r) = Ok e /\ request_to_flow se L e = Ok i /\ same_exchange rq r i.
  Proof.
    intros (Hv1 & Hv2 & Hh1 & Hh2 & Hconn & (hp & Hu & Hhost) & Hce1 & Hreq & Hce2 & Hcl & Hbody).
    (* request side of the export: postData, the text the importer hands to Request.make, its encoding *)
    assert (Hpost : exists post text c,
               (if existsb (bytes_eqb (method_of rq)) post_methods
                then t <- get_text L (rq_headers rq) (rq_raw rq);;
                     match t with
                     | None => Ok (Some None)
                     | Some (VS s) => Ok (Some (Some s))
                     | Some (VB _) => EOther
                     end
                else Ok None) = Ok post
               /\ match post with None => Some [] | Some t => t end = Some text
               /\ l_encode L (VS text) (l_infer L (ct_of (rq_headers rq)) []) = Ok (VB c)
               /\ (postlike rq = true -> rq_raw rq = Some c)).
    { fold (postlike rq). destruct (postlike rq).
      - destruct Hreq as (c & Hraw & Hi & t & Hd & He). exists (Some (Some t)), t, c.
        rewrite Hraw, (get_text_noce _ c Hce1), Hi, Hd.
        split; [reflexivity|]. split; [reflexivity|]. split; [exact He | reflexivity].
      - destruct Hreq as (b0 & He). exists None, [], b0.
        split; [reflexivity|]. split; [reflexivity|]. split; [exact He | discriminate]. }
    destruct Hpost as (post & text & c & Hpost & Hcontent & Henc & Hraw).
    destruct (request_import (rq_headers rq) (pretty_url L rq) hp text c Hce1 Hu Hhost Henc) as (hF & Hmake & Hdec & Hoth).
    (* response side of the export, and what the importer reads back from it *)
    assert (Hresp : exists ctext enc,
               (flow_entry L rq (Some r) =
                Ok (mkEntry (method_of rq) (pretty_url L rq) (rq_version rq) (rq_headers rq) post
                            (rs_status r) (rs_version r) (rs_headers r) (Some ctext) enc))
               /\ import_content (rs_headers r) ctext enc = Ok (VB (opt_body (rs_raw r)))).
    { unfold flow_entry. rewrite Hconn, Hpost.
      rewrite (get_content_noce L true (rs_headers r) (rs_raw r) Hce2). cbn [bind].
      unfold resp_body_ok in Hbody. destruct (rs_raw r) as [c0|] eqn:Hr.
      - destruct Hbody as [[Hne Hbin]|[Hnb Htext]].
        + (* base64 *)
          destruct c0 as [|x c0]; [congruence|]. rewrite Hbin. cbn [bind].
          destruct (b64_rt (x :: c0)) as (s & Hs1 & Hs2). rewrite Hs1. cbn [bind].
          exists s, (Some export_b64_tag). split; [reflexivity | exact Hs2].
        + (* text *)
          destruct (text_roundtrip (rs_headers r) c0 Hce2 Htext) as (t & Ht1 & Ht2).
          replace (match Some c0 with Some (b :: c1) => is_mostly_bin L (b :: c1) | _ => Ok false end)
            with (Ok (A:=bool) false)
            by (destruct c0; [reflexivity|]; destruct Hnb as [Hnb|Hnb]; [discriminate | symmetry; exact Hnb]).
          cbn [bind]. rewrite Ht1. cbn [bind text_of].
          exists t, None. split; [reflexivity | exact Ht2].
      - (* no body captured *)
        cbn [bind]. rewrite get_text_none. cbn [bind text_of].
        exists [], None. split; [reflexivity|].
        unfold import_content. cbn [option_eqb]. fold (ct_of (rs_headers r)). rewrite Hbody. reflexivity. }
    destruct Hresp as (ctext & enc & Hentry & Hrc).
    eexists. eexists. split; [exact Hentry|].
    unfold request_to_flow. cbn [e_rh e_post e_url e_ctext e_sh e_enc e_method e_rver e_sver e_status].
    rewrite (fix_headers_id _ Hh1). cbn [bind].
    rewrite Hcontent, Hmake. cbn [bind]. rewrite (fix_headers_id _ Hh2). cbn [bind].
    fold (import_content (rs_headers r) ctext enc). rewrite Hrc. cbn [bind].
    rewrite Hce2. cbn [or_identity]. rewrite enc_identity. cbn [bind].
    rewrite Hdec. cbn [bind]. rewrite (decode_noce L enc_identity (rs_headers r) _ Hce2). cbn [bind fst snd].
    split; [reflexivity|].
    unfold same_exchange. cbn [i_method i_url i_version i_rh i_rraw i_status i_sversion i_sh i_sraw].
    split; [reflexivity|]. split; [reflexivity|].
    split; [apply req_version_exact; exact Hv1|].
    split; [exact Hoth|].
    split; [intros Hp; rewrite (Hraw Hp); reflexivity|].
    split; [reflexivity|].
    split; [apply req_version_exact; exact Hv2|].   (* the response table is the same table *)
    split; [|reflexivity].
    destruct Hcl as [Hcl|Hcl]; [rewrite Hcl; reflexivity|].
    destruct (opt_body (rs_raw r)); [reflexivity | exact Hcl].
  Qed.
End Roundtrip.
