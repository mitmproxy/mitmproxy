(* Proofs/CommandSplit.v -- second half of C45: the guard line_ok for command lines whose words are single atoms
   separated by lexer white space (on these the non-Space parts of parse_partial are exactly the words of the
   character-level specification: CommandExec.execute_call_line), the same for a line that ends in an unclosed
   quote, and the witness lines showing that the unrestricted statement is false. *)
From Coq Require Import List Bool NArith.
From MV Require Import Base.Bytes Model.Command Proofs.CommandLex Proofs.CommandExec.
Import ListNotations.
Open Scope N_scope.

Definition line_ok (lead : str) (a0 : atom) (rest : list (str * atom)) (trail : str) : bool :=
  all_ws lead && atom_ok a0 && forallb item_ok rest && all_ws trail.

(* t.raw a dq b dq c : no white space after the command word, yet three arguments *)
Definition w_adjacent : str := [116; 46; 114; 97; 119; 32; 97; 34; 98; 34; 99].
(* t.raw VT : one word for the specification, dropped by parse_partial *)
Definition w_vt : str := [116; 46; 114; 97; 119; 32; 11].
(* t.raw sp sp dq a sp b dq LF sq c sq sp d sp : a line of the covered shape *)
Definition w_line_lead : str := [].
Definition w_line_a0 : atom := Plain [116; 46; 114; 97; 119].
Definition w_line_rest : list (str * atom) :=
  [([32; 32], Quoted 34 [97; 32; 98]); ([10], Quoted 39 [99]); ([32], Plain [100])].
Definition w_line_trail : str := [32].

Lemma unquote_open q b : in_chars q b = false -> unquote (q :: b) = q :: b.
Proof.
  intros H. unfold unquote. destruct b as [|d r]; [reflexivity|].
  destruct (in_chars q QUOTES); [|reflexivity]. cbn [andb].
  destruct (q =? last (d :: r) 0) eqn:E; [|reflexivity].
  apply N.eqb_eq in E. exfalso. apply in_chars_false in H. apply H. rewrite E.
  destruct (exists_last (l := d :: r)) as [l' [x Hx]]; [discriminate|].
  rewrite Hx, last_last. apply in_or_app. right. left. reflexivity.
Qed.

Lemma split_unclosed kt lead a0 rest sep q body :
  line_ok lead a0 rest [] = true -> sep_ok sep = true -> is_quote q = true -> in_chars q body = false ->
  let line := lead ++ atom_text a0 ++ tail_text rest (sep ++ q :: body) in
  kt = true \/ no_tab line = true ->
  exists parts,
    parse_partial kt line = PPOk parts
    /\ nonspace_values parts = spec_words line
    /\ nonspace_values parts = atom_text a0 :: map (fun it => atom_text (snd it)) rest ++ [q :: body]
    /\ execute_call kt line
       = CallStrings (atom_value a0) (map (fun it => atom_value (snd it)) rest ++ [q :: body]).
Proof.
  intros H Hs Hq Hb line Hk. unfold line_ok in H. rewrite !andb_true_iff in H. destruct H as [[[Hl Ha] Hr] _].
  destruct (proj1 (andb_true_iff _ _) Hs) as [Hn Hw].
  assert (Hqw : in_chars q WS = false) by (apply quote_not_ws; exact Hq).
  (* the final segment: its two tokens, and its one word *)
  assert (Lf : lex (sep ++ q :: body) = LexOk [sep; q :: body]).
  { rewrite (lex_cons _ sep (q :: body)) by (apply mf_ws; auto; simpl; unfold p_ws; rewrite Hqw; reflexivity).
    rewrite (lex_cons (q :: body) (q :: body) []) by (apply mf_quoted_open; assumption). reflexivity. }
  assert (Sf : spec_words (sep ++ q :: body) = [q :: body]).
  { unfold spec_words. rewrite spec_ws_run by exact Hw. cbn [spec_go]. unfold is_quote in Hq. rewrite Hqw, Hq.
    simpl push. pose proof (spec_in_quote q body [q] [] Hb) as X. rewrite app_nil_r in X.
    rewrite X. simpl. rewrite rev_app_distr, rev_involutive. reflexivity. }
  assert (Ff : filter nonsp [sep; q :: body] = [q :: body]).
  { simpl. unfold nonsp, isspace at 2. simpl. rewrite (ws_isspace sep Hn Hw), (quote_not_uspace q Hq). reflexivity. }
  destruct (line_split kt lead a0 rest (sep ++ q :: body) [sep; q :: body] Hl Ha Hr (sep_starts_ws _ _ Hs) Lf Hk)
    as [parts (H1 & H2 & H3 & H4)].
  fold line in H1, H2, H3, H4. rewrite Ff in H2, H4. rewrite Sf in H3. cbn [map] in H4.
  rewrite (unquote_open q body Hb) in H4. exists parts. rewrite H3. auto.
Qed.
