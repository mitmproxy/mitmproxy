(* Proofs/Http1EndToEnd.v -- the end-to-end statement for one forwarded request: the bytes Http1Client.send writes
   for a recorded head and body are read by the reference parser as exactly that request; refutation witnesses for
   the lexical families the parser does not check; non-vacuity. *)
From Coq Require Import List Bool NArith ZArith Lia.
From MV Require Import Base.Bytes Model.Http1Msg Model.BodySizePrelude Gen.BodySize Model.Http1Conn Model.Rfc9112
  Proofs.Http1Lines Proofs.Http1Chunks Proofs.Http1Roundtrip.
Import ListNotations.

Definition recorded_request (r : request_head) (body : bytes) : ref_request :=
  mkRefReq (rq_method r) (req_target r) (rq_version r) (rq_headers r) body [].

(* the full statement for one exchange: whatever is written upstream for the recorded request is read back,
   by any RFC 9112 recipient, as exactly the recorded request, consuming exactly those bytes *)
Definition forwarded_reads_as_recorded (o : ref_opts) (r : request_head) (chunks : list bytes) : Prop :=
  forall cmds rest, forward_request r chunks = Ok cmds ->
    parse_request o (sent_bytes cmds ++ rest) = POk (recorded_request r (concat chunks), rest).

(* send-side framing and the reference decision name the same framing for this body (the chunked case has no
   second condition; True keeps the three cases of one shape) *)
Definition framing_matches (r : request_head) (chunks : list bytes) : Prop :=
  match request_body_length (rq_version r) (rq_headers r) with
  | Some BLChunked => send_chunked (rq_headers r) = true /\ True
  | Some (BLLen n) => send_chunked (rq_headers r) = false /\ n = N.of_nat (length (concat chunks))
  | Some BLZero => send_chunked (rq_headers r) = false /\ concat chunks = []
  | _ => False
  end.

Lemma sent_bytes_app a b : sent_bytes (a ++ b) = sent_bytes a ++ sent_bytes b.
Proof. induction a as [|[d|] a IH]; simpl; auto. rewrite IH, app_assoc. reflexivity. Qed.

Definition chunk_or_nothing (c : bytes) : bytes := match c with [] => [] | _ => emit_chunk c end.

Lemma sent_client_data r d :
  sent_bytes (client_send_data r d) = if send_chunked (rq_headers r) then chunk_or_nothing d else d.
Proof.
  unfold client_send_data, chunk_or_nothing. destruct d as [|x d]; cbn [nonempty andb].
  - destruct (send_chunked _); reflexivity.
  - destruct (send_chunked (rq_headers r)).
    + destruct (emit_chunk (x :: d)); simpl; rewrite ?app_nil_r; reflexivity.
    + simpl. rewrite ?app_nil_r. reflexivity.
Qed.

(* empty data events write nothing, the others one chunk each *)
Lemma chunk_or_nothing_filter cs :
  concat (map chunk_or_nothing cs) = concat (map emit_chunk (filter nonempty cs))
  /\ concat (filter nonempty cs) = concat cs /\ Forall (fun c => c <> []) (filter nonempty cs).
Proof.
  induction cs as [|c cs (A & B & C)]; [repeat split; constructor|].
  destruct c as [|x c]; simpl; [repeat split; assumption|].
  rewrite A, B. repeat split. constructor; [discriminate | exact C].
Qed.

Lemma forward_request_bytes r chunks cmds : forward_request r chunks = Ok cmds ->
  sent_bytes cmds = assemble_request_head r ++
    if send_chunked (rq_headers r) then concat (map emit_chunk (filter nonempty chunks)) ++ LAST_CHUNK else concat chunks.
Proof.
  unfold forward_request. destruct (client_send_end r None) as [e| |] eqn:Ee; try discriminate.
  intros H. injection H as <-. cbn [client_send_headers app sent_bytes]. rewrite sent_bytes_app. f_equal.
  replace (sent_bytes (concat (map (client_send_data r) chunks)))
    with (if send_chunked (rq_headers r) then concat (map chunk_or_nothing chunks) else concat chunks)
    by (induction chunks as [|c cs IH]; simpl; [|rewrite sent_bytes_app, sent_client_data, <- IH];
        destruct (send_chunked _); reflexivity).
  unfold client_send_end in Ee. destruct (send_chunked (rq_headers r)).
  - injection Ee as <-. rewrite (proj1 (chunk_or_nothing_filter chunks)). reflexivity.
  - (* without chunking the end of the message writes no bytes *)
    destruct (expected_http_body_size r None) as [[z|]| |]; cbn [bind] in Ee; try discriminate;
      [destruct (Z.eqb z MINUS1)|]; injection Ee as <-; cbn [sent_bytes]; apply app_nil_r.
Qed.

Lemma skip_empty_token_start m s : is_token m = true -> skip_empty_lines (m ++ [SP] ++ s) = m ++ [SP] ++ s.
Proof.
  unfold is_token. destruct m as [|c m]; [discriminate|]. intros T. simpl in T. apply andb_true_iff in T as [T _].
  assert (E : byte_eqb c rCR = false).
  { destruct (byte_eqb c rCR) eqn:E; auto. apply byte_eqb_eq in E. subst c. discriminate. }
  destruct m; simpl; rewrite E; reflexivity.
Qed.

Theorem forwarded_reads_as_recorded_partial o r chunks :
  Inv_req r -> framing_matches r chunks -> forwarded_reads_as_recorded o r chunks.
Proof.
  intros I FM cmds rest Hf. rewrite (forward_request_bytes _ _ _ Hf), <- app_assoc.
  unfold parse_request.
  assert (SK : forall x, skip_empty_lines (assemble_request_head r ++ x) = assemble_request_head r ++ x).
  { intros x. unfold assemble_request_head. rewrite assemble_request_line_eq, <- !app_assoc.
    apply skip_empty_token_start, (ir_method r I). }
  rewrite SK, (head_roundtrip_request o r _ I).
  unfold framing_matches in FM.
  destruct (request_body_length (rq_version r) (rq_headers r)) as [[| n | | |]|]; try contradiction;
    destruct FM as [-> FB].
  - rewrite FB. reflexivity.
  - rewrite FB, (body_reframe_length o (concat chunks) rest). reflexivity.
  - destruct (chunk_or_nothing_filter chunks) as (_ & B & C).
    rewrite <- app_assoc, (body_reframe_read_body o _ rest C), B. reflexivity.
Qed.

(* refutation witnesses: heads the parser and validation accept, whose forwarded bytes no RFC 9112
   recipient reads as the recorded request (lexical families recorded as known findings) *)
Definition any_url : url_lib := mkUrl (fun a => Some (a, Some 80%N)) (fun _ => true).
Definition strict : ref_opts := mkOpts false false false.
Definition lenient : ref_opts := mkOpts true true true.

Definition b (l : list N) : bytes := map Nb l.
(* G(T /p HTTP/1.1 *)
Definition nontoken_lines : list bytes :=
  [ [x47;x28;x54;x20;x2f;x70;x20;x48;x54;x54;x50;x2f;x31;x2e;x31]; [x48;x6f;x73;x74;x3a;x20;x78] ].
(* GET /a^Ab HTTP/1.1 *)
Definition ctl_target_lines : list bytes :=
  [ [x47;x45;x54;x20;x2f;x61;x01;x62;x20;x48;x54;x54;x50;x2f;x31;x2e;x31]; [x48;x6f;x73;x74;x3a;x20;x78] ].

Definition refutes (lines : list bytes) (o : ref_opts) : bool :=
  match read_request_head any_url lines with
  | Ok r =>
      match validate_headers (MReq r), forward_request r [] with
      | Ok _, Ok cmds =>
          match parse_request o (sent_bytes cmds) with
          | POk _ => false
          | PErr _ => true
          end
      | _, _ => false
      end
  | _ => false
  end.

Lemma refuted_nontoken_method : refutes nontoken_lines strict = true /\ refutes nontoken_lines lenient = true.
Proof. vm_compute. split; reflexivity. Qed.
Lemma refuted_ctl_target : refutes ctl_target_lines strict = true /\ refutes ctl_target_lines lenient = true.
Proof. vm_compute. split; reflexivity. Qed.

Theorem end_to_end_refuted :
  exists lines r cmds, read_request_head any_url lines = Ok r /\ validate_headers (MReq r) = Ok tt
    /\ forward_request r [] = Ok cmds
    /\ forall o, o = strict \/ o = lenient -> parse_request o (sent_bytes cmds) <> POk (recorded_request r [], []).
Proof.
  exists nontoken_lines. eexists. eexists.
  split; [vm_compute; reflexivity|]. split; [vm_compute; reflexivity|]. split; [vm_compute; reflexivity|].
  intros o [-> | ->]; vm_compute; discriminate.
Qed.

(* responses: a bare CR in the reason phrase and a status code that is not three digits reach the client *)
Definition resp_refutes (lines : list bytes) : bool :=
  match read_response_head lines with
  | Ok r =>
      match validate_headers (MResp r) with
      | Ok _ =>
          match parse_response strict [x47;x45;x54] (sent_bytes (forward_response (mkReq [] 0 [x47;x45;x54] [] [] [x2f] HTTP11 []) r [])) with
          | POk _ => false
          | PErr _ => true
          end
      | _ => false
      end
  | _ => false
  end.
(* HTTP/1.1 200 a^Mb   and   HTTP/1.1 1000 OK *)
Lemma refuted_reason_cr :
  resp_refutes [ [x48;x54;x54;x50;x2f;x31;x2e;x31;x20;x32;x30;x30;x20;x61;x0d;x62]; [x43;x6f;x6e;x74;x65;x6e;x74;x2d;x4c;x65;x6e;x67;x74;x68;x3a;x20;x30] ] = true.
Proof. vm_compute. reflexivity. Qed.
Lemma refuted_status_digits :
  resp_refutes [ [x48;x54;x54;x50;x2f;x31;x2e;x31;x20;x31;x30;x30;x30;x20;x4f;x4b]; [x43;x6f;x6e;x74;x65;x6e;x74;x2d;x4c;x65;x6e;x67;x74;x68;x3a;x20;x30] ] = true.
Proof. vm_compute. reflexivity. Qed.

(* non-vacuity: a chunked POST with two chunks *)
Definition sample_req : request_head :=
  mkReq [] 80 [x50;x4f;x53;x54] [] [] [x2f;x70] HTTP11
        [([x48;x6f;x73;x74], [x78]); (TRANSFER_ENCODING, [x67;x7a;x69;x70;x2c;x20;x63;x68;x75;x6e;x6b;x65;x64])].
Definition sample_chunks : list bytes := [[x61;x62]; [x63]].

Lemma sample_inv : Inv_req sample_req.
Proof.
  constructor; try (vm_compute; reflexivity).
  - split; [discriminate | vm_compute; reflexivity].
  - repeat constructor; vm_compute; reflexivity.
Qed.

Lemma sample_nonvacuous :
  validate_headers (MReq sample_req) = Ok tt /\ Inv_req sample_req /\ framing_matches sample_req sample_chunks
  /\ exists cmds, forward_request sample_req sample_chunks = Ok cmds
       /\ parse_request strict (sent_bytes cmds) = POk (recorded_request sample_req [x61;x62;x63], []).
Proof.
  split; [vm_compute; reflexivity|]. split; [exact sample_inv|]. split.
  - unfold framing_matches. 
    change (request_body_length (rq_version sample_req) (rq_headers sample_req)) with (Some BLChunked).
    split; [vm_compute; reflexivity|exact I].
  - eexists. split; [vm_compute; reflexivity|]. vm_compute. reflexivity.
Qed.
