(* Proofs/EqbIff.v -- a boolean test that decides equality is false exactly on distinct values; option_eqb,
   list_eqb and pair_eqb of Base/Bytes.v decide equality when the tests on the components do. *)
From Coq Require Import List Bool.
From MV Require Import Base.Bytes.
Import ListNotations.

Lemma eqb_false_iff {A} (eqb : A -> A -> bool) :
  (forall a b, eqb a b = true <-> a = b) -> forall a b, eqb a b = false <-> a <> b.
Proof. intros H a b. rewrite <- H. symmetry. apply not_true_iff_false. Qed.

Lemma option_eqb_eq {A} (eqb : A -> A -> bool) :
  (forall a b, eqb a b = true <-> a = b) -> forall o1 o2, option_eqb eqb o1 o2 = true <-> o1 = o2.
Proof. intros H [x|] [y|]; simpl; rewrite ?H; intuition congruence. Qed.

Lemma list_eqb_eq {A} (eqb : A -> A -> bool) :
  (forall a b, eqb a b = true <-> a = b) -> forall l1 l2, list_eqb eqb l1 l2 = true <-> l1 = l2.
Proof.
  intros H l1. induction l1 as [|x l1 IH]; intros [|y l2]; simpl; rewrite ?andb_true_iff, ?H, ?IH;
    intuition congruence.
Qed.

Lemma pair_eqb_eq {A B} (ea : A -> A -> bool) (eb : B -> B -> bool) :
  (forall x y, ea x y = true <-> x = y) -> (forall x y, eb x y = true <-> x = y) ->
  forall a b, pair_eqb ea eb a b = true <-> a = b.
Proof.
  intros HA HB [a1 a2] [b1 b2]. unfold pair_eqb. simpl. rewrite andb_true_iff, HA, HB.
  split; [intros [-> ->]; reflexivity | intro E; injection E as -> ->; auto].
Qed.
