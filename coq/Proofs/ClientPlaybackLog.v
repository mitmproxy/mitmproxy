(* Proofs/ClientPlaybackLog.v -- check and start_replay admit exactly the replayable flows; invariants
   of the event log of Model/ClientPlayback.v over ALL histories: replays never overlap, entries leave the queue in acceptance order and none is lost,
   every finished replay has a response or an error (and, without an error, a request that was
   sent), a replay corrupted by stop_replay never ends, and stop_replay is the only way into that state.
   A run of the event loop is cut into ticks (below); every invariant is checked once per tick and
   once per command. *)
From Coq Require Import List Bool Arith Lia Sorted Relations.
From MV Require Import Base.Bytes Model.FlowBackup Model.ClientPlayback Proofs.ClientPlaybackSent.
Import ListNotations.

Lemma run_app : forall a b s, run s (a ++ b) = run (run s a) b.
Proof. intros. unfold run. apply fold_left_app. Qed.

Definition replayable (infl : bool) (f : cflow) : Prop :=
  flive (cf f) = false /\ infl = false /\ o_int (fo (cf f)) = false /\ c_http f = true /\
  o_req (fo (cf f)) = true /\ o_content (fo (cf f)) <> None /\ o_ws (fo (cf f)) = false.

(* each test of check that refuses contradicts one conjunct of replayable *)
Lemma check_table : forall b f, check b f = None <-> replayable b f.
Proof.
  intros b f. unfold check, replayable.
  destruct (flive (cf f)); [easy|]. destruct b; [easy|]. destruct (o_int _); [easy|].
  destruct (c_http f); [|easy]. destruct (o_req _); [|easy]. destruct (o_content _); [|easy].
  destruct (o_ws _); easy.
Qed.

(* the reason given is the first one that applies, in the order of the code *)
Lemma check_reason : forall b f,
  check b f =
    if flive (cf f) || b then Some RLive
    else if o_int (fo (cf f)) then Some RIntercepted
    else if negb (c_http f) then Some RNotHttp
    else if negb (o_req (fo (cf f))) then Some RNoRequest
    else match o_content (fo (cf f)) with
         | None => Some RNoContent
         | Some _ => if o_ws (fo (cf f)) then Some RWebsocket else None
         end.
Proof.
  intros b f. unfold check. destruct (flive (cf f) || b); auto.
  destruct (o_int (fo (cf f))); auto. destruct (c_http f); auto.
Qed.

Definition req_at (fs : list cflow) (i : nat) : bool :=
  match nth_error fs i with Some f => o_req (fo (cf f)) | None => false end.

Lemma req_at_updf : forall fs i j g, (forall f, o_req (fo (cf (g f))) = o_req (fo (cf f))) ->
  req_at (updf i g fs) j = req_at fs j.
Proof.
  intros fs i j g H. unfold req_at. destruct (Nat.eq_dec i j) as [->|D].
  - rewrite updf_same. destruct (nth_error fs j); simpl; auto.
  - rewrite updf_other by exact D. reflexivity.
Qed.

Lemma start_replay_eq : forall s ids, exists fs,
  let acc := filter (ok (inflight s) (flows s)) ids in
  start_replay s ids =
    mkSt fs (queue s ++ combine (seq (next_seq s) (length acc)) acc) (act s)
         (next_seq s + length acc) (log s ++ [LSubmit (next_seq s) acc]).
Proof.
  intros s ids. unfold start_replay.
  destruct (start_loop _ _ _ _ _ _) as [[[fs q] nx] upd] eqn:SL.
  destruct (start_loop_spec _ _ _ _ _ _ _ _ _ _ SL) as (-> & -> & ->). exists fs. reflexivity.
Qed.

Lemma ok_iff : forall infl fs i,
  ok infl fs i = true <-> exists f, nth_error fs i = Some f /\ replayable (infl_eq infl i) f.
Proof.
  intros infl fs i. unfold ok. destruct (nth_error fs i) as [f|].
  - destruct (check (infl_eq infl i) f) eqn:C; split.
    + discriminate.
    + intros (g & [= <-] & R). apply check_table in R. congruence.
    + intros _. exists f. split; [reflexivity|]. apply check_table. exact C.
    + reflexivity.
  - split; [discriminate|]. intros (g & G & _). discriminate.
Qed.

Lemma map_snd_combine_seq : forall (acc : list nat) a, map snd (combine (seq a (length acc)) acc) = acc.
Proof. induction acc as [|x r IH]; intros a; simpl; auto. rewrite IH. reflexivity. Qed.

(* start_replay: the accepted flows are exactly the replayable ones among the arguments, in
   argument order with repetitions; they are appended to the queue in that order and announced in
   the update hook; the replay in flight is untouched *)
Theorem submit_spec : forall s ids,
  let acc := filter (ok (inflight s) (flows s)) ids in
  log (step s (Submit ids)) = log s ++ [LSubmit (next_seq s) acc]
  /\ queue (step s (Submit ids)) = queue s ++ combine (seq (next_seq s) (length acc)) acc
  /\ map snd (queue (step s (Submit ids))) = map snd (queue s) ++ acc
  /\ act (step s (Submit ids)) = act s
  /\ (forall i, In i acc <->
        In i ids /\ exists f, nth_error (flows s) i = Some f /\ replayable (infl_eq (inflight s) i) f).
Proof.
  intros s ids acc. simpl. destruct (start_replay_eq s ids) as (fs & ->). fold acc. simpl.
  rewrite map_app, map_snd_combine_seq. do 4 (split; [reflexivity|]).
  intros i. unfold acc. rewrite filter_In, ok_iff. reflexivity.
Qed.

Lemma net_cases : forall s r, net s r = s \/
  exists a, act s = Some a /\ a_pend a = None /\ compatible (a_phase a) r = true /\
    net s r = mkSt (flows s) (queue s) (Some (mkAct (a_seq a) (a_flow a) (a_phase a) (Some r)))
                   (next_seq s) (log s).
Proof.
  intros s r. unfold net. destruct (act s) as [a|]; auto. destruct (a_pend a) eqn:Q; auto.
  destruct (compatible (a_phase a) r) eqn:C; auto. right. exists a. auto.
Qed.

Definition resp_of (r : netres) : option nat :=
  match r with NResponse t => Some t | _ => None end.

(* What one turn of the event loop does: it hands the pending network result to the replay in
   flight (the request is written, or replay() returns), or, nothing being in flight, the playback
   loop takes the head of the queue (crash branch, stale answer, or a new replay in flight).  The
   premises make the cases exclusive (r <> NConnected in tick_fin): tick is exactly what loop does. *)
Inductive tick (s : st) : st -> Prop :=
| tick_req : forall a, act s = Some a -> a_phase a <> Corrupt -> a_pend a = Some NConnected ->
    tick s (mkSt (flows s) (queue s) (Some (mkAct (a_seq a) (a_flow a) Sent None)) (next_seq s)
                 (log s ++ [LReq (a_seq a) (a_flow a)]))
| tick_fin : forall a r, act s = Some a -> a_phase a <> Corrupt -> a_pend a = Some r ->
    r <> NConnected -> tick s (finish s a (resp_of r))
| tick_crash : forall n i q, act s = None -> queue s = (n, i) :: q -> req_at (flows s) i = false ->
    tick s (mkSt (flows s) q None (next_seq s) (log s ++ [LCrash n i]))
| tick_stale : forall n i q f t, act s = None -> queue s = (n, i) :: q ->
    nth_error (flows s) i = Some f -> o_req (fo (cf f)) = true -> o_resp (fo (cf f)) = Some t ->
    tick s (mkSt (updf i (on_fl (begin false)) (flows s)) q None (next_seq s)
                 (log s ++ [LStart n i; LStale n i; LFin n i (Some t) (o_err (fo (cf f)))]))
| tick_start : forall n i q f, act s = None -> queue s = (n, i) :: q ->
    nth_error (flows s) i = Some f -> o_req (fo (cf f)) = true -> o_resp (fo (cf f)) = None ->
    tick s (mkSt (updf i (on_fl (begin true)) (flows s)) q (Some (mkAct n i Connecting None))
                 (next_seq s) (log s ++ [LStart n i])).

Notation ticks := (clos_refl_trans st tick).

Lemma start_next_ticks : forall s0 nx q fs lg q' fs' a' lg',
  ticks s0 (mkSt fs q None nx lg) -> start_next q fs lg = (q', fs', a', lg') ->
  ticks s0 (mkSt fs' q' a' nx lg').
Proof.
  intros s0 nx. induction q as [|[n i] q IH]; intros fs lg q' fs' a' lg' T H; simpl in H.
  - inversion H; subst. exact T.
  - set (s := mkSt fs ((n, i) :: q) None nx lg) in T.
    assert (K : forall s', tick s s' -> ticks s0 s').
    { intros s' S. eapply rt_trans; [exact T|]. apply rt_step. exact S. }
    assert (C : req_at fs i = false -> ticks s0 (mkSt fs q None nx (lg ++ [LCrash n i]))).
    { intros R. apply K, (tick_crash s n i q); auto. }
    unfold req_at in C. destruct (nth_error fs i) as [f|] eqn:N; [|eapply IH; [|exact H]; auto].
    destruct (o_req (fo (cf f))) eqn:R; simpl in H; [|eapply IH; [|exact H]; auto].
    destruct (o_resp (fo (cf f))) as [t|] eqn:E.
    + eapply IH; [|exact H]. apply K, (tick_stale s n i q f t); auto.
    + inversion H; subst. apply K, (tick_start s n i q' f); auto.
Qed.

Lemma loop_ticks : forall s, ticks s (loop s).
Proof.
  intros s. assert (T : ticks s (loop_net s)).
  { unfold loop_net. destruct (act s) as [a|] eqn:A; [|apply rt_refl].
    destruct (a_phase a) eqn:P, (a_pend a) as [r|] eqn:Q; try apply rt_refl.
    all: assert (NC : a_phase a <> Corrupt) by congruence.
    all: apply rt_step; destruct r.
    all: first [apply (tick_req s a A NC Q) | apply (tick_fin s a _ A NC Q); discriminate]. }
  unfold loop. destruct (loop_net s) as [fs q a nx lg]. simpl. destruct a; [exact T|].
  destruct (start_next q fs lg) as [[[q' fs'] a'] lg'] eqn:SN.
  eapply start_next_ticks; [exact T|exact SN].
Qed.

(* a predicate kept by the two commands, by every tick, by a network result and by any change of the
   flow table alone (an edit) is kept by every history *)
Lemma invariant : forall (P : st -> Prop),
  (forall s fs acc, P s ->
     P (mkSt fs (queue s ++ combine (seq (next_seq s) (length acc)) acc) (act s)
             (next_seq s + length acc) (log s ++ [LSubmit (next_seq s) acc]))) ->
  (forall s, P s -> P (stop_replay s)) ->
  (forall s s', tick s s' -> P s -> P s') ->
  (forall s a r, P s -> act s = Some a -> a_pend a = None -> compatible (a_phase a) r = true ->
     P (mkSt (flows s) (queue s) (Some (mkAct (a_seq a) (a_flow a) (a_phase a) (Some r)))
             (next_seq s) (log s))) ->
  (forall s fs, P s -> P (mkSt fs (queue s) (act s) (next_seq s) (log s))) ->
  forall ops s, P s -> P (run s ops).
Proof.
  intros P Hsub Hstop Htick Hnet Hedit. induction ops as [|o r IH]; intros s Ps; [exact Ps|].
  apply IH. destruct o as [ids| | |x|i e]; simpl; auto.
  - destruct (start_replay_eq s ids) as (fs' & ->). auto.
  - induction (loop_ticks s) using clos_refl_trans_ind_left; eauto.
  - destruct (net_cases s x) as [->|(a & A & Q & C & ->)]; auto.
Qed.

(* cur = the entry whose replay() has been called and has not returned *)
Definition scan_step (cur : option nat) (e : ev) : option (option nat) :=
  match e with
  | LStart n _ => match cur with None => Some (Some n) | Some _ => None end
  | LReq n _ | LStale n _ => match cur with Some m => if Nat.eqb n m then Some cur else None | None => None end
  | LFin n _ _ _ => match cur with Some m => if Nat.eqb n m then Some None else None | None => None end
  | LCrash _ _ => match cur with None => Some None | Some _ => None end
  | LSubmit _ _ | LStopped _ => Some cur
  end.

Fixpoint scan (cur : option nat) (l : list ev) : option (option nat) :=
  match l with
  | [] => Some cur
  | e :: r => match scan_step cur e with Some c => scan c r | None => None end
  end.

Lemma scan_app : forall l1 l2 c,
  scan c (l1 ++ l2) = match scan c l1 with Some c' => scan c' l2 | None => None end.
Proof.
  induction l1 as [|e r IH]; intros l2 c; simpl; auto.
  destruct (scan_step c e); auto.
Qed.

Lemma scan_run : forall fs ops,
  let s := run (init fs) ops in scan None (log s) = Some (option_map a_seq (act s)).
Proof.
  intros fs ops. apply invariant; try reflexivity.
  - intros s fs' acc I. simpl. rewrite scan_app, I. reflexivity.
  - intros s I. simpl. rewrite scan_app, I. simpl. destruct (hits_connected s), (act s); reflexivity.
  - intros s s' T I.
    destruct T as [a A|a r A|n i q A|n i q f t A|n i q f A]; unfold finish; simpl;
      rewrite scan_app, I, A; simpl; rewrite ?Nat.eqb_refl; simpl; rewrite ?Nat.eqb_refl; reflexivity.
  - intros s a r I A _ _. simpl. rewrite I, A. reflexivity.
  - intros s fs' I. exact I.
Qed.

Definition finished (n : nat) (l : list ev) : Prop := exists i r e, In (LFin n i r e) l.

Lemma finished_cons : forall n e l, finished n l -> finished n (e :: l).
Proof. intros n e l (i & x & y & F). exists i, x, y. right. exact F. Qed.

Lemma scan_step_current : forall n e c, scan_step (Some n) e = Some c ->
  c = Some n \/ exists i x y, e = LFin n i x y.
Proof.
  intros n e c S.
  destruct e as [| |m j|m j|m j x y|m j|m j]; simpl in S; try discriminate; try (left; congruence).
  - destruct (Nat.eqb m n); [left; congruence|discriminate].
  - destruct (Nat.eqb_spec m n) as [->|]; [right; eauto|discriminate].
  - destruct (Nat.eqb m n); [left; congruence|discriminate].
Qed.

(* an entry that is current at some point of a scan is still current at its end, or has finished *)
Lemma scan_current : forall l c0 c, scan c0 l = Some c ->
  forall n, c0 = Some n \/ (exists i, In (LStart n i) l) -> c = Some n \/ finished n l.
Proof.
  induction l as [|e r IH]; intros c0 c H n K; simpl in H.
  - destruct K as [K|(i & [])]. left. congruence.
  - destruct (scan_step c0 e) as [c1|] eqn:S; [|discriminate].
    assert (K1 : (c1 = Some n \/ exists i, In (LStart n i) r) \/ exists i x y, e = LFin n i x y).
    { destruct K as [->|(i & [->|I])].
      - destruct (scan_step_current _ _ _ S); auto.
      - left. left. simpl in S. destruct c0; congruence.
      - left. right. exists i. exact I. }
    destruct K1 as [K1|(i & x & y & ->)].
    + destruct (IH _ _ H _ K1) as [E|F]; [left; exact E|right; apply finished_cons; exact F].
    + right. exists i, x, y. left. reflexivity.
Qed.

(* the entry whose replay must be running (started, not returned) when the event is logged *)
Definition needs (e : ev) : option nat :=
  match e with LReq m _ | LStale m _ => Some m | LFin m _ _ _ => Some m | _ => None end.

(* request m reaches the server only when every replay started before it, other than m itself,
   has finished; and a replay starts only when every earlier one has finished *)
Theorem sequential : forall fs ops pre e post,
  log (run (init fs) ops) = pre ++ e :: post ->
  (forall m, needs e = Some m -> forall n i, In (LStart n i) pre -> n <> m -> finished n pre)
  /\ (forall m j, e = LStart m j -> forall n i, In (LStart n i) pre -> finished n pre).
Proof.
  intros fs ops pre e post L. pose proof (scan_run fs ops) as I. simpl in I.
  rewrite L, scan_app in I. destruct (scan None pre) as [c1|] eqn:P; [|discriminate].
  simpl in I. destruct (scan_step c1 e) as [c2|] eqn:S; [|discriminate].
  assert (K : forall n i, In (LStart n i) pre -> c1 = Some n \/ finished n pre).
  { intros n i In1. apply (scan_current _ _ _ P). right. exists i. exact In1. }
  split.
  - intros m N n i In1 D. destruct (K n i In1) as [->|F]; [|exact F].
    destruct e; simpl in N; inversion N; subst; simpl in S;
      destruct (Nat.eqb m n) eqn:Q; try discriminate; apply Nat.eqb_eq in Q; congruence.
  - intros m j -> n i In1. destruct (K n i In1) as [->|F]; [discriminate|exact F].
Qed.

Definition popped_ev (e : ev) : list nat := match e with LStart n _ | LCrash n _ => [n] | _ => [] end.
Definition popped (l : list ev) : list nat := flat_map popped_ev l.
Definition stopped_ev (e : ev) : list nat := match e with LStopped q => map fst q | _ => [] end.
Definition stopped (l : list ev) : list nat := flat_map stopped_ev l.
Definition acc_ev (e : ev) : list nat := match e with LSubmit _ acc => acc | _ => [] end.
Definition accepted (l : list ev) : list nat := flat_map acc_ev l.

Definition taken_ev (e : ev) : list (nat * nat) :=
  match e with LStart n i | LCrash n i => [(n, i)] | _ => [] end.
Definition taken (l : list ev) : list (nat * nat) := flat_map taken_ev l.

Lemma popped_app : forall a b, popped (a ++ b) = popped a ++ popped b.
Proof. intros. apply flat_map_app. Qed.
Lemma stopped_app : forall a b, stopped (a ++ b) = stopped a ++ stopped b.
Proof. intros. apply flat_map_app. Qed.
Lemma accepted_app : forall a b, accepted (a ++ b) = accepted a ++ accepted b.
Proof. intros. apply flat_map_app. Qed.
Lemma taken_app : forall a b, taken (a ++ b) = taken a ++ taken b.
Proof. intros. apply flat_map_app. Qed.

Lemma popped_taken : forall l, popped l = map fst (taken l).
Proof.
  induction l as [|e r IH]; [reflexivity|]. simpl. rewrite map_app, <- IH. destruct e; reflexivity.
Qed.

Lemma taken_In : forall l n i, In (n, i) (taken l) <-> In (LStart n i) l \/ In (LCrash n i) l.
Proof.
  intros l n i. unfold taken. rewrite in_flat_map. split.
  - intros (e & I & T). destruct e; simpl in T; try contradiction; destruct T as [[= -> ->]|[]]; auto.
  - intros [I|I]; eexists; (split; [exact I|]); left; reflexivity.
Qed.

(* a tick moves the head of the queue to the log, or leaves both alone *)
Lemma tick_taken : forall s s', tick s s' ->
  taken (log s') ++ queue s' = taken (log s) ++ queue s
  /\ stopped (log s') = stopped (log s) /\ accepted (log s') = accepted (log s)
  /\ next_seq s' = next_seq s.
Proof.
  intros s s' T. destruct T as [a A|a r A|n i q A Q|n i q f t A Q|n i q f A Q];
    unfold finish; simpl; rewrite taken_app, stopped_app, accepted_app, ?Q; simpl;
    rewrite <- ?app_assoc, ?app_nil_r; auto.
Qed.

Lemma map_fst_combine_seq : forall (acc : list nat) a, map fst (combine (seq a (length acc)) acc) = seq a (length acc).
Proof. induction acc as [|x r IH]; intros a; simpl; auto. rewrite IH. reflexivity. Qed.

Lemma in_combine_seq : forall (l : list nat) a n i,
  In (n, i) (combine (seq a (length l)) l) -> a <= n /\ nth_error l (n - a) = Some i.
Proof.
  induction l as [|x r IH]; intros a n i H; simpl in H; [contradiction|].
  destruct H as [H|H].
  - inversion H; subst. rewrite Nat.sub_diag. split; auto.
  - destruct (IH _ _ _ H) as [L E]. split; [lia|].
    replace (n - a) with (S (n - S a)) by lia. exact E.
Qed.

Lemma ss_app_seq : forall l n k, StronglySorted lt l -> Forall (fun x => x < n) l ->
  StronglySorted lt (l ++ seq n k).
Proof.
  induction l as [|a r IH]; intros n k S F; simpl.
  - clear S F. revert n. induction k as [|k IHk]; intros n; simpl; constructor; auto.
    apply Forall_forall. intros x X. apply in_seq in X. lia.
  - inversion S; subst. inversion F; subst. constructor; auto.
    apply Forall_app. split; auto. apply Forall_forall. intros x X. apply in_seq in X. lia.
Qed.

Lemma ss_app_l : forall (a b : list nat), StronglySorted lt (a ++ b) -> StronglySorted lt a.
Proof.
  induction a as [|x r IH]; intros b S; [constructor|]. simpl in S. inversion S; subst.
  constructor; eauto. apply Forall_app in H2. tauto.
Qed.

(* Sequence numbers are positions in the global order of acceptance: the entries taken so far
   followed by the queue are in strictly increasing order, entry n is the flow accepted at position
   n, and every number handed out is taken, queued or was removed by stop_replay. *)
Definition book (s : st) : Prop :=
  let w := taken (log s) ++ queue s in
  StronglySorted lt (map fst w)
  /\ length (accepted (log s)) = next_seq s
  /\ (forall n i, In (n, i) w -> nth_error (accepted (log s)) n = Some i)
  /\ (forall n, n < next_seq s -> In n (map fst w) \/ In n (stopped (log s))).

Lemma book_run : forall fs ops, book (run (init fs) ops).
Proof.
  intros fs ops. apply invariant; unfold book.
  - intros s fs' acc (S & L & K & M). simpl.
    rewrite taken_app, stopped_app, accepted_app. simpl. rewrite !app_nil_r, app_assoc, app_length.
    set (w := taken (log s) ++ queue s) in *.
    rewrite map_app, map_fst_combine_seq. repeat split.
    + apply ss_app_seq; [exact S|]. apply Forall_forall. intros n N.
      apply in_map_iff in N as ([n' i] & <- & I). simpl. rewrite <- L. apply nth_error_Some.
      rewrite (K _ _ I). discriminate.
    + lia.
    + intros n i I. apply in_app_or in I. destruct I as [I|I].
      * rewrite nth_error_app1; [apply K; exact I|]. apply nth_error_Some. rewrite (K _ _ I). discriminate.
      * destruct (in_combine_seq _ _ _ _ I) as [G E]. rewrite nth_error_app2 by lia. rewrite L. exact E.
    + intros n N. destruct (Nat.lt_ge_cases n (next_seq s)) as [G|G].
      * destruct (M n G) as [I|I]; auto. left. apply in_or_app. left. exact I.
      * left. apply in_or_app. right. apply in_seq. lia.
  - intros s (S & L & K & M). simpl.
    rewrite taken_app, stopped_app, accepted_app. simpl. rewrite !app_nil_r.
    rewrite map_app in S, M. repeat split.
    + eapply ss_app_l. exact S.
    + exact L.
    + intros n i I. apply K. apply in_or_app. left. exact I.
    + intros n N. destruct (M n N) as [I|I]; [|right; apply in_or_app; left; exact I].
      apply in_app_or in I. destruct I as [I|I]; [left; exact I|right; apply in_or_app; right; exact I].
  - intros s s' T I. destruct (tick_taken s s' T) as (E1 & E2 & E3 & E4). rewrite E1, E2, E3, E4. exact I.
  - intros s a r I _ _ _. exact I.
  - intros s fs' I. exact I.
  - simpl. repeat split; [constructor|intros n i []|lia].
Qed.

Definition entry_ev (e : ev) : list (nat * nat) :=
  match e with
  | LStart n i | LReq n i | LCrash n i | LStale n i => [(n, i)]
  | LFin n i _ _ => [(n, i)]
  | _ => []
  end.
Definition entries (l : list ev) : list (nat * nat) := flat_map entry_ev l.

Lemma popped_entries : forall l n, In n (popped l) -> exists i, In (n, i) (entries l) /\ (In (LStart n i) l \/ In (LCrash n i) l).
Proof.
  intros l n H. rewrite popped_taken in H. apply in_map_iff in H as ([n' i] & <- & I).
  exists i. split; [|apply taken_In; exact I]. apply in_flat_map.
  apply taken_In in I as [I|I]; eexists; (split; [exact I|]); left; reflexivity.
Qed.

(* entries leave the queue in the order in which they were accepted, each one is the flow that was
   accepted at that position, and no accepted entry is lost: it is taken, still queued, or was
   removed by stop_replay *)
Theorem queue_order : forall fs ops,
  let s := run (init fs) ops in
  StronglySorted lt (popped (log s) ++ map fst (queue s))
  /\ (forall n i, In (LStart n i) (log s) \/ In (LCrash n i) (log s) \/ In (n, i) (queue s) ->
        nth_error (accepted (log s)) n = Some i)
  /\ (forall n, n < length (accepted (log s)) ->
        In n (popped (log s)) \/ In n (map fst (queue s)) \/ In n (stopped (log s))).
Proof.
  intros fs ops s. destruct (book_run fs ops) as (S & L & K & M). fold s in S, L, K, M.
  rewrite popped_taken, <- map_app. repeat split.
  - exact S.
  - intros n i I. apply K, in_or_app. rewrite taken_In. tauto.
  - intros n N. rewrite L in N. destruct (M n N) as [I|I]; [|tauto].
    rewrite map_app in I. apply in_app_or in I. tauto.
Qed.

Definition fin_sent (l : list ev) : Prop :=
  forall n i r, In (LFin n i r false) l -> r <> None /\ (In (LReq n i) l \/ In (LStale n i) l).

Lemma fin_sent_app : forall l d, fin_sent l ->
  (forall n i r, In (LFin n i r false) d ->
     r <> None /\ (In (LReq n i) (l ++ d) \/ In (LStale n i) (l ++ d))) ->
  fin_sent (l ++ d).
Proof.
  intros l d F D n i r I. apply in_app_or in I. destruct I as [I|I]; [|apply D; exact I].
  destruct (F _ _ _ I) as [A [B|B]]; split; auto; [left|right]; apply in_or_app; left; exact B.
Qed.

Lemma fin_sent_other : forall l e, fin_sent l -> (forall n i r, e <> LFin n i r false) ->
  fin_sent (l ++ [e]).
Proof.
  intros l e F N. apply fin_sent_app; [exact F|]. intros n i r [X|[]]. destruct (N _ _ _ X).
Qed.

(* past Connecting the request of the replay in flight is in the log, and only then can a
   response be pending *)
Definition sent_inv (s : st) : Prop :=
  fin_sent (log s) /\
  match act s with
  | None => True
  | Some a => match a_phase a with
              | Connecting => forall t, a_pend a <> Some (NResponse t)
              | _ => In (LReq (a_seq a) (a_flow a)) (log s)
              end
  end.

Lemma sent_run : forall fs ops, sent_inv (run (init fs) ops).
Proof.
  intros fs ops. apply invariant; unfold sent_inv.
  - intros s fs' acc (F & K). simpl. split.
    + apply fin_sent_other; [exact F|discriminate].
    + destruct (act s) as [a|]; [|exact K]. destruct (a_phase a); auto; apply in_or_app; left; exact K.
  - intros s (F & K). simpl. split.
    + apply fin_sent_other; [exact F|discriminate].
    + unfold hits_connected. destruct (act s) as [a|]; [|exact K].
      destruct (a_phase a) eqn:P; simpl; rewrite ?P; auto; [|apply in_or_app; left; exact K].
      destruct (existsb _ _); simpl; rewrite ?P; apply in_or_app; left; exact K.
  - intros s s' T (F & K).
    destruct T as [a A|a r A NC Q|n i q A|n i q f t A|n i q f A]; unfold finish; simpl; rewrite A in K.
    + split; [|apply in_or_app; right; left; reflexivity].
      apply fin_sent_other; [exact F|discriminate].
    + split; [|exact Logic.I]. apply fin_sent_app; [exact F|]. intros n i x [[= <- <- <- E]|[]].
      destruct r as [| |t|]; try discriminate. split; [discriminate|]. left. apply in_or_app. left.
      destruct (a_phase a); [destruct (K t Q)|exact K|exact K].
    + split; [|exact Logic.I]. apply fin_sent_other; [exact F|discriminate].
    + split; [|exact Logic.I]. apply fin_sent_app; [exact F|]. intros m j r [X|[X|[X|[]]]]; try discriminate.
      inversion X; subst. split; [discriminate|]. right. apply in_or_app. right. right. left. reflexivity.
    + split; [|discriminate]. apply fin_sent_other; [exact F|discriminate].
  - intros s a r (F & K) A _ C. simpl. split; [exact F|]. rewrite A in K.
    destruct (a_phase a); [|exact K|exact K]. destruct r; discriminate.
  - intros s fs' K. exact K.
  - split; [intros n i r []|exact Logic.I].
Qed.

(* a replay that ends without an error ends with a response, and its request reached the server --
   or it is the stale-response case (finding): the flow already carried a response when the entry
   was taken from the queue, and nothing was sent *)
Theorem response_needs_request : forall fs ops n i r,
  In (LFin n i r false) (log (run (init fs) ops)) ->
  r <> None /\ (In (LReq n i) (log (run (init fs) ops)) \/ In (LStale n i) (log (run (init fs) ops))).
Proof. intros fs ops. apply sent_run. Qed.

Theorem outcome : forall fs ops n i r e,
  In (LFin n i r e) (log (run (init fs) ops)) -> r <> None \/ e = true.
Proof.
  intros fs ops n i r [|] H; [right; reflexivity|left]. apply (response_needs_request _ _ _ _ _ H).
Qed.

(* the state of the flow when replay() returns is what the log says *)
Lemma finish_flow : forall s a t f, nth_error (flows s) (a_flow a) = Some f ->
  exists g, nth_error (flows (finish s a t)) (a_flow a) = Some g
    /\ o_resp (fo (cf g)) = fin_resp t (fo (cf f)) /\ o_err (fo (cf g)) = fin_err t (fo (cf f))
    /\ flive (cf g) = false
    /\ log (finish s a t) = log s ++ [LFin (a_seq a) (a_flow a) (o_resp (fo (cf g))) (o_err (fo (cf g)))].
Proof.
  intros s a t f N. unfold finish. simpl. rewrite updf_same, N. simpl. eexists. split; [reflexivity|].
  simpl. unfold obj_or_default, obj_at. rewrite N. simpl. repeat split; reflexivity.
Qed.

(* during a run of the event loop the queue only shrinks and no flow gains or loses its request *)
Lemma tick_frame : forall s s', tick s s' ->
  incl (queue s') (queue s) /\ forall j, req_at (flows s') j = req_at (flows s) j.
Proof.
  intros s s' T.
  destruct T as [a A|a r A|n i q A Q|n i q f t A Q|n i q f A Q]; unfold finish; simpl; rewrite ?Q.
  1, 3: split; [auto using incl_refl, incl_tl|reflexivity].
  all: split; [auto using incl_refl, incl_tl|]; intros j; apply req_at_updf; intros [[] ?]; try reflexivity.
  destruct (resp_of r); reflexivity.
Qed.

(* what a run of the event loop needs in order to log e: the crash branch and the stale answer are
   for entries of the queue, the rest belongs to a replay; update hooks are not logged there *)
Definition loop_may_log (s : st) (e : ev) : Prop :=
  match e with
  | LCrash n i => In (n, i) (queue s) /\ req_at (flows s) i = false
  | LStale n i => In (n, i) (queue s)
  | LSubmit _ _ | LStopped _ => False
  | _ => True
  end.

Lemma loop_log : forall s e, In e (log (loop s)) -> In e (log s) \/ loop_may_log s e.
Proof.
  intros s e I. assert (T := clos_rt_rt1n _ _ _ _ (loop_ticks s)). remember (loop s) as z eqn:Z. clear Z.
  induction T as [x|x y z T _ IH]; [left; exact I|].
  destruct (tick_frame _ _ T) as (Q & R). destruct (IH I) as [J|J].
  - destruct T as [a A|a r A|m j q A Qm|m j q f t A Qm|m j q f A Qm]; unfold finish in J; simpl in J;
      apply in_app_or in J as [J|J]; auto; right.
    all: repeat (destruct J as [<-|J]; [simpl; rewrite ?Qm; simpl; auto|]); contradiction.
  - right. destruct e; simpl in *; auto. rewrite <- R. destruct J. auto.
Qed.

(* every event is logged by the operation it belongs to *)
Lemma step_log : forall s o e, In e (log (step s o)) -> In e (log s) \/
  match e with
  | LSubmit _ _ => exists ids, o = Submit ids
  | LStopped _ => o = Stop
  | _ => o = Loop /\ loop_may_log s e
  end.
Proof.
  intros s o e I. destruct o as [ids| | |r|j x]; simpl in I.
  - destruct (start_replay_eq s ids) as (fs & E). rewrite E in I. simpl in I.
    apply in_app_or in I as [I|[<-|[]]]; eauto.
  - apply in_app_or in I as [I|[<-|[]]]; auto.
  - destruct (loop_log _ _ I) as [J|J]; [left; exact J|right]. destruct e; simpl in *; tauto.
  - destruct (net_cases s r) as [E|(a & _ & _ & _ & E)]; rewrite E in I; auto.
  - auto.
Qed.

Definition corrupt (s : st) : Prop := exists a, act s = Some a /\ a_phase a = Corrupt.

Lemma tick_clean : forall s s', tick s s' -> ~ corrupt s'.
Proof.
  intros s s' T (a & A & P).
  destruct T; unfold finish in A; simpl in A; try discriminate; inversion A; subst a; discriminate.
Qed.

(* once corrupted, no sequence of operations ever finishes the replay or serves the queue again:
   no tick is possible, no network result is accepted, and the commands log only their hooks *)
Theorem corrupt_forever : forall ops s, corrupt s ->
  corrupt (run s ops) /\ popped (log (run s ops)) = popped (log s)
  /\ (forall n i r e, In (LFin n i r e) (log (run s ops)) -> In (LFin n i r e) (log s)).
Proof.
  intros ops s C. apply invariant; [| | | | |auto].
  - intros s1 fs acc (C1 & P1 & F1). simpl. rewrite popped_app, P1. simpl. rewrite app_nil_r.
    repeat split; [exact C1|]. intros n i r e I. apply in_app_or in I as [I|[I|[]]]; [auto|discriminate].
  - intros s1 ((a & A & P) & P1 & F1). unfold stop_replay, hits_connected. rewrite A, P. simpl.
    rewrite popped_app, P1. simpl. rewrite app_nil_r. repeat split; [exists a; auto|].
    intros n i r e I. apply in_app_or in I as [I|[I|[]]]; [auto|discriminate].
  - intros s1 s2 T ((a & A & P) & _). destruct T; congruence.
  - intros s1 a r ((a' & A' & P') & _) A _ K. rewrite A in A'. injection A' as <-.
    rewrite P' in K. destruct r; discriminate.
  - intros s1 fs I. exact I.
Qed.

(* the only way in: stop_replay while the flow in flight, request sent, is queued again *)
Lemma corrupt_only_by_stop : forall s o, ~ corrupt s -> corrupt (step s o) ->
  o = Stop /\ hits_connected s = true.
Proof.
  intros s o NC C. destruct o as [ids| | |r|i e]; simpl in C.
  - destruct (start_replay_eq s ids) as (fs & E). rewrite E in C. contradiction.
  - split; [reflexivity|]. unfold stop_replay, corrupt in C. simpl in C.
    destruct (hits_connected s); [reflexivity|contradiction].
  - revert C. destruct (clos_rt_rtn1 _ _ _ _ (loop_ticks s)) as [|s1 s2 T _]; intros C.
    + contradiction.
    + destruct (tick_clean _ _ T C).
  - destruct (net_cases s r) as [E|(a & A & _ & K & E)]; rewrite E in C; [contradiction|].
    destruct C as (a' & [= <-] & P). simpl in P. rewrite P in K. destruct r; discriminate.
  - contradiction.
Qed.

(* the except branch is taken only for a queued flow that has lost its request *)
Theorem crash_only_without_request : forall s o n i,
  In (LCrash n i) (log (step s o)) -> In (LCrash n i) (log s) \/
  (o = Loop /\ In (n, i) (queue s) /\ req_at (flows s) i = false).
Proof. intros s o n i. apply step_log. Qed.

Theorem stale_only_from_queue : forall s o n i,
  In (LStale n i) (log (step s o)) -> In (LStale n i) (log s) \/ (o = Loop /\ In (n, i) (queue s)).
Proof. intros s o n i. apply step_log. Qed.
