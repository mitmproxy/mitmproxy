(* Proofs/QuicIds.v -- facts about the translated stream-id arithmetic (Gen/QuicIds.v). *)
From Coq Require Import NArith List Bool Lia.
From MV Require Import Model.QuicIdsPrelude Gen.QuicIds.
Import ListNotations.
Open Scope N_scope.

Lemma land1_mod2 n : N.land n 1 = n mod 2.
Proof. change 1 with (N.ones 1). rewrite N.land_ones. reflexivity. Qed.

Lemma land2_mod4 n : N.land n 2 = N.land (n mod 4) 2.
Proof.
  change 4 with (2 ^ 2). rewrite <- N.land_ones.
  rewrite <- N.land_assoc. reflexivity.
Qed.

Lemma mod4_cases n : n mod 4 = 0 \/ n mod 4 = 1 \/ n mod 4 = 2 \/ n mod 4 = 3.
Proof. assert (H : n mod 4 < 4) by (apply N.mod_lt; lia). remember (n mod 4) as r. clear Heqr. lia. Qed.

Lemma mod2_of_mod4 n : n mod 2 = (n mod 4) mod 2.
Proof.
  pose proof (N.div_mod n 4 ltac:(lia)) as E.
  rewrite E at 1.
  replace (4 * (n / 4) + n mod 4) with (n mod 4 + (n / 4 * 2) * 2) by lia.
  apply N.mod_add. lia.
Qed.

(* initiator bit: bit 0 clear *)
Lemma client_initiated_spec id : stream_is_client_initiated id = (id mod 2 =? 0).
Proof. unfold stream_is_client_initiated, py_truthy. rewrite land1_mod2, negb_involutive. reflexivity. Qed.

(* direction bit: bit 1 set *)
Lemma unidirectional_spec id : stream_is_unidirectional id = (2 <=? id mod 4).
Proof.
  unfold stream_is_unidirectional, py_truthy. rewrite land2_mod4.
  destruct (mod4_cases id) as [H|[H|[H|H]]]; rewrite H; reflexivity.
Qed.

Lemma client_initiated_mod4 id : stream_is_client_initiated id = ((id mod 4 =? 0) || (id mod 4 =? 2)).
Proof.
  rewrite client_initiated_spec, mod2_of_mod4.
  destruct (mod4_cases id) as [H|[H|[H|H]]]; rewrite H; reflexivity.
Qed.

(* both predicates only depend on the class id mod 4 *)
Lemma same_class_same_bits a b : a mod 4 = b mod 4 ->
  stream_is_client_initiated a = stream_is_client_initiated b /\
  stream_is_unidirectional a = stream_is_unidirectional b.
Proof. intros H. rewrite !client_initiated_mod4, !unidirectional_spec, H. auto. Qed.

(* the class index computed by the allocator *)
Definition class_of (is_client is_uni : bool) : N := 2 * py_int is_uni + py_int (negb is_client).

Lemma even_of_mod4 n : n mod 2 = 0 <-> (n mod 4 = 0 \/ n mod 4 = 2).
Proof. rewrite mod2_of_mod4. destruct (mod4_cases n) as [H|[H|[H|H]]]; rewrite H; cbn; split; intros; try lia; auto. Qed.
Lemma odd_of_mod4 n : n mod 2 = 1 <-> (n mod 4 = 1 \/ n mod 4 = 3).
Proof. rewrite mod2_of_mod4. destruct (mod4_cases n) as [H|[H|[H|H]]]; rewrite H; cbn; split; intros; try lia; auto. Qed.
(* the counter the allocator is asked for when the other side of stream c (client-initiated) resp. s
   (server-initiated) is opened is the one of that stream's own class *)
Lemma class_even_open c : c mod 2 = 0 -> class_of true (stream_is_unidirectional c) = c mod 4.
Proof.
  intros H. rewrite unidirectional_spec. apply even_of_mod4 in H. destruct H as [H|H]; rewrite H; reflexivity.
Qed.
Lemma class_odd_open s : s mod 2 = 1 -> class_of false (stream_is_unidirectional s) = s mod 4.
Proof.
  intros H. rewrite unidirectional_spec. apply odd_of_mod4 in H. destruct H as [H|H]; rewrite H; reflexivity.
Qed.

Definition counters_ok (nx : list N) : Prop :=
  exists a0 a1 a2 a3, nx = [a0; a1; a2; a3] /\ a0 mod 4 = 0 /\ a1 mod 4 = 1 /\ a2 mod 4 = 2 /\ a3 mod 4 = 3.

Lemma counters_ok_init : counters_ok NEXT_STREAM_ID_INIT.
Proof. exists 0, 1, 2, 3. repeat split; reflexivity. Qed.

Lemma add4_mod a : (a + 4) mod 4 = a mod 4.
Proof. replace (a + 4) with (a + 1 * 4) by lia. apply N.mod_add. lia. Qed.

Definition counter (nx : list N) (j : N) : N := nth (N.to_nat j) nx 0.

(* the allocator never fails on well-formed counters, returns the counter of the requested class,
   whose class bits are the requested ones, and bumps exactly that counter by 4 *)
Lemma alloc_spec nx c u : counters_ok nx ->
  exists id nx', get_next_available_stream_id nx c u = Some (id, nx') /\
    counters_ok nx' /\
    id = counter nx (class_of c u) /\
    id mod 4 = class_of c u /\
    counter nx' (class_of c u) = id + 4 /\
    (forall j, j <> class_of c u -> counter nx' j = counter nx j).
Proof.
  intros (a0 & a1 & a2 & a3 & -> & H0 & H1 & H2 & H3).
  destruct c, u; cbn;
    eexists; eexists; (split; [reflexivity|]);
    (split; [ do 4 eexists; split; [reflexivity|]; rewrite ?add4_mod; auto |]);
    (split; [reflexivity|]); (split; [assumption|]); (split; [reflexivity|]);
    intros j Hj; unfold counter, class_of in *; cbn in Hj;
    remember (N.to_nat j) as m eqn:Em; assert (Ej : j = N.of_nat m) by lia; clear Em; subst j;
    destruct m as [|[|[|[|m]]]]; cbn; try reflexivity; exfalso; apply Hj; reflexivity.
Qed.

Lemma alloc_inv nx c u id nx' : counters_ok nx -> get_next_available_stream_id nx c u = Some (id, nx') ->
  counters_ok nx' /\ id = counter nx (class_of c u) /\ id mod 4 = class_of c u /\
  counter nx' (class_of c u) = id + 4 /\ (forall j, j <> class_of c u -> counter nx' j = counter nx j).
Proof.
  intros Hok Hg. destruct (alloc_spec nx c u Hok) as (id' & nx'' & Hg' & H).
  rewrite Hg in Hg'. inversion Hg'; subst id' nx''. exact H.
Qed.

Lemma alloc_bits nx c u id nx' : counters_ok nx ->
  get_next_available_stream_id nx c u = Some (id, nx') ->
  stream_is_client_initiated id = c /\ stream_is_unidirectional id = u.
Proof.
  intros Hok Hg. destruct (alloc_inv nx c u id nx' Hok Hg) as (_ & _ & Hm & _).
  rewrite client_initiated_mod4, unidirectional_spec, Hm. destruct c, u; split; reflexivity.
Qed.
