(* Proofs/HttpTranslateReq.v -- C06, request direction HTTP/2 -> HTTP/1: every header block that the h2 contract
   and mitmproxy accept is written upstream as exactly one HTTP/1 request with the same method, path, fields
   (Host from :authority, cookies joined) and body, under every recipient option of the reference reader. *)
From Coq Require Import List Bool NArith ZArith.
From MV Require Import Base.Bytes Model.Http1Msg Model.Rfc9112 Model.HttpTranslate
  Proofs.Http1Lines Proofs.Http1Roundtrip Proofs.Http1Chunks Proofs.HttpTranslateBase.
Import ListNotations.

(* what mitmproxy's own validation adds: names are tokens, at most one content-length *)
Lemma validate_ok h : validate_headers h = VOk ->
  Forall (fun f => valid_header_name (fst f) = true) h /\ get_all TRANSFER_ENCODING h = []
  /\ (get_all CONTENT_LENGTH h = [] \/ exists cl, get_all CONTENT_LENGTH h = [cl]).
Proof.
  unfold validate_headers. intros H.
  destruct (forallb (fun f => valid_header_name (fst f) && negb (existsb is_bad_value_char (snd f))) h) eqn:A; [|discriminate].
  cbn [negb] in H. split.
  - rewrite forallb_forall in A. apply Forall_forall. intros f Hf. specialize (A f Hf). apply andb_true_iff in A as [A _]. exact A.
  - destruct (get_all TRANSFER_ENCODING h); [|discriminate]. split; [reflexivity|].
    destruct (get_all CONTENT_LENGTH h) as [|cl [|]]; [left; reflexivity | right; eexists; reflexivity | discriminate].
Qed.

(* the dollar of the name pattern would let a final LF through, but h2 has refused it already *)
Lemma accepted_name_token n : valid_header_name n = true -> h2_name_ok n = true -> is_token n = true.
Proof.
  unfold valid_header_name, h2_name_ok. intros V H. apply andb_true_iff in H as [H _]. rewrite forallb_forall in H.
  destruct (rev n) as [|c r] eqn:E; [discriminate|].
  assert (X : byte_eqb c x0a = false).
  { destruct (byte_eqb c x0a) eqn:X; [|reflexivity]. apply byte_eqb_eq in X. subst c.
    discriminate (H x0a). apply in_rev. rewrite E. left. reflexivity. }
  rewrite X in V. unfold is_token. destruct n as [|c0 n]; [discriminate|].
  rewrite forallb_forall in *. intros x Hx. rewrite <- method_char_is_tchar. auto.
Qed.

(* a field that can be written on an HTTP/1 line as it is *)
Definition sendable (f : header) : Prop := is_token (fst f) = true /\ h2_value_ok (snd f) = true.

Lemma sendable_inv f : sendable f -> field_inv f.
Proof. intros [T V]. destruct (h2_value_vok _ V) as [C W]. unfold field_inv. auto. Qed.

(* the regular fields [fs] of an accepted block that pass validate_headers: sendable fields, no transfer-encoding, and
   the content-length values that h2 kept count of are theirs, at most one *)
Lemma accepted_fields h q fs : Forall h2_ok h -> h = q ++ fs -> Forall (fun x => is_pseudo (fst x) = true) q ->
  validate_headers fs = VOk ->
  Forall sendable fs /\ field_values r_te fs = []
  /\ values_exact CONTENT_LENGTH h = field_values r_cl fs
  /\ (field_values r_cl fs = [] \/ exists cl, field_values r_cl fs = [cl]).
Proof.
  intros VA Eh Fq VR. destruct (validate_ok _ VR) as (VN & NoTE & CLs).
  split; [|split; [exact NoTE | split; [|exact CLs]]].
  - rewrite Eh in VA. apply Forall_app in VA as [_ VAf]. rewrite Forall_forall in *. intros f Hf.
    destruct (VAf f Hf) as (N & V & _). split; [apply accepted_name_token; auto | exact V].
  - rewrite (h2_ok_exact _ _ VA), field_values_filter, Eh, (filter_pseudo_prefix CONTENT_LENGTH q _ Fq eq_refl). reflexivity.
Qed.

Lemma parse_req_spec pa h r : parse_h2_request_headers pa h = Some r ->
  exists q, h = q ++ hq_fields r /\ Forall (fun x => is_pseudo (fst x) = true) q
    /\ In (P_METHOD, hq_method r) q /\ In (P_SCHEME, hq_scheme r) q /\ In (P_PATH, hq_path r) q
    /\ (hq_authority r = [] \/ In (P_AUTHORITY, hq_authority r) q)
    /\ valid_method (hq_method r) = true /\ valid_path (hq_path r) = true.
Proof.
  unfold parse_h2_request_headers. intros H.
  destruct (split_pseudo_headers h []) as [[pseudo fields]|] eqn:S; [|discriminate].
  destruct (split_pseudo_spec _ _ _ _ S) as (q & E1 & E2 & F & _). cbn [app] in E1. subst pseudo.
  destruct (dict_pop P_METHOD q) as [[m|] p1] eqn:D1; [|discriminate].
  destruct (dict_pop P_SCHEME p1) as [[s|] p2] eqn:D2; [|discriminate].
  destruct (dict_pop P_PATH p2) as [[p|] p3] eqn:D3; [|discriminate].
  destruct (dict_pop P_AUTHORITY p3) as [oa p4] eqn:D4.
  destruct p4; [|discriminate].
  destruct (valid_method m) eqn:VM; [|discriminate]. destruct (valid_path p) eqn:VP; [|discriminate].
  cbn [negb] in H.
  destruct (dict_pop_in _ _ _ _ D1) as [I1 S1]. destruct (dict_pop_in _ _ _ _ D2) as [I2 S2].
  destruct (dict_pop_in _ _ _ _ D3) as [I3 S3].
  match type of H with (if ?c then _ else _) = _ => destruct c; [discriminate|] end.
  injection H as <-. cbn [hq_fields hq_method hq_scheme hq_path hq_authority].
  exists q. repeat split; auto.
  destruct oa as [a|]; [|left; reflexivity]. destruct a as [|a0 a]; [left; reflexivity|].
  right. destruct (dict_pop_in _ _ _ _ D4) as [I4 _]. auto.
Qed.

Lemma parsed_parts pa h r : Forall h2_ok h -> parse_h2_request_headers pa h = Some r ->
  Forall h2_ok (hq_fields r) /\ (hq_authority r = [] \/ h2_value_ok (hq_authority r) = true).
Proof.
  intros VA P. destruct (parse_req_spec pa h r P) as (q & Eh & _ & _ & _ & _ & IA & _). rewrite Eh in VA.
  apply Forall_app in VA as [VAq VAf]. split; [exact VAf|].
  destruct IA as [X|X]; [left; exact X | right]. rewrite Forall_forall in VAq. destruct (VAq _ X) as (_ & Y & _). exact Y.
Qed.

(* the field list that is written: Http1Client.send puts a Host field with the :authority value in front
   unless there is one, and replaces several Cookie fields by one *)
Definition h1_fields (r : h2_request) : headers := rq_headers (h1_of_h2_request r).

Definition with_host (a : bytes) (h : headers) : headers :=
  if negb (hcontains N_HOST_CAP h) && match a with [] => false | _ => true end then (N_HOST_CAP, a) :: h else h.
Definition join_cookies (h : headers) : headers :=
  match get_all N_COOKIE h with _ :: _ :: _ => hset N_COOKIE (join_semi (get_all N_COOKIE h)) h | _ => h end.

Lemma h1_fields_eq r : h1_fields r = join_cookies (with_host (hq_authority r) (hq_fields r)).
Proof. reflexivity. Qed.

Lemma with_host_other a h k : k <> N_HOST -> filter (name_ci k) (with_host a h) = filter (name_ci k) h.
Proof.
  intros N. unfold with_host. destruct (_ && _); [|reflexivity].
  cbn [filter]. rewrite (name_ci_other N_HOST k (N_HOST_CAP, a) N); reflexivity.
Qed.

Lemma with_host_host a h : field_values N_HOST (with_host a h)
  = if negb (hcontains N_HOST_CAP h) && match a with [] => false | _ => true end then [a] else field_values N_HOST h.
Proof.
  unfold with_host. destruct (hcontains N_HOST_CAP h) eqn:E; [reflexivity|]. destruct a as [|a0 a]; [reflexivity|].
  rewrite field_values_filter. cbn [negb andb filter]. change (name_ci N_HOST (N_HOST_CAP, a0 :: a)) with true.
  cbv iota. apply hcontains_false in E. change (lower N_HOST_CAP) with N_HOST in E. rewrite E. reflexivity.
Qed.

Lemma with_host_ok a h : Forall sendable h -> a = [] \/ h2_value_ok a = true -> Forall sendable (with_host a h).
Proof.
  intros F A. unfold with_host. destruct (_ && _) eqn:E; [|exact F]. constructor; [|exact F].
  split; [reflexivity|]. destruct A as [->|A]; [|exact A]. rewrite andb_false_r in E. discriminate.
Qed.

Lemma join_cookies_other h k : k <> N_COOKIE -> filter (name_ci k) (join_cookies h) = filter (name_ci k) h.
Proof.
  intros N. unfold join_cookies. destruct (get_all N_COOKIE h) as [|c1 [|c2 cs]]; try reflexivity.
  apply hset_other. exact N.
Qed.

Lemma join_cookies_cookie h : field_values N_COOKIE (join_cookies h)
  = match get_all N_COOKIE h with (_ :: _ :: _) as l => [join_semi l] | l => l end.
Proof.
  unfold join_cookies. destruct (get_all N_COOKIE h) as [|c1 [|c2 cs]] eqn:E; try exact E. exact (hset_self N_COOKIE _ h).
Qed.

(* the joined cookie value is again a value without OWS at its ends, provided the last part is not empty *)
Definition cookie_guard (h : headers) : Prop :=
  match get_all N_COOKIE h with (_ :: _ :: _) as l => last l [] <> [] | _ => True end.

Lemma rtrim_app a b : rtrim_ows b <> [] -> rtrim_ows (a ++ b) = a ++ rtrim_ows b.
Proof.
  intros NE. induction a as [|x a IH]; [reflexivity|]. cbn [app rtrim_ows]. rewrite IH.
  destruct (a ++ rtrim_ows b) eqn:E; [|reflexivity]. apply app_eq_nil in E as [_ E]. congruence.
Qed.

Lemma join_vok vs : Forall (fun v => h2_value_ok v = true) vs -> last vs [] <> [] -> vok (join_semi vs).
Proof.
  intros F L.
  enough (K : clean (join_semi vs) = true /\ join_semi vs <> [] /\ rtrim_ows (join_semi vs) = join_semi vs
              /\ match join_semi vs with [] => True | c :: _ => is_ows c = false end).
  { destruct K as (C & _ & R & Hd). split; [exact C|]. unfold trim_ows. rewrite ltrim_id by exact Hd. exact R. }
  induction F as [|v vs Hv _ IH]; [contradiction L; reflexivity|].
  destruct (h2_value_parts v Hv) as (C & Hd & R). destruct vs as [|v2 vs]; [auto|].
  destruct (IH L) as (C' & NE & R' & _).
  change (join_semi (v :: v2 :: vs)) with (v ++ SEMI_SP ++ join_semi (v2 :: vs)).
  split; [rewrite !clean_app, C, C'; reflexivity|]. split; [destruct v; discriminate|]. split.
  - rewrite app_assoc, rtrim_app, R' by (rewrite R'; exact NE). reflexivity.
  - destruct v; [reflexivity | exact Hd].
Qed.

Lemma join_cookies_inv h : Forall sendable h -> cookie_guard h -> Forall field_inv (join_cookies h).
Proof.
  intros F CG. assert (B : Forall field_inv h) by (eapply Forall_impl; [exact sendable_inv | exact F]).
  unfold join_cookies, cookie_guard in *. destruct (get_all N_COOKIE h) as [|c1 [|c2 cs]] eqn:E; try exact B.
  destruct (join_vok (c1 :: c2 :: cs)) as [C W]; [|exact CG|].
  - rewrite <- E, get_all_filter. apply Forall_map, (incl_Forall (incl_filter _ h)).
    eapply Forall_impl; [|exact F]. intros f [_ V]. exact V.
  - apply hset_forall; [intros f (T & _); split; auto | split; auto | exact B].
Qed.

Lemma strip_expect_forall (P : header -> Prop) h : Forall P h -> Forall P (strip_expect h).
Proof.
  intros F. unfold strip_expect. destruct (bytes_eqb _ _); [|exact F]. exact (incl_Forall (incl_filter _ h) F).
Qed.

Lemma strip_expect_filter k h : k <> N_EXPECT -> filter (name_ci k) (strip_expect h) = filter (name_ci k) h.
Proof.
  intros N. unfold strip_expect. destruct (bytes_eqb _ _); [|reflexivity]. apply filter_filter_other. exact N.
Qed.

Definition content_of (body : option bytes) : bytes := match body with Some b => b | None => [] end.
Definition is_nil (b : bytes) : bool := match b with [] => true | _ => false end.
Definition strip_r (r : h2_request) : h2_request :=
  mkH2Req (hq_method r) (hq_scheme r) (hq_authority r) (hq_path r) (strip_expect (hq_fields r)).

(* of the fields that are written, only host, cookie and expect differ from the regular fields of the block *)
Lemma sent_other r k : k <> N_HOST -> k <> N_COOKIE -> k <> N_EXPECT ->
  filter (name_ci k) (h1_fields (strip_r r)) = filter (name_ci k) (hq_fields r).
Proof.
  intros N1 N2 N3. rewrite h1_fields_eq, join_cookies_other, with_host_other by assumption.
  apply strip_expect_filter. exact N3.
Qed.

(* the head that is written satisfies the invariant of the head round trip; its target is the :path value *)
Lemma h1_head_inv r : valid_method (hq_method r) = true -> valid_path (hq_path r) = true ->
  bytes_eqb (upper (hq_method r)) CONNECT = false -> Forall field_inv (h1_fields r) ->
  Inv_req (h1_of_h2_request r) /\ req_target (h1_of_h2_request r) = hq_path r.
Proof.
  intros VM VP NC FI.
  assert (TGT : req_target (h1_of_h2_request r) = hq_path r).
  { unfold req_target. cbn [h1_of_h2_request rq_method rq_authority rq_path]. rewrite NC. reflexivity. }
  split; [|exact TGT]. constructor; [|rewrite TGT|reflexivity|exact FI]; cbn [h1_of_h2_request rq_method].
  - unfold valid_method in VM. unfold is_token. destruct (hq_method r) as [|m0 ms]; [discriminate|].
    rewrite forallb_forall in *. intros x Hx. rewrite <- method_char_is_tchar. auto.
  - unfold valid_path in VP. destruct (hq_path r) as [|p0 ps]; [discriminate|]. split; [discriminate|].
    apply negb_true_iff in VP. rewrite forallb_forall. intros x Hx. rewrite <- path_char_vchar. apply negb_true_iff.
    destruct (bad_path_char x) eqn:B; [|reflexivity]. rewrite <- VP. symmetry. apply existsb_exists. exists x. auto.
Qed.

Lemma down_request_forward pa h body out c : down_request pa h body None = OForward out c ->
  exists r expected, h2_validate false false h = true /\ h2_expected_length None h = Some expected
    /\ h2_length_ok expected body false = true /\ parse_h2_request_headers pa h = Some r
    /\ validate_request_transparent r = VOk /\ out = h1_request_bytes (strip_r r) (content_of body).
Proof.
  unfold down_request. intros H.
  destruct (h2_validate false false h); [|discriminate]. cbn [negb] in H.
  destruct (h2_expected_length None h) as [expected|]; [|discriminate].
  destruct (h2_length_ok expected body false) eqn:LO; [|discriminate]. cbn [negb] in H.
  destruct (parse_h2_request_headers pa h) as [r|]; [|discriminate].
  destruct (validate_request_transparent r) eqn:VR; try discriminate.
  injection H as <- _. exists r, expected. repeat split; assumption.
Qed.

(* complement of the finding request-content-length-without-body: END_STREAM on HEADERS means no announced body *)
Definition length_guard (sent : option bytes) (h : headers) (body : option bytes) : Prop :=
  body = None -> h2_expected_length sent h = Some None \/ h2_expected_length sent h = Some (Some 0%N).
(* complement of the finding request-body-without-content-length: a non-empty body is announced by a content-length *)
Definition framing_guard (h : headers) (body : option bytes) : Prop :=
  content_of body <> [] -> h2_expected_length None h <> Some None.

Lemma skip_empty_first c s : byte_eqb c rCR = false -> skip_empty_lines (c :: s) = c :: s.
Proof. intros H. destruct s as [|c2 s]; [reflexivity|]. cbn [skip_empty_lines]. rewrite H. reflexivity. Qed.

(* a well-formed head followed by exactly the body its fields announce is read as one request; a token does not
   start with CR, so the reader skips nothing in front of the request line *)
Lemma one_request o head tail bl body : Inv_req head ->
  request_body_length (rq_version head) (rq_headers head) = Some bl -> read_body o bl tail = POk (body, [], []) ->
  parse_requests o 2 (assemble_request_head head ++ tail)
  = POk [mkRefReq (rq_method head) (req_target head) (rq_version head) (rq_headers head) body []].
Proof.
  intros INV BL RB.
  assert (START : exists c s, assemble_request_head head ++ tail = c :: s /\ byte_eqb c rCR = false).
  { destruct INV as [TOK _ _ _]. unfold assemble_request_head. rewrite assemble_request_line_eq.
    unfold is_token in TOK. destruct (rq_method head) as [|m0 ms]; [discriminate|].
    cbn [forallb] in TOK. apply andb_true_iff in TOK as [T _]. destruct (tchar_ok m0 T) as (_ & K & _).
    apply orb_false_iff in K as [K _]. cbn [app]. eauto. }
  destruct START as (c & s & E & K). cbn [parse_requests]. rewrite E. unfold parse_request.
  rewrite (skip_empty_first c s K), <- E, (head_roundtrip_request o head tail INV), BL, RB. reflexivity.
Qed.

(* the HTTP/1 reader delimits exactly the body h2 has accounted for, in either direction: one content-length field
   gives its length; without one a request has no body and a response runs until the connection closes *)
Lemma framed_body o is_request fs expected body :
  field_values r_te fs = [] ->
  field_values r_cl fs = [] \/ (exists cl, field_values r_cl fs = [cl]) ->
  cl_scan (field_values r_cl fs) None = Some expected ->
  h2_length_ok expected body false = true ->
  (* length_guard, once h2_expected_length is known to be Some expected *)
  (body = None -> Some expected = Some None \/ Some expected = Some (Some 0%N)) ->
  (is_request = true -> expected = None -> content_of body = []) ->
  exists bl, fields_body_length is_request V_HTTP11 fs = Some bl
    /\ read_body o bl (content_of body) = POk (content_of body, [], [])
    /\ match bl with BLUntilClose => true | _ => false end = negb is_request && negb (hcontains CONTENT_LENGTH fs).
Proof.
  intros TE CLs EL LO LG FG. unfold hcontains. change (get_all CONTENT_LENGTH fs) with (field_values r_cl fs).
  destruct CLs as [NoCL | [cl OneCL]].
  - rewrite NoCL in *. cbn [cl_scan] in EL. injection EL as <-.
    unfold fields_body_length. rewrite TE, NoCL. destruct is_request.
    + exists BLZero. rewrite (FG eq_refl eq_refl). repeat split.
    + exists BLUntilClose. repeat split.
  - rewrite OneCL in *. cbn [cl_scan] in EL. destruct (all_digits cl) eqn:AD; [|discriminate]. injection EL as <-.
    assert (LEN : digits_value cl = N.of_nat (length (content_of body))).
    { destruct body as [b|]; [apply N.eqb_eq; exact LO|].
      destruct (LG eq_refl) as [X|X]; [discriminate | injection X as ->; reflexivity]. }
    exists (BLLen (N.of_nat (length (content_of body)))). rewrite <- LEN at 1.
    split; [apply digits_body_length; assumption|]. split; [|rewrite andb_false_r; reflexivity].
    rewrite <- (app_nil_r (content_of body)) at 2. apply body_reframe_length.
Qed.

Theorem down_request_one_message pa h body out c :
  down_request pa h body None = OForward out c ->
  length_guard None h body -> framing_guard h body -> cookie_guard h ->
  exists r, parse_h2_request_headers pa h = Some r /\
    forall o, parse_requests o 2 out
      = POk [mkRefReq (hq_method r) (hq_path r) V_HTTP11 (h1_fields (strip_r r)) (content_of body) []].
Proof.
  intros H LG FG CG. destruct (down_request_forward _ _ _ _ _ H) as (r & expected & V & EL & LO & P & VR & ->).
  exists r. split; [exact P|]. intros o.
  destruct (parse_req_spec pa h r P) as (q & Eh & Fq & _ & _ & _ & _ & VM & VP).
  pose proof (h2_validate_all _ _ _ V) as VA. destruct (parsed_parts _ _ _ VA P) as [_ AuthOk].
  unfold validate_request_transparent in VR.
  destruct (negb (mem (hq_scheme r) [V_HTTP; V_HTTPS; []])); [discriminate|].
  destruct (bytes_eqb (upper (hq_method r)) CONNECT) eqn:NC; [discriminate|].
  destruct (accepted_fields h q _ VA Eh Fq VR) as (F0 & NoTE & XL & CLs).
  set (fields := h1_fields (strip_r r)).
  assert (FI : Forall field_inv fields).
  { unfold fields. rewrite h1_fields_eq. cbn [strip_r hq_fields hq_authority]. apply join_cookies_inv.
    - apply with_host_ok; [apply strip_expect_forall; exact F0 | exact AuthOk].
    - unfold cookie_guard in *. rewrite get_all_filter, with_host_other, strip_expect_filter by discriminate.
      rewrite get_all_filter, Eh, (filter_pseudo_prefix (lower N_COOKIE) q _ Fq eq_refl) in CG. exact CG. }
  assert (TE : field_values r_te fields = []).
  { rewrite field_values_filter. unfold fields. rewrite sent_other by discriminate. exact NoTE. }
  assert (CL : field_values r_cl fields = field_values r_cl (hq_fields r)).
  { rewrite !field_values_filter. unfold fields. rewrite sent_other by discriminate. reflexivity. }
  set (head := h1_of_h2_request (strip_r r)).
  destruct (h1_head_inv (strip_r r) VM VP NC FI) as [INV TGT]. fold head in INV, TGT.
  (* the body: without Transfer-Encoding it follows the head as it is *)
  unfold h1_request_bytes. fold head.
  replace (send_chunked (hq_fields (strip_r r))) with false.
  2:{ unfold send_chunked, hget_default, hget. cbn [strip_r hq_fields].
      rewrite get_all_filter, strip_expect_filter by discriminate. change (lower TRANSFER_ENCODING) with r_te.
      rewrite <- field_values_filter, NoTE. reflexivity. }
  rewrite app_nil_r.
  replace (match content_of body with [] => [] | _ :: _ => content_of body end) with (content_of body)
    by (destruct (content_of body); reflexivity).
  unfold length_guard, framing_guard, h2_expected_length in *. rewrite XL in *. cbn match in *. rewrite EL in LG, FG.
  rewrite <- CL in CLs, EL.
  destruct (framed_body o true fields expected body TE CLs EL LO LG) as (bl & BL & RB & _).
  { intros _ ->. destruct (content_of body); [reflexivity | exfalso; apply FG; [discriminate | reflexivity]]. }
  rewrite (one_request o head _ bl _ INV BL RB), TGT. reflexivity.
Qed.
