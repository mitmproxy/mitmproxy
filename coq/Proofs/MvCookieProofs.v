(* Proofs/MvCookieProofs.v -- Request.cookies: parse_cookie_header (format_cookie_header l) = l for
   representable pairs, through the header list (C34). *)
From Coq Require Import List Bool NArith Lia.
From MV Require Import Base.Bytes Model.MvCommon Model.MvCookie Proofs.MvCommonLemmas.
Import ListNotations.

(* names a Cookie header can carry: no semicolon, no equals sign, no leading white space *)
Definition ck_key_ok (k : bytes) : bool :=
  negb (memb SEMI k) && negb (memb EQS k) && bytes_eqb (lstrip k) k.
(* the pair of two empty strings is skipped by the parser *)
Definition ck_pair_ok (kv : bytes * bytes) : bool :=
  ck_key_ok (fst kv) && (nonempty (fst kv) || nonempty (snd kv)).
Definition ck_repr (l : pairs) : bool := forallb ck_pair_ok l.

Definition valtext (v : bytes) : bytes := if has_special v then DQ :: escape v ++ [DQ] else v.
Definition ck_item (kv : bytes * bytes) : bytes := fst kv ++ EQS :: valtext (snd kv).

Lemma format_pair_ck_item kv : format_pair [] (fst kv, Some (snd kv)) = ck_item kv.
Proof.
  unfold format_pair, ck_item, valtext. simpl. destruct (has_special (snd kv)); simpl; reflexivity.
Qed.

Lemma format_cookie_header_ck_items l : format_cookie_header l = join [SEMI; SP] (map ck_item l).
Proof.
  unfold format_cookie_header, format_pairs. rewrite map_map. f_equal. apply map_ext.
  intros kv. apply format_pair_ck_item.
Qed.

Lemma read_quoted_escape v R : read_quoted false (escape v ++ DQ :: R) = (v, R).
Proof.
  induction v as [|c v IH]; simpl.
  - reflexivity.
  - destruct (byte_eqb c DQ || byte_eqb c BSL) eqn:E.
    + simpl. rewrite IH. reflexivity.
    + apply orb_false_iff in E as [E1 E2]. simpl. rewrite E1, E2, IH. reflexivity.
Qed.

Lemma not_special_chars v :
  has_special v = false -> forallb (fun b => negb (memb b [SEMI])) v = true /\ (forall c t, v = c :: t -> byte_eqb c DQ = false).
Proof.
  intros H. unfold has_special in H. split.
  - rewrite forallb_forall. intros x Hx. apply negb_true_iff.
    destruct (memb x [SEMI]) eqn:E; [|reflexivity]. unfold memb in E. simpl in E. rewrite orb_false_r in E.
    apply byte_eqb_eq in E. subst x.
    assert (existsb is_special v = true) by (apply existsb_exists; exists SEMI; split; [exact Hx|reflexivity]).
    congruence.
  - intros c t ->. simpl in H. apply orb_false_iff in H as [H _].
    destruct (byte_eqb c DQ) eqn:E; [|reflexivity]. apply byte_eqb_eq in E. subst c. discriminate.
Qed.

(* reading the value text followed by R, where R is empty or starts with the separator *)
Lemma read_value_valtext v R :
  (R = [] \/ exists R', R = SEMI :: R') -> read_value (valtext v ++ R) [SEMI] = (v, R).
Proof.
  intros HR. unfold valtext. destruct (has_special v) eqn:E.
  - simpl. rewrite <- app_assoc. simpl. apply read_quoted_escape.
  - destruct (not_special_chars v E) as [Hs Hq].
    destruct v as [|c t]; [destruct HR as [->|[R' ->]]; reflexivity|].
    cbn [app read_value]. rewrite (Hq c t eq_refl). unfold read_until.
    destruct HR as [->|[R' ->]].
    + rewrite app_nil_r. apply (span_all _ (c :: t)), Hs.
    + apply (span_app _ (c :: t)); [exact Hs | reflexivity].
Qed.

(* one iteration of _read_cookie_pairs on W ++ ck_item ++ R: W an optional single space, R empty or starting
   with the separator. The right-hand side is the tail of the loop body with the pair and R filled in. *)
Lemma read_ck_item f W kv R :
  (W = [] \/ W = [SP]) -> ck_pair_ok kv = true -> (R = [] \/ exists R', R = SEMI :: R') ->
  read_cookie_pairs (S f) (W ++ ck_item kv ++ R) =
    match tl_char R with
    | [] => Ok [kv]
    | r3 => match read_cookie_pairs f r3 with Ok l => Ok ([kv] ++ l) | OutOfFuel => OutOfFuel end
    end.
Proof.
  intros HW Hok HR. destruct kv as [k v]. unfold ck_pair_ok, ck_key_ok in Hok. cbn [fst snd] in Hok.
  apply andb_true_iff in Hok as [Hk Hne]. apply andb_true_iff in Hk as [Hk Hl].
  apply andb_true_iff in Hk as [Hk1 Hk2]. apply negb_true_iff in Hk1. apply negb_true_iff in Hk2.
  apply bytes_eqb_eq in Hl.
  assert (HWk : forallb (fun b => negb (memb b [SEMI; EQS])) (W ++ k) = true).
  { rewrite forallb_app. apply andb_true_iff. split; [destruct HW as [->| ->]; reflexivity|].
    rewrite forallb_forall. intros x Hx. apply negb_true_iff. rewrite !memb_cons.
    rewrite (memb_false_neq SEMI x k), (memb_false_neq EQS x k) by assumption. reflexivity. }
  assert (HL : lstrip (W ++ k) = k) by (destruct HW as [->| ->]; exact Hl).
  unfold ck_item. cbn [fst snd read_cookie_pairs].
  replace (W ++ (k ++ EQS :: valtext v) ++ R) with ((W ++ k) ++ EQS :: (valtext v ++ R))
    by (rewrite <- !app_assoc; reflexivity).
  unfold read_until. rewrite span_app by (exact HWk || reflexivity).
  rewrite HL, byte_eqb_refl, (read_value_valtext v R HR), orb_comm, Hne. reflexivity.
Qed.

Lemma read_ck_items f l W :
  (W = [] \/ W = [SP]) -> l <> [] -> ck_repr l = true -> length l <= f ->
  read_cookie_pairs f (W ++ join [SEMI; SP] (map ck_item l)) = Ok l.
Proof.
  revert f W. induction l as [|kv l IH]; intros f W HW Hne Hr Hf; [congruence|].
  unfold ck_repr in Hr. simpl in Hr. apply andb_true_iff in Hr as [Hok Hr].
  destruct f as [|f]; [simpl in Hf; lia|]. simpl in Hf.
  destruct l as [|kv2 l].
  - simpl map. simpl join. rewrite <- (app_nil_r (ck_item kv)).
    apply (read_ck_item f W kv [] HW Hok). left; reflexivity.
  - change (map ck_item (kv :: kv2 :: l)) with (ck_item kv :: ck_item kv2 :: map ck_item l).
    rewrite join_cons2. change ([SEMI; SP] ++ ?x) with (SEMI :: [SP] ++ x).
    rewrite (read_ck_item f W kv _ HW Hok) by (right; eexists; reflexivity).
    change (tl_char (SEMI :: ?x)) with x. cbn [app].
    change (SP :: join [SEMI; SP] (ck_item kv2 :: map ck_item l)) with ([SP] ++ join [SEMI; SP] (map ck_item (kv2 :: l))).
    rewrite (IH f [SP]); [reflexivity|right; reflexivity|discriminate|exact Hr|simpl in *; lia].
Qed.

Lemma join_length (sep : bytes) items :
  (forall i, In i items -> i <> []) -> length items <= length (join sep items).
Proof.
  induction items as [|x t IH]; intros H; [simpl; lia|].
  assert (Hx : 1 <= length x).
  { destruct x; [exfalso; apply (H []); [left; reflexivity|reflexivity]|simpl; lia]. }
  destruct t as [|y t]; [simpl; lia|].
  rewrite join_cons2, !app_length.
  assert (length (y :: t) <= length (join sep (y :: t))) by (apply IH; intros i Hi; apply H; right; exact Hi).
  simpl in *. lia.
Qed.

Lemma parse_format l : ck_repr l = true -> parse_cookie_header (format_cookie_header l) = Ok l.
Proof.
  intros Hr. rewrite format_cookie_header_ck_items. unfold parse_cookie_header.
  destruct l as [|kv l]; [reflexivity|].
  apply (read_ck_items _ (kv :: l) []); [left; reflexivity|discriminate|exact Hr|].
  pose proof (join_length [SEMI; SP] (map ck_item (kv :: l))) as J. rewrite map_length in J.
  simpl app. assert (length (kv :: l) <= length (join [SEMI; SP] (map ck_item (kv :: l)))).
  { apply J. intros i Hi. apply in_map_iff in Hi as [x [<- _]]. unfold ck_item. destruct (fst x); discriminate. }
  lia.
Qed.

(* Request.cookies: for EVERY header list and every representable list of pairs *)
Theorem cookies_roundtrip h l : ck_repr l = true -> get_cookies (set_cookies h l) = Ok l.
Proof.
  intros Hr. unfold get_cookies, set_cookies. rewrite get_all_set_all, bytes_eqb_refl. simpl.
  rewrite (parse_format l Hr). rewrite app_nil_r. reflexivity.
Qed.

Lemma refuted_leading_space : get_cookies (set_cookies [] [([SP; x61], [x62])]) = Ok [([x61], [x62])].
Proof. vm_compute. reflexivity. Qed.
Lemma refuted_semicolon_in_name : get_cookies (set_cookies [] [([x61; SEMI; x62], [x63])]) = Ok [([x61], []); ([x62], [x63])].
Proof. vm_compute. reflexivity. Qed.
Lemma refuted_empty_pair : get_cookies (set_cookies [] [([], [])]) = Ok [].
Proof. vm_compute. reflexivity. Qed.
