(* Proofs/MsgTextBom.v -- exact characterisation of the BOM finding on the default path:
   for a Content-Type that neither declares a charset nor names a sniffed media type (in
   particular: no Content-Type at all) and Latin-1 text s, the strict round trip holds
   IF AND ONLY IF the Latin-1 bytes of s do not start with a byte-order mark.
   (Every BOM-selected decoder yields strictly fewer characters than bytes, or fails.) *)
From Coq Require Import String.
From Coq Require Import List Bool NArith Lia.
From MV Require Import Base.Bytes Model.MsgText Proofs.ListFacts Proofs.MsgTextCodec Proofs.MsgTextMain.
Import ListNotations.
Local Open Scope N_scope.

(* the length of a decoder's result, to compare lengths where [injection] would compute with a code point *)
Definition olen (o : option text) : nat := match o with Some l => length l | None => O end.

(* decoders never produce more characters than they consume *)
Lemma utf8_step_shrinks b :
  match utf8_step b with
  | U8End => True
  | U8Ok _ r | U8Bad _ r => (length r < length b)%nat
  end.
Proof.
  destruct b as [|b0 r]; [exact I|]. unfold utf8_step.
  repeat match goal with
         | |- context [if ?c then _ else _] => destruct c
         | |- context [match ?l with [] => _ | _ :: _ => _ end] => destruct l
         end; cbn [length]; lia.
Qed.

Lemma utf8_decode_len se : forall fuel b t,
  utf8_decode_fuel se fuel b = Some t -> (length t <= length b)%nat.
Proof.
  induction fuel as [|f IH]; intros b t H; cbn [utf8_decode_fuel] in H.
  - destruct b; [injection H as <-; cbn; lia | discriminate].
  - pose proof (utf8_step_shrinks b) as S. destruct (utf8_step b) as [|c r|x r].
    + injection H as <-. cbn. lia.
    + destruct (utf8_decode_fuel se f r) as [t'|] eqn:E; [|discriminate]. injection H as <-.
      apply IH in E. cbn [length]. lia.
    + destruct se; [|discriminate].
      destruct (utf8_decode_fuel true f r) as [t'|] eqn:E; [|discriminate].
      apply (f_equal olen) in H. cbn [olen length] in H. apply IH in E. lia.
Qed.

Lemma units16_len be : forall fuel b u, units16 be fuel b = Some u -> (2 * length u <= length b)%nat.
Proof.
  induction fuel as [|f IH]; intros b u H; cbn [units16] in H.
  - destruct b; [injection H as <-; cbn; lia | discriminate].
  - destruct b as [|x [|y r]]; [injection H as <-; cbn; lia | discriminate |].
    destruct (units16 be f r) as [t|] eqn:E; [|discriminate]. injection H as <-.
    apply IH in E. cbn [length]. lia.
Qed.

Lemma pair16_len : forall fuel u t, pair16 fuel u = Some t -> (length t <= length u)%nat.
Proof.
  induction fuel as [|f IH]; intros u t H; cbn [pair16] in H.
  - destruct u; [injection H as <-; cbn; lia | discriminate].
  - destruct u as [|a r]; [injection H as <-; cbn; lia|].
    destruct ((55296 <=? a) && (a <=? 56319)).
    + destruct r as [|c r']; [discriminate|]. destruct ((56320 <=? c) && (c <=? 57343)); [|discriminate].
      destruct (pair16 f r') as [t'|] eqn:E; [|discriminate].
      apply (f_equal olen) in H. cbn [olen length] in H. apply IH in E. cbn [length]. lia.
    + destruct ((56320 <=? a) && (a <=? 57343)); [discriminate|].
      destruct (pair16 f r) as [t'|] eqn:E; [|discriminate]. injection H as <-.
      apply IH in E. cbn [length]. lia.
Qed.

Lemma utf16_decode_len be b t : utf16_decode be b = Some t -> (2 * length t <= length b)%nat.
Proof.
  unfold utf16_decode. destruct (units16 be (length b) b) as [u|] eqn:E; [|discriminate].
  intros H. apply units16_len in E. apply pair16_len in H. lia.
Qed.

Lemma utf32_decode_len be : forall fuel b t,
  utf32_decode_fuel be fuel b = Some t -> (4 * length t <= length b)%nat.
Proof.
  induction fuel as [|f IH]; intros b t H; cbn [utf32_decode_fuel] in H.
  - destruct b; [injection H as <-; cbn; lia | discriminate].
  - destruct b as [|w [|x [|y [|z r]]]]; try discriminate; [injection H as <-; cbn; lia|].
    match type of H with (if ?c then _ else _) = _ => destruct c end; [|discriminate].
    destruct (utf32_decode_fuel be f r) as [t'|] eqn:E; [|discriminate]. injection H as <-.
    apply IH in E. cbn [length]. lia.
Qed.

Lemma starts_with_skipn p b : starts_with p b = true -> (length (skipn (length p) b) + length p = length b)%nat.
Proof. intros H. apply starts_with_spec in H as [r ->]. rewrite skipn_exact, app_length. lia. Qed.

Lemma bom_decode_shorter C b e t : bom_encoding b = Some e -> decode C e b = DStr t ->
  (length t < length b)%nat.
Proof.
  unfold bom_encoding. intros Hb Hd.
  destruct (starts_with [x00; x00; xfe; xff] b) eqn:S1.
  { injection Hb as <-. apply (decode_exact_DStr C (B "utf-32be") CUtf32BE b t eq_refl I), utf32_decode_len in Hd.
    apply starts_with_skipn in S1. cbn [length] in S1. lia. }
  destruct (starts_with [xff; xfe; x00; x00] b) eqn:S2.
  { injection Hb as <-. apply (decode_exact_DStr C (B "utf-32le") CUtf32LE b t eq_refl I), utf32_decode_len in Hd.
    apply starts_with_skipn in S2. cbn [length] in S2. lia. }
  destruct (starts_with [xfe; xff] b) eqn:S3.
  { injection Hb as <-. apply (decode_exact_DStr C (B "utf-16be") CUtf16BE b t eq_refl I), utf16_decode_len in Hd.
    apply starts_with_skipn in S3. cbn [length] in S3. lia. }
  destruct (starts_with [xff; xfe] b) eqn:S4.
  { injection Hb as <-. apply (decode_exact_DStr C (B "utf-16le") CUtf16LE b t eq_refl I), utf16_decode_len in Hd.
    apply starts_with_skipn in S4. cbn [length] in S4. lia. }
  destruct (starts_with [xef; xbb; xbf] b) eqn:S5; [|discriminate].
  injection Hb as <-. apply (decode_exact_DStr C (B "utf-8-sig") CUtf8Sig b t eq_refl I) in Hd.
  cbn [exact_decode] in Hd. unfold utf8sig_decode, bom8 in Hd. rewrite S5 in Hd.
  apply utf8_decode_len in Hd. apply starts_with_skipn in S5. cbn [length] in S5. lia.
Qed.

Definition plain_ct (ct : bytes) : Prop :=
  falsy (header_charset ct) = true
  /\ contains (B "json") ct = false /\ contains (B "html") ct = false /\ contains (B "xml") ct = false
  /\ contains (B "javascript") ct = false /\ contains (B "ecmascript") ct = false
  /\ contains (B "text/css") ct = false.

Lemma plain_ct_empty : plain_ct [].
Proof. repeat split. Qed.

(* the names a BOM selects are usable as they are *)
Lemma bom_encoding_settled b e : bom_encoding b = Some e -> e <> [] /\ settle (Some e) = e.
Proof.
  unfold bom_encoding. intros H.
  repeat match type of H with (if ?c then _ else _) = _ => destruct c end;
    try discriminate H; injection H as <-; (split; [discriminate | reflexivity]).
Qed.

Lemma infer_plain ct b : plain_ct ct ->
  infer_content_encoding ct b = match bom_encoding b with Some e => e | None => B "latin-1" end.
Proof.
  intros (F & J & H & X & S & E & Cs). destruct (bom_encoding b) as [e|] eqn:Eb.
  - destruct (bom_encoding_settled b e Eb) as [Hne <-]. apply infer_first; [|exact Hne].
    unfold first_guess. rewrite Eb. reflexivity.
  - rewrite infer_chain. unfold first_guess. rewrite Eb, J, H, X, S, E, Cs, !chain_off.
    destruct (header_charset ct) as [[|x e]|]; try discriminate F; reflexivity.
Qed.

Definition latin1_text (s : text) : Prop := Forall (fun c => c < 256) s.

Lemma latin1_encode s : latin1_text s -> narrow_encode 256 s = Some (map Nb s).
Proof.
  unfold narrow_encode. induction 1 as [|c s Hc Hs IH]; cbn [map_opt map]; [reflexivity|].
  rewrite IH. destruct (c <? 256) eqn:E; [reflexivity | lia].
Qed.

Theorem default_roundtrip_iff C m s :
  plain_ct (ctype_str m) -> latin1_text s ->
  let m' := {| ctype := ctype m; content := Some (map Nb s) |} in
  set_text C m (Some s) = SetOk m'
  /\ (get_text C m' true = GStr s <-> bom_encoding (map Nb s) = None).
Proof.
  intros Hp Hl m'. split.
  - unfold set_text. rewrite (infer_plain _ [] Hp). change (bom_encoding []) with (@None bytes). cbv iota.
    rewrite (encode_exact C (B "latin-1") CLatin1 s eq_refl I). cbn [exact_encode]. rewrite (latin1_encode s Hl). reflexivity.
  - unfold get_text, m'. cbn [content]. unfold ctype_str in *. cbn [ctype].
    rewrite (infer_plain _ (map Nb s) Hp). destruct (bom_encoding (map Nb s)) as [e|] eqn:Eb.
    + split; [|discriminate]. intros H. exfalso.
      destruct (decode C e (map Nb s)) as [t| | | |] eqn:Ed; try discriminate H.
      injection H as ->. pose proof (bom_decode_shorter C _ e s Eb Ed) as L. rewrite map_length in L. lia.
    + split; [reflexivity|]. intros _. rewrite (decode_exact C (B "latin-1") CLatin1 _ eq_refl I). cbn [exact_decode].
      rewrite (narrow_rt 256 ltac:(lia) s (map Nb s) (latin1_encode s Hl)). reflexivity.
Qed.
