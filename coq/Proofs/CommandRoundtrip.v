(* Proofs/CommandRoundtrip.v -- quote(s) placed in a command line reaches the command:
   multi-argument round trip (identity-typed and str-typed parameters), the exact set of
   strings for which the single-argument round trip holds, refutation witnesses. *)
From Coq Require Import List Bool NArith.
From MV Require Import Base.Bytes Model.Command Proofs.CommandLex Proofs.CommandExec.
Import ListNotations.
Open Scope N_scope.
Local Arguments in_chars : simpl never.
Local Arguments is_uspace : simpl never.

Definition plain_cond (val : str) : bool :=
  negb (match val with [] => true | _ => false end)
  && forallb (fun ch => negb (in_chars ch val)) SPECIAL.
Definition has_both (s : str) : bool := in_chars c_dq s && in_chars c_sq s.
(* non-empty, only Unicode white space, none of it lexer white space (quote leaves it bare) *)
Definition uspace_only (s : str) : bool := isspace s && no_special s.
(* exactly the strings that survive quote -> lexer -> execute -> call_strings *)
Definition good (kt : bool) (s : str) : bool :=
  negb (has_both s) && negb (uspace_only s) && (kt || no_tab s).
(* sufficient for a str-typed parameter (escape parsing undoes the x22 rewriting) *)
Definition good_str (kt : bool) (s : str) : bool :=
  negb (in_chars c_bs s) && negb (uspace_only s) && (kt || no_tab s).

Lemma disjoint_sym (a b : str) :
  forallb (fun x => negb (in_chars x b)) a = true -> forallb (fun y => negb (in_chars y a)) b = true.
Proof.
  rewrite !forallb_forall. intros H y Hy. apply negb_true_iff, in_chars_false. intros Hi.
  specialize (H y Hi). apply negb_true_iff, in_chars_false in H. contradiction.
Qed.

Lemma plain_cond_spec val : plain_cond val = nonempty val && no_special val.
Proof.
  unfold plain_cond. replace (forallb (fun ch => negb (in_chars ch val)) SPECIAL) with (no_special val)
    by (apply eq_iff_eq_true; split; apply disjoint_sym).
  destruct val; reflexivity.
Qed.

Lemma no_special_not_in s c : no_special s = true -> in_chars c SPECIAL = true -> in_chars c s = false.
Proof.
  intros H Hc. apply in_chars_false. intros Hi. unfold no_special in H. rewrite forallb_forall in H.
  specialize (H c Hi). rewrite Hc in H. discriminate.
Qed.

Definition atom_of (s : str) : atom :=
  if plain_cond s then Plain s
  else if negb (in_chars c_dq s) then Quoted c_dq s
  else if negb (in_chars c_sq s) then Quoted c_sq s
  else Quoted c_dq (replace_dq s).
Definition quoted_value (s : str) : str := atom_value (atom_of s).

Lemma atom_of_text s : atom_text (atom_of s) = quote s.
Proof.
  unfold atom_of, quote. fold (plain_cond s).
  destruct (plain_cond s); [reflexivity|].
  destruct (in_chars c_dq s); simpl; [|reflexivity].
  destruct (in_chars c_sq s); reflexivity.
Qed.

Lemma replace_dq_in x s : in_chars x (replace_dq s) = true ->
  x <> c_dq /\ (in_chars x s = true \/ x = 92 \/ x = 120 \/ x = 50).
Proof.
  intros H. apply in_chars_In, in_flat_map in H as [c [Hc Hx]]. destruct (c =? c_dq) eqn:E; simpl in Hx.
  - destruct Hx as [H | [H | [H | [H | []]]]]; subst x; (split; [discriminate | tauto]).
  - destruct Hx as [<- | []]. split; [apply N.eqb_neq; exact E | left; apply in_chars_In; exact Hc].
Qed.

Lemma replace_dq_no_dq s : in_chars c_dq (replace_dq s) = false.
Proof.
  destruct (in_chars c_dq (replace_dq s)) eqn:E; [|reflexivity].
  apply replace_dq_in in E. destruct E as [E _]. contradiction.
Qed.

Lemma atom_of_ok s : uspace_only s = false -> atom_ok (atom_of s) = true.
Proof.
  intros Hu. unfold atom_of. destruct (plain_cond s) eqn:Ep.
  - rewrite plain_cond_spec in Ep. simpl. rewrite Ep. simpl.
    apply andb_true_iff in Ep as [_ Es]. unfold uspace_only in Hu. rewrite Es, andb_true_r in Hu.
    rewrite Hu. reflexivity.
  - destruct (in_chars c_dq s) eqn:Ed; simpl.
    + destruct (in_chars c_sq s) eqn:Es; simpl.
      * rewrite replace_dq_no_dq. reflexivity.
      * rewrite Es. reflexivity.
    + rewrite Ed. reflexivity.
Qed.

Lemma quoted_value_id s : has_both s = false -> quoted_value s = s.
Proof.
  unfold quoted_value, atom_of, has_both. intros H.
  destruct (plain_cond s); [reflexivity|].
  destruct (in_chars c_dq s); simpl in *; [|reflexivity]. rewrite H. reflexivity.
Qed.

Lemma quoted_value_cases s : quoted_value s = s \/ quoted_value s = replace_dq s.
Proof.
  unfold quoted_value, atom_of. destruct (plain_cond s); [left; reflexivity|].
  destruct (in_chars c_dq s); simpl; [|left; reflexivity].
  destruct (in_chars c_sq s); simpl; [right | left]; reflexivity.
Qed.

Lemma quoted_value_not_both s : has_both (quoted_value s) = false.
Proof.
  unfold quoted_value, atom_of, has_both. destruct (plain_cond s) eqn:Ep.
  - rewrite plain_cond_spec in Ep. apply andb_true_iff in Ep as [_ Es]. simpl.
    rewrite (no_special_not_in s c_dq Es eq_refl). reflexivity.
  - destruct (in_chars c_dq s) eqn:Ed; simpl; [destruct (in_chars c_sq s) eqn:Es; simpl |].
    + rewrite replace_dq_no_dq. reflexivity.
    + rewrite Es. apply andb_false_r.
    + rewrite Ed. reflexivity.
Qed.

Lemma no_tab_app a b : no_tab (a ++ b) = no_tab a && no_tab b.
Proof. unfold no_tab. rewrite in_chars_app, negb_orb. reflexivity. Qed.

Lemma no_special_no_tab w : no_special w = true -> no_tab w = true.
Proof. intros H. unfold no_tab. rewrite (no_special_not_in w c_tab H eq_refl). reflexivity. Qed.

Lemma no_tab_quote s : no_tab s = true -> no_tab (quote s) = true.
Proof.
  intros H. rewrite <- atom_of_text. unfold atom_of.
  assert (R : no_tab (replace_dq s) = true).
  { unfold no_tab in *. destruct (in_chars c_tab (replace_dq s)) eqn:E; [|reflexivity].
    apply replace_dq_in in E. destruct E as [_ [E | [E | [E | E]]]]; try discriminate.
    rewrite E in H. discriminate. }
  destruct (plain_cond s); [exact H|].
  destruct (negb (in_chars c_dq s)); [|destruct (negb (in_chars c_sq s))]; simpl;
    change (?q :: ?b ++ [?q]) with ([q] ++ b ++ [q]); rewrite !no_tab_app; simpl;
    rewrite ?H, ?R; reflexivity.
Qed.

Definition cmd_line (cmd : str) (ss : list str) : str :=
  cmd ++ flat_map (fun s => c_sp :: quote s) ss.
Definition items_of (ss : list str) : list (str * atom) := map (fun s => ([c_sp], atom_of s)) ss.

Lemma cmd_line_text cmd ss : line_text [] (Plain cmd) (items_of ss) [] = cmd_line cmd ss.
Proof.
  unfold line_text, tail_text, cmd_line, items_of. simpl. rewrite app_nil_r. f_equal.
  induction ss as [|s ss IH]; [reflexivity|]. simpl. rewrite IH, atom_of_text. reflexivity.
Qed.

Lemma items_ok ss : forallb (fun s => negb (uspace_only s)) ss = true -> forallb item_ok (items_of ss) = true.
Proof.
  induction ss as [|s ss IH]; [reflexivity|]. simpl. intros H. apply andb_true_iff in H as [Hs H].
  apply negb_true_iff in Hs. rewrite (IH H). unfold item_ok. simpl.
  rewrite (atom_of_ok s Hs). reflexivity.
Qed.

Lemma cmd_line_no_tab cmd ss :
  no_special cmd = true -> forallb no_tab ss = true -> no_tab (cmd_line cmd ss) = true.
Proof.
  intros Hc Hs. unfold cmd_line. rewrite no_tab_app, (no_special_no_tab cmd Hc). simpl.
  induction ss as [|s ss IH]; [reflexivity|]. simpl in *. apply andb_true_iff in Hs as [H1 H2].
  change (c_sp :: quote s ++ ?r) with ([c_sp] ++ quote s ++ r). rewrite !no_tab_app.
  rewrite (no_tab_quote s H1), (IH H2). reflexivity.
Qed.

Definition cmd_ok (cmd : str) : bool := atom_ok (Plain cmd).

Lemma execute_call_quoted kt cmd ss :
  cmd_ok cmd = true -> forallb (fun s => negb (uspace_only s)) ss = true ->
  kt = true \/ forallb no_tab ss = true ->
  execute_call kt (cmd_line cmd ss) = CallStrings cmd (map quoted_value ss).
Proof.
  intros Hc Hs Hk.
  assert (Hk' : kt = true \/ no_tab (line_text [] (Plain cmd) (items_of ss) []) = true).
  { destruct Hk as [Hk | Hk]; [left; exact Hk | right]. rewrite cmd_line_text.
    apply cmd_line_no_tab; [apply plain_ok, Hc | exact Hk]. }
  destruct (execute_call_line kt [] (Plain cmd) (items_of ss) [] eq_refl Hc (items_ok ss Hs) eq_refl Hk')
    as [parts (_ & _ & _ & H)].
  rewrite cmd_line_text in H. rewrite H. simpl. f_equal. unfold items_of. rewrite map_map. reflexivity.
Qed.

Lemma parse_each_var t args : forall vs,
  Forall2 (fun a v => parsearg t a = ParseOk v) args vs ->
  parse_each (repeat t (length args)) args = BindOk vs.
Proof.
  induction args as [|a args IH]; intros vs H; inversion H; subst; [reflexivity|].
  simpl. rewrite H2, (IH _ H4). reflexivity.
Qed.

Lemma execute_var kt commands line cmd args vs t :
  commands cmd = Some (SigVar t) ->
  execute_call kt line = CallStrings cmd args ->
  Forall2 (fun a v => parsearg t a = ParseOk v) args vs ->
  execute kt commands line = Received cmd vs.
Proof.
  intros Hc He Hp. unfold execute. rewrite He, Hc. simpl.
  rewrite (parse_each_var t args vs Hp). reflexivity.
Qed.

(* any parameter type t: it is enough that every argument passes the lexer (g implies the first two conditions)
   and that the parser of t maps what quote made of it back to the argument *)
Lemma roundtrip_var kt commands cmd ss t (g : str -> bool) :
  cmd_ok cmd = true -> commands cmd = Some (SigVar t) ->
  (forall s, g s = true ->
     uspace_only s = false /\ (kt || no_tab s = true) /\ parsearg t (quoted_value s) = ParseOk s) ->
  forallb g ss = true ->
  execute kt commands (cmd_line cmd ss) = Received cmd ss.
Proof.
  intros Hc Hs Hg Hall. rewrite forallb_forall in Hall.
  apply (execute_var kt commands _ cmd (map quoted_value ss) ss t Hs).
  - apply execute_call_quoted; [exact Hc | |].
    + apply forallb_forall. intros s Hi. destruct (Hg s (Hall s Hi)) as [-> _]. reflexivity.
    + destruct kt; [left; reflexivity | right]. apply forallb_forall. intros s Hi. apply (Hg s (Hall s Hi)).
  - induction ss as [|s ss IH]; constructor.
    + apply Hg, Hall. left. reflexivity.
    + apply IH. intros x Hx. apply Hall. right. exact Hx.
Qed.

(* identity-typed parameters (types.CmdArgs) *)
Lemma roundtrip_arg kt commands cmd ss :
  cmd_ok cmd = true -> commands cmd = Some (SigVar TArg) ->
  forallb (good kt) ss = true ->
  execute kt commands (cmd_line cmd ss) = Received cmd ss.
Proof.
  intros Hc Hs. apply (roundtrip_var kt commands cmd ss TArg (good kt) Hc Hs).
  intros s. unfold good. rewrite !andb_true_iff, !negb_true_iff. intros [[Hb Hu] Hk].
  simpl. rewrite (quoted_value_id s Hb). auto.
Qed.

Lemma spg_plain c r : (c =? c_bs) = false ->
  str_parse_go 0 (c :: r) = match str_parse_go 0 r with ParseOk v => ParseOk (c :: v) | e => e end.
Proof. intros H. cbn [str_parse_go]. rewrite H. reflexivity. Qed.

Lemma spg_x22 r :
  str_parse_go 0 (92 :: 120 :: 50 :: 50 :: r)
  = match str_parse_go 0 r with ParseOk t => ParseOk (34 :: t) | e => e end.
Proof.
  cbn [str_parse_go]. change (92 =? c_bs) with true. cbv iota.
  replace (esc_at (120 :: 50 :: 50 :: r)) with (EscChar 34 3) by reflexivity. reflexivity.
Qed.

Lemma str_parse_noesc s : in_chars c_bs s = false -> str_parse s = ParseOk s.
Proof.
  unfold str_parse. induction s as [|c s IH]; intros H; [reflexivity|].
  rewrite in_chars_cons in H. apply orb_false_iff in H as [Hc Hs].
  rewrite spg_plain by (rewrite N.eqb_sym; exact Hc). rewrite (IH Hs). reflexivity.
Qed.

Lemma str_parse_replace s : in_chars c_bs s = false -> str_parse (replace_dq s) = ParseOk s.
Proof.
  unfold str_parse. induction s as [|c s IH]; intros H; [reflexivity|].
  rewrite in_chars_cons in H. apply orb_false_iff in H as [Hc Hs].
  unfold replace_dq. simpl. fold (replace_dq s). destruct (c =? c_dq) eqn:E.
  - apply N.eqb_eq in E. subst c. simpl app. rewrite spg_x22, (IH Hs). reflexivity.
  - simpl app. rewrite spg_plain by (rewrite N.eqb_sym; exact Hc). rewrite (IH Hs). reflexivity.
Qed.

Lemma roundtrip_str kt commands cmd ss :
  cmd_ok cmd = true -> commands cmd = Some (SigVar TStr) ->
  forallb (good_str kt) ss = true ->
  execute kt commands (cmd_line cmd ss) = Received cmd ss.
Proof.
  intros Hc Hs. apply (roundtrip_var kt commands cmd ss TStr (good_str kt) Hc Hs).
  intros s. unfold good_str. rewrite !andb_true_iff, !negb_true_iff. intros [[Hb Hu] Hk].
  split; [exact Hu | split; [exact Hk |]]. simpl.
  destruct (quoted_value_cases s) as [-> | ->]; [apply str_parse_noesc | apply str_parse_replace]; exact Hb.
Qed.


Lemma expandtabs_go_no_tab s : forall col, in_chars c_tab (expandtabs_go col s) = false.
Proof.
  induction s as [|c s IH]; intros col; [reflexivity|]. cbn [expandtabs_go]. destruct (c =? c_tab) eqn:Et.
  - rewrite in_chars_app, IH, orb_false_r. apply in_chars_false. intros H. apply repeat_spec in H. discriminate.
  - assert (G : forall col', in_chars c_tab (c :: expandtabs_go col' s) = false)
      by (intros col'; rewrite in_chars_cons, N.eqb_sym, Et, IH; reflexivity).
    destruct ((c =? c_lf) || (c =? c_cr)); apply G.
Qed.

Lemma unquote_incl t x : In x (unquote t) -> In x t.
Proof.
  unfold unquote. destruct t as [|c [|d r]]; auto.
  destruct (in_chars c QUOTES && (c =? last (d :: r) 0)); [|auto].
  intros H. right. destruct (exists_last (l := d :: r)) as [l' [y E]]; [discriminate|].
  rewrite E in *. rewrite removelast_last in H. apply in_or_app. left. exact H.
Qed.

(* the lexer is lossless and unquote only strips: whatever reaches call_strings is made of characters of the
   line as the lexer saw it *)
Lemma call_strings_chars kt line n args a x :
  execute_call kt line = CallStrings n args -> In a args -> In x a ->
  In x (if kt then line else expandtabs line).
Proof.
  destruct (lex_total (if kt then line else expandtabs line)) as [ts [P [C _]]].
  unfold execute_call, parse_partial, parse_string. rewrite P.
  rewrite nonspace_values_filter. destruct ts as [|t ts]; [discriminate|].
  destruct (map unquote (filter nonsp (t :: ts))) as [|n' args'] eqn:E; [discriminate|].
  intros H Ha Hx. inversion H; subst n' args'.
  assert (Hin : In a (map unquote (filter nonsp (t :: ts)))) by (rewrite E; right; exact Ha).
  apply in_map_iff in Hin as [tok [<- Ht]]. apply filter_In in Ht as [Ht _].
  rewrite <- C. apply in_concat. exists tok. split; [exact Ht | apply unquote_incl, Hx].
Qed.

(* a bare word of Unicode white space is left bare by quote, typed Space by parse_partial, and dropped *)
Lemma uspace_dropped kt cmd s :
  cmd_ok cmd = true -> uspace_only s = true -> execute_call kt (cmd_line cmd [s]) = CallStrings cmd [].
Proof.
  intros Hc Eu. destruct (plain_ok cmd Hc) as (Hcn & Hcs & _).
  unfold uspace_only in Eu. apply andb_true_iff in Eu as [Ei Es].
  assert (Hn : nonempty s = true) by (destruct s; [discriminate | reflexivity]).
  assert (Q : quote s = s).
  { rewrite <- atom_of_text. unfold atom_of. rewrite plain_cond_spec, Hn, Es. reflexivity. }
  unfold cmd_line. simpl. rewrite app_nil_r, Q.
  assert (Lf : lex (c_sp :: s) = LexOk [[c_sp]; s]).
  { change (c_sp :: s) with ([c_sp] ++ s). rewrite (lex_cons ([c_sp] ++ s) [c_sp] s).
    2:{ apply mf_ws; auto. destruct s as [|c s]; [reflexivity|]. simpl.
        unfold p_ws. rewrite (proj2 (plain_head c s Es)). reflexivity. }
    rewrite (lex_cons s s []) by (rewrite <- (app_nil_r s) at 1; apply mf_plain; auto).
    reflexivity. }
  destruct (line_split kt [] (Plain cmd) [] (c_sp :: s) _ eq_refl Hc eq_refl eq_refl Lf) as [parts (_ & _ & _ & H4)].
  { right. change (no_tab (cmd ++ [c_sp] ++ s) = true). rewrite !no_tab_app.
    rewrite (no_special_no_tab cmd Hcs), (no_special_no_tab s Es). reflexivity. }
  assert (F : filter nonsp [[c_sp]; s] = []) by (cbn [filter]; unfold nonsp; rewrite Ei; reflexivity).
  rewrite F in H4. exact H4.
Qed.

Lemma roundtrip_exact kt cmd s :
  cmd_ok cmd = true ->
  (execute_call kt (cmd_line cmd [s]) = CallStrings cmd [s] <-> good kt s = true).
Proof.
  intros Hc. split.
  - (* only good strings survive *)
    intros H. unfold good.
    destruct (uspace_only s) eqn:Eu; [rewrite (uspace_dropped kt cmd s Hc Eu) in H; discriminate |].
    destruct (kt || no_tab s) eqn:Ek.
    + (* the lexer sees the line as written: quoted_value s arrives, and that never has both quotes *)
      rewrite (execute_call_quoted kt cmd [s] Hc) in H.
      * simpl in H. inversion H as [Hv]. rewrite <- Hv, quoted_value_not_both. reflexivity.
      * simpl. rewrite Eu. reflexivity.
      * destruct kt; [left; reflexivity | right]. simpl in *. rewrite Ek. reflexivity.
    + (* tabs are expanded before lexing: nothing that arrives contains one *)
      exfalso. apply orb_false_iff in Ek as [-> Et]. unfold no_tab in Et. apply negb_false_iff, in_chars_In in Et.
      apply (call_strings_chars false _ cmd [s] s c_tab H (or_introl eq_refl)), in_chars_In in Et.
      unfold expandtabs in Et. rewrite expandtabs_go_no_tab in Et. discriminate.
  - (* good strings survive *)
    intros Hg. unfold good in Hg. apply andb_true_iff in Hg as [Hg Hk]. apply andb_true_iff in Hg as [Hb Hu].
    apply negb_true_iff in Hb.
    rewrite (execute_call_quoted kt cmd [s] Hc).
    + simpl. rewrite (quoted_value_id s Hb). reflexivity.
    + simpl. rewrite Hu. reflexivity.
    + destruct kt; [left; reflexivity | right]. simpl in *. rewrite Hk. reflexivity.
Qed.

Definition w_cmd : str := [116; 46; 114; 97; 119].                   (* t.raw *)
Definition w_both : str := [97; 34; 98; 39; 99; 32; 100].            (* a dq b sq c space d *)
Definition w_tab : str := [97; 9; 98].                               (* a TAB b *)
Definition w_nbsp : str := [160].                                    (* NBSP *)
Definition w_esc : str := [97; 92; 110; 98].                         (* a backslash n b *)
Definition w_plainq : str := [105; 116; 39; 115; 32; 34; 120; 34].   (* it sq s space dq x dq ... has both *)
Definition w_ok : str := [105; 116; 39; 115; 32; 92; 120].           (* it sq s space backslash x *)
Definition w_commands (name : str) : option signature :=
  if str_eqb name w_cmd then Some (SigVar TArg)
  else if str_eqb name [116; 46; 115; 116; 114] (* t.str *) then Some (SigVar TStr) else None.
