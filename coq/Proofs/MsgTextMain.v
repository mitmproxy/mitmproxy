(* Proofs/MsgTextMain.v -- C32: when does get_text (set_text m s) give s back.
   The setter infers the encoding from the Content-Type alone, the getter also looks at the body;
   the round trip holds whenever both agree (and the codec itself round-trips), and the declared
   charset is rewritten to utf-8 exactly when the text is not encodable. The texts that witness the
   three ways in which the two inferences disagree are defined at the end. *)
From Coq Require Import String.
From Coq Require Import List Bool NArith.
From MV Require Import Base.Bytes Model.MsgText Proofs.MsgTextCodec Proofs.MsgTextParse.
Import ListNotations.
Local Open Scope N_scope.

Definition scalar_text (s : text) : Prop := Forall (fun c => is_scalar c = true) s.

(* the codec named [enc] gives the text back (proved below for ascii / latin-1 / utf-8(-sig);
   a contract for abstract codecs) *)
Definition codec_rt (C : codecs) (enc : bytes) (s : text) : Prop :=
  forall b, encode C enc s = EBytes b -> decode C enc b = DStr s.

(* the getter, which sees the stored body, infers what the setter would infer without it *)
Definition getter_agrees (m : msg) : Prop :=
  forall b, content m = Some b ->
    infer_content_encoding (ctype_str m) b = infer_content_encoding (ctype_str m) [].

(* infer_content_encoding consults its sources in turn, each only while the guess so far is falsy:
   a usable guess survives every later stage *)
Fixpoint chain (l : list (bool * option bytes)) (enc : option bytes) : option bytes :=
  match l with
  | [] => enc
  | (c, v) :: l' => chain l' (if falsy enc && c then v else enc)
  end.

Definition first_guess (ct b : bytes) : option bytes :=
  match bom_encoding b with Some e => Some e | None => header_charset ct end.

(* latin-1 when nothing was found, gb18030 for its subsets *)
Definition settle (enc : option bytes) : bytes :=
  let e := match enc with None | Some [] => B "latin-1" | Some e => e end in
  if mem_bytes (lower e) [B "gb2312"; B "gbk"] then B "gb18030" else e.

Lemma infer_chain ct b :
  infer_content_encoding ct b
  = settle (chain [(contains (B "json") ct, Some (B "utf8"));
                   (contains (B "html") ct, or_decl (meta_search b));
                   (contains (B "xml") ct, or_decl (xml_search b));
                   (contains (B "javascript") ct || contains (B "ecmascript") ct, Some (B "utf8"));
                   (contains (B "text/css") ct, or_decl (css_match b))]
                  (first_guess ct b)).
Proof. reflexivity. Qed.

Lemma chain_keep l e : falsy e = false -> chain l e = e.
Proof.
  revert e. induction l as [|[c v] l IH]; intros e F; cbn [chain]; [reflexivity|].
  rewrite F. apply IH, F.
Qed.

Lemma chain_on v l e : falsy e = true -> chain ((true, v) :: l) e = chain l v.
Proof. intros F. cbn [chain]. rewrite F. reflexivity. Qed.

Lemma chain_off v l e : chain ((false, v) :: l) e = chain l e.
Proof. cbn [chain]. rewrite andb_false_r. reflexivity. Qed.

Lemma infer_first ct b e : first_guess ct b = Some e -> e <> [] ->
  infer_content_encoding ct b = settle (Some e).
Proof.
  intros H Hne. rewrite infer_chain, H, chain_keep; [reflexivity|].
  destruct e; [contradiction | reflexivity].
Qed.

Lemma infer_fallback ct b : bom_encoding b = None ->
  infer_content_encoding (fallback_ctype ct) b = B "utf-8".
Proof.
  intros Hb. apply (infer_first _ b (B "utf-8")); [|discriminate].
  unfold first_guess. rewrite Hb. apply fallback_charset.
Qed.

(* syntactic sufficient condition for agreement: no BOM-like prefix, and no in-body declaration
   is consulted (usable header charset, or json, or nothing found by the scanner in use) *)
Theorem infer_stable ct b :
  bom_encoding b = None ->
  (falsy (header_charset ct) = false
   \/ contains (B "json") ct = true
   \/ ((contains (B "html") ct = true -> meta_search b = None)
       /\ (contains (B "html") ct = false -> contains (B "xml") ct = true -> xml_search b = None)
       /\ (contains (B "html") ct = false -> contains (B "xml") ct = false ->
           contains (B "javascript") ct || contains (B "ecmascript") ct = false ->
           contains (B "text/css") ct = true -> css_match b = None))) ->
  infer_content_encoding ct b = infer_content_encoding ct [].
Proof.
  intros Hb H. rewrite !infer_chain. unfold first_guess. rewrite Hb.
  destruct (falsy (header_charset ct)) eqn:F; [|rewrite !chain_keep by exact F; reflexivity].
  (* in every case the stage that fires yields utf8 on both sides, and that guess stays *)
  destruct H as [H | [H | (Hm & Hx & Hc)]]; [discriminate H | |].
  { rewrite H, !(chain_on _ _ _ F), !chain_keep by reflexivity. reflexivity. }
  destruct (contains (B "json") ct).
  { rewrite !(chain_on _ _ _ F), !chain_keep by reflexivity. reflexivity. }
  rewrite !chain_off. destruct (contains (B "html") ct).
  { rewrite !(chain_on _ _ _ F), (Hm eq_refl), !chain_keep by reflexivity. reflexivity. }
  rewrite !chain_off. destruct (contains (B "xml") ct).
  { rewrite !(chain_on _ _ _ F), (Hx eq_refl eq_refl), !chain_keep by reflexivity. reflexivity. }
  rewrite !chain_off. destruct (contains (B "javascript") ct || contains (B "ecmascript") ct).
  { rewrite !(chain_on _ _ _ F), !chain_keep by reflexivity. reflexivity. }
  rewrite !chain_off. destruct (contains (B "text/css") ct); [|rewrite !chain_off; reflexivity].
  rewrite !(chain_on _ _ _ F), (Hc eq_refl eq_refl eq_refl eq_refl). reflexivity.
Qed.

Theorem codec_rt_exact C enc s :
  In (resolve (lower enc)) [CAscii; CLatin1; CUtf8; CUtf8Sig] -> codec_rt C enc s.
Proof.
  intros Hin b.
  assert (He : exact (resolve (lower enc))) by (destruct Hin as [<- | [<- | [<- | [<- | []]]]]; exact I).
  rewrite (encode_exact C enc _ s eq_refl He), (decode_exact C enc _ b eq_refl He).
  destruct (exact_encode _ s) as [r|] eqn:E; [|discriminate]. intros [= <-].
  rewrite (exact_rt _ s r Hin E). reflexivity.
Qed.

(* what a successful set_text stored: the encoded text, or its UTF-8 form under a rewritten header *)
Lemma set_text_ok C m s m' : set_text C m (Some s) = SetOk m' ->
  (exists b, encode C (infer_content_encoding (ctype_str m) []) s = EBytes b
             /\ m' = {| ctype := ctype m; content := Some b |})
  \/ (exists b, encode C (infer_content_encoding (ctype_str m) []) s = EValueErr
                /\ utf8_encode_se s = Some b
                /\ m' = {| ctype := Some (fallback_ctype (ctype_str m)); content := Some b |}).
Proof.
  unfold set_text. intros H. destruct (encode C _ s) as [b| | | |]; try discriminate H.
  - left. exists b. injection H as <-. split; reflexivity.
  - right. destruct (utf8_encode_se s) as [b|]; [|discriminate H]. exists b. injection H as <-.
    repeat split.
Qed.

Theorem roundtrip_partial C m s m' strict :
  set_text C m (Some s) = SetOk m' ->
  getter_agrees m' ->
  codec_rt C (infer_content_encoding (ctype_str m) []) s ->
  scalar_text s ->
  get_text C m' strict = GStr s.
Proof.
  intros Hset Hag Hrt Hsc.
  destruct (set_text_ok C m s m' Hset) as [(b & Ee & ->) | (b & Ee & Eu & ->)];
    unfold get_text; cbn [content]; rewrite (Hag b eq_refl); unfold ctype_str in *; cbn [ctype].
  - rewrite (Hrt b Ee). reflexivity.
  - rewrite (infer_fallback _ [] eq_refl), (decode_exact C (B "utf-8") CUtf8 b eq_refl I). cbn [exact_decode].
    rewrite (utf8_encode_se_scalar s Hsc) in Eu. rewrite (utf8_rt s b Eu). reflexivity.
Qed.

Theorem charset_updated C m s m' :
  set_text C m (Some s) = SetOk m' ->
  (exists b, encode C (infer_content_encoding (ctype_str m) []) s = EBytes b
             /\ ctype m' = ctype m /\ content m' = Some b)
  \/ (encode C (infer_content_encoding (ctype_str m) []) s = EValueErr
      /\ header_charset (ctype_str m') = Some (B "utf-8")
      /\ infer_content_encoding (ctype_str m') [] = B "utf-8"
      /\ content m' = utf8_encode_se s).
Proof.
  intros Hset. destruct (set_text_ok C m s m' Hset) as [(b & Ee & ->) | (b & Ee & Eu & ->)].
  - left. exists b. repeat split. exact Ee.
  - right. unfold ctype_str. cbn [ctype content]. repeat split.
    + exact Ee.
    + apply fallback_charset.
    + apply infer_fallback. reflexivity.
    + symmetry. exact Eu.
Qed.

(* a codec that does not map str to bytes makes the setter raise TypeError *)
Theorem non_text_codec_raises C m s :
  In (encode C (infer_content_encoding (ctype_str m) []) s) [EStr; ETypeErr] ->
  set_text C m (Some s) = SetTypeErr.
Proof.
  intros [H | [H | []]]; unfold set_text; rewrite <- H; reflexivity.
Qed.

Definition mk (ct : option bytes) : msg := {| ctype := ct; content := None |}.

Definition after_set (C : codecs) (m : msg) (s : text) (strict : bool) : option getres :=
  match set_text C m (Some s) with
  | SetOk m' => Some (get_text C m' strict)
  | _ => None
  end.

Definition meta_text : text := map bN (B "<meta charset=""latin-1"">") ++ [233].
Definition xml_text : text := map bN (B "<?xml version=""1.0"" encoding=""latin-1""?>") ++ [233].
Definition css_text : text := map bN (B "@charset ""latin-1"";") ++ [233].

Definition snowman : text := [9731].

Theorem nonvacuous C :
  (* fallback path: latin1 cannot hold U+2603, header rewritten, text read back; encode fails, so codec_rt
     holds for lack of an encoding here: the kept path below is the real instance *)
  (exists m', set_text C (mk (Some (B "text/html; charset=latin1; foo=bar"))) (Some snowman) = SetOk m'
      /\ ctype m' = Some (B "text/html; charset=utf-8; foo=bar")
      /\ getter_agrees m' /\ scalar_text snowman
      /\ codec_rt C (infer_content_encoding (B "text/html; charset=latin1; foo=bar") []) snowman
      /\ get_text C m' true = GStr snowman)
  (* kept path: html without charset, no declaration in the text *)
  /\ (exists m', set_text C (mk (Some (B "text/html"))) (Some [60; 233; 62]) = SetOk m'
      /\ ctype m' = Some (B "text/html") /\ content m' = Some [x3c; xc3; xa9; x3e]
      /\ getter_agrees m'
      /\ In (resolve (lower (infer_content_encoding (B "text/html") []))) [CAscii; CLatin1; CUtf8; CUtf8Sig]
      /\ get_text C m' true = GStr [60; 233; 62]).
Proof.
  split.
  - eexists. split; [vm_compute; reflexivity|]. split; [reflexivity|]. split; [|split; [|split]].
    + intros b Hb. cbn [content] in Hb. injection Hb as <-. vm_compute. reflexivity.
    + repeat constructor.
    + intros b Hb. vm_compute in Hb. discriminate Hb.
    + vm_compute. reflexivity.
  - eexists. split; [vm_compute; reflexivity|]. split; [reflexivity|]. split; [reflexivity|]. split; [|split].
    + intros b Hb. cbn [content] in Hb. injection Hb as <-. vm_compute. reflexivity.
    + vm_compute. right. right. left. reflexivity.
    + vm_compute. reflexivity.
Qed.
