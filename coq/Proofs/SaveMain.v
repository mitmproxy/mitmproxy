(* Proofs/SaveMain.v -- C39: what each event writes, for every history (from the invariant of
   Proofs/SaveInv.v), and the contents of the stream file after one whole saving session. *)
From Coq Require Import List Bool NArith.
From MV Require Import Model.SavePrelude Gen.SaveHooks Model.Save Proofs.SaveSpec Proofs.SaveInv.
Import ListNotations.
Open Scope N_scope.

Local Arguments N.eqb : simpl never.

(* the file operations event e performs after history pre *)
Definition writes (infos : list finfo) (pre : list event) (e : event) : list fop :=
  snd (fst (step infos (run infos init pre) e)).

Lemma flat_map_wadd : forall infos rs er fl p l,
  flat_map (wadd infos rs er fl p) l
  = map (WWrite p) (filter (fun i => passes fl (snap_env infos rs er i)) l).
Proof.
  induction l as [|x r IH]; cbn; [reflexivity|].
  rewrite wadd_passes, IH. destruct (passes fl (snap_env infos rs er x)); reflexivity.
Qed.

Lemma hook_writes : forall infos pre h i,
  no_done pre -> switch_safe pre ->
  writes infos pre (Hook h i) =
  match saving_after pre with
  | Some p =>
      if is_completion h (f_ws (info infos i))
         && passes (filter_after pre) (snap_after infos (pre ++ [Hook h i]) i)
      then [WWrite p i] else []
  | None => []
  end.
Proof.
  intros infos pre h i Hnd Hs.
  destruct (inv_run infos pre Hnd Hs) as (act & Hst & _).
  unfold writes. rewrite Hst, step_hook_regular. cbn [fst snd].
  unfold saving_after. destruct (file_after pre) as [[a p]|]; cbn [option_map snd]; [|reflexivity].
  destruct (is_completion h (f_ws (info infos i))); cbn [andb]; [|reflexivity].
  rewrite wadd_passes, <- snap_env_after, !set_l_snoc. reflexivity.
Qed.

Lemma stop_writes : forall infos pre e,
  no_done pre -> switch_safe pre -> stops e = true ->
  exists l,
    writes infos pre e = match saving_after pre with Some p => map (WWrite p) l | None => [] end
    /\ NoDup l
    /\ forall i, In i l <-> open_after infos pre i
                            /\ passes (filter_after pre) (snap_after infos pre i) = true.
Proof.
  intros infos pre e Hnd Hs Hstop.
  destruct (inv_run infos pre Hnd Hs) as (act & Hst & Hndp & Hact & Hnone).
  exists (filter (fun i => passes (filter_after pre) (snap_env infos (set_l sets_resp pre) (set_l sets_err pre) i)) (sortN act)).
  split; [|split].
  - assert (Hw : writes infos pre e
                 = flush infos (file_after pre) (filter_after pre) act (set_l sets_resp pre) (set_l sets_err pre)).
    { unfold writes. rewrite Hst. destruct e as [h i|uf ufl|]; [discriminate| |apply step_done_regular].
      destruct uf as [[v|]|]; try discriminate. cbn in Hstop. apply negb_true_iff in Hstop.
      cbn [step].
      rewrite (do_configure_regular infos _ _ _ _ _ (Some None) ufl Hnone (file_after_ok pre)); [|right; reflexivity].
      unfold accepted. cbn. rewrite Hstop. reflexivity. }
    rewrite Hw. unfold flush, saving_after.
    destruct (file_after pre) as [[a p]|]; cbn [option_map snd]; [|reflexivity].
    apply flat_map_wadd.
  - apply NoDup_filter. apply NoDup_sortN. assumption.
  - intro i. rewrite filter_In, In_sortN, Hact, snap_env_after. tauto.
Qed.

Lemma config_writes : forall infos pre uf ufl,
  no_done pre -> switch_safe (pre ++ [Configure uf ufl]) -> stops (Configure uf ufl) = false ->
  writes infos pre (Configure uf ufl) =
  if accepted uf ufl then
    match uf with
    | Some (Some (a, p)) => if optN_eqb (saving_after pre) (Some p) then [] else [WOpen p a]
    | _ => []
    end
  else [].
Proof.
  intros infos pre uf ufl Hnd Hs Hstop.
  apply switch_safe_app in Hs. destruct Hs as [Hs He].
  assert (Hg : rotate_open_first = true \/ file_bad uf = false).
  { destruct He as [H|H]; [left; assumption|right; inversion H; assumption]. }
  destruct (inv_run infos pre Hnd Hs) as (act & Hst & _ & _ & Hnone).
  unfold writes. rewrite Hst. cbn [step].
  rewrite (do_configure_regular infos _ _ _ _ _ uf ufl Hnone (file_after_ok pre) Hg).
  destruct (accepted uf ufl) eqn:Ea; cbn [fst snd]; [|reflexivity].
  destruct uf as [[[a p]|]|].
  - reflexivity.
  - cbn in Hstop. unfold accepted in Ea. cbn in Ea. rewrite Hstop in Ea. discriminate.
  - unfold cfg_ops, flush. destruct (file_after pre) as [[a0 p0]|]; cbn; [|reflexivity].
    rewrite N.eqb_refl. reflexivity.
Qed.

Definition no_file_update (e : event) : Prop :=
  match e with Configure (Some _) _ => False | _ => True end.

(* flows recorded by the completions in mid (after history pre), in order *)
Fixpoint completions (infos : list finfo) (pre mid : list event) : list N :=
  match mid with
  | [] => []
  | e :: r =>
      (match e with
       | Hook h i =>
           if is_completion h (f_ws (info infos i))
              && passes (filter_after pre) (snap_after infos (pre ++ [e]) i)
           then [i] else []
       | _ => []
       end) ++ completions infos (pre ++ [e]) r
  end.

Lemma run_log_app : forall infos a s b,
  run_log infos s (a ++ b) = run_log infos s a ++ run_log infos (run infos s a) b.
Proof.
  induction a as [|e a IH]; intros; cbn; [reflexivity|]. rewrite IH, app_assoc. reflexivity.
Qed.

Lemma no_file_update_safe : forall e, no_file_update e -> no_bad_switch e.
Proof. intros [h i|[v|] ufl|]; cbn; tauto. Qed.
Lemma no_file_update_file : forall mid pre, Forall no_file_update mid -> file_after (pre ++ mid) = file_after pre.
Proof.
  intros mid pre H. unfold file_after. rewrite fold_left_app. generalize (fold_left upd_file pre None) as c.
  induction H as [|e r He _ IH]; intro c; cbn; [reflexivity|].
  replace (upd_file c e) with c; [apply IH|]. destruct e as [h i|[v|] ufl|]; [reflexivity|destruct He|reflexivity..].
Qed.

Lemma mid_log : forall infos mid pre p,
  no_done (pre ++ mid) -> Forall no_bad_switch (pre ++ mid) -> Forall no_file_update mid ->
  saving_after pre = Some p ->
  run_log infos (run infos init pre) mid = map (WWrite p) (completions infos pre mid).
Proof.
  induction mid as [|e r IH]; intros pre p Hnd Hsafe Hnf Hsav; [reflexivity|].
  inversion Hnf as [|? ? He Hr]; subst.
  cbn [run_log completions]. rewrite map_app, <- run_snoc, (IH (pre ++ [e]) p).
  - f_equal. fold (writes infos pre e).
    apply Forall_app in Hnd. destruct Hnd as [Hnd Hmid]. apply Forall_app in Hsafe. destruct Hsafe as [Hsafe _].
    destruct e as [h i|uf ufl|].
    + rewrite hook_writes; [|assumption|right; assumption]. rewrite Hsav.
      destruct (is_completion h (f_ws (info infos i)) && passes (filter_after pre) (snap_after infos (pre ++ [Hook h i]) i)); reflexivity.
    + destruct uf as [v|]; [destruct He|].
      rewrite config_writes; [|assumption|right; apply Forall_app; split; [assumption|repeat constructor]|reflexivity].
      destruct (accepted None ufl); reflexivity.
    + inversion Hmid; subst. congruence.
  - rewrite <- app_assoc. exact Hnd.
  - rewrite <- app_assoc. exact Hsafe.
  - exact Hr.
  - unfold saving_after. rewrite (no_file_update_file [e] pre); [exact Hsav | repeat constructor; exact He].
Qed.

(* file system: an open followed by appends to the same path *)
Lemma fs_get_set : forall f p c, fs_get (fs_set f p c) p = Some c.
Proof.
  induction f as [|[q c0] r IH]; intros; cbn; [rewrite N.eqb_refl; reflexivity|].
  destruct (q =? p) eqn:E; cbn; rewrite E; [reflexivity|apply IH].
Qed.
Lemma fs_appends : forall p l f c,
  fs_get f p = Some c -> fs_get (fs_apply f (map (WWrite p) l)) p = Some (c ++ l).
Proof.
  induction l as [|i l IH]; intros f c H; cbn; [rewrite app_nil_r; assumption|].
  unfold fs_apply in IH. rewrite (IH _ (c ++ [i])).
  - rewrite <- app_assoc. reflexivity.
  - rewrite H. apply fs_get_set.
Qed.
Lemma fs_session : forall f p a l,
  fs_get (fs_apply f (WOpen p a :: map (WWrite p) l)) p
  = Some ((if a then match fs_get f p with Some c => c | None => [] end else []) ++ l).
Proof.
  intros. unfold fs_apply. cbn [fold_left]. apply fs_appends. cbn.
  destruct (fs_get f p) as [c|] eqn:E; [destruct a; [assumption|]|destruct a]; apply fs_get_set.
Qed.

Lemma session : forall infos a p mid f0,
  p =? bad_path = false -> no_done mid -> Forall no_file_update mid ->
  let first := Configure (Some (Some (a, p))) None in
  let hist := first :: mid in
  exists tail,
    fs_get (fs_apply f0 (run_log infos init (hist ++ [Done]))) p
    = Some ((if a then match fs_get f0 p with Some c => c | None => [] end else [])
            ++ completions infos [first] mid ++ tail)
    /\ NoDup tail
    /\ forall i, In i tail <-> open_after infos hist i
                               /\ passes (filter_after hist) (snap_after infos hist i) = true.
Proof.
  intros infos a p mid f0 Hp Hnd Hnf first hist.
  assert (Hacc : accepted (Some (Some (a, p))) None = true) by (unfold accepted; cbn; rewrite Hp; reflexivity).
  assert (Hnd1 : no_done hist) by (constructor; [discriminate|assumption]).
  assert (Hsafe : Forall no_bad_switch hist).
  { constructor; [exact Hp|]. eapply Forall_impl; [|exact Hnf]. apply no_file_update_safe. }
  assert (Hsav1 : saving_after [first] = Some p).
  { unfold saving_after, file_after. cbn. rewrite Hacc. reflexivity. }
  assert (Hsav : saving_after hist = Some p).
  { unfold saving_after. change hist with ([first] ++ mid). rewrite (no_file_update_file mid [first] Hnf). exact Hsav1. }
  destruct (stop_writes infos hist Done Hnd1 (or_intror Hsafe) eq_refl) as (tail & Hw & Hnd_tail & Htail).
  exists tail. split; [|split; assumption].
  (* the log: the open, the completions, the flush *)
  change (hist ++ [Done]) with ([first] ++ mid ++ [Done]).
  rewrite !run_log_app, (mid_log infos mid [first] p Hnd1 Hsafe Hnf Hsav1), <- run_app.
  change (run_log infos init [first]) with (writes infos [] first ++ []).
  change (run_log infos (run infos init ([first] ++ mid)) [Done]) with (writes infos hist Done ++ []).
  rewrite !app_nil_r, Hw, Hsav. unfold first.
  rewrite config_writes, Hacc; [|constructor|right; repeat constructor; exact Hp|reflexivity].
  rewrite <- map_app. apply fs_session.
Qed.

(* the witness of C39_failed_switch_refuted: one TCP flow starts while saving to file 0, then a
   switch to the directory 2 is rejected.  If the old stream is closed before the new file is
   opened, save_stream_file stays set while nothing is recorded any more, and the completion of
   the flow writes no record. *)
Definition cex_infos : list finfo := [{| f_kind := KTcp; f_ws := false; f_marked := false |}].
Definition cex_pre : list event :=
  [Configure (Some (Some (false, 0))) None; Hook HTcpStart 0; Configure (Some (Some (false, 2))) None].

Definition ex_infos : list finfo :=
  [{| f_kind := KHttp; f_ws := false; f_marked := false |};
   {| f_kind := KTcp; f_ws := false; f_marked := true |};
   {| f_kind := KHttp; f_ws := true; f_marked := false |};
   {| f_kind := KDns; f_ws := false; f_marked := false |}].
Definition ex_mid : list event :=
  [Hook HRequest 0; Hook HTcpStart 1; Hook HRequest 2; Hook HResponse 2; Hook HDnsRequest 3;
   Hook HTcpEnd 1; Configure None (Some (Some (FSOk (FNot FDns)))); Hook HResponse 0;
   Hook HDnsResponse 3; Hook HRequest 0].
