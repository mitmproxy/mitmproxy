(* Proofs/OptManagerMain.v -- the C44 theorems about Model/OptManager.v, for ALL listener behaviours, both
   code variants and all histories. *)
From Coq Require Import List Bool NArith ZArith.
From MV Require Import Base.Bytes Model.OptManager Proofs.ListFacts Proofs.OptManagerBase.
Import ListNotations.

Definition lookup (o : list (name * opt)) (n : name) : option val := option_map current (dget n o).

(* events of a call that are newer than the .errored marker (the re-notification of a rollback) *)
Fixpoint newer_than_errored (evs : list event) : list event :=
  match evs with
  | [] => []
  | Errored :: _ => []
  | e :: t => e :: newer_than_errored t
  end.

Lemma newer_than_errored_app sn u a b :
  Forall (shows sn u) a -> newer_than_errored (a ++ b) = a ++ newer_than_errored b.
Proof.
  induction a as [|e t IH]; simpl; intros H; [reflexivity|].
  inversion H as [|? ? He Ht]; subst. destruct He as [l [ok ->]]. now rewrite IH.
Qed.

Lemma newer_than_errored_shows sn u a : Forall (shows sn u) a -> newer_than_errored a = a.
Proof. intros H. rewrite <- (app_nil_r a) at 1. rewrite (newer_than_errored_app _ _ _ _ H). apply app_nil_r. Qed.

Lemma forallb_filter_same {A} (f : A -> bool) l : forallb f (filter f l) = true.
Proof. exact (forallb_filter f l). Qed.

Lemma assign_typed known : forall o, typed_opts o -> typed_opts (fst (assign known o)).
Proof.
  induction known as [|[k v] t IH]; simpl; intros o H; [exact H|].
  destruct (dget k o) as [x|] eqn:E; [|apply IH, H].
  destruct (check_option_type v (otype x)) eqn:C; [|exact H].
  apply IH, typed_dset; [exact H|]. apply typed_set_value; [|exact C].
  eapply typed_dget; eassumption.
Qed.

(* assigning a value does not change the type it was checked against *)
Lemma value_ok_dset o k x v p : dget k o = Some x -> value_ok (dset k (set_value x v) o) p = value_ok o p.
Proof.
  intros E. unfold value_ok. destruct (N.eq_dec (fst p) k) as [->|Hn].
  - rewrite dget_dset_same, E. reflexivity.
  - rewrite dget_dset_other by exact Hn. reflexivity.
Qed.

Lemma assign_never_fails known : forall o, forallb (value_ok o) known = true -> snd (assign known o) = true.
Proof.
  induction known as [|[k v] t IH]; simpl; intros o F; [reflexivity|]. apply andb_true_iff in F as [F1 F2].
  unfold value_ok in F1; simpl in F1. destruct (dget k o) as [x|] eqn:E; [|apply IH, F2].
  rewrite F1. apply IH. rewrite forallb_forall in *. intros p Hp. rewrite (value_ok_dset o k x v p E). auto.
Qed.

Lemma dmem_dset {A} n k (x : A) o : dmem k o = true -> dmem n (dset k x o) = dmem n o.
Proof.
  intros Hk. unfold dmem in *. destruct (N.eq_dec n k) as [->|Hn].
  - rewrite dget_dset_same. destruct (dget k o); [reflexivity | discriminate].
  - now rewrite dget_dset_other.
Qed.

Lemma assign_values known : forall o o', assign known o = (o', true) ->
  forall n, lookup o' n =
    match dget n (rev known) with
    | Some v => if dmem n o then Some v else None
    | None => lookup o n
    end.
Proof.
  induction known as [|[k v] t IH]; simpl; intros o o' H n.
  - inversion H; reflexivity.
  - rewrite dget_app; simpl.
    destruct (dget k o) as [x|] eqn:E.
    + destruct (check_option_type v (otype x)) eqn:C; [|discriminate].
      rewrite (IH _ _ H n).
      assert (Hk : dmem k o = true) by (unfold dmem; now rewrite E).
      rewrite (dmem_dset n k _ o Hk).
      destruct (dget n (rev t)) as [v'|]; [reflexivity|].
      unfold lookup. destruct (N.eqb n k) eqn:En.
      * apply N.eqb_eq in En; subst n. rewrite dget_dset_same, Hk. reflexivity.
      * apply N.eqb_neq in En. now rewrite dget_dset_other.
    + rewrite (IH _ _ H n).
      destruct (dget n (rev t)) as [v'|]; [reflexivity|].
      destruct (N.eqb n k) eqn:En; [|reflexivity].
      apply N.eqb_eq in En; subst n. unfold lookup, dmem. now rewrite E.
Qed.

(* all listeners, re-entrant ones included *)
Section General.
  Variable behave : N -> state -> list name -> reaction.
  Variable vt vu : bool.
  Variable nested : list (name * val) -> state -> state * result.

  (* what logging keeps, and every nested update made by a listener keeps, a send keeps *)
  Lemma notify_inv (P : state -> Prop) u ls :
    (forall e s, P s -> P (add_log e s)) ->
    (forall l s kw, P s -> behave l s u = Nested kw ->
       P (fst (nested kw (add_log (Notified l (snapshot (options s)) u KNested) s)))) ->
    forall s, P s -> P (fst (notify behave nested ls u s)).
  Proof.
    intros PL PN. induction ls as [|l t IH]; simpl; intros s H; [exact H|].
    destruct (behave l s u) as [| |kw] eqn:B; [apply IH, PL, H | apply PL, H |].
    specialize (PN l s kw H B).
    destruct (nested kw _) as [s2 [|x|e]]; simpl in PN; [apply IH, PN | apply IH, PN | exact PN].
  Qed.

  Section Typed.
  Hypothesis nested_wf : forall kw s, wf s -> wf (fst (nested kw s)).

  Lemma changed_send_wf u s : wf s -> wf (fst (changed_send behave nested u s)).
  Proof. apply (notify_inv wf); [intros e s0 W; exact W | intros l s0 kw W _; apply nested_wf, W]. Qed.

  Lemma update_known_wf kw s : wf s -> wf (fst (update_known behave vt nested kw s)).
  Proof.
    intros W. unfold update_known.
    destruct (filter (is_known (options s)) kw) as [|p l] eqn:EK; [exact W|].
    destruct (vt && negb (forallb (value_ok (options s)) (p :: l))); [exact W|].
    pose proof (assign_typed (p :: l) (options s) W) as T.
    destruct (assign (p :: l) (options s)) as [o1 b]. simpl in T. destruct b; [|exact T].
    apply (changed_send_wf (set_of (map fst (p :: l))) (set_options o1 s)) in T.
    destruct (changed_send behave nested _ (set_options o1 s)) as [s2 [|e2]]; [exact T|].
    destruct e2; try exact T.
    assert (W3 : wf (set_options (dmap deepcopy_opt (options s)) (add_log Errored s2)))
      by (apply typed_dmap; [exact typed_deepcopy | exact W]).
    apply (changed_send_wf (set_of (map fst (p :: l)))) in W3.
    destruct (changed_send behave nested _ (set_options (dmap deepcopy_opt (options s)) (add_log Errored s2)))
      as [s4 [|e4]]; exact W3.
  Qed.

  Lemma update_wf kw s : wf s -> wf (fst (update behave vt vu nested kw s)).
  Proof.
    intros W. unfold update.
    destruct (vu && negb (forallb (is_known (options s)) kw)); [exact W|].
    pose proof (update_known_wf kw s W) as H.
    destruct (update_known behave vt nested kw s) as [s1 [[|? ?]|e]]; exact H.
  Qed.

  Lemma step_wf o s : wf s -> wf (fst (step behave vt vu nested o s)).
  Proof.
    intros W. destruct o; simpl.
    - unfold add_option.
      destruct (check_option_type d t) eqn:C; simpl; [|exact W].
      assert (W1 : wf (set_options (dset n (mkOpt t d None) (options s)) s)).
      { apply typed_dset; [exact W|]. split; simpl; [exact C | intros v Ev; discriminate Ev]. }
      apply (changed_send_wf [n]) in W1. destruct (changed_send behave nested [n] _) as [s2 r]. exact W1.
    - pose proof (update_known_wf kw s W) as H.
      destruct (update_known behave vt nested kw s) as [s1 [u|e]]; exact H.
    - now apply update_wf.
    - unfold update_defer. pose proof (update_known_wf kw s W) as H.
      destruct (update_known behave vt nested kw s) as [s1 [u|e]]; exact H.
    - unfold setattr. destruct (options s) eqn:E; [exact W|]. now apply update_wf.
    - unfold reset.
      assert (W1 : wf (set_options (dmap reset_opt (options s)) s))
        by (apply typed_dmap; [exact typed_reset | exact W]).
      apply (changed_send_wf (set_of (map fst (options s)))) in W1.
      destruct (changed_send behave nested _ (set_options (dmap reset_opt (options s)) s)) as [s2 r]. exact W1.
    - unfold subscribe. destruct (forallb (fun n => dmem n (options s)) opts); exact W.
    - exact W.
    - unfold set_specs. destruct (parse_known (group_specs specs) (options s)) as [processed|e]; [|exact W].
      destruct defer.
      + apply update_wf. exact W.
      + destruct (filter (fun p => negb (dmem (fst p) (options s))) (group_specs specs)); [|exact W].
        now apply update_wf.
    - unfold process_deferred. destruct (collect_deferred (deferred s) (options s)) as [upd|e]; [|exact W].
      pose proof (update_wf upd s W) as H.
      destruct (update behave vt vu nested upd s) as [s1 [|u|e]]; exact H.
    - exact W.
  Qed.

  Lemma run_wf ops : forall s, wf s -> wf (run behave vt vu nested ops s).
  Proof. induction ops as [|o t IH]; simpl; intros s W; [exact W | apply IH, step_wf, W]. Qed.
  End Typed.

  Lemma changed_send_quiet O u s :
    (forall l st kw, options st = O -> behave l st u <> Nested kw) ->
    options s = O -> options (fst (changed_send behave nested u s)) = O.
  Proof.
    intros Q. apply (notify_inv (fun st => options st = O)); [intros e s0 E; exact E|].
    intros l s0 kw E B. destruct (Q l s0 kw E B).
  Qed.

  (* rollback restores the FULL option set, whatever nested updates the listeners made before the rejection,
     provided no listener answers the re-notification (where the options are the restored ones) with another
     nested update *)
  Theorem update_known_rejected_general kw s s' :
    update_known behave vt nested kw s = (s', UErr EOptionsError) ->
    (forall l st kw', options st = dmap deepcopy_opt (options s) ->
        behave l st (set_of (map fst (filter (is_known (options s)) kw))) <> Nested kw') ->
    restored (options s) (options s').
  Proof.
    unfold update_known. intros H Q.
    destruct (filter (is_known (options s)) kw) as [|p l] eqn:EK; [discriminate|].
    destruct (vt && negb (forallb (value_ok (options s)) (p :: l))); [discriminate|].
    destruct (assign (p :: l) (options s)) as [o1 b]. destruct b; [|discriminate].
    destruct (changed_send behave nested (set_of (map fst (p :: l))) (set_options o1 s)) as [s2 r2].
    destruct r2 as [|e2]; [discriminate|].
    destruct e2; try discriminate.
    pose proof (changed_send_quiet _ _ (set_options (dmap deepcopy_opt (options s)) (add_log Errored s2)) Q eq_refl)
      as HO.
    destruct (changed_send behave nested _ (set_options (dmap deepcopy_opt (options s)) (add_log Errored s2)))
      as [s4 r4]. simpl in HO.
    assert (s' = s4) by (destruct r4; inversion H; reflexivity). subst s4.
    rewrite HO. apply restored_deepcopy.
  Qed.
End General.

Lemma init_wf : wf init.
Proof. constructor. Qed.

Lemma nested_update_wf behave vt vu fuel : forall kw s, wf s -> wf (fst (nested_update behave vt vu fuel kw s)).
Proof.
  induction fuel as [|f IH]; simpl; intros kw s W; [exact W|].
  apply update_wf; [exact IH | exact W].
Qed.

Section Main.
  Variable behave : N -> state -> list name -> reaction.
  Variable vt vu : bool.
  Variable nested : list (name * val) -> state -> state * result.
  Hypothesis NR : non_reentrant behave.

  Definition rest_static (s s' : state) : Prop :=
    deferred s' = deferred s /\ subscriptions s' = subscriptions s /\ receivers s' = receivers s.

  Definition update_known_post (kw : list (name * val)) (s s' : state) (r : ures) : Prop :=
    let known := filter (is_known (options s)) kw in
    let U := set_of (map fst known) in
    rest_static s s' /\
    match r with
    | UOk unknown =>
        unknown = filter (fun p => negb (is_known (options s) p)) kw
        /\ (known = [] -> s' = s)
        /\ (known <> [] -> exists evs, log s' = evs ++ log s
              /\ rev (listeners evs) = targets s U            (* every interested listener, once, in order *)
              /\ forallb ev_ok evs = true
              /\ Forall (shows (snapshot (options s')) U) evs) (* with the new values and exactly the set U *)
        /\ (forall n, lookup (options s') n =
              match dget n (rev known) with Some v => Some v | None => lookup (options s) n end)
        /\ (forall n, In n U <-> In n (map fst known)) /\ NoDup U
    | UErr ETypeError =>
        s' = s \/ (vt = false /\ log s' = log s /\ exists o1, assign known (options s) = (o1, false) /\ options s' = o1)
    | UErr EOptionsError =>
        exists o1 first second,
          assign known (options s) = (o1, true)
          /\ options s' = dmap deepcopy_opt (options s)
          /\ log s' = second ++ Errored :: first ++ log s
          /\ Forall (shows (snapshot o1) U) first
          /\ Forall (shows (snapshot (options s')) U) second
          /\ incl (listeners first) (targets s U)
          /\ (forallb ev_ok second = true -> rev (listeners second) = targets s U)
    | UErr _ => False
    end.

  Lemma update_known_spec kw s s' r :
    update_known behave vt nested kw s = (s', r) -> update_known_post kw s s' r.
  Proof.
    unfold update_known, update_known_post.
    assert (SU : forall l, (forall n, In n (set_of l) <-> In n l) /\ NoDup (set_of l))
      by (intros l; split; [intros n; apply set_of_In | apply ssorted_NoDup, set_of_sorted]).
    destruct (filter (is_known (options s)) kw) as [|p l] eqn:EK.
    - intros H; inversion H; subst. split; [repeat split|]. split; [reflexivity|]. split; [reflexivity|].
      split; [intros NE; contradiction|]. split; [reflexivity | apply SU].
    - set (known := p :: l) in *. set (U := set_of (map fst known)) in *.
      destruct (vt && negb (forallb (value_ok (options s)) known)) eqn:EP.
      + intros H; inversion H; subst. split; [repeat split|]. now left.
      + destruct (assign known (options s)) as [o1 b] eqn:EA. destruct b.
        * destruct (changed_send behave nested U (set_options o1 s)) as [s2 r2] eqn:E2.
          apply (notify_spec _ _ NR) in E2 as (evs & -> & Sh2 & In2 & R2). simpl in *.
          destruct r2 as [|e2].
          -- intros H; inversion H; subst s' r; clear H. destruct R2 as [O1 O2]. simpl.
             split; [repeat split|]. split; [reflexivity|]. split; [discriminate|].
             split; [intros _; exists evs; repeat split; assumption|]. split; [|exact (SU (map fst known))].
             (* every known name holds the last value given for it *)
             intros n. rewrite (assign_values known (options s) o1 EA n). change (rev l ++ [p]) with (rev known).
             destruct (dget n (rev known)) as [v|] eqn:E; [|reflexivity].
             apply dget_In, in_rev in E. rewrite <- EK in E. apply filter_In in E as [_ E].
             unfold is_known in E; simpl in E. now rewrite E.
          -- destruct R2 as [-> _]. cbn iota.
             destruct (changed_send behave nested U _) as [s4 r4] eqn:E4.
             apply (notify_spec _ _ NR) in E4 as (evs4 & -> & Sh4 & _ & R4). simpl in *.
             (* a refusal of the re-notification is again an OptionsError *)
             destruct r4 as [|e4]; [|destruct R4 as [-> R4]]; intros H; inversion H; subst s' r; clear H.
             all: split; [repeat split|]; exists o1, evs, evs4; simpl; repeat split; try assumption; intros Hall.
             ++ apply R4.
             ++ rewrite R4 in Hall. discriminate.
        * intros H; inversion H; subst; clear H. split; [repeat split|].
          destruct vt.
          -- exfalso. simpl in EP. apply negb_false_iff in EP.
             pose proof (assign_never_fails known (options s) EP) as Hn.
             rewrite EA in Hn. discriminate.
          -- right. split; [reflexivity|]. split; [reflexivity|]. exists o1. split; reflexivity.
  Qed.

  Definition atomic_guard (e : err) : Prop := (e = ETypeError -> vt = true) /\ (e = EKeyError -> vu = true).

  Lemma update_known_rejected kw s s' e :
    update_known behave vt nested kw s = (s', UErr e) -> (e = ETypeError -> vt = true) ->
    restored (options s) (options s') /\ deferred s' = deferred s.
  Proof.
    intros H G. apply update_known_spec in H. destruct H as [[Hd _] H].
    split; [|exact Hd].
    destruct e; try contradiction.
    - destruct H as [->|[Hv _]]; [apply restored_refl|]. rewrite (G eq_refl) in Hv. discriminate.
    - destruct H as [o1 [first [second [_ [-> _]]]]]. apply restored_deepcopy.
  Qed.

  Lemma update_rejected kw s s' e :
    update behave vt vu nested kw s = (s', RErr e) -> atomic_guard e ->
    restored (options s) (options s') /\ deferred s' = deferred s.
  Proof.
    unfold update. intros H [G1 G2].
    destruct (vu && negb (forallb (is_known (options s)) kw)) eqn:EP.
    - inversion H; subst. split; [apply restored_refl | reflexivity].
    - destruct (update_known behave vt nested kw s) as [s1 [u|e1]] eqn:EU.
      + destruct u as [|p u]; [discriminate|]. inversion H; subst s1 e; clear H.
        exfalso. rewrite (G2 eq_refl) in EP. simpl in EP. apply negb_false_iff in EP.
        apply update_known_spec in EU. destruct EU as [_ [EU _]].
        assert (I : In p (p :: u)) by (left; reflexivity). rewrite EU in I. apply filter_In in I as [I N].
        rewrite forallb_forall in EP. rewrite (EP p I) in N. discriminate.
      + inversion H; subst s1 e1; clear H. eapply update_known_rejected; eassumption.
  Qed.

  Definition updateish (o : op) : bool :=
    match o with
    | UpdateKnown _ | Update _ | UpdateDefer _ | Setattr _ _ | SetSpecs _ _ | ProcessDeferred => true
    | _ => false
    end.

  (* a rejected update-like call has changed nothing at all, or it is a rejected update_known or update, made in
     a state with the same options and log -- in s itself, unless the call is set with defer, which has stored the
     unknown names first *)
  Lemma rejected_step_cases o s s' e :
    updateish o = true -> step behave vt vu nested o s = (s', RErr e) ->
    s' = s \/ exists kw s0,
      (update_known behave vt nested kw s0 = (s', UErr e) \/ update behave vt vu nested kw s0 = (s', RErr e))
      /\ options s0 = options s /\ log s0 = log s /\ ((forall specs, o <> SetSpecs specs true) -> s0 = s).
  Proof.
    intros U H. destruct o; simpl in U; try discriminate; simpl in H.
    - destruct (update_known behave vt nested kw s) as [s1 [u|e1]] eqn:EU; [discriminate|].
      inversion H; subst s1 e1. right. exists kw, s. auto.
    - right. exists kw, s. auto.
    - unfold update_defer in H.
      destruct (update_known behave vt nested kw s) as [s1 [u|e1]] eqn:EU; [discriminate|].
      inversion H; subst s1 e1. right. exists kw, s. auto.
    - unfold setattr in H. destruct (options s) eqn:E; [discriminate|]. rewrite <- E. right. exists [(n, v)], s. auto.
    - unfold set_specs in H.
      destruct (parse_known (group_specs specs) (options s)) as [processed|e1]; [|inversion H; left; reflexivity].
      destruct defer.
      + right. do 2 eexists. split; [right; exact H|]. repeat split. intros ND. destruct (ND specs eq_refl).
      + destruct (filter (fun p => negb (dmem (fst p) (options s))) (group_specs specs)).
        * right. exists processed, s. auto.
        * inversion H. left. reflexivity.
    - unfold process_deferred in H.
      destruct (collect_deferred (deferred s) (options s)) as [upd|e1]; [|inversion H; left; reflexivity].
      destruct (update behave vt vu nested upd s) as [s1 r1] eqn:EU.
      destruct r1 as [|u|e1]; [discriminate | discriminate |].
      inversion H; subst s1 e1. right. exists upd, s. auto.
  Qed.

  (* a rejected update-like call leaves every option at its previous value and, set with defer apart, keeps the
     deferred values *)
  Theorem rejected_restores o s s' e :
    updateish o = true -> step behave vt vu nested o s = (s', RErr e) -> atomic_guard e ->
    restored (options s) (options s') /\ ((forall specs, o <> SetSpecs specs true) -> deferred s' = deferred s).
  Proof.
    intros U H G. destruct (rejected_step_cases o s s' e U H) as [-> | (kw & s0 & H0 & <- & _ & E)].
    - split; [apply restored_refl | reflexivity].
    - assert (R : restored (options s0) (options s') /\ deferred s' = deferred s0)
        by (destruct H0 as [H0|H0]; [eapply update_known_rejected | eapply update_rejected]; eauto; apply G).
      split; [apply R | intros ND; rewrite <- (E ND); apply R].
  Qed.

  (* after a rejection the listeners are re-notified and end up having seen the restored state *)
  Definition renotified (s s' : state) : Prop :=
    exists delta, log s' = delta ++ log s /\
      (forallb ev_ok (newer_than_errored delta) = true ->
       forall l, In l (listeners delta) -> last_seen l (log s') = Some (snapshot (options s'))).

  Lemma renotified_same_log s s' : log s' = log s -> renotified s s'.
  Proof. intros H. exists []. split; [exact H|]. intros _ l []. Qed.

  Lemma update_known_renotified kw s s' e :
    update_known behave vt nested kw s = (s', UErr e) -> renotified s s'.
  Proof.
    intros H. apply update_known_spec in H. destruct H as [_ H].
    destruct e; try contradiction.
    - destruct H as [->|[_ [HL _]]]; now apply renotified_same_log.
    - destruct H as [o1 [first [second [_ [_ [HL [Sh1 [Sh2 [Inc Full]]]]]]]]].
      exists (second ++ Errored :: first). split; [rewrite HL, <- app_assoc; reflexivity|].
      rewrite (newer_than_errored_app _ _ _ _ Sh2), app_nil_r. intros Hall l Hin.
      rewrite HL. eapply last_seen_app_shows; [exact Sh2|].
      apply in_rev. rewrite (Full Hall).
      rewrite listeners_app in Hin. apply in_app_or in Hin as [Hin|Hin].
      + apply in_rev in Hin. now rewrite (Full Hall) in Hin.
      + apply Inc. exact Hin.
  Qed.

  Lemma update_renotified kw s s' :
    update behave vt vu nested kw s = (s', RErr EOptionsError) -> renotified s s'.
  Proof.
    unfold update. intros H.
    destruct (vu && negb (forallb (is_known (options s)) kw)); [discriminate|].
    destruct (update_known behave vt nested kw s) as [s1 [u|e1]] eqn:EU.
    - destruct u; discriminate.
    - inversion H; subst. eapply update_known_renotified; eassumption.
  Qed.

  Theorem rejected_renotifies o s s' :
    updateish o = true -> step behave vt vu nested o s = (s', RErr EOptionsError) -> renotified s s'.
  Proof.
    intros U H. destruct (rejected_step_cases o s s' _ U H) as [-> | (kw & s0 & H0 & _ & El & _)].
    - now apply renotified_same_log.
    - assert (R : renotified s0 s')
        by (destruct H0 as [H0|H0]; [eapply update_known_renotified | eapply update_renotified]; eassumption).
      unfold renotified in *. rewrite <- El. exact R.
  Qed.

End Main.

Local Open Scope N_scope.

(* listeners and histories of the concrete counterexamples and samples of Props/C44.v *)
Definition always_ok (l : N) (s : state) (u : list name) : reaction := Accept.

Definition two_options : list op :=
  [AddOption 0 (TBase BInt) (VInt 0%Z); AddOption 1 (TBase BStr) (VStr [])].

(* listener 0 accepts only while the log is empty; listener 1 refuses the value 9.  update(o0=9): listener 0
   accepts, listener 1 refuses, rollback, listener 0 refuses the re-notification, so listener 1 is never told
   that o0 is 0 again. *)
Definition fussy (l : N) (s : state) (u : list name) : reaction :=
  if N.eqb l 0 then match log s with [] => Accept | _ => Reject end
  else match lookup (options s) 0 with Some (VInt 9%Z) => Reject | _ => Accept end.

Definition fussy_setup : list op :=
  [AddOption 0 (TBase BInt) (VInt 0%Z); Connect 0; Connect 1].

Definition picky (l : N) (s : state) (u : list name) : reaction :=
  match lookup (options s) 0 with Some (VInt 9%Z) => Reject | _ => Accept end.

Lemma picky_nr : non_reentrant picky.
Proof.
  intros l s u kw. unfold picky.
  repeat match goal with |- context [match ?x with _ => _ end] => destruct x end; discriminate.
Qed.

(* a re-entrant listener: listener 0 answers o0 = 9 with a nested update(o1 = 1080); listener 1 then refuses
   o0 = 9 *)
Definition dependent (l : N) (s : state) (u : list name) : reaction :=
  match lookup (options s) 0 with
  | Some (VInt 9%Z) =>
      if N.eqb l 0
      then (if nmem 0 u then Nested [(1, VInt 1080%Z)] else Accept)
      else (if nmem 0 u then Reject else Accept)
  | _ => Accept
  end.

Lemma somes_app {A} (a b : list (option A)) : somes (a ++ b) = somes a ++ somes b.
Proof. induction a as [|[x|] t IH]; simpl; [reflexivity | now rewrite IH | exact IH]. Qed.

Lemma somes_kill l rs : somes (map (kill l) rs) = filter (fun x => negb (N.eqb x l)) (somes rs).
Proof.
  induction rs as [|[x|] t IH]; simpl; [reflexivity | | exact IH].
  destruct (N.eqb x l); simpl; [exact IH | now rewrite IH].
Qed.

Lemma somes_kill_subs l u subs :
  somes (map fst (filter (fun p => intersects (snd p) u) (map (fun p : option N * list name => (kill l (fst p), snd p)) subs)))
  = filter (fun x => negb (N.eqb x l)) (somes (map fst (filter (fun p => intersects (snd p) u) subs))).
Proof.
  induction subs as [|[[x|] o] t IH]; simpl; [reflexivity | |].
  - destruct (intersects o u); simpl; [|exact IH].
    destruct (N.eqb x l); simpl; [exact IH | now rewrite IH].
  - destruct (intersects o u); simpl; exact IH.
Qed.

Definition purge (s : state) : state :=
  mkState (options s) (deferred s)
          (filter (fun p => match fst p with Some _ => true | None => false end) (subscriptions s))
          (filter (fun e => match e with Some _ => true | None => false end) (receivers s)) (log s).

Lemma somes_filter_some {A} (l : list (option A)) :
  somes (filter (fun e => match e with Some _ => true | None => false end) l) = somes l.
Proof. induction l as [|[x|] t IH]; simpl; [reflexivity | now rewrite IH | exact IH]. Qed.

(* a send calls exactly the live callables: dead entries, wherever they sit, change nothing *)
Lemma targets_ignore_dead s u : targets (purge s) u = targets s u.
Proof.
  unfold targets, purge; simpl. rewrite somes_filter_some. f_equal.
  induction (subscriptions s) as [|[[x|] o] t IH]; simpl; [reflexivity | |].
  - destruct (intersects o u); simpl; [now rewrite IH | exact IH].
  - destruct (intersects o u); simpl; exact IH.
Qed.

Lemma targets_live_iff s u l :
  In l (targets s u) <->
  (exists o, In (Some l, o) (subscriptions s) /\ intersects o u = true) \/ In (Some l) (receivers s).
Proof.
  unfold targets. rewrite in_app_iff.
  assert (HS : forall rs : list (option N), In l (somes rs) <-> In (Some l) rs).
  { induction rs as [|[x|] t IH]; simpl; [tauto | |].
    - rewrite IH. split; intros [H|H]; auto; left; congruence.
    - rewrite IH. split; [auto | intros [H|H]; [discriminate | exact H]]. }
  rewrite !HS. apply or_iff_compat_r. rewrite in_map_iff. split.
  - intros [[x o] [E H]]. simpl in E; subst x. apply filter_In in H as [H1 H2]. exists o. auto.
  - intros [o [H1 H2]]. exists (Some l, o). split; [reflexivity|]. apply filter_In. auto.
Qed.

(* dropping listener l removes exactly its calls; every other live callable keeps its place and multiplicity *)
Lemma drop_targets l s u :
  targets (fst (drop l s)) u = filter (fun x => negb (N.eqb x l)) (targets s u).
Proof.
  unfold targets, drop; simpl. rewrite filter_app, somes_kill, somes_kill_subs. reflexivity.
Qed.
