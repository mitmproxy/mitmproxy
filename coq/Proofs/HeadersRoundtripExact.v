(* Proofs/HeadersRoundtripExact.v -- converse of the round trip for LF-free fields: if names and
   values contain no LF, the HTTP/1 round trip returns the same fields ONLY IF every field is valid.
   Together with Proofs/HeadersRoundtrip.v: for LF-free fields, round trip <-> valid. *)
From Coq Require Import List Bool Arith NArith Lia.
From MV Require Import Base.Bytes Model.Headers Proofs.ListFacts Proofs.HeadersRoundtrip.
Import ListNotations.

Lemma lstrip_head s : match lstrip s with [] => true | c :: _ => negb (is_ws c) end = true.
Proof.
  induction s as [|c s IH]; [reflexivity|]. simpl.
  destruct (is_ws c) eqn:E; [exact IH | rewrite E; reflexivity].
Qed.

Lemma lstrip_suffix s : exists p, s = p ++ lstrip s.
Proof.
  induction s as [|c s [p IH]]; [exists []; reflexivity|]. simpl.
  destruct (is_ws c); [exists (c :: p); simpl; f_equal; exact IH | exists []; reflexivity].
Qed.

Lemma strip_ends s v : strip s = v ->
  match v with [] => true | c :: _ => negb (is_ws c) end = true
  /\ match rev v with [] => true | c :: _ => negb (is_ws c) end = true.
Proof.
  intros <-. unfold strip, rstrip. split.
  - destruct (lstrip_suffix (rev (lstrip s))) as [p Hp].
    apply (f_equal (@rev byte)) in Hp. rewrite rev_involutive, rev_app_distr in Hp.
    pose proof (lstrip_head s) as Hh. rewrite Hp in Hh.
    destruct (rev (lstrip (rev (lstrip s)))); [reflexivity | exact Hh].
  - rewrite rev_involutive. apply lstrip_head.
Qed.

Lemma split_colon_spec s : forall a b,
  split_colon s = Some (a, b) ->
  s = a ++ x3a :: b /\ forallb (fun c => negb (byte_eqb c x3a)) a = true.
Proof.
  induction s as [|c s IH]; intros a b H; simpl in H; [discriminate|].
  destruct (byte_eqb c x3a) eqn:E.
  - inversion H; subst. apply byte_eqb_eq in E. subst c. split; reflexivity.
  - destruct (split_colon s) as [[a' b']|]; [|discriminate]. inversion H; subst.
    destruct (IH a' b eq_refl) as [H1 H2]. subst s. split; [reflexivity|].
    simpl. rewrite E, H2. reflexivity.
Qed.

Lemma set_last_length {A} (a : A) l x : length (removelast (a :: l) ++ [x]) = length (a :: l).
Proof.
  revert a. induction l as [|b l IH]; intros a; [reflexivity|].
  change (removelast (a :: b :: l)) with (a :: removelast (b :: l)).
  simpl. simpl in IH. rewrite IH. reflexivity.
Qed.

Lemma loop_length lines : forall acc r,
  read_headers_loop lines acc = RhOk r -> length r <= length acc + length lines.
Proof.
  induction lines as [|line lines IH]; intros acc r H; simpl in H.
  - inversion H; subst. lia.
  - destruct line as [|c line]; [discriminate|].
    destruct (byte_eqb c x20 || byte_eqb c x09).
    + destruct acc as [|a acc]; [discriminate|]. apply IH in H. rewrite set_last_length in H.
      simpl in *. lia.
    + destruct (split_colon (c :: line)) as [[name value]|]; [|discriminate].
      destruct name; [discriminate|]. apply IH in H. rewrite app_length in H. simpl in *. lia.
Qed.

(* what the parser makes of a line that is not a continuation line *)
Definition parse_line (line : bytes) : field :=
  match split_colon line with Some (n, v) => (n, strip v) | None => ([], []) end.
(* the line adds a field of its own: no leading SP/TAB, a colon, a non-empty name before it *)
Definition own_field (line : bytes) : Prop :=
  match line with [] => False | c :: _ => byte_eqb c x20 || byte_eqb c x09 = false end
  /\ fst (parse_line line) <> [].

(* A continuation line is folded into the last field, so the result has one field per line only if
   every line adds its own; the result is then the fields parsed line by line. *)
Lemma loop_full lines : forall acc r,
  read_headers_loop lines acc = RhOk r -> length r = length acc + length lines ->
  r = acc ++ map parse_line lines /\ Forall own_field lines.
Proof.
  induction lines as [|line lines IH]; intros acc r H Hl; simpl in H.
  - inversion H. rewrite app_nil_r. split; [reflexivity | constructor].
  - destruct line as [|c line]; [discriminate|].
    destruct (byte_eqb c x20 || byte_eqb c x09) eqn:Ec.
    + destruct acc as [|a acc]; [discriminate|]. apply loop_length in H.
      rewrite set_last_length in H. simpl in *. lia.
    + destruct (split_colon (c :: line)) as [[[|n0 name] value]|] eqn:Es; try discriminate.
      destruct (IH _ _ H) as [-> HF]; [rewrite app_length; simpl in *; lia|].
      assert (Ep : parse_line (c :: line) = (n0 :: name, strip value)) by (unfold parse_line; rewrite Es; reflexivity).
      cbn [map]. rewrite Ep, <- app_assoc. split; [reflexivity|]. constructor; [|exact HF].
      split; [exact Ec | rewrite Ep; discriminate].
Qed.

Definition lf_free (f : field) : bool := no_lf (fst f) && no_lf (snd f).

Lemma own_field_valid n v :
  lf_free (n, v) = true -> own_field (line_of (n, v)) -> parse_line (line_of (n, v)) = (n, v) ->
  valid_field (n, v) = true.
Proof.
  unfold lf_free, own_field, line_of. cbn [fst snd].
  intros Hlf [Ec Hne] Hp. rewrite Hp in Hne. cbn [fst] in Hne.
  apply andb_true_iff in Hlf as [Hn Hv]. unfold parse_line in Hp.
  destruct (split_colon (n ++ COLON_SP ++ v)) as [[a b]|] eqn:Es; [|inversion Hp; congruence].
  apply split_colon_spec in Es as [Es Hnc]. injection Hp as Ha Hb. subst a.
  apply app_inv_head in Es. injection Es as Eb. subst b.
  destruct n as [|c n]; [congruence|]. cbn [app] in Ec.
  unfold valid_field, valid_name, valid_value. cbn [fst snd]. rewrite Ec. cbn [negb andb].
  destruct (strip_ends _ _ Hb) as [S1 S2].
  unfold no_lf in Hv, Hn. rewrite Hv, S1, S2, andb_true_r.
  pose proof (conj Hnc Hn) as Hboth. rewrite <- andb_true_iff, <- forallb_andb in Hboth. revert Hboth. apply forallb_impl.
  intros x Hx. apply andb_true_iff in Hx as [H1 H2].
  apply negb_true_iff in H1. apply negb_true_iff in H2. rewrite H1, H2. reflexivity.
Qed.

Lemma read_headers_loop_only_valid fs :
  forallb lf_free fs = true -> read_headers_loop (map line_of fs) [] = RhOk fs ->
  forallb valid_field fs = true.
Proof.
  intros Hlf H. destruct (loop_full _ _ _ H) as [E HF]; [rewrite map_length; reflexivity|].
  rewrite app_nil_l, map_map in E. rewrite <- (map_id fs) in E at 1.
  rewrite Forall_map, Forall_forall in HF. rewrite forallb_forall in *.
  intros [n v] Hin. apply own_field_valid; [apply Hlf, Hin | apply HF, Hin |].
  symmetry. exact (proj1 map_ext_in_iff E _ Hin).
Qed.

Theorem roundtrip_exact : forall fs,
  forallb lf_free fs = true ->
  (read_back fs = Some (RhOk fs) <-> forallb valid_field fs = true).
Proof.
  intros fs Hlf. split; [|apply roundtrip].
  rewrite (read_back_lines fs Hlf). intros H. inversion H as [H'].
  exact (read_headers_loop_only_valid fs Hlf H').
Qed.
