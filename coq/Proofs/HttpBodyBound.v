(* Proofs/HttpBodyBound.v -- the memory bound: with body_size_limit = L (L >= 0), in every reachable state of a
   stream each body buffer holds at most L bytes plus the largest chunk received so far; while a body is merely
   buffered (the state_consume states) it holds at most L bytes.  Bytes kept on request by store_streamed_bodies while a
   body is streamed are the only exception, and are excluded by hypothesis. *)
From Coq Require Import List Bool NArith ZArith Lia.
From MV Require Import Base.Bytes Model.HttpBody Proofs.HttpBodyBase Proofs.HttpBodyLimit Proofs.HttpBodySteps.
Import ListNotations.
Open Scope Z_scope.

Definition req_len (e : event) : Z := match e with ReqData d => blen d | _ => 0 end.
Definition resp_len (e : event) : Z := match e with RespData d => blen d | _ => 0 end.
Fixpoint max_req (evs : list event) : Z :=
  match evs with [] => 0 | e :: r => Z.max (req_len e) (max_req r) end.
Fixpoint max_resp (evs : list event) : Z :=
  match evs with [] => 0 | e :: r => Z.max (resp_len e) (max_resp r) end.

Lemma req_len_nonneg e : 0 <= req_len e.
Proof. destruct e; cbn; try lia; apply blen_nonneg. Qed.
Lemma resp_len_nonneg e : 0 <= resp_len e.
Proof. destruct e; cbn; try lia; apply blen_nonneg. Qed.
Lemma max_req_nonneg evs : 0 <= max_req evs.
Proof. induction evs; cbn; lia. Qed.
Lemma max_resp_nonneg evs : 0 <= max_resp evs.
Proof. induction evs; cbn; lia. Qed.

Section Bound.
Variable S : Type.
Variable fq fs : S -> bytes -> S * sres.
Variable cfg : config.
Variable L : Z.
Hypothesis HL : parse_size (o_limit cfg) = PVal L.
Hypothesis HL0 : 0 <= L.

Notation st := (st S).
Notation handle_event := (handle_event S fq fs cfg).
Notation run := (run S fq fs cfg).
Notation own_state := (own_state S).
Notation own_buf := (own_buf S).

(* One side of the stream (r = true: the request).  M: the largest chunk received so far.  Only a rejected body
   (Errored) may exceed the limit, by the chunk that made it too large. *)
Definition side_inv (r : bool) (M : Z) (s : st) : Prop :=
  match own_state r s with
  | Uninit | WaitHeaders | Done => own_buf r s = []
  | Consume => blen (own_buf r s) <= L
  | Streaming => o_store cfg = false -> own_buf r s = []
  | Errored => o_store cfg = false -> blen (own_buf r s) <= L + M
  end.
(* the third clause: the request head finds the response side untouched, so resetting it to WaitHeaders keeps
   its buffer empty; it also rules out response events before the request head *)
Definition inv (Mq Ms : Z) (s : st) : Prop :=
  side_inv true Mq s /\ side_inv false Ms s /\ (client_state s = WaitHeaders -> server_state s = Uninit).

Lemma side_inv_weak r M s : 0 <= M -> side_inv r M s -> o_store cfg = false -> blen (own_buf r s) <= L + M.
Proof.
  unfold side_inv. intros HM H ST. destruct (own_state r s); try (rewrite H; rewrite ?blen_nil; lia); auto; try lia.
  rewrite (H ST), blen_nil. lia.
Qed.

Lemma side_inv_nil r M s : 0 <= M -> own_buf r s = [] -> side_inv r M s.
Proof. unfold side_inv. intros HM ->. rewrite blen_nil. destruct (own_state r s); auto; intros; lia. Qed.

Lemma side_inv_keep r M M' s s' : 0 <= M <= M' ->
  own_buf r s' = own_buf r s -> (own_state r s' = own_state r s \/ own_state r s' = Errored) ->
  side_inv r M s -> side_inv r M' s'.
Proof.
  intros HM HB [HC|HC] H.
  - unfold side_inv in *. rewrite HC, HB. destruct (own_state r s); auto. intros ST. specialize (H ST). lia.
  - pose proof (side_inv_weak r M s (proj1 HM) H) as W. unfold side_inv. rewrite HC, HB. intros ST. specialize (W ST). lia.
Qed.

(* a buffer that check_body_size has let pass is within the limit *)
Lemma side_bound (buf : bytes) :
  (nonempty buf = true -> truthy_opts cfg = true -> over (parse_size (o_limit cfg)) (blen buf) = false) ->
  blen buf <= L.
Proof.
  intros H. destruct (nonempty buf) eqn:NE.
  - unfold truthy_opts in H. rewrite (limit_truthy cfg L HL), orb_true_r, HL in H.
    apply Z.ltb_ge. exact (H eq_refl eq_refl).
  - apply nonempty_false in NE. subst. rewrite blen_nil. exact HL0.
Qed.

Lemma side_inv_own r (s s' : st) e c M M' :
  0 <= M <= M' -> blen (data_of e) <= M' ->
  outcome S cfg r s s' e c -> side_inv r M s -> side_inv r M' s'.
Proof.
  intros HM HD O I. destruct O as [E C1 _ _ B1|_ C1 _ B1|_ C1 _ _ B1 SIDE|NE _ C1 B0 B1|C0 -> _].
  - (* rejected: what was buffered was within the limit *)
    assert (BQ : blen (own_buf r s) <= L).
    { unfold side_inv in I. destruct E as [E|[E|E]]; rewrite E in I; cbv iota in I;
        [rewrite I, blen_nil; exact HL0..|exact I]. }
    unfold side_inv. rewrite C1, B1, blen_app. intros _. lia.
  - apply side_inv_nil; [lia|exact B1].
  - unfold side_inv. rewrite C1. apply side_bound. exact SIDE.
  - assert (BS : o_store cfg = false -> own_buf r s' = []).
    { intros ST. destruct (B0 ST) as [X|(C0 & X)]; [exact X|]. rewrite X.
      unfold side_inv in I. rewrite C0 in I. exact (I ST). }
    unfold side_inv. destruct C1 as [C1|C1]; rewrite C1; [exact BS|].
    destruct (o_store cfg) eqn:ST; auto.
  - apply (side_inv_keep r M _ s); auto.
Qed.

Lemma side_inv_other r (s s' : st) c M M' :
  0 <= M <= M' -> frame S r s s' c ->
  (r = true -> own_state r s = WaitHeaders -> own_buf (negb r) s = []) ->
  side_inv (negb r) M s -> side_inv (negb r) M' s'.
Proof.
  intros HM (B & _ & _ & [C1|[C1|(R & C0 & _)]] & _) W I.
  - apply (side_inv_keep _ M _ s); auto.
  - apply (side_inv_keep _ M _ s); auto.
  - apply side_inv_nil; [lia|]. rewrite B. exact (W R C0).
Qed.

Theorem inv_step (s s' : st) e c Mq Ms :
  0 <= Mq -> 0 <= Ms ->
  handle_event s e = Some (s', c) -> inv Mq Ms s ->
  inv (Z.max Mq (req_len e)) (Z.max Ms (resp_len e)) s'.
Proof.
  intros HMq HMs H (IQ & IS & IC).
  pose proof (req_len_nonneg e) as Nq. pose proof (resp_len_nonneg e) as Ns.
  assert (WQ : client_state s = WaitHeaders -> request_body_buf s = []).
  { intros CW. unfold side_inv in IQ. cbn in IQ. rewrite CW in IQ. exact IQ. }
  assert (WS : server_state s = WaitHeaders -> response_body_buf s = []).
  { intros SW. unfold side_inv in IS. cbn in IS. rewrite SW in IS. exact IS. }
  destruct (step_sides S fq fs cfg s s' e c H WQ WS) as (F & O).
  destruct (is_request_event e) eqn:RQ.
  - split; [|split].
    + apply (side_inv_own true s s' e c Mq); auto; [lia|]. destruct e; try discriminate RQ; cbn; lia.
    + apply (side_inv_other true s s' c Ms); auto; [lia|]. cbn. intros _ CW.
      unfold side_inv in IS. cbn in IS. rewrite (IC CW) in IS. exact IS.
    + intros CW. destruct (outcome_not_waiting S cfg _ _ _ _ _ O (or_intror CW)).
  - split; [|split].
    + apply (side_inv_other false s s' c Mq); auto; [lia|]. discriminate.
    + apply (side_inv_own false s s' e c Ms); auto; [lia|]. destruct e; try discriminate RQ; cbn; lia.
    + intros CW. assert (C0 : client_state s = WaitHeaders).
      { destruct F as (_ & _ & _ & [C1|[C1|(X & _)]] & _); cbn in *;
          [rewrite <- C1; exact CW|rewrite C1 in CW; discriminate CW|discriminate X]. }
      unfold HttpBody.handle_event in H. rewrite RQ, (IC C0) in H. discriminate H.
Qed.

Lemma inv_init q0 s0 : inv 0 0 (init S q0 s0).
Proof. unfold inv, side_inv; cbn. auto. Qed.

Theorem inv_run evs : forall (s s' : st) out cr Mq Ms,
  0 <= Mq -> 0 <= Ms -> inv Mq Ms s -> run s evs = (s', out, cr) ->
  inv (Z.max Mq (max_req evs)) (Z.max Ms (max_resp evs)) s'.
Proof.
  induction evs as [|e r IH]; intros s s' out cr Mq Ms HMq HMs I R; cbn in R.
  - injection R as <- _ _. cbn. rewrite !Z.max_l by lia. exact I.
  - pose proof (req_len_nonneg e). pose proof (resp_len_nonneg e).
    cbn [max_req max_resp]. rewrite !Z.max_assoc.
    destruct (handle_event s e) as [[s1 c1]|] eqn:HE.
    + destruct (run s1 r) as [[s2 c2] cr2] eqn:RR. injection R as <- _ _.
      eapply IH; [| |exact (inv_step _ _ _ _ _ _ HMq HMs HE I)|exact RR]; lia.
    + injection R as <- _ _. destruct I as (A & B & C).
      pose proof (max_req_nonneg r). pose proof (max_resp_nonneg r).
      split; [apply (side_inv_keep true Mq _ s); auto; lia|]. split; [apply (side_inv_keep false Ms _ s); auto; lia|exact C].
Qed.

(* the bound, for every history from the initial state, every prefix being a history itself *)
Theorem buffer_bound q0 s0 evs (s : st) out cr :
  run (init S q0 s0) evs = (s, out, cr) ->
  (* while buffering, never more than the limit *)
  (client_state s = Consume -> blen (request_body_buf s) <= L)
  /\ (server_state s = Consume -> blen (response_body_buf s) <= L)
  (* in every state: the limit plus one received chunk, unless streamed bytes are kept on request *)
  /\ (o_store cfg = false ->
      blen (request_body_buf s) <= L + max_req evs /\ blen (response_body_buf s) <= L + max_resp evs)
  (* streamed without buffering *)
  /\ (o_store cfg = false -> client_state s = Streaming -> request_body_buf s = [])
  /\ (o_store cfg = false -> server_state s = Streaming -> response_body_buf s = [])
  (* nothing is held before the head and after the message is complete *)
  /\ (client_state s = WaitHeaders \/ client_state s = Done -> request_body_buf s = [])
  /\ (server_state s = WaitHeaders \/ server_state s = Done -> response_body_buf s = []).
Proof.
  intros R. pose proof (inv_run evs _ _ _ _ 0 0 (Z.le_refl 0) (Z.le_refl 0) (inv_init q0 s0) R) as (A & B & _).
  pose proof (max_req_nonneg evs) as Nq. pose proof (max_resp_nonneg evs) as Ns.
  rewrite !Z.max_r in * by lia.
  pose proof (side_inv_weak true _ s Nq A) as WA. pose proof (side_inv_weak false _ s Ns B) as WB.
  unfold side_inv in A, B. cbn [HttpBodySteps.own_state HttpBodySteps.own_buf] in *.
  split; [intros C; rewrite C in A; exact A|]. split; [intros C; rewrite C in B; exact B|].
  split; [auto|].
  split; [intros ST C; rewrite C in A; auto|]. split; [intros ST C; rewrite C in B; auto|].
  split; intros [C|C]; rewrite C in *; assumption.
Qed.

End Bound.
