(* Proofs/StickyCookieSpec.v -- RFC 6265 5.1.3 / 5.1.4 / 5.2.3 written independently of the code, and the
   proofs that the predicates of stickycookie.py (Fixed variant in full, Orig variant outside the
   findings) imply them. *)
From Coq Require Import List Bool Arith NArith Lia.
From MV Require Import Base.Bytes Model.StickyCookie Proofs.ListFacts.
Import ListNotations.

Definition COLON : byte := x3a.
Definition is_hex (c : byte) : bool :=
  is_digit c || ((97 <=? bN c) && (bN c <=? 102))%N || ((65 <=? bN c) && (bN c <=? 70))%N.
Definition is_digits (g : str) : Prop := g <> [] /\ Forall (fun c => is_digit c = true) g.
(* dotted quad *)
Definition is_ipv4 (s : str) : Prop :=
  exists g1 g2 g3 g4, s = g1 ++ DOT :: g2 ++ DOT :: g3 ++ DOT :: g4
    /\ is_digits g1 /\ is_digits g2 /\ is_digits g3 /\ is_digits g4.
(* hex groups and colons up to the last colon, then a hex group or a dotted quad *)
Definition is_ipv6 (s : str) : Prop :=
  exists pre tail, s = pre ++ COLON :: tail
    /\ Forall (fun c => is_hex c = true \/ c = COLON) pre
    /\ (Forall (fun c => is_hex c = true) tail \/ is_ipv4 tail).
Definition is_ip_address (s : str) : Prop := is_ipv4 s \/ is_ipv6 s.

(* RFC 6265 5.1.3: string s domain-matches domain string d (both canonicalised) *)
Definition rfc_domain_match (s d : str) : Prop :=
  s = d \/ ((exists n, s = n ++ DOT :: d) /\ ~ is_ip_address s).
(* RFC 6265 5.2.3: the cookie-domain of a Domain attribute: lower case, one leading dot removed *)
Definition rfc_cookie_domain (attr : str) : str :=
  match lower attr with c :: r => if byte_eqb c DOT then r else c :: r | [] => [] end.
(* RFC 6265 5.1.4: request-path rp path-matches cookie-path cp *)
Definition rfc_path_match (rp cp : str) : Prop :=
  rp = cp \/ exists rest, rp = cp ++ rest /\ rest <> []
                          /\ ((exists p, cp = p ++ [SLASH]) \/ exists r, rest = SLASH :: r).
(* u is the path part of request target t: everything before the first question mark *)
Definition uri_path_of (u t : str) : Prop :=
  ~ In QMARK u /\ (t = u \/ exists q, t = u ++ QMARK :: q).

Lemma ends_with_spec suf s : ends_with suf s = true -> exists n, s = n ++ suf.
Proof.
  induction s as [|y s IH]; simpl; intros H.
  - rewrite orb_false_r in H. apply bytes_eqb_eq in H. subst. exists []; reflexivity.
  - apply orb_true_iff in H as [H|H].
    + apply bytes_eqb_eq in H. subst. exists []; reflexivity.
    + destruct (IH H) as [n ->]. exists (y :: n); reflexivity.
Qed.

Lemma ends_with_complete n suf : ends_with suf (n ++ suf) = true.
Proof.
  induction n as [|x n IH]; simpl.
  - destruct suf; simpl; [reflexivity|]. rewrite byte_eqb_refl, bytes_eqb_refl. reflexivity.
  - rewrite IH. apply orb_true_r.
Qed.

Lemma skip_digits_app ds c r :
  Forall (fun c => is_digit c = true) ds -> is_digit c = false ->
  skip_digits (ds ++ c :: r) = c :: r.
Proof.
  intros H Hc. induction H as [|d ds Hd _ IH]; simpl.
  - rewrite Hc. reflexivity.
  - rewrite Hd. exact IH.
Qed.

Lemma dot_digits_end_app p g : is_digits g -> dot_digits_end (p ++ DOT :: g) = true.
Proof.
  intros [Hne Hg]. unfold dot_digits_end.
  rewrite rev_app_distr. simpl rev. rewrite <- app_assoc. simpl app.
  assert (Hr : Forall (fun c => is_digit c = true) (rev g)) by (apply Forall_rev, Hg).
  rewrite (skip_digits_app _ DOT _ Hr eq_refl). simpl first_is.
  destruct (rev g) as [|c r] eqn:E.
  - exfalso. apply Hne. rewrite <- (rev_involutive g), E. reflexivity.
  - simpl. inversion Hr; subst. assumption.
Qed.

Lemma ipv4_dot_digits_end p s : is_ipv4 s -> dot_digits_end (p ++ s) = true.
Proof.
  intros (g1 & g2 & g3 & g4 & -> & _ & _ & _ & H4).
  replace (p ++ g1 ++ DOT :: g2 ++ DOT :: g3 ++ DOT :: g4)
    with ((p ++ g1 ++ DOT :: g2 ++ DOT :: g3) ++ DOT :: g4).
  - apply dot_digits_end_app, H4.
  - repeat (rewrite <- app_assoc; simpl). reflexivity.
Qed.

Lemma hex_not_dot c : is_hex c = true \/ c = COLON -> c <> DOT.
Proof. intros [H|H] ->; [vm_compute in H | ]; discriminate. Qed.

Lemma ip_with_dot s : is_ip_address s -> In DOT s -> dot_digits_end s = true.
Proof.
  intros [H4 | (pre & tail & -> & Hpre & Htail)] Hdot.
  - apply (ipv4_dot_digits_end [] s H4).
  - destruct Htail as [Hhex | H4].
    + exfalso. apply in_app_or in Hdot as [Hd | [Hd | Hd]].
      * rewrite Forall_forall in Hpre. exact (hex_not_dot _ (Hpre _ Hd) eq_refl).
      * discriminate.
      * rewrite Forall_forall in Hhex. exact (hex_not_dot _ (or_introl (Hhex _ Hd)) eq_refl).
    + replace (pre ++ COLON :: tail) with ((pre ++ [COLON]) ++ tail)
        by (rewrite <- app_assoc; reflexivity).
      apply ipv4_dot_digits_end, H4.
Qed.

Lemma ip_not_dot_first r : ~ is_ip_address (DOT :: r).
Proof.
  intros [(g1 & g2 & g3 & g4 & E & [Hne H1] & _) | (pre & tail & E & Hpre & _)].
  - destruct g1 as [|c g1]; [contradiction|]. inversion E; subst. inversion H1; subst. discriminate.
  - destruct pre as [|c pre]; [discriminate|]. inversion E; subst. inversion Hpre; subst.
    exact (hex_not_dot _ H1 eq_refl).
Qed.

Lemma HDN_not_dot_digits a : is_HDN a = true -> dot_digits_end a = false.
Proof.
  unfold is_HDN, ipv4_re_search. destruct (dot_digits_end a); simpl; [discriminate | reflexivity].
Qed.

Lemma cj_domain_match_inv A B : cj_domain_match A B = true ->
  lower A = lower B \/
  (is_HDN (lower A) = true /\ exists X, lower B = DOT :: X).
Proof.
  unfold cj_domain_match.
  destruct (bytes_eqb (lower A) (lower B)) eqn:E; [left; apply bytes_eqb_eq, E|].
  destruct (is_HDN (lower A)) eqn:EH; simpl; [|discriminate].
  destruct (rfind (lower A) (lower B)) as [[|i]|]; try discriminate.
  destruct (lower B) as [|c X] eqn:EB; simpl; [discriminate|].
  destruct (byte_eqb c DOT) eqn:Ec; simpl; [|discriminate].
  intros _. right. split; [reflexivity|]. apply byte_eqb_eq in Ec. subst. exists X; reflexivity.
Qed.

Lemma cj_domain_match_nodot A B : cj_domain_match A B = true -> first_is DOT (lower B) = false ->
  lower A = lower B.
Proof.
  intros H Hd. apply cj_domain_match_inv in H as [H | [_ [X HX]]]; [exact H|].
  rewrite HX in Hd. simpl in Hd. unfold DOT in Hd. rewrite byte_eqb_refl in Hd. discriminate.
Qed.

Lemma domain_match_fixed_nodot a b :
  domain_match_fixed a b = true -> first_is DOT (lower b) = false -> lower a = lower b.
Proof.
  unfold domain_match_fixed. intros H Hf.
  destruct (cj_domain_match (lower a) (lower b) && ends_with (lower b) (lower a)) eqn:E.
  - apply andb_true_iff in E as [E _]. apply cj_domain_match_nodot in E; rewrite !lower_idem in *; auto.
  - destruct (bytes_eqb (lower a) (remove_dot_prefix (lower b))) eqn:E2; [|discriminate].
    apply bytes_eqb_eq in E2. rewrite E2. unfold remove_dot_prefix. unfold first_is in Hf.
    destruct (lower b) as [|x r]; [reflexivity|]. rewrite Hf. reflexivity.
Qed.

Lemma rfc_cookie_domain_eq b : rfc_cookie_domain b = remove_dot_prefix (lower b).
Proof. unfold rfc_cookie_domain, remove_dot_prefix. destruct (lower b); reflexivity. Qed.

Lemma domain_match_fixed_rfc a b :
  domain_match_fixed a b = true -> rfc_domain_match (lower a) (rfc_cookie_domain b).
Proof.
  unfold domain_match_fixed. rewrite rfc_cookie_domain_eq.
  destruct (cj_domain_match (lower a) (lower b) && ends_with (lower b) (lower a)) eqn:E1.
  - intros _. apply andb_true_iff in E1 as [Hcj Hend].
    apply cj_domain_match_inv in Hcj. rewrite !lower_idem in Hcj.
    destruct Hcj as [Heq | [HDN [X HX]]].
    + rewrite <- Heq. destruct (lower a) as [|c r] eqn:Ea; [left; reflexivity|].
      simpl. destruct (byte_eqb c DOT) eqn:Ec; [|left; reflexivity].
      apply byte_eqb_eq in Ec; subst c. right. split.
      * exists []; reflexivity.
      * apply ip_not_dot_first.
    + apply ends_with_spec in Hend as [n Hn]. rewrite HX in *. simpl.
      right. split.
      * exists n. exact Hn.
      * intros Hip. apply ip_with_dot in Hip.
        -- rewrite (HDN_not_dot_digits _ HDN) in Hip. discriminate.
        -- rewrite Hn. apply in_or_app. right. left. reflexivity.
  - destruct (bytes_eqb (lower a) (remove_dot_prefix (lower b))) eqn:E2; [|discriminate].
    intros _. left. apply bytes_eqb_eq, E2.
Qed.

Lemma take_until_spec t : uri_path_of (take_until QMARK t) t.
Proof.
  unfold uri_path_of.
  induction t as [|x t [IHn IHe]]; simpl.
  - split; [intros []|left; reflexivity].
  - destruct (byte_eqb x QMARK) eqn:E.
    + apply byte_eqb_eq in E; subst. split; [intros []|]. right. exists t. reflexivity.
    + apply byte_eqb_neq in E. split.
      * intros [H|H]; [congruence | exact (IHn H)].
      * destruct IHe as [He | [q Hq]].
        -- left. f_equal. exact He.
        -- right. exists q. simpl. f_equal. exact Hq.
Qed.

Lemma last_is_spec c s : last_is c s = true -> exists p, s = p ++ [c].
Proof.
  unfold last_is. destruct (rev s) as [|x r] eqn:E; [discriminate|].
  intros H. apply byte_eqb_eq in H; subst x. exists (rev r).
  rewrite <- (rev_involutive s), E. reflexivity.
Qed.

(* the index request_path[len(cookie_path)] is in range whenever it is evaluated *)
Lemma path_index_in_range rp cp :
  bytes_eqb rp cp = false -> starts_with cp rp = true -> skipn (length cp) rp <> [].
Proof.
  intros Hne Hsw. apply starts_with_spec in Hsw as [r ->]. rewrite skipn_exact.
  intros ->. rewrite app_nil_r, bytes_eqb_refl in Hne. discriminate.
Qed.

Lemma path_match_fixed_rfc t cp :
  path_match_fixed t cp = true -> exists u, uri_path_of u t /\ rfc_path_match u cp.
Proof.
  unfold path_match_fixed. intros H. exists (take_until QMARK t).
  split; [apply take_until_spec|].
  set (u := take_until QMARK t) in *.
  destruct (bytes_eqb u cp) eqn:E; [left; apply bytes_eqb_eq, E|].
  destruct (starts_with cp u) eqn:Es; [|discriminate].
  pose proof (path_index_in_range _ _ E Es) as Hidx.
  apply starts_with_spec in Es as [rest Hrest]. right. exists rest.
  rewrite Hrest, skipn_exact in *. split; [reflexivity|]. split; [exact Hidx|].
  apply orb_true_iff in H as [H|H].
  - left. apply last_is_spec, H.
  - right. destruct rest as [|c r]; [discriminate|]. apply byte_eqb_eq in H; subst. exists r; reflexivity.
Qed.

(* finding domain-inner-substring: cookiejar.domain_match accepts although host does not end with the domain *)
Definition dom_inner_substring (a b : str) : bool :=
  cj_domain_match a b && negb (ends_with (lower b) (lower a)).
(* finding domain-extra-dots: host equals the domain with all leading and trailing dots stripped, and this is
   not what removing one leading dot gives *)
Definition dom_extra_dots (a b : str) : bool :=
  bytes_eqb (lower a) (strip_dots (lower b)) && negb (bytes_eqb (lower a) (remove_dot_prefix (lower b))).

(* neither an upper-case letter nor its lower-case form is the dot *)
Lemma to_lower_dot c : byte_eqb (to_lower c) DOT = byte_eqb c DOT.
Proof.
  unfold to_lower. destruct (is_upper c) eqn:U; [|reflexivity].
  unfold is_upper in U. apply andb_true_iff in U. destruct U as [U1 U2]. apply N.leb_le in U1, U2.
  assert (H : forall x : byte, bN x <> 46%N -> byte_eqb x DOT = false).
  { intros x Hx. apply byte_eqb_neq. intros ->. apply Hx. reflexivity. }
  rewrite !H; [reflexivity | lia | rewrite bN_Nb; lia].
Qed.

Lemma lstrip_dots_lower s : lstrip_dots (lower s) = lower (lstrip_dots s).
Proof.
  induction s as [|c s IH]; simpl; [reflexivity|].
  rewrite to_lower_dot. destruct (byte_eqb c DOT); [exact IH | reflexivity].
Qed.

Lemma strip_dots_lower s : strip_dots (lower s) = lower (strip_dots s).
Proof.
  unfold strip_dots. rewrite lstrip_dots_lower, <- lower_rev, lstrip_dots_lower, <- lower_rev. reflexivity.
Qed.

Lemma lstrip_dots_first s : first_is DOT (lstrip_dots s) = false.
Proof.
  induction s as [|c s IH]; simpl; [reflexivity|].
  destruct (byte_eqb c DOT) eqn:E; [exact IH | simpl; exact E].
Qed.

Lemma lstrip_dots_last s : last_is DOT s = false -> last_is DOT (lstrip_dots s) = false.
Proof.
  induction s as [|c s IH]; simpl; [reflexivity|].
  destruct (byte_eqb c DOT) eqn:E; [|tauto].
  intros H. apply IH. unfold last_is in *. simpl in H.
  destruct (rev s) as [|x r] eqn:Er; [reflexivity|]. simpl in H. exact H.
Qed.

Lemma strip_dots_first s : first_is DOT (strip_dots s) = false.
Proof.
  unfold strip_dots.
  pose proof (lstrip_dots_first (rev (lstrip_dots s))) as H1.
  pose proof (lstrip_dots_last (rev (lstrip_dots s))) as H2.
  unfold last_is in H2. rewrite rev_involutive in H2.
  specialize (H2 (lstrip_dots_first s)).
  unfold last_is in H2. unfold first_is. exact H2.
Qed.

Lemma domain_match_orig_decompose a b :
  domain_match_orig a b = true ->
  domain_match_fixed a b = true \/ dom_inner_substring a b = true \/ dom_extra_dots a b = true.
Proof.
  unfold domain_match_orig, domain_match_fixed, dom_inner_substring, dom_extra_dots.
  assert (Hcj : cj_domain_match (lower a) (lower b) = cj_domain_match a b)
    by (unfold cj_domain_match; rewrite !lower_idem; reflexivity).
  rewrite Hcj.
  destruct (cj_domain_match a b) eqn:E1; simpl.
  - intros _. destruct (ends_with (lower b) (lower a)); simpl; auto.
  - destruct (cj_domain_match a (strip_dots b)) eqn:E2; [|discriminate]. intros _.
    apply cj_domain_match_nodot in E2.
    + rewrite <- strip_dots_lower in E2. rewrite E2, bytes_eqb_refl. simpl.
      destruct (bytes_eqb (strip_dots (lower b)) (remove_dot_prefix (lower b))); simpl; auto.
    + rewrite <- strip_dots_lower. apply strip_dots_first.
Qed.

(* the findings are behaviours of variant Orig (the guard of the partial theorem is exact) *)
Lemma dom_findings_are_orig a b :
  dom_inner_substring a b = true \/ dom_extra_dots a b = true -> domain_match_orig a b = true.
Proof.
  unfold dom_inner_substring, dom_extra_dots, domain_match_orig. intros [H|H].
  - apply andb_true_iff in H as [-> _]. reflexivity.
  - apply andb_true_iff in H as [H _]. apply bytes_eqb_eq in H.
    destruct (cj_domain_match a b); [reflexivity|].
    unfold cj_domain_match. rewrite <- strip_dots_lower, <- H, bytes_eqb_refl. reflexivity.
Qed.

(* Orig path test: the cookie path must end inside the URI path (not in the query) at a segment boundary *)
Definition path_segment_boundary (t cp : str) : bool :=
  let u := take_until QMARK t in
  Nat.leb (length cp) (length u)
  && match skipn (length cp) u with
     | [] => true
     | c :: _ => last_is SLASH cp || byte_eqb c SLASH
     end.

Lemma take_until_prefix c t : exists q, t = take_until c t ++ q.
Proof.
  induction t as [|x t [q IH]]; simpl; [exists []; reflexivity|].
  destruct (byte_eqb x c); [exists (x :: t); reflexivity|]. exists q. simpl. f_equal. exact IH.
Qed.

Lemma path_match_orig_fixed t cp :
  starts_with cp t = true -> path_segment_boundary t cp = true -> path_match_fixed t cp = true.
Proof.
  unfold path_segment_boundary, path_match_fixed. intros Hs Hb.
  apply andb_true_iff in Hb as [Hlen Hb]. apply Nat.leb_le in Hlen.
  apply starts_with_spec in Hs as [r Hr].
  destruct (take_until_prefix QMARK t) as [q Hq].
  set (u := take_until QMARK t) in *.
  destruct (app_eq_app_le u q cp r) as (m & Hm & _); [congruence | exact Hlen |].
  rewrite Hm in *. rewrite skipn_exact in Hb.
  destruct (bytes_eqb (cp ++ m) cp) eqn:E; [reflexivity|].
  rewrite starts_with_prefix, skipn_exact.
  destruct m as [|c m']; [rewrite app_nil_r, bytes_eqb_refl in E; discriminate|]. exact Hb.
Qed.
