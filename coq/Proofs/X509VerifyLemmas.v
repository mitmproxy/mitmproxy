(* Proofs/X509VerifyLemmas.v -- facts about the specification Model/X509Verify.v, for all inputs. *)
From Coq Require Import List Bool NArith ZArith Lia.
From MV Require Import Base.Bytes Model.X509Verify Proofs.EqbIff.
Import ListNotations.

Lemma cert_eqb_eq a b : cert_eqb a b = true <-> a = b.
Proof.
  unfold cert_eqb. destruct a, b; simpl.
  rewrite !andb_true_iff, !N.eqb_eq, !Z.eqb_eq, eqb_true_iff, !(option_eqb_eq _ N.eqb_eq),
    !(list_eqb_eq _ bytes_eqb_eq), !(option_eqb_eq _ bytes_eqb_eq).
  split; [intros H; decompose [and] H; subst; reflexivity | intros E; inversion E; auto 15].
Qed.

Lemma name_ok_host c h :
  name_ok c (THost h) = true <-> exists p, In p (c_dns c) /\ dns_match p h = true.
Proof. unfold name_ok; rewrite existsb_exists; tauto. Qed.

Lemma name_ok_ip c ip : name_ok c (TIp ip) = true <-> In ip (c_ips c).
Proof.
  unfold name_ok; rewrite existsb_exists; split.
  - intros [x [Hin E]]. apply bytes_eqb_eq in E; subst; exact Hin.
  - intros Hin; exists ip; split; [exact Hin|apply bytes_eqb_refl].
Qed.

Lemma wildcard_suffix_shape pat suf :
  wildcard_suffix pat = Some suf -> exists rest, pat = x2a :: x2e :: rest /\ suf = x2e :: rest.
Proof.
  unfold wildcard_suffix.
  destruct pat as [|a [|b rest]]; try discriminate.
  - destruct a; discriminate.
  - destruct a; try discriminate; destruct b; try discriminate.
    destruct (_ && _); [|discriminate]. intros E; inversion E; subst. exists rest; auto.
Qed.

Lemma is_ldh_not_dot l : forallb is_ldh l = true -> ~ In x2e l.
Proof.
  intros F Hin. rewrite forallb_forall in F. specialize (F _ Hin). vm_compute in F. discriminate.
Qed.

(* every successful match is a literal (case-insensitive) match or the star standing for exactly one
   whole non-empty left-most label: never for several labels, never for part of a label *)
Lemma dns_match_cases pat host :
  dns_match pat host = true ->
  eq_nocase pat host = true
  \/ exists rest l hr, pat = x2a :: x2e :: rest /\ host = l ++ hr /\ l <> [] /\ ~ In x2e l
                       /\ eq_nocase hr (x2e :: rest) = true.
Proof.
  unfold dns_match; intros E. apply andb_true_iff in E; destruct E as [_ E].
  destruct (wildcard_suffix pat) as [suf|] eqn:W; [|left; exact E].
  apply wildcard_suffix_shape in W; destruct W as [rest [Hp Hs]]; subst suf.
  unfold wildcard_match in E. cbv zeta in E.
  apply andb_true_iff in E; destruct E as [E E3]. apply andb_true_iff in E; destruct E as [E1 E2].
  apply Nat.ltb_lt in E1.
  set (n := (length host - length (x2e :: rest))%nat) in *.
  right. exists rest, (firstn n host), (skipn n host).
  assert (L : length (firstn n host) = n) by (apply firstn_length_le; unfold n; lia).
  assert (NE : firstn n host <> []).
  { intros H0. rewrite H0 in L. unfold n in L. simpl in L, E1. unfold byte in *. lia. }
  repeat split; auto.
  - symmetry; apply firstn_skipn.
  - apply orb_true_iff in E3; destruct E3 as [E3|E3].
    + apply is_ldh_not_dot; exact E3.
    + apply bytes_eqb_eq in E3. intros Hin.
      assert (X : firstn n host = [x2a]) by exact E3.
      rewrite X in Hin. simpl in Hin. destruct Hin as [H|[]]; discriminate.
Qed.

(* the relation the search decides: n = number of issuing steps *)
Inductive valid_path (trust pool : list cert) (now : Z) : nat -> cert -> N -> Prop :=
| vp_anchor c d :
    time_ok now c = true -> self_issued c = true -> In c trust -> valid_path trust pool now 0 c d
| vp_step n c p d :
    time_ok now c = true -> In p (trust ++ pool) -> issues p c d = true ->
    valid_path trust pool now n p (d + 1)%N -> valid_path trust pool now (S n) c d.

Lemma path_search_sound trust pool now :
  forall fuel c d, path_search fuel true trust pool now c d = true ->
  exists n, (n <= fuel)%nat /\ valid_path trust pool now n c d.
Proof.
  assert (Anchor : forall c d, time_ok now c = true ->
            self_issued c && existsb (cert_eqb c) trust = true -> valid_path trust pool now 0 c d).
  { intros c d T E. apply andb_true_iff in E as [S0 M]. apply existsb_exists in M as [x [Hin Q]].
    apply cert_eqb_eq in Q; subst x. constructor; auto. }
  induction fuel as [|f IH]; intros c d E; simpl in E;
    apply andb_true_iff in E; destruct E as [T E]; apply orb_true_iff in E;
    destruct E as [E|E]; try discriminate; try (exists 0%nat; split; [lia | apply Anchor; assumption]).
  apply existsb_exists in E; destruct E as [p [Hin Q]].
  apply andb_true_iff in Q; destruct Q as [I R].
  destruct (IH _ _ R) as [n [Hn V]]. exists (S n); split; [lia|]. econstructor; eauto.
Qed.

Lemma path_search_complete trust pool now :
  forall n c d, valid_path trust pool now n c d ->
  forall fuel, (n <= fuel)%nat -> path_search fuel true trust pool now c d = true.
Proof.
  induction 1 as [c d T S0 Hin | n c p d T Hin I V IH]; intros fuel Hf.
  - assert (M : existsb (cert_eqb c) trust = true)
      by (apply existsb_exists; exists c; split; [exact Hin | apply cert_eqb_eq; reflexivity]).
    destruct fuel; simpl; rewrite T, S0, M; reflexivity.
  - destruct fuel as [|f]; [lia|]. simpl. rewrite T; simpl.
    apply orb_true_iff; right. apply existsb_exists. exists p; split; [exact Hin|].
    rewrite I; simpl. apply IH; lia.
Qed.

Lemma valid_path_leaf_time trust pool now n c d : valid_path trust pool now n c d -> time_ok now c = true.
Proof. destruct 1; assumption. Qed.

Lemma valid_path_ends_in_trusted_root trust pool now n c d :
  valid_path trust pool now n c d ->
  exists r, In r trust /\ self_issued r = true /\ time_ok now r = true.
Proof. induction 1; [exists c; auto|assumption]. Qed.

Lemma chain_ok_sound trust pool now leaf :
  chain_ok trust pool now leaf = true -> exists n, valid_path trust pool now n leaf 0%N.
Proof. intros E; apply path_search_sound in E; destruct E as [n [_ V]]; eauto. Qed.

Lemma x509_ok_sound trust chain now t :
  x509_ok trust chain now t = true ->
  exists leaf extra n, chain = leaf :: extra
    /\ valid_path trust extra now n leaf 0%N
    /\ time_ok now leaf = true
    /\ name_ok leaf t = true.
Proof.
  unfold x509_ok; destruct chain as [|leaf extra]; [discriminate|].
  intros E; apply andb_true_iff in E; destruct E as [C Nm].
  destruct (chain_ok_sound _ _ _ _ C) as [n V].
  exists leaf, extra, n; repeat split; auto. eapply valid_path_leaf_time; eauto.
Qed.

Lemma x509_ok_empty trust now t : x509_ok trust [] now t = false.
Proof. reflexivity. Qed.
