(* Proofs/ProxyAuthComplete.v -- completeness: a properly encoded Basic credential for a pair the
   validator accepts is accepted on the HTTP paths (for the repaired split(COLON, 1); for the code as
   found only when the password has no colon, with a counterexample otherwise) and on the SOCKS5 path. *)
From Coq Require Import Arith NArith List Bool Lia ZifyBool.
From MV Require Import Base.Bytes Model.ProxyAuth Proofs.ProxyAuthCodec Proofs.ProxyAuthHooks.
Import ListNotations.
Local Open Scope N_scope.
Implicit Types V : validator.

Lemma str_eqb_refl (s : str) : str_eqb s s = true.
Proof. induction s as [|c s IH]; [reflexivity|]. cbn. rewrite N.eqb_refl. exact IH. Qed.

(* a code point that lowers to a letter of the scheme word is that letter or its capital: ASCII, no white space *)
Lemma letter_facts c : In (cp_lower c) BASIC -> (c <? 128) = true /\ negb (is_space c) = true.
Proof.
  unfold cp_lower. destruct ((65 <=? c) && (c <=? 90)) eqn:U.
  - intros _. unfold is_space. lia.
  - intros [<-|[<-|[<-|[<-|[<-|[]]]]]]; split; reflexivity.
Qed.

Lemma scheme_facts sb : str_lower (ascii sb) = BASIC ->
  all_ascii sb = true /\ nospace (ascii sb) = true /\ ascii sb <> [].
Proof.
  intros H.
  assert (K : forall b, In b sb -> (bN b <? 128) = true /\ negb (is_space (bN b)) = true).
  { intros b Hb. apply letter_facts. rewrite <- H. unfold str_lower, ascii. rewrite map_map.
    apply (in_map (fun b => cp_lower (bN b))), Hb. }
  split; [|split].
  - apply forallb_forall. intros b Hb. apply K, Hb.
  - apply forallb_forall. intros c Hc. apply in_map_iff in Hc. destruct Hc as (b & <- & Hb). apply K, Hb.
  - intros E. rewrite E in H. discriminate.
Qed.

(* what a standards-conforming client sends: scheme (any letter case) SP base64(utf-8(user COLON password)) *)
Definition proper_value (sb : bytes) (raw : bytes) : bytes := sb ++ x20 :: b64encode raw.

Theorem proper_credentials_parse ms1 sb u p raw :
  str_lower (ascii sb) = BASIC -> nocolon u = true -> (ms1 = true \/ nocolon p = true) ->
  encode_strict (u ++ COLON :: p) = Some raw ->
  parse_http_basic_auth ms1 (ascii (proper_value sb raw)) = Some (ascii sb, u, p).
Proof.
  intros Hs Hu Hp He.
  destruct (scheme_facts sb Hs) as (As & Ns & Es).
  destruct (b64encode_chars raw) as [At Nt].
  assert (Et : ascii (b64encode raw) <> []).
  { (* raw is not empty: it decodes to a string that contains the colon *)
    destruct raw as [|a raw]; [apply (dec_enc h_replace) in He; destruct u; discriminate|].
    pose proof (b64encode_nonempty a raw) as B. destruct (b64encode (a :: raw)); [congruence|discriminate]. }
  unfold proper_value, parse_http_basic_auth.
  replace (ascii (sb ++ x20 :: b64encode raw)) with (ascii sb ++ 32 :: ascii (b64encode raw))
    by (unfold ascii; rewrite map_app; reflexivity).
  rewrite split_ws_two by assumption.
  rewrite Hs, str_eqb_refl. cbn [negb].
  rewrite (enc_ascii _ At). rewrite a2b_roundtrip. rewrite (dec_enc h_replace _ _ He).
  destruct Hp as [->|Hp].
  - rewrite split_on1_pair by exact Hu. reflexivity.
  - destruct ms1.
    + rewrite split_on1_pair by exact Hu. reflexivity.
    + rewrite split_on_pair by assumption. reflexivity.
Qed.

(* the request has exactly one header with the name of its entry path, carrying that value *)
Definition carries (ip : bool) (hs : headers) (value : bytes) : Prop :=
  exists n, filter (name_is (http_auth_header ip)) hs = [(n, value)].

Theorem proper_header_creds ms1 c ip rp sm hs sb u p raw :
  carries ip hs (proper_value sb raw) ->
  str_lower (ascii sb) = BASIC -> nocolon u = true -> (ms1 = true \/ nocolon p = true) ->
  encode_strict (u ++ COLON :: p) = Some raw ->
  creds_of ms1 (new_flow c ip rp sm hs) = Some (u, p).
Proof.
  intros [n Hc] Hs Hu Hp He. unfold creds_of. cbn [new_flow f_is_proxy f_hdrs].
  unfold headers_get, get_all. rewrite Hc. cbn [map snd join_comma].
  destruct (scheme_facts sb Hs) as (As & _ & _). destruct (b64encode_chars raw) as [At _].
  rewrite dec_ascii.
  - rewrite (proper_credentials_parse ms1 sb u p raw Hs Hu Hp He). reflexivity.
  - unfold proper_value. rewrite all_ascii_app, As. cbn [andb]. unfold all_ascii in *. cbn [forallb]. exact At.
Qed.

Theorem complete_request ms1 V st c ip sm hs sb u p raw :
  V u p = true -> lookup c st = None -> carries ip hs (proper_value sb raw) ->
  str_lower (ascii sb) = BASIC -> nocolon u = true -> (ms1 = true \/ nocolon p = true) ->
  encode_strict (u ++ COLON :: p) = Some raw ->
  step ms1 (Some V) st (EReq c ip false false sm hs) =
    (st, OHttp (pass_flow c ip false sm hs u p) [OpenServer; ToServer (headers_del (http_auth_header ip) hs)]).
Proof.
  intros HV L Hc Hs Hu Hp He. apply valid_request_forwarded; auto.
  eapply proper_header_creds; eauto.
Qed.

Theorem complete_connect ms1 V st c ip rp sm hs sb u p raw :
  V u p = true -> carries ip hs (proper_value sb raw) ->
  str_lower (ascii sb) = BASIC -> nocolon u = true -> (ms1 = true \/ nocolon p = true) ->
  encode_strict (u ++ COLON :: p) = Some raw ->
  step ms1 (Some V) st (EReq c ip true rp sm hs) =
    (set_auth c (u, p) st, OHttp (pass_flow c ip rp sm hs u p) [Tunnel; ToClient 200]).
Proof.
  intros HV Hc Hs Hu Hp He. apply valid_connect_tunnel; auto.
  eapply proper_header_creds; eauto.
Qed.

(* the code as found rejects a proper credential whose password contains a colon, on both HTTP hooks *)
Definition cex_u : str := [117].
Definition cex_p : str := [112; 58; 113].
Definition cex_raw : bytes := [x75; x3a; x70; x3a; x71].
Definition cex_sb : bytes := [x42; x61; x73; x69; x63].

Theorem colon_password_rejected :
  exists V u p raw sb,
    V u p = true /\ nocolon u = true /\ str_lower (ascii sb) = BASIC /\
    encode_strict (u ++ COLON :: p) = Some raw /\
    forall st c ip sm, lookup c st = None ->
      let hs := [(http_auth_header ip, proper_value sb raw)] in
      carries ip hs (proper_value sb raw) /\
      step false (Some V) st (EReq c ip false false sm hs) =
        (st, OHttp (deny_flow c ip false sm hs) (if sm then [Crash] else [ToClient (auth_required_status ip)])) /\
      step false (Some V) st (EReq c ip true false sm hs) =
        (st, OHttp (deny_flow c ip false sm hs) [ToClient (auth_required_status ip)]).
Proof.
  exists (fun _ _ => true), cex_u, cex_p, cex_raw, cex_sb.
  repeat split; try reflexivity.
  - destruct ip; [exists PROXY_AUTHORIZATION|exists AUTHORIZATION]; vm_compute; reflexivity.
  - apply unauth_request_denied; [assumption|].
    intros (u & p & H1 & _). destruct ip; vm_compute in H1; discriminate.
  - apply unauth_connect_denied.
    intros (u & p & H1 & _). destruct ip; vm_compute in H1; discriminate.
Qed.

(* hypotheses of the completeness theorems are satisfiable by a non-trivial credential (non-ASCII user, colon in the password) *)
Definition sample_u : str := [252; 115].                 (* u-umlaut s *)
Definition sample_p : str := [112; 58; 8364].            (* p COLON euro-sign *)
Definition sample_raw : bytes := [xc3; xbc; x73; x3a; x70; x3a; xe2; x82; xac].
Definition sample_hs : headers :=
  [([x48; x6f; x73; x74], [x65]); (PROXY_AUTHORIZATION, proper_value cex_sb sample_raw); ([x58], [x31])].

Theorem sample_nonvacuous :
  encode_strict (sample_u ++ COLON :: sample_p) = Some sample_raw /\ nocolon sample_u = true /\
  carries true sample_hs (proper_value cex_sb sample_raw) /\
  step true (Some (fun u p => str_eqb u sample_u && str_eqb p sample_p)) [] (EReq 7 true false false false sample_hs) =
    ([], OHttp (pass_flow 7 true false false sample_hs sample_u sample_p)
               [OpenServer; ToServer [([x48; x6f; x73; x74], [x65]); ([x58], [x31])]]) /\
  step false (Some (fun u p => str_eqb u sample_u && str_eqb p sample_p)) [] (EReq 7 true false false false sample_hs) =
    ([], OHttp (deny_flow 7 true false false sample_hs) [ToClient 407]).
Proof.
  repeat split; try (vm_compute; reflexivity).
  exists PROXY_AUTHORIZATION. vm_compute. reflexivity.
Qed.

Theorem unauth_streaming_no_answer :
  exists ms1 V st c ip hs,
    lookup c st = None /\ ~ valid_creds ms1 V (new_flow c ip false true hs) /\
    step ms1 (Some V) st (EReq c ip false false true hs) = (st, OHttp (deny_flow c ip false true hs) [Crash]).
Proof.
  exists true, (fun _ _ => true), [], 0, true, [].
  assert (H : ~ valid_creds true (fun _ _ => true) (new_flow 0 true false true [])).
  { intros (u & p & H1 & _). vm_compute in H1. discriminate. }
  split; [reflexivity|]. split; [exact H|]. apply (unauth_request_denied true _ [] 0 true true [] eq_refl H).
Qed.

(* in every case of a denial nothing goes to the server side *)
Theorem unauth_nothing_forwarded ms1 V st c ip ic rp sm hs :
  (ic = true \/ (rp = false /\ lookup c st = None)) -> ~ valid_creds ms1 V (new_flow c ip rp sm hs) ->
  fst (step ms1 (Some V) st (EReq c ip ic rp sm hs)) = st /\
  ~ reaches_server (snd (step ms1 (Some V) st (EReq c ip ic rp sm hs))).
Proof.
  intros D H. destruct ic.
  - rewrite (unauth_connect_denied ms1 V st c ip rp sm hs H). split; [reflexivity|]. cbn. discriminate.
  - destruct D as [D|[-> L]]; [discriminate|].
    rewrite (unauth_request_denied ms1 V st c ip sm hs L H). split; [reflexivity|]. destruct sm; cbn; discriminate.
Qed.
