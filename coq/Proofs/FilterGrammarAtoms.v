(* Proofs/FilterGrammarAtoms.v -- p_atom parses back every rendered atom (MatchFirst over the code table,
   WordEnd, unquoted / quoted arguments with escapes, integer arguments). *)
From Coq Require Import List Bool NArith.
From MV Require Import Base.Bytes Gen.FlowFilterAtoms Model.FilterGrammar Proofs.ListFacts Proofs.FilterGrammarTokens.
Import ListNotations.

(* the code tables: every code is a non-empty run of WordEnd characters, no code occurs twice *)
Definition codelikeb (c : bytes) : bool := match c with [] => false | _ => forallb is_we c end.
Definition all_codes : list bytes := unary_codes ++ rex_codes ++ int_codes.
Lemma codes_codelike : forallb codelikeb all_codes = true.
Proof. vm_compute. reflexivity. Qed.
Lemma codes_nodup : NoDup all_codes.
Proof.
  (* removing duplicates computes to the same list, and List.nodup returns a NoDup list *)
  rewrite <- (eq_refl : nodup (list_eq_dec byte_dec) all_codes = all_codes). apply NoDup_nodup.
Qed.

Lemma mem_bytes_In c l : mem_bytes c l = true <-> In c l.
Proof.
  induction l as [| d l IH]; simpl; [split; [discriminate | tauto] |].
  rewrite orb_true_iff, IH, bytes_eqb_eq. split; intros [H | H]; auto.
Qed.
Lemma in_codes_codelike c : In c all_codes -> codelikeb c = true.
Proof. intros H. pose proof codes_codelike as F. rewrite forallb_forall in F. auto. Qed.
Lemma codelike_parts c : codelikeb c = true -> c <> [] /\ forallb is_we c = true.
Proof. destruct c; simpl; [discriminate |]. intros H. split; [discriminate | exact H]. Qed.

Lemma last_we c d : c <> [] -> forallb is_we c = true -> is_we (last c d) = true.
Proof.
  induction c as [| a c IH]; intros Hne H; [congruence |].
  simpl in H. apply andb_true_iff in H as [Ha Hc].
  destruct c as [| b c]; [exact Ha |]. change (is_we (last (b :: c) d) = true). apply IH; [discriminate | exact Hc].
Qed.
Lemma last_cons_ne (a : byte) c d : c <> [] -> last (a :: c) d = last c d.
Proof. destruct c; [congruence | reflexivity]. Qed.

Lemma p_code_same c w X : codelikeb c = true -> allws w -> safe is_we X ->
  p_code c (w ++ code_lit c ++ X) = Some X.
Proof.
  intros Hc Hw HX. apply codelike_parts in Hc. destruct Hc as [Hne Hall].
  unfold p_code, lit_str. rewrite skip_ws_app by exact Hw.
  rewrite code_lit_cons. change ((x7e :: c) ++ X) with (x7e :: c ++ X).
  rewrite skip_ws_cons by reflexivity.
  change (x7e :: c ++ X) with ((x7e :: c) ++ X). rewrite strip_prefix_app.
  rewrite last_cons_ne by exact Hne.
  unfold word_end. destruct X as [| d X]; [reflexivity |]. simpl in HX. rewrite HX.
  rewrite last_we by assumption. reflexivity.
Qed.

Lemma strip_prefix_eq p : forall s r, strip_prefix p s = Some r -> s = p ++ r.
Proof.
  induction p as [| a p IH]; simpl; intros s r H; [injection H as <-; reflexivity |].
  destruct s as [| b s]; [discriminate |]. destruct (byte_eqb a b) eqn:E; [| discriminate].
  apply byte_eqb_eq in E. subst b. f_equal. apply IH, H.
Qed.
(* a code in front of a non-WordEnd character is the maximal run of WordEnd characters there, so it is determined *)
Lemma strip_code_unique c' c X r : forallb is_we c' = true -> forallb is_we c = true -> safe is_we X ->
  strip_prefix c' (c ++ X) = Some r -> safe is_we r -> c' = c.
Proof.
  intros H' H HX Hs Hr. apply strip_prefix_eq in Hs.
  pose proof (span_app is_we c X H HX) as S. rewrite Hs, (span_app is_we c' r H' Hr) in S. congruence.
Qed.
Lemma word_end_safe p r : word_end p r = true -> safe is_we r.
Proof. unfold word_end. destruct r as [| c r]; [intros _; exact I |]. simpl. intros H. apply andb_true_iff in H as [H _]. destruct (is_we c); [discriminate | reflexivity]. Qed.

Lemma p_code_other c c' w X : codelikeb c = true -> codelikeb c' = true -> c' <> c -> allws w -> safe is_we X ->
  p_code c' (w ++ code_lit c ++ X) = None.
Proof.
  intros Hc Hc' Hne Hw HX. apply codelike_parts in Hc, Hc'. destruct Hc as [_ Hall]. destruct Hc' as [_ Hall'].
  unfold p_code, lit_str. rewrite skip_ws_app by exact Hw.
  rewrite (code_lit_cons c), (code_lit_cons c'). change ((x7e :: c) ++ X) with (x7e :: c ++ X).
  rewrite skip_ws_cons by reflexivity. simpl strip_prefix.
  destruct (strip_prefix c' (c ++ X)) as [r |] eqn:E; [| reflexivity].
  destruct (word_end _ r) eqn:W; [| reflexivity].
  exfalso. apply Hne. eapply strip_code_unique; eauto. eapply word_end_safe; eauto.
Qed.
Lemma p_code_nontilde c w d r : allws w -> is_ws d = false -> d <> x7e -> p_code c (w ++ d :: r) = None.
Proof.
  intros Hw Hd Hne. unfold p_code, lit_str. rewrite skip_ws_app by exact Hw. rewrite skip_ws_cons by exact Hd.
  rewrite code_lit_cons. simpl. destruct (byte_eqb x7e d) eqn:E; [| reflexivity].
  apply byte_eqb_eq in E. congruence.
Qed.

Lemma span_run (f : byte -> bool) a w rest : (forall b, f b = true -> is_wordch b = true) ->
  a <> [] -> forallb f a = true -> allws w -> safe f rest ->
  span f (skip_ws (w ++ a ++ rest)) = (a, rest).
Proof.
  intros Hf Hne Ha Hw Hr. rewrite skip_ws_app by exact Hw. destruct a as [| c a]; [congruence |].
  assert (Hc : is_ws c = false). { simpl in Ha. apply andb_true_iff in Ha. apply wordch_not_ws, Hf. tauto. }
  change ((c :: a) ++ rest) with (c :: a ++ rest). rewrite skip_ws_cons by exact Hc.
  change (c :: a ++ rest) with ((c :: a) ++ rest). apply span_app; assumption.
Qed.
Lemma p_word_ok a w rest : a <> [] -> forallb is_wordch a = true -> allws w -> safe is_wordch rest ->
  p_word (w ++ a ++ rest) = Some (a, rest).
Proof.
  intros Hne Ha Hw Hr. unfold p_word. rewrite (span_run is_wordch) by auto. destruct a; [congruence | reflexivity].
Qed.
Lemma p_word_stop w c r : allws w -> is_ws c = false -> is_wordch c = false -> p_word (w ++ c :: r) = None.
Proof.
  intros Hw Hs Hc. unfold p_word. rewrite skip_ws_app by exact Hw. rewrite skip_ws_cons by exact Hs.
  simpl. rewrite Hc. reflexivity.
Qed.

(* what escape writes for one character (the body of Model escape, see escape_cons): scanned as a unit, and
   decoded back to the character *)
Definition esc1 (q c : byte) : bytes :=
  if byte_eqb c q || byte_eqb c esc then [esc; c]
  else if byte_eqb c LF then [esc; x6e] else if byte_eqb c CR then [esc; x72] else [c].
Lemma escape_cons q c a : escape q (c :: a) = esc1 q c ++ escape q a.
Proof. reflexivity. Qed.
Lemma esc1_spec q c : qgood q ->
  (forall s raw rest, q_scan q s = Some (raw, rest) -> q_scan q (esc1 q c ++ s) = Some (esc1 q c ++ raw, rest))
  /\ (forall s, unq 0 (esc1 q c ++ s) = c :: unq 0 s).
Proof.
  (* in the three escaping cases q and the two characters written are concrete, and both functions compute *)
  intros Hq. unfold esc1.
  destruct (byte_eqb c q || byte_eqb c esc) eqn:E1; [| destruct (byte_eqb c LF) eqn:E3; [| destruct (byte_eqb c CR) eqn:E4]].
  - assert (Hc : c = q \/ c = esc) by (apply orb_true_iff in E1; rewrite !byte_eqb_eq in E1; exact E1).
    split; intros s; [intros raw rest H |]; destruct Hq as [-> | ->]; destruct Hc as [-> | ->]; simpl; rewrite ?H; reflexivity.
  - apply byte_eqb_eq in E3. subst c.
    split; intros s; [intros raw rest H |]; destruct Hq as [-> | ->]; simpl; rewrite ?H; reflexivity.
  - apply byte_eqb_eq in E4. subst c.
    split; intros s; [intros raw rest H |]; destruct Hq as [-> | ->]; simpl; rewrite ?H; reflexivity.
  - apply orb_false_iff in E1. destruct E1 as [E1 E2].
    split; intros s; [intros raw rest H |]; cbn [app q_scan unq]; rewrite ?E1, E2, ?E3, ?E4, ?H; reflexivity.
Qed.
Lemma q_scan_escape q a rest : qgood q -> q_scan q (escape q a ++ q :: rest) = Some (escape q a, rest).
Proof.
  intros Hq. induction a as [| c a IH].
  - simpl. rewrite byte_eqb_refl. reflexivity.
  - rewrite escape_cons, <- app_assoc. apply esc1_spec; [exact Hq | exact IH].
Qed.
Lemma unq_escape q a : qgood q -> unq 0 (escape q a) = a.
Proof.
  intros Hq. induction a as [| c a IH]; [reflexivity |].
  rewrite escape_cons, (proj2 (esc1_spec q c Hq)), IH. reflexivity.
Qed.
(* the test of arg_ok on each character of a raw-quoted argument *)
Definition rawok (q : byte) (c : byte) : bool :=
  negb (byte_eqb c q || byte_eqb c esc || byte_eqb c LF || byte_eqb c CR).
Lemma escape_raw q a : forallb (rawok q) a = true -> escape q a = a.
Proof.
  induction a as [| c a IH]; intros H; [reflexivity |].
  simpl in H. apply andb_true_iff in H as [Hc Ha]. unfold rawok in Hc.
  apply negb_true_iff in Hc. rewrite !orb_false_iff in Hc. destruct Hc as [[[E1 E2] E3] E4].
  simpl. rewrite E1, E2, E3, E4, IH by exact Ha. reflexivity.
Qed.

Lemma p_regex_quoted q body a w rest : qgood q -> allws w ->
  q_scan q (body ++ q :: rest) = Some (body, rest) -> unq 0 body = a ->
  p_regex (w ++ (q :: body ++ [q]) ++ rest) = Some (a, rest).
Proof.
  intros Hq Hw Hs <-. unfold p_regex.
  change ((q :: body ++ [q]) ++ rest) with (q :: (body ++ [q]) ++ rest). rewrite <- app_assoc.
  assert (Hqs : is_ws q = false) by (destruct Hq as [-> | ->]; reflexivity).
  assert (Hqw : is_wordch q = false) by (destruct Hq as [-> | ->]; reflexivity).
  rewrite p_word_stop by assumption.
  change quote_chars with [x22; x27]. unfold first_quoted, p_quoted.
  rewrite skip_ws_app by exact Hw. rewrite skip_ws_cons by exact Hqs.
  destruct Hq as [-> | ->]; simpl; simpl in Hs; rewrite Hs; reflexivity.
Qed.

Lemma p_regex_arg k nk a w rest : arg_ok k nk a = true -> allws w -> follow_ok (render_arg k a) rest ->
  p_regex (w ++ render_arg k a ++ rest) = Some (a, rest).
Proof.
  intros Hok Hw Hf. destruct k as [| q | q]; simpl in Hok; unfold render_arg in *.
  - destruct a as [| c a]; [discriminate |]. apply andb_true_iff in Hok as [Hall _].
    unfold p_regex. rewrite p_word_ok; try assumption; try discriminate; [reflexivity |].
    eapply follow_safe; [| exact Hf]. apply ends_word_all; [discriminate | exact Hall].
  - rewrite <- (escape_raw (quote_of q) a Hok) at 1.
    apply p_regex_quoted; [apply quote_of_cases | exact Hw | apply q_scan_escape | apply unq_escape]; apply quote_of_cases.
  - apply p_regex_quoted; [apply quote_of_cases | exact Hw | apply q_scan_escape | apply unq_escape]; apply quote_of_cases.
Qed.

Lemma p_int_ok ds w rest : ds <> [] -> forallb is_dig ds = true -> allws w -> safe is_wordch rest ->
  p_int (w ++ ds ++ rest) = Some (N_of_digits ds, rest).
Proof.
  intros Hne Hd Hw Hr. unfold p_int. rewrite (span_run is_dig); auto using dig_wordch.
  - destruct ds; [congruence | reflexivity].
  - destruct rest as [| x rest]; [exact I |]. simpl in *. exact (contra _ _ (dig_wordch x) Hr).
Qed.

Definition part_code (p : part) : option bytes :=
  match p with PUnary c => Some c | PRex c => Some c | PInt c => Some c | PNaked => None end.
Definition coded : list part := map PUnary unary_codes ++ map PRex rex_codes ++ map PInt int_codes.
Lemma parts_coded : parts = coded ++ [PNaked].
Proof. unfold parts, coded. rewrite <- !app_assoc. reflexivity. Qed.
Lemma coded_codes : map part_code coded = map Some all_codes.
Proof. unfold coded, all_codes. rewrite !map_app, !map_map. reflexivity. Qed.
Lemma coded_has_code p : In p coded -> exists c, part_code p = Some c /\ In c all_codes.
Proof.
  intros H. apply (in_map part_code) in H. rewrite coded_codes in H. apply in_map_iff in H.
  destruct H as [c [E Hin]]. exists c. split; [symmetry; exact E | exact Hin].
Qed.
Lemma coded_codelike P c : In P coded -> part_code P = Some c -> codelikeb c = true.
Proof.
  intros HP Hc. destruct (coded_has_code P HP) as [c0 [E Hin]]. rewrite Hc in E. injection E as <-.
  apply in_codes_codelike. exact Hin.
Qed.
Lemma coded_nodup : NoDup (map part_code coded).
Proof.
  rewrite coded_codes. pose proof codes_nodup as H.
  induction H; simpl; constructor; auto.
  intros Hin. apply in_map_iff in Hin. destruct Hin as [y [E Hy]]. injection E as ->. contradiction.
Qed.
Lemma p_part_other p c c' w X : part_code p = Some c' -> codelikeb c = true -> codelikeb c' = true -> c' <> c ->
  allws w -> safe is_we X -> p_part p (w ++ code_lit c ++ X) = None.
Proof.
  intros Hp Hc Hc' Hne Hw HX. destruct p; simpl in Hp; try discriminate; injection Hp as ->;
    unfold p_part; rewrite p_code_other by assumption; reflexivity.
Qed.
(* MatchFirst: the alternatives before the first one that matches do not *)
Lemma first_part_skip ps tail s : (forall p, In p ps -> p_part p s = None) -> first_part (ps ++ tail) s = first_part tail s.
Proof.
  induction ps as [| p ps IH]; intros H; [reflexivity |]. cbn [first_part app].
  rewrite (H p (or_introl eq_refl)). apply IH. intros q Hq. apply H. right. exact Hq.
Qed.
Lemma first_part_found P c w X v tail : In P coded -> part_code P = Some c -> allws w -> safe is_we X ->
  p_part P (w ++ code_lit c ++ X) = Some v ->
  first_part (coded ++ tail) (w ++ code_lit c ++ X) = Some v.
Proof.
  intros HP Hc Hw HX Hv. pose proof coded_nodup as Hnd.
  destruct (in_split P coded HP) as [pre [post E]].
  assert (Hsub : forall p, In p pre -> In p coded) by (intros p Hp; rewrite E; apply in_or_app; left; exact Hp).
  rewrite E, map_app in Hnd. simpl in Hnd. apply NoDup_remove_2 in Hnd.
  rewrite E, <- app_assoc, first_part_skip.
  - cbn [first_part app]. rewrite Hv. reflexivity.
  - (* a part in front of P has another code, since no code occurs twice *)
    intros p Hp. destruct (coded_has_code p (Hsub p Hp)) as [c0 [E0 Hin0]].
    apply p_part_other with (c' := c0); try assumption.
    + eapply coded_codelike; eauto.
    + apply in_codes_codelike, Hin0.
    + intros ->. apply Hnd, in_or_app. left. rewrite Hc, <- E0. apply in_map, Hp.
Qed.
Lemma first_part_nontilde w d r tail : allws w -> is_ws d = false -> d <> x7e ->
  first_part (coded ++ tail) (w ++ d :: r) = first_part tail (w ++ d :: r).
Proof.
  intros Hw Hd Hne. apply first_part_skip. intros p Hp. destruct (coded_has_code p Hp) as [c0 [E0 _]].
  destruct p; simpl in E0; try discriminate; unfold p_part; rewrite p_code_nontilde by assumption; reflexivity.
Qed.

Lemma In_coded c : (mem_bytes c unary_codes = true -> In (PUnary c) coded)
  /\ (mem_bytes c rex_codes = true -> In (PRex c) coded) /\ (mem_bytes c int_codes = true -> In (PInt c) coded).
Proof. unfold coded. rewrite !in_app_iff. repeat split; intros H; apply mem_bytes_In in H; auto using in_map. Qed.

Lemma safe_we_of_wordch r : safe is_wordch r -> safe is_we r.
Proof. destruct r as [| c r]; [intros _; exact I |]. simpl. apply not_wordch_not_we. Qed.
Ltac neq := let H := fresh in intro H; vm_compute in H; discriminate H.
Lemma quote_head q :
  is_ws (quote_of q) = false /\ quote_of q <> x7e /\ is_we (quote_of q) = false
  /\ quote_of q <> op_not /\ quote_of q <> op_and /\ quote_of q <> op_or.
Proof. destruct (quote_of_cases q) as [-> | ->]; (split; [reflexivity |]; split; [neq |]; split; [reflexivity |]; repeat split; neq). Qed.
Lemma render_arg_head k nk a : arg_ok k nk a = true ->
  exists d r, render_arg k a = d :: r /\ is_ws d = false /\ d <> x7e /\ (is_we d = false \/ k = QBare)
              /\ (nk = true -> d <> op_not /\ d <> op_and /\ d <> op_or).
Proof.
  intros H. destruct k as [| q | q]; unfold render_arg.
  - simpl in H. destruct a as [| c a]; [discriminate |]. apply andb_true_iff in H as [Hall Hn].
    simpl in Hall. apply andb_true_iff in Hall as [Hc _].
    exists c, a. split; [reflexivity |]. split; [apply wordch_not_ws; exact Hc |].
    split; [intros ->; discriminate Hc |]. split; [right; reflexivity |].
    intros ->. simpl in Hn. apply negb_true_iff in Hn. rewrite !orb_false_iff in Hn.
    repeat split; intros E; apply byte_eqb_eq in E; rewrite E in Hn; intuition discriminate.
  - destruct (quote_head q) as [Q1 [Q2 [Q3 Q4]]]. exists (quote_of q), (a ++ [quote_of q]). auto 6.
  - destruct (quote_head q) as [Q1 [Q2 [Q3 Q4]]]. exists (quote_of q), (escape (quote_of q) a ++ [quote_of q]). auto 6.
Qed.

Lemma ends_word_code c : codelikeb c = true -> ends_word (code_lit c) = true.
Proof.
  intros H. apply codelike_parts in H. destruct H as [Hne Hall]. rewrite code_lit_cons.
  change (x7e :: c) with ([x7e] ++ c). rewrite ends_word_app by exact Hne.
  apply ends_word_all; [exact Hne | apply (forallb_impl is_we _ _ we_wordch), Hall].
Qed.
Lemma safe_we_ws1 w X : safe is_we (ws1 w ++ X).
Proof. destruct w as [| c w]; simpl; [reflexivity |]. apply not_wordch_not_we, ws_not_wordch, wsch_is_ws. Qed.

Lemma p_atom_ok a st w rest : atom_in_table a = true -> atom_style_ok a st = true -> allws w ->
  follow_ok (render_atom a st) rest ->
  p_atom (w ++ render_atom a st ++ rest) = Some (atom_of a, rest).
Proof.
  intros Ht Hs Hw Hf. unfold p_atom. rewrite parts_coded. destruct a as [c | c a | c ds]; simpl in Ht; simpl atom_of.
  - pose proof (coded_codelike _ c (proj1 (In_coded c) Ht) eq_refl) as Hcl. unfold render_atom in *.
    assert (HX : safe is_we rest).
    { apply safe_we_of_wordch. eapply follow_safe; [| exact Hf]. apply ends_word_code. exact Hcl. }
    apply first_part_found with (P := PUnary c); [apply In_coded, Ht | reflexivity | exact Hw | exact HX |].
    unfold p_part. rewrite p_code_same by assumption. reflexivity.
  - pose proof (coded_codelike _ c (proj1 (proj2 (In_coded c)) Ht) eq_refl) as Hcl. simpl in Hs. unfold render_atom in *.
    destruct (render_arg_head _ _ _ Hs) as [d [r [Ed [Hdws [Hdt [Hdwe _]]]]]].
    destruct (naked st && bytes_eqb c naked_code) eqn:N.
    + apply andb_true_iff in N as [_ N]. apply bytes_eqb_eq in N. subst c.
      assert (E : first_part (coded ++ [PNaked]) (w ++ render_arg (qs st) a ++ rest)
                  = first_part [PNaked] (w ++ render_arg (qs st) a ++ rest)).
      { rewrite Ed. change ((d :: r) ++ rest) with (d :: r ++ rest). apply first_part_nontilde; assumption. }
      rewrite E. cbn [first_part p_part]. rewrite (p_regex_arg _ _ _ _ _ Hs Hw Hf). reflexivity.
    + set (gap := if is_bare (qs st) then ws1 (w1 st) else ws_bytes (w1 st)) in *.
      assert (Hgap : allws gap) by (unfold gap; destruct (is_bare (qs st)); [apply ws1_allws | apply ws_bytes_allws]).
      assert (HX : safe is_we (gap ++ render_arg (qs st) a ++ rest)).
      { rewrite Ed. change ((d :: r) ++ rest) with (d :: r ++ rest).
        destruct Hdwe as [Hdwe | Hb];
          [apply safe_ws; [intros b Hb; apply not_wordch_not_we, ws_not_wordch, Hb | exact Hgap | exact Hdwe] |].
        unfold gap. rewrite Hb. simpl is_bare. cbv iota. apply safe_we_ws1. }
      assert (Hne : render_arg (qs st) a <> []) by (rewrite Ed; discriminate).
      assert (Hf' : follow_ok (render_arg (qs st) a) rest).
      { unfold follow_ok in *. rewrite app_assoc in Hf. rewrite ends_word_app in Hf by exact Hne. exact Hf. }
      rewrite <- !app_assoc.
      apply first_part_found with (P := PRex c); [apply In_coded, Ht | reflexivity | exact Hw | exact HX |].
      unfold p_part. rewrite p_code_same by assumption.
      erewrite p_regex_arg; [reflexivity | exact Hs | exact Hgap | exact Hf'].
  - apply andb_true_iff in Ht as [Ht Hds].
    assert (Hne : ds <> []) by (destruct ds; [discriminate | discriminate]).
    assert (Hd : forallb is_dig ds = true) by (destruct ds; [discriminate | exact Hds]).
    pose proof (coded_codelike _ c (proj2 (proj2 (In_coded c)) Ht) eq_refl) as Hcl. unfold render_atom in *.
    assert (Hr : safe is_wordch rest).
    { eapply follow_safe; [| exact Hf]. rewrite app_assoc. rewrite ends_word_app by exact Hne.
      apply ends_word_all; [exact Hne | apply (forallb_impl is_dig _ _ dig_wordch), Hd]. }
    rewrite <- !app_assoc.
    apply first_part_found with (P := PInt c); [apply In_coded, Ht | reflexivity | exact Hw | apply safe_we_ws1 |].
    unfold p_part. rewrite p_code_same; [| assumption | assumption | apply safe_we_ws1].
    rewrite p_int_ok; [reflexivity | exact Hne | exact Hd | apply ws1_allws | exact Hr].
Qed.

Lemma render_atom_head a st : atom_style_ok a st = true ->
  exists d r, render_atom a st = d :: r /\ is_ws d = false /\ d <> op_not /\ d <> op_and /\ d <> op_or.
Proof.
  intros Hs.
  assert (T : forall r, exists d r0, x7e :: r = d :: r0 /\ is_ws d = false /\ d <> op_not /\ d <> op_and /\ d <> op_or)
    by (intros r; exists x7e, r; repeat split; neq).
  destruct a as [c | c a | c ds]; unfold render_atom; try apply T.
  simpl in Hs. destruct (render_arg_head _ _ _ Hs) as [d [r [Ed [Hdws [_ [_ Hops]]]]]].
  destruct (naked st && bytes_eqb c naked_code); [| apply T].
  exists d, r. split; [exact Ed |]. split; [exact Hdws | exact (Hops eq_refl)].
Qed.
