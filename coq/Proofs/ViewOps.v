(* Proofs/ViewOps.v -- the invariant of the View, the meaning of the notifications, and the composite
   functions regen/_base_add, _OrderKey.refresh, _refilter, set_order (key part). *)
From Coq Require Import List Bool Arith NArith ZArith Lia Permutation Sorted.
From MV Require Import Base.Bytes Model.View Proofs.ViewBase Proofs.ViewSpec Proofs.ViewPrim.
Import ListNotations.

Record Inv (s : state) : Prop := {
  i_core : CoreV s; i_sids : SidsOk s; i_focus : FocusOk s; i_shown : Shown s; i_fresh : FreshV s }.

(* what a listener can conclude from the signals of one call: starting from the shown ids [l] it arrives
   at the shown ids [l'] (as a set; position is given for removals) *)
Inductive notif : list N -> list sig -> list N -> Prop :=
| n_done l l' : Permutation l l' -> notif l [] l'
| n_add id l l1 evs l' : ~ In id l -> Permutation (id :: l) l1 -> notif l1 evs l' -> notif l (ViewAdd id :: evs) l'
| n_remove id idx l l1 evs l' : nth_error l idx = Some id -> Permutation l (id :: l1) -> ~ In id l1 ->
    notif l1 evs l' -> notif l (ViewRemove id idx :: evs) l'
| n_update id l l1 evs l' : In id l -> Permutation l l1 -> notif l1 evs l' -> notif l (ViewUpdate id :: evs) l'
| n_refresh l l1 evs l' : notif l1 evs l' -> notif l (ViewRefresh :: evs) l'
| n_sremove id l evs l' : notif l evs l' -> notif l (StoreRemove id :: evs) l'
| n_srefresh l evs l' : notif l evs l' -> notif l (StoreRefresh :: evs) l'.

Lemma upd_set_view v s : upd s (set_view v s).
Proof. apply um_upd, updm_same_settings; [constructor|]; reflexivity. Qed.

(* a loop invariant indexed by the part of the list already processed *)
Lemma forM_inv {A} (f : A -> M unit) (I : list A -> state -> Prop) (l : list A) s :
  I [] s ->
  (forall done x rest t, l = done ++ x :: rest -> I done t -> ok (f x t) (fun _ t' => I (done ++ [x]) t')) ->
  ok (forM l f s) (fun _ s' => I l s').
Proof.
  intros I0 Hf.
  assert (G : forall rest done t, l = done ++ rest -> I done t -> ok (forM rest f t) (fun _ s' => I l s')).
  { induction rest as [|x r IH]; intros done t E HI.
    - rewrite app_nil_r in E. subst. exact HI.
    - apply (ok_bind (Hf done x r t E HI)). intros _ t1 H1.
      apply (IH (done ++ [x])); [rewrite <- app_assoc; exact E | exact H1]. }
  apply (G l [] s); [reflexivity | exact I0].
Qed.

Lemma regen_spec o id s : In id (store s) ->
  ok (regen o id s) (fun _ s' => upd s s' /\ view s' = view s /\ focus s' = focus s /\ log s' = log s
    /\ cache_of s' id o = Some (generate o (attr s id))
    /\ (forall id' o', id' <> id \/ o' <> o -> cache_of s' id' o' = cache_of s id' o')).
Proof.
  intros Hst. unfold regen. msimp.
  apply (ok_bind (settings_getitem_spec id s Hst)). intros c s1 (X1 & Hs1 & Same1).
  destruct (upd_cfg _ _ (ext_upd _ _ X1)) as (St & _ & _ & _ & At).
  assert (Q : forall id' o', cache_of (set_settings (sset (settings s1) id (cset o (generate o (attr s id)) c)) s1) id' o'
              = if N.eqb id id' && order_eqb o' o then Some (generate o (attr s id)) else cache_of s id' o').
  { intros id' o'. rewrite cache_of_sset, <- Same1. destruct (N.eqb_spec id id') as [<-|_]; [|reflexivity].
    rewrite cget_cset. unfold cache_of. rewrite Hs1. reflexivity. }
  split; [|split; [apply (e_view _ _ X1) | split; [apply (e_focus _ _ X1) | split; [apply (e_log _ _ X1) | split]]]].
  - eapply upd_trans; [apply ext_upd, X1|]. apply upd_sset; [right; rewrite St; exact Hst|].
    intros o' k. rewrite cget_cset. destruct (order_eqb o' o) eqn:E.
    + apply order_eqb_eq in E. subst o'. intros [= <-]. right. rewrite St, At. auto.
    + intros H. left. unfold cache_of. rewrite Hs1. exact H.
  - rewrite Q, N.eqb_refl, order_eqb_refl. reflexivity.
  - intros id' o' Hne. rewrite Q. destruct (N.eqb_spec id id') as [<-|_]; [|reflexivity].
    destruct (order_eqb o' o) eqn:E; [|reflexivity]. apply order_eqb_eq in E. destruct Hne; congruence.
Qed.

Lemma base_add_spec id s : CoreV s -> In id (store s) -> ~ In id (raw_ids s) ->
  ok (_base_add id s) (fun _ s' => upd s s' /\ focus s' = focus s /\ log s' = log s
    /\ CoreV s' /\ Permutation (raw_ids s') (id :: raw_ids s)
    /\ view s' = sl_add (generate (okey s) (attr s id)) id (view s)).
Proof.
  intros C Hst Hn. unfold _base_add. msimp.
  apply (ok_bind (regen_spec (okey s) id s Hst)). intros _ s1 (U1 & V1 & F1 & L1 & K1 & Same1).
  destruct (upd_cfg _ _ U1) as (St & Ok1 & _).
  assert (C1 : CoreV s1).
  { destruct C as [H1 H2 H3 H4]. unfold raw_ids in *. rewrite <- V1 in H2, H3, H4. rewrite <- St in H1.
    constructor; auto. intros k x H. destruct (H3 _ _ H) as [A B]. rewrite St, Ok1. split; [exact A|].
    rewrite Same1; [exact B|]. left. intros ->. apply Hn. rewrite <- V1. eapply in_ids, H. }
  destruct (view_add_cached (generate (okey s) (attr s id)) id s1 C1) as (E2 & C2 & P2);
    [rewrite St; exact Hst | unfold raw_ids; rewrite V1; exact Hn | rewrite Ok1; exact K1 |].
  rewrite E2. split; [|split; [exact F1 | split; [exact L1 | split; [exact C2 | split]]]].
  - eapply upd_trans; [exact U1 | apply upd_set_view].
  - unfold raw_ids in *. rewrite <- V1. exact P2.
  - simpl. rewrite V1. reflexivity.
Qed.

Lemma FreshV_add s s' id : cfg_eq s s' -> view s' = sl_add (generate (okey s) (attr s id)) id (view s) ->
  FreshV s -> FreshV s'.
Proof.
  intros Cf V H k x Hin. rewrite V in Hin. apply (Permutation_in _ (sl_add_perm _ _ _)) in Hin.
  rewrite (ce_okey _ _ Cf), (attr_cfg _ _ x Cf). destruct Hin as [Hin|Hin]; [inversion Hin; subst; reflexivity | apply H; exact Hin].
Qed.

(* after taking the flow out of the list, refresh writes the new key and adds the flow: that is _base_add *)
Lemma refresh_tail id o v s (k : M unit) : o = okey s -> v = generate o (attr s id) ->
  (c' <- settings_getitem id ;;
   modify (fun s0 => set_settings (sset (settings s0) id (cset o v c')) s0) ;;;
   _view_add id ;;; k) s = (_base_add id ;;; k) s.
Proof. intros -> ->. unfold _base_add, regen. msimp. reflexivity. Qed.

Lemma okey_refresh_spec id s : CoreV s -> In id (raw_ids s) -> FocusOk s ->
  ok (okey_refresh (okey s) id s) (fun _ s' => upd s s' /\ CoreV s'
    /\ Permutation (raw_ids s') (raw_ids s) /\ FocusOk s'
    /\ (log s' = log s \/ log s' = log s ++ [ViewRefresh])
    /\ (forall k x, In (k, x) (view s') ->
          (x = id /\ k = generate (okey s) (attr s id)) \/ (x <> id /\ In (k, x) (view s)))).
Proof.
  intros C Hin Fo. destruct (in_ids_split _ _ Hin) as [kold Hin0].
  destruct (c_cached _ C _ _ Hin0) as [Hst Hk]. unfold cache_of in Hk.
  destruct (sget (settings s) id) as [c|] eqn:Es; [|discriminate].
  assert (E1 : settings_getitem id s = Ok (c, s)).
  { unfold settings_getitem. msimp. rewrite (proj2 (memN_In _ _) Hst). msimp. rewrite Es. reflexivity. }
  unfold okey_refresh. rewrite (bind_ok E1), Hk. msimp.
  destruct (N.eqb_spec kold (generate (okey s) (attr s id))) as [Eq|Ne].
  - split; [apply upd_refl|]. split; [exact C|]. split; [reflexivity|].
    split; [exact Fo|]. split; [auto|].
    intros k x H. destruct (N.eq_dec x id) as [->|Hne]; [left | right; auto]. split; [reflexivity|].
    destruct (c_cached _ C _ _ H) as [_ Hk']. unfold cache_of in Hk'. rewrite Es in Hk'. congruence.
  - destruct (view_remove_spec id s C Hin) as (v' & E2 & C2 & Hn2 & P2 & Sub). rewrite (bind_ok E2).
    rewrite (refresh_tail id (okey s) (generate (okey s) (attr s id)) (set_view v' s) send_view_refresh eq_refl eq_refl).
    apply (ok_bind (base_add_spec id (set_view v' s) C2 Hst Hn2)). intros _ s3 (U3 & F3 & L3 & C3 & P3 & V3).
    apply (ok_mono (send_view_refresh_spec s3 C3)). intros _ s4 (U4 & V4 & L4 & C4 & F4).
    split; [|split; [exact C4 | split; [|split; [exact F4 | split]]]].
    + apply (upd_trans _ _ _ (upd_set_view v' s)). eapply upd_trans; eassumption.
    + rewrite (raw_ids_view _ _ V4), P3, P2. reflexivity.
    + right. rewrite L4, L3. reflexivity.
    + intros k x H. rewrite V4, V3 in H. apply (Permutation_in _ (sl_add_perm _ _ _)) in H.
      destruct H as [H|H]; [inversion H; subst; left; auto|]. right.
      split; [intros ->; apply Hn2; eapply in_ids, H | apply Sub, H].
Qed.

Lemma refilter_body s i :
  (if show_marked s && negb (fmarked (attr s i)) then ret tt
   else if fmatches (filt s) (attr s i) then _base_add i else ret tt) = if wanted s i then _base_add i else ret tt.
Proof. unfold wanted. destruct (show_marked s), (fmarked (attr s i)), (fmatches (filt s) (attr s i)); reflexivity. Qed.

Lemma refilter_spec s : NoDup (store s) ->
  ok (_refilter s) (fun _ s' => upd s s' /\ log s' = log s ++ [ViewRefresh]
    /\ CoreV s' /\ FocusOk s' /\ Shown s' /\ FreshV s').
Proof.
  intros Nd. unfold _refilter. msimp.
  set (s0 := set_view [] s).
  (* after the flows [done] of the store: exactly the wanted ones among them are listed *)
  pose (I := fun (done : list N) (t : state) =>
    upd s0 t /\ log t = log s0 /\ CoreV t /\ FreshV t
    /\ forall id, In id (raw_ids t) <-> In id done /\ wanted s id = true).
  assert (I0 : I [] s0).
  { split; [apply upd_refl|]. split; [reflexivity|]. split; [|split].
    - constructor; simpl; [exact Nd | apply ksorted_nil | intros k id [] | constructor].
    - intros k id [].
    - intros id. simpl. tauto. }
  eapply ok_bind; [apply (forM_inv _ I (store s) s0 I0)|].
  { intros done x rest t Est (Ut & Lt & Ct & Fvt & Hids). msimp.
    rewrite refilter_body, (wanted_cfg s0 t x (u_cfg _ _ Ut)). change (wanted s0 x) with (wanted s x).
    assert (Hx : ~ In x done).
    { rewrite Est in Nd. apply NoDup_remove_2 in Nd. intros H. apply Nd. apply in_or_app. auto. }
    destruct (wanted s x) eqn:W.
    - eapply ok_mono; [apply (base_add_spec x t Ct); [|rewrite Hids; tauto]|].
      { rewrite (ce_store _ _ (u_cfg _ _ Ut)). change (store s0) with (store s). rewrite Est. apply in_or_app. right. left. reflexivity. }
      intros _ t' (U & F & L & C' & P & V').
      split; [eapply upd_trans; eauto|]. split; [congruence|]. split; [exact C'|].
      split; [eapply FreshV_add; [apply (u_cfg _ _ U) | exact V' | exact Fvt]|].
      intros id. rewrite P, in_app_iff. simpl. rewrite Hids. split.
      + intros [<-|H]; tauto.
      + intros [[H|[<-|[]]] Hw]; tauto.
    - split; [exact Ut|]. split; [exact Lt|]. split; [exact Ct|]. split; [exact Fvt|].
      intros id. rewrite Hids, in_app_iff. simpl. split; [tauto|].
      intros [[H|[<-|[]]] Hw]; [tauto | congruence]. }
  intros _ s1 (U1 & L1 & C1 & Fv1 & Hm).
  apply (ok_mono (send_view_refresh_spec s1 C1)). intros _ s2 (U2 & V2 & L2 & C2 & F2).
  assert (U : upd s s2).
  { apply (upd_trans _ _ _ (upd_set_view [] s)). eapply upd_trans; eassumption. }
  split; [exact U|]. split; [rewrite L2, L1; reflexivity|]. split; [exact C2|]. split; [exact F2|]. split.
  - intros id. rewrite (raw_ids_view _ _ V2), Hm, (ce_store _ _ (u_cfg _ _ U)), (wanted_cfg _ _ id (u_cfg _ _ U)). tauto.
  - eapply FreshV_cfg; [apply (u_cfg _ _ U2) | exact V2 | exact Fv1].
Qed.

Lemma regen_all o ids : forall s, (forall id, In id ids -> In id (store s)) ->
  ok (forM ids (regen o) s) (fun _ s' => upd s s' /\ view s' = view s /\ focus s' = focus s /\ log s' = log s
    /\ forall id, In id ids \/ cache_of s id o = Some (generate o (attr s id)) ->
         cache_of s' id o = Some (generate o (attr s id))).
Proof.
  induction ids as [|x t IH]; intros s Hst; simpl.
  - split; [apply upd_refl|]. repeat split; try reflexivity.
    intros id [[]|H]. exact H.
  - apply (ok_bind (regen_spec o x s (Hst x (or_introl eq_refl)))). intros _ s1 (U1 & V1 & F1 & L1 & K1 & Same1).
    destruct (upd_cfg _ _ U1) as (St & _ & _ & _ & At).
    eapply ok_mono; [apply (IH s1); intros id H; rewrite St; apply Hst; right; exact H|].
    intros _ s2 (U2 & V2 & F2 & L2 & K2). split; [eapply upd_trans; eauto|].
    split; [congruence|]. split; [congruence|]. split; [congruence|].
    intros id H. rewrite <- At. apply K2. rewrite At.
    destruct (N.eq_dec id x) as [->|Hne]; [right; exact K1|].
    destruct H as [[H|H]|H]; [congruence | left; exact H | right; rewrite Same1; auto].
Qed.

Lemma mapM_keys o (g : N -> N) ids s : (forall id, In id ids -> In id (store s) /\ cache_of s id o = Some (g id)) ->
  mapM (fun id => k <- okey_call o id ;; ret (k, id)) ids s = Ok (map (fun id => (g id, id)) ids, s).
Proof.
  induction ids as [|x t IH]; intros H; simpl; [reflexivity|].
  destruct (H x (or_introl eq_refl)) as [Hst Hc]. msimp.
  rewrite (bind_ok (okey_call_cached o x _ s Hst Hc)). msimp.
  rewrite (bind_ok (IH (fun id Hi => H id (or_intror Hi)))). reflexivity.
Qed.
