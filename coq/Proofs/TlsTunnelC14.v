(* Proofs/TlsTunnelC14.v -- property C14 in closed form: the record-layer contract as one
   proposition, the two transparency theorems of TlsTunnelData under it without section-local
   abbreviations, and the witness that their guard crashed s' = None is needed. *)
From Coq Require Import List.
From MV Require Import Base.Bytes Model.TlsTunnel Proofs.TlsTunnelBase Proofs.TlsTunnelData Proofs.TlsTunnelToy.
Import ListNotations.

(* The contract of the OpenSSL connection object. win / pout / pin / wout are ghost views of a
   connection (wire bytes written into it, plaintext it returned, plaintext it accepted, wire
   bytes read out of it); plain / closed_in / bad describe the wire format of the peer-to-us
   direction, peer_plain what the peer decodes from our output. *)
Definition contract {R : Type}
  (bio_write : R -> bytes -> R) (recv : R -> R * recv_res) (bio_read : R -> R * option bytes)
  (sendall : R -> bytes -> R * send_res)
  (win pout pin wout : R -> bytes) (plain : bytes -> bytes) (closed_in : bytes -> bool)
  (bad : bytes -> Prop) (peer_plain : bytes -> bytes) : Prop :=
  (forall r d,
    win (bio_write r d) = win r ++ d /\ pout (bio_write r d) = pout r /\
    pin (bio_write r d) = pin r /\ wout (bio_write r d) = wout r) /\
  (forall r,
    win (fst (recv r)) = win r /\ pin (fst (recv r)) = pin r /\ wout (fst (recv r)) = wout r /\
    match snd (recv r) with
    | RData b => b <> [] /\ pout (fst (recv r)) = pout r ++ b
    | RWantRead => pout (fst (recv r)) = pout r /\ pout r = plain (win r) /\ closed_in (win r) = false
    | RZeroReturn => pout (fst (recv r)) = pout r /\ pout r = plain (win r) /\ closed_in (win r) = true
    | RError => pout (fst (recv r)) = pout r /\ bad (win r)
    | RRaise => True
    end) /\
  (forall r,
    win (fst (bio_read r)) = win r /\ pout (fst (bio_read r)) = pout r /\ pin (fst (bio_read r)) = pin r /\
    match snd (bio_read r) with
    | Some b => wout (fst (bio_read r)) = wout r ++ b
    | None => wout (fst (bio_read r)) = wout r /\ peer_plain (wout r) = pin r
    end) /\
  (forall r d,
    win (fst (sendall r d)) = win r /\ pout (fst (sendall r d)) = pout r /\ wout (fst (sendall r d)) = wout r /\
    match snd (sendall r d) with
    | SOk => pin (fst (sendall r d)) = pin r ++ d
    | SZeroReturn | SSysCall => pin (fst (sendall r d)) = pin r
    | SRaise => True
    end).

(* an established tunnel: not crashed, and Inv of TlsTunnelData (TLS object attached, not (re-)establishing,
   client handshake not failed) *)
Definition established {R CS} (s : st R CS) : Prop :=
  crashed s = None /\ has_tls s = true /\ tunnel_state s <> ESTABLISHING /\ errored s = false.

Section Closed.
  Variable R : Type.
  Variable bio_write : R -> bytes -> R.
  Variable recv : R -> R * recv_res.
  Variable bio_read : R -> R * option bytes.
  Variable sendall : R -> bytes -> R * send_res.
  Variable do_handshake : R -> R * hs_res.
  Variable parse_hello : bytes -> hello_res.
  Variable CS : Type.
  Variable child : CS -> event -> CS * list cmd * bool.
  Variable cf : cfg.
  Variable win pout pin wout : R -> bytes.
  Variable plain : bytes -> bytes.
  Variable closed_in : bytes -> bool.
  Variable bad : bytes -> Prop.
  Variable peer_plain : bytes -> bytes.
  Hypothesis Hc : contract bio_write recv bio_read sendall win pout pin wout plain closed_in bad peer_plain.

  Notation RUN := (run R bio_write recv bio_read sendall do_handshake parse_hello CS child cf).

  Lemma inbound evs (s : st R CS) :
    established s -> ~ In EStart evs ->
    (bad (win (tls s)) \/ pout (tls s) = plain (win (tls s))) ->
    let s' := fst (RUN s evs) in let tr := snd (RUN s evs) in
    crashed s' = None -> has_open (me cf) tr = false ->
    win (tls s') = win (tls s) ++ tunnel_data (me cf) evs /\
    pout (tls s') = pout (tls s) ++ child_data (me cf) tr /\
    (~ bad (win (tls s')) -> pout (tls s) ++ child_data (me cf) tr = plain (win (tls s) ++ tunnel_data (me cf) evs)).
  Proof.
    destruct Hc as (A & B & C & D). intros [E1 E2] Hns Hq.
    exact (inbound_transparent R bio_write recv bio_read sendall do_handshake parse_hello CS child cf
             win pout pin wout plain closed_in bad peer_plain A B C D evs s E1 E2 Hns Hq).
  Qed.

  Lemma outbound evs (s : st R CS) :
    established s -> ~ In EStart evs -> peer_plain (wout (tls s)) = pin (tls s) ->
    let s' := fst (RUN s evs) in let tr := snd (RUN s evs) in
    crashed s' = None -> has_open (me cf) tr = false -> drops tr = 0 ->
    peer_plain (wout (tls s) ++ sent_wire (me cf) tr) = pin (tls s) ++ child_sends (me cf) tr.
  Proof.
    destruct Hc as (A & B & C & D). intros [E1 E2] Hns Hq.
    exact (outbound_transparent R bio_write recv bio_read sendall do_handshake parse_hello CS child cf
             win pout pin wout plain closed_in bad peer_plain A B C D evs s E1 E2 Hns Hq).
  Qed.
End Closed.

(* The unguarded statement (without crashed s' = None) is false: a record layer that satisfies the
   contract, an established tunnel, a child that sends two bytes; the layer dies in send_data. *)
Lemma send_after_error_refuted :
  exists (s : st toy (list event)) (evs : list event),
    established s /\ ~ In EStart evs /\
    let s' := fst (talk_run s evs) in let tr := snd (talk_run s evs) in
    has_open Client tr = false /\ drops tr = 0 /\ child_sends Client tr <> [] /\
    crashed s' = Some SendRaise /\ sent_wire Client tr = [].
Proof.
  exists (fst (talk_run toy_init [EStart; EData Client [x16]])), broken_evs.
  generalize toy_send_after_error. cbv zeta. intros (A & B & C & D & E & F & G & H & I & J).
  split; [|split].
  - repeat split; auto. rewrite B. discriminate.
  - unfold broken_evs. simpl. intros [X|[X|[]]]; discriminate.
  - repeat split; auto. rewrite E. discriminate.
Qed.
