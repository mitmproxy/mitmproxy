(* Proofs/TlsTunnelData.v -- byte transparency of an established TLS tunnel, under a
   contract for the record layer (OpenSSL): for every plaintext stream, every cutting of
   the wire stream into records and TCP segments, every interleaving with other events and
   with whatever the child layer does in response. *)
From Coq Require Import List Bool Arith NArith Lia.
From MV Require Import Base.Bytes Model.TlsTunnel Proofs.TlsTunnelBase.
Import ListNotations.

Definition has_open (c : conn) (tr : list titem) : bool :=
  existsb (fun t => match t with TFromChild (COpen c') => conn_eqb c' c | _ => false end) tr.
Lemma has_open_app c a b : has_open c (a ++ b) = has_open c a || has_open c b.
Proof. apply existsb_app. Qed.
Definition no_start (evs : list event) : Prop := ~ In EStart evs.

Section Data.
  Variable R : Type.
  Variable bio_write : R -> bytes -> R.
  Variable recv : R -> R * recv_res.
  Variable bio_read : R -> R * option bytes.
  Variable sendall : R -> bytes -> R * send_res.
  Variable do_handshake : R -> R * hs_res.
  Variable parse_hello : bytes -> hello_res.
  Variable CS : Type.
  Variable child : CS -> event -> CS * list cmd * bool.
  Variable cf : cfg.

  (* ghost views of a connection object: all wire bytes written into it, all plaintext it
     returned, all plaintext it accepted, all wire bytes read out of it *)
  Variable win pout pin wout : R -> bytes.
  (* the wire format: plaintext carried by the complete records of a wire stream (up to a
     close_notify), whether it contains a complete close_notify, whether it makes recv fail;
     what the peer decodes from a wire stream *)
  Variable plain : bytes -> bytes.
  Variable closed_in : bytes -> bool.
  Variable bad : bytes -> Prop.
  Variable peer_plain : bytes -> bytes.

  Hypothesis bio_write_spec : forall r d,
    win (bio_write r d) = win r ++ d /\ pout (bio_write r d) = pout r /\
    pin (bio_write r d) = pin r /\ wout (bio_write r d) = wout r.
  Hypothesis recv_spec : forall r,
    win (fst (recv r)) = win r /\ pin (fst (recv r)) = pin r /\ wout (fst (recv r)) = wout r /\
    match snd (recv r) with
    | RData b => b <> [] /\ pout (fst (recv r)) = pout r ++ b
    | RWantRead => pout (fst (recv r)) = pout r /\ pout r = plain (win r) /\ closed_in (win r) = false
    | RZeroReturn => pout (fst (recv r)) = pout r /\ pout r = plain (win r) /\ closed_in (win r) = true
    | RError => pout (fst (recv r)) = pout r /\ bad (win r)
    | RRaise => True
    end.
  Hypothesis bio_read_spec : forall r,
    win (fst (bio_read r)) = win r /\ pout (fst (bio_read r)) = pout r /\ pin (fst (bio_read r)) = pin r /\
    match snd (bio_read r) with
    | Some b => wout (fst (bio_read r)) = wout r ++ b
    | None => wout (fst (bio_read r)) = wout r /\ peer_plain (wout r) = pin r
    end.
  Hypothesis sendall_spec : forall r d,
    win (fst (sendall r d)) = win r /\ pout (fst (sendall r d)) = pout r /\ wout (fst (sendall r d)) = wout r /\
    match snd (sendall r d) with
    | SOk => pin (fst (sendall r d)) = pin r ++ d
    | SZeroReturn | SSysCall => pin (fst (sendall r d)) = pin r
    | SRaise => True
    end.

  Notation ST := (st R CS).
  Notation MM := (M R CS).
  Notation Bind := (bind R CS).
  Notation ME := (me cf).

  Definition W (s : ST) := win (tls s).
  Definition PO (s : ST) := pout (tls s).
  Definition PI (s : ST) := pin (tls s).
  Definition WO (s : ST) := wout (tls s).
  Definition Qin (s : ST) : Prop := bad (W s) \/ PO s = plain (W s).
  Definition Qout (s : ST) : Prop := peer_plain (WO s) = PI s.
  Definition Inv (s : ST) : Prop := has_tls s = true /\ tunnel_state s <> ESTABLISHING /\ errored s = false.

  Notation Sat := (sat R CS).

  (* what a handler that returns normally does to the ghost views.
     dw: wire bytes written into the connection object, dp: plaintext recv returned, dc: plaintext
     given to the child, k: whether the close_sent guard was passed. *)
  Definition Core (dw dp dc : bytes) (k : bool) (s s' : ST) (tr : list titem) : Prop :=
    Inv s' /\ close_sent s' = close_sent s || k /\
    W s' = W s ++ dw /\ PO s' = PO s ++ dp /\ child_data ME tr = dc /\
    WO s' = WO s ++ sent_wire ME tr /\ (drops tr = 0 -> PI s' = PI s ++ child_sends ME tr).
  Definition Eff dw dp dc k (s s' : ST) tr : Prop := Core dw dp dc k s s' tr /\ (Qout s -> Qout s').
  (* ... in an established tunnel whose child does not re-open the connection *)
  Definition E (dw dp dc : bytes) (k : bool) : Rel R CS := fun s ok s' tr =>
    ok = true -> Inv s -> has_open ME tr = false -> Eff dw dp dc k s s' tr.

  Lemma Core_comp a b c k a' b' c' k' s s1 s2 t1 t2 :
    Core a b c k s s1 t1 -> Core a' b' c' k' s1 s2 t2 ->
    Core (a ++ a') (b ++ b') (c ++ c') (k || k') s s2 (t1 ++ t2).
  Proof.
    intros (_ & K1 & W1 & P1 & D1 & O1 & I1) (I & K2 & W2 & P2 & D2 & O2 & I2).
    unfold Core. rewrite child_data_app, sent_wire_app, child_sends_app, drops_app.
    split; [exact I|]. repeat split.
    - rewrite K2, K1, orb_assoc. reflexivity.
    - rewrite W2, W1, app_assoc. reflexivity.
    - rewrite P2, P1, app_assoc. reflexivity.
    - rewrite D1, D2. reflexivity.
    - rewrite O2, O1, app_assoc. reflexivity.
    - intro Hd. rewrite I2, I1, app_assoc by lia. reflexivity.
  Qed.

  Lemma Eff_comp a b c k a' b' c' k' s s1 s2 t1 t2 :
    Eff a b c k s s1 t1 -> Eff a' b' c' k' s1 s2 t2 ->
    Eff (a ++ a') (b ++ b') (c ++ c') (k || k') s s2 (t1 ++ t2).
  Proof. intros [C1 Q1] [C2 Q2]. split; [eapply Core_comp; eauto | auto]. Qed.

  Lemma E_comp a b c k a' b' c' k' s s1 ok s2 t1 t2 :
    E a b c k s true s1 t1 -> E a' b' c' k' s1 ok s2 t2 ->
    E (a ++ a') (b ++ b') (c ++ c') (k || k') s ok s2 (t1 ++ t2).
  Proof.
    intros H1 H2 Hok HI Hno. rewrite has_open_app in Hno. apply orb_false_iff in Hno as [Hn1 Hn2].
    specialize (H1 eq_refl HI Hn1). eapply Eff_comp; [exact H1 | apply H2; auto; apply H1].
  Qed.

  Lemma E_seq {A B} a b c k a' b' c' k' (m : MM A) (f : A -> MM B) :
    Sat (E a b c k) m -> (forall x, Sat (E a' b' c' k') (f x)) ->
    Sat (E (a ++ a') (b ++ b') (c ++ c') (k || k') ) (Bind m f).
  Proof.
    intros H1 H2. eapply sat_bind; [exact H1 | exact H2 | discriminate 2 | intros; eapply E_comp; eauto].
  Qed.

  (* a step that only replaces the connection object *)
  Lemma Core_leaf dw dp dc s s' tr :
    Inv s' -> close_sent s' = close_sent s ->
    win (tls s') = win (tls s) ++ dw -> pout (tls s') = pout (tls s) ++ dp -> child_data ME tr = dc ->
    wout (tls s') = wout (tls s) ++ sent_wire ME tr ->
    (drops tr = 0 -> pin (tls s') = pin (tls s) ++ child_sends ME tr) ->
    Core dw dp dc false s s' tr.
  Proof. intros. unfold Core. rewrite orb_false_r. auto 10. Qed.
  (* ... and neither reads output from it nor gives it plaintext to send *)
  Lemma E_leaf dw dp dc s ok s' tr :
    (Inv s -> Inv s') -> close_sent s' = close_sent s ->
    win (tls s') = win (tls s) ++ dw -> pout (tls s') = pout (tls s) ++ dp ->
    pin (tls s') = pin (tls s) -> wout (tls s') = wout (tls s) ->
    child_data ME tr = dc -> sent_wire ME tr = [] -> child_sends ME tr = [] ->
    E dw dp dc false s ok s' tr.
  Proof.
    intros HI Hc Hw Hpo Hpi Hwo D1 D2 D3 _ I _. split.
    - apply Core_leaf; auto; rewrite ?D2, ?D3, app_nil_r; auto.
    - unfold Qout, WO, PI. rewrite Hpi, Hwo. auto.
  Qed.
  Lemma E_same dc s ok s' tr :
    (Inv s -> Inv s') -> close_sent s' = close_sent s -> tls s' = tls s ->
    child_data ME tr = dc -> sent_wire ME tr = [] -> child_sends ME tr = [] ->
    E [] [] dc false s ok s' tr.
  Proof. intros HI Hc Ht. apply E_leaf; auto; rewrite Ht, ?app_nil_r; reflexivity. Qed.

  Lemma E_good : good R CS (E [] [] [] false).
  Proof.
    split; [intros s; apply E_same; auto | intros s s1 b s2 t1 t2].
    exact (E_comp [] [] [] false [] [] [] false s s1 b s2 t1 t2).
  Qed.

  Lemma bio_write_E d : Sat (E d [] [] false) (when R CS (nonempty d) (tls_bio_write R bio_write CS d)).
  Proof.
    intros s. destruct d as [|b d]; [apply E_good|]. cbn [nonempty when]. unfold tls_bio_write, tls_op.
    destruct (has_tls s); [|discriminate 1]. cbn [okv val stt trc fst snd].
    destruct (bio_write_spec (tls s) (b :: d)) as (A & B & C & D). apply E_leaf; rewrite ?app_nil_r; auto.
  Qed.

  (* tls_interact moves pending output to the wire; afterwards the peer has decoded all plaintext accepted *)
  Lemma tls_interact_E n : forall s, Inv s ->
    let x := tls_interact R bio_read CS cf n s in
    okv R CS x = true -> Core [] [] [] false s (stt R CS x) (trc R CS x) /\ Qout (stt R CS x).
  Proof.
    induction n as [|n IH]; intros s HI; cbn [tls_interact]; [discriminate 1|].
    rewrite bind_tls_op_eq by apply HI.
    destruct (bio_read_spec (tls s)) as (Hw & Hpo & Hpi & Hx).
    destruct (bio_read (tls s)) as [r [d|]]; cbn [fst snd] in *.
    - rewrite bind_emit_eq. specialize (IH (set_tls R CS r s) HI).
      destruct (tls_interact R bio_read CS cf n (set_tls R CS r s)) as [[v s'] t]. cbn [okv val stt trc fst snd] in *.
      intros Hok. destruct (IH Hok) as [C1 Q]. split; [|exact Q].
      refine (Core_comp [] [] [] false [] [] [] false s (set_tls R CS r s) s' [TCmd (CSend ME d)] t _ C1).
      apply Core_leaf; rewrite ?app_nil_r; auto. simpl. rewrite conn_eqb_refl, app_nil_r. exact Hx.
    - intros _. destruct Hx as [Hx Hq]. cbn [stt trc ret fst snd].
      split; [apply Core_leaf; rewrite ?app_nil_r; auto|]. unfold Qout, WO, PI. cbn [tls set_tls]. congruence.
  Qed.

  (* the loop of receive_data: what it returns has been appended to the plaintext view *)
  Lemma recv_loop_E n : forall acc s p close s' tr,
    Inv s -> recv_loop R recv CS n acc s = (Some (p, close), s', tr) ->
    exists b, p = acc ++ b /\ E [] b [] false s true s' tr /\ Qin s' /\
              (close = true -> closed_in (W s') = true /\ PO s' = plain (W s')).
  Proof.
    induction n as [|n IH]; intros acc s p close s' tr HI; cbn [recv_loop]; [discriminate|].
    rewrite bind_tls_op_eq by apply HI.
    destruct (recv_spec (tls s)) as (Hw & Hpi & Hwo & Hx).
    destruct (recv (tls s)) as [r [b| | | |]]; cbn [fst snd] in *; [| | | |discriminate].
    1: { intros H. apply IH in H as (b' & -> & HE & HQ & HC); [|exact HI]. destruct Hx as [_ Hx].
         exists (b ++ b'). split; [symmetry; apply app_assoc|]. split; [|split; [exact HQ | exact HC]].
         refine (E_comp [] b [] false [] b' [] false s _ true s' [] tr _ HE). apply E_leaf; rewrite ?app_nil_r; auto. }
    (* the loop ends: nothing was added to the plaintext view *)
    all: rewrite ?bind_emit_eq; intros H; inversion H; subst; destruct Hx as [Hx Hy]; exists []; rewrite app_nil_r.
    all: split; [reflexivity|]; split; [apply E_leaf; rewrite ?app_nil_r; auto|]; unfold Qin, PO, W; cbn [tls set_tls].
    - split; [right | discriminate]. destruct Hy. congruence.
    - split; [right | intros _; split]; destruct Hy; congruence.
    - split; [left; congruence | discriminate].
  Qed.

  (* SendData of the child for the tunnel connection.  sendall leaves the peer behind (Qout fails for a
     moment); the tls_interact that follows restores it, which is why tls_interact_E gives Qout s' without
     a premise *)
  Lemma send_E d :
    Sat (E [] [] [] false) (Bind (emit R CS (TFromChild (CSend ME d))) (fun _ => send_data R bio_read sendall CS cf d)).
  Proof.
    intros s Hok HI _. revert Hok. rewrite bind_emit_eq. unfold send_data. rewrite bind_tls_op_eq by apply HI.
    destruct (sendall_spec (tls s) d) as (Hw & Hpo & Hwo & Hx).
    destruct (sendall (tls s) d) as [r a]; cbn [fst snd] in *.
    assert (Hi := tls_interact_E (fuel cf) (set_tls R CS r s) HI). unfold bind.
    destruct a; cbn [ret emit raise]; try discriminate 1.
    all: destruct (tls_interact R bio_read CS cf (fuel cf) (set_tls R CS r s)) as [[v s'] t].
    all: cbn [okv val stt trc fst snd app] in *; intros Hok; destruct (Hi Hok) as [C1 Q]; split; [|intros _; exact Q].
    1: refine (Core_comp [] [] [] false [] [] [] false s (set_tls R CS r s) s' [TFromChild (CSend ME d)] t _ C1).
    2, 3: refine (Core_comp [] [] [] false [] [] [] false s (set_tls R CS r s) s' [TFromChild (CSend ME d); TDrop d] t _ C1).
    all: apply Core_leaf; rewrite ?app_nil_r; auto; try discriminate 1.
    simpl. rewrite conn_eqb_refl, app_nil_r. auto.
  Qed.

  Definition edata (e : event) : bytes :=
    match e with EData c d => if conn_eqb c ME then d else [] | _ => [] end.

  Section Nested.
    Variable etc : event -> MM unit.

    Lemma command_E c :
      Sat (E [] [] [] false)
          (Bind (emit R CS (TFromChild c))
                (fun _ => handle_command R bio_write recv bio_read sendall do_handshake CS cf etc c)).
    Proof.
      intros s.
      assert (Pass : child_sends ME [TFromChild c] = [] -> sent_wire ME [TCmd c] = [] ->
                E [] [] [] false s true s [TFromChild c; TCmd c]).
      { intros H1 H2. apply E_same; auto; simpl in *; rewrite ?app_nil_r in *; auto. }
      destruct c as [c' d|c' h|c'| | |]; try (apply Pass; reflexivity).
      - destruct (conn_eqb c' ME) eqn:Ec.
        + apply conn_eqb_eq in Ec. subst c'. generalize (send_E d s).
          rewrite !bind_emit_eq. cbn [handle_command]. rewrite conn_eqb_refl. auto.
        + rewrite bind_emit_eq. cbn [handle_command]. rewrite Ec. apply Pass; simpl; rewrite Ec; reflexivity.
      - rewrite bind_emit_eq. destruct (conn_eqb c' ME) eqn:Ec; [|cbn [handle_command]; rewrite Ec; apply Pass; reflexivity].
        destruct (handle_command R bio_write recv bio_read sendall do_handshake CS cf etc (COpen c') s) as [[v s'] t].
        intros _ _ Hno. simpl in Hno. rewrite Ec in Hno. discriminate.
    Qed.
  End Nested.

  Notation ETC := (event_to_child R bio_write recv bio_read sendall do_handshake CS child cf).
  Notation ETOP := (etc_top R bio_write recv bio_read sendall do_handshake CS child cf).

  Lemma call_child_E e : Sat (E [] [] (edata e) false) (call_child R CS child e).
  Proof.
    intros s. unfold call_child. destruct (child (cstate s) e) as [[cs cmds] r]. cbn [okv val stt trc fst snd].
    apply E_same; auto. destruct e; simpl; rewrite ?app_nil_r; reflexivity.
  Qed.

  Lemma Inv_not_establishing s : Inv s -> tstate_eqb (tunnel_state s) ESTABLISHING = false.
  Proof. intros (_ & H & _). destruct (tunnel_state s); try reflexivity. congruence. Qed.

  (* an established tunnel neither queues nor swallows events *)
  Lemma etc_E n e : Sat (E [] [] (edata e) false) (ETC n e).
  Proof.
    intros s Hok HI. revert Hok.
    destruct n as [|n]; cbn [event_to_child];
      rewrite bind_get_eq, (proj2 (proj2 HI)), (Inv_not_establishing s HI); [discriminate 1|].
    (* the child handles e and its commands are executed *)
    intros Hok. revert Hok HI. rewrite <- (app_nil_r (edata e)).
    apply (E_seq [] [] (edata e) false [] [] [] false); [apply call_child_E | intro cr].
    apply sat_seq; [exact E_good | apply sat_iter; [exact E_good | apply command_E] | intros _].
    destruct (snd cr); [intros s0; discriminate 1 | apply sat_ret, E_good].
  Qed.

  Notation guarded_close := (guarded_close R CS cf ETOP).

  Lemma guarded_close_E : Sat (E [] [] [] true) guarded_close.
  Proof.
    intros s. unfold TlsTunnelBase.guarded_close. rewrite bind_get_eq. destruct (close_sent s) eqn:Hc.
    - intros _ HI _. split; [|auto]. unfold Core. cbn [stt trc ret fst snd]. rewrite Hc, !app_nil_r. auto 10.
    - rewrite bind_modify_eq. intros Hok HI Hno.
      destruct (etc_E (fuel cf) (EClose ME) (set_close_sent R CS true s) Hok HI Hno) as [(I & K & H) Q].
      split; [|exact Q]. split; [exact I|]. split; [rewrite Hc; exact K | exact H].
  Qed.

  Notation RD := (receive_data R bio_write recv bio_read CS cf ETOP).

  Lemma close_E close : Sat (E [] [] [] close) (when R CS close guarded_close).
  Proof. destruct close; [exact guarded_close_E | apply sat_ret, E_good]. Qed.

  Lemma hand_over_E p : Sat (E [] [] p false) (when R CS (nonempty p) (ETOP (EData ME p))).
  Proof.
    destruct p as [|b p]; [apply sat_ret, E_good|]. cbn [nonempty when].
    generalize (etc_E (fuel cf) (EData ME (b :: p))). simpl edata. rewrite conn_eqb_refl. auto.
  Qed.

  (* after the loop: flush, hand the plaintext to the child, dispatch ConnectionClosed on a close_notify *)
  Lemma deliver_E p close :
    Sat (E [] [] p close)
        (Bind (tls_interact R bio_read CS cf (fuel cf)) (fun _ =>
         Bind (when R CS (nonempty p) (ETOP (EData ME p))) (fun _ => when R CS close guarded_close))).
  Proof.
    apply (E_seq [] [] [] false [] [] p close); [intros s Hok HI _; split; [|intros _]; apply (tls_interact_E _ s HI Hok) | intros _].
    generalize (E_seq [] [] p false [] [] [] close _ _ (hand_over_E p) (fun _ => close_E close)).
    rewrite (app_nil_r p). exact (fun H => H).
  Qed.

  Lemma receive_data_E d s :
    Inv s -> okv R CS (RD d s) = true -> has_open ME (trc R CS (RD d s)) = false ->
    exists p close, Eff d p p close s (stt R CS (RD d s)) (trc R CS (RD d s)) /\ Qin (stt R CS (RD d s)) /\
      (close = true -> closed_in (W (stt R CS (RD d s))) = true /\ PO (stt R CS (RD d s)) = plain (W (stt R CS (RD d s)))).
  Proof.
    intros HI. unfold receive_data. generalize (bio_write_E d s).
    destruct (when R CS (nonempty d) (tls_bio_write R bio_write CS d) s) as [[[u|] s0] t0] eqn:E0;
      [rewrite (bind_some_eq R CS _ _ _ _ _ _ E0) | rewrite (bind_none_eq R CS _ _ _ _ _ E0); discriminate 2].
    destruct (recv_loop R recv CS (fuel cf) [] s0) as [[[[p close]|] s1] t1] eqn:E1;
      [rewrite (bind_some_eq R CS _ _ _ _ _ _ E1) | rewrite (bind_none_eq R CS _ _ _ _ _ E1); discriminate 2].
    cbn [fst snd]. generalize (deliver_E p close s1). fold guarded_close.
    destruct (Bind (tls_interact R bio_read CS cf (fuel cf)) _ s1) as [[v s'] t2]. cbn [okv val stt trc fst snd].
    intros H2 H0 Hok Hno.
    rewrite !has_open_app in Hno. apply orb_false_iff in Hno as [Hn0 Hno]. apply orb_false_iff in Hno as [Hn1 Hn2].
    pose proof (H0 eq_refl HI Hn0) as F0.
    apply recv_loop_E in E1 as (b & -> & H1 & HQ & HC); [|apply F0].
    pose proof (H1 eq_refl (proj1 (proj1 F0)) Hn1) as F1. pose proof (H2 Hok (proj1 (proj1 F1)) Hn2) as F2.
    exists b, close. pose proof (Eff_comp _ _ _ _ _ _ _ _ _ _ _ _ _ F0 (Eff_comp _ _ _ _ _ _ _ _ _ _ _ _ _ F1 F2)) as H.
    cbn [app orb] in H. rewrite !app_nil_r in H. split; [exact H|].
    destruct F2 as [(_ & _ & W2 & P2 & _) _]. rewrite app_nil_r in W2, P2.
    unfold Qin. rewrite W2, P2. split; [exact HQ | exact HC].
  Qed.

  Notation HE := (handle_event R bio_write recv bio_read sendall do_handshake parse_hello CS child cf).

  Lemma handle_data_eq d s : Inv s -> HE (EData ME d) s = RD d s.
  Proof.
    intros HI. unfold handle_event. rewrite conn_eqb_refl, bind_get_eq, (Inv_not_establishing s HI). reflexivity.
  Qed.

  (* one event: dw is what it adds to the wire stream; all plaintext returned by recv goes to the child *)
  Definition Top (dw : bytes) : Rel R CS := fun s ok s' tr =>
    ok = true -> Inv s -> has_open ME tr = false ->
    (exists k, Eff dw (child_data ME tr) (child_data ME tr) k s s' tr) /\ (Qin s -> Qin s').

  Lemma E_Top k s ok s' tr : E [] [] [] k s ok s' tr -> Top [] s ok s' tr.
  Proof.
    intros H Hok HI Hno. specialize (H Hok HI Hno). pose proof H as [(_ & _ & Hw & Hp & Hd & _) _].
    rewrite app_nil_r in Hw, Hp. unfold Qin. rewrite Hw, Hp, Hd. split; [exists k; exact H | auto].
  Qed.

  Lemma Top_comp a b s s1 ok s2 t1 t2 :
    Top a s true s1 t1 -> Top b s1 ok s2 t2 -> Top (a ++ b) s ok s2 (t1 ++ t2).
  Proof.
    intros H1 H2 Hok HI Hno. rewrite has_open_app in Hno. apply orb_false_iff in Hno as [Hn1 Hn2].
    destruct (H1 eq_refl HI Hn1) as [[k1 E1] Q1]. destruct (H2 Hok (proj1 (proj1 E1)) Hn2) as [[k2 E2] Q2].
    split; [|auto]. exists (k1 || k2). rewrite child_data_app. eapply Eff_comp; eauto.
  Qed.

  Lemma pass_Top e : edata e = [] -> Sat (Top []) (ETOP e).
  Proof.
    intros He. eapply sat_weaken; [|apply (etc_E (fuel cf) e)]. rewrite He. intros s b s' t. apply E_Top.
  Qed.

  Lemma closed_E : Sat (E [] [] [] false) (modify R CS (set_tunnel_state R CS CLOSED)).
  Proof.
    intros s. unfold modify. cbn [okv val stt trc fst snd]. apply E_same; auto.
    intros (A & B & C). repeat split; auto. discriminate.
  Qed.

  Lemma handle_event_Top e : e <> EStart -> Sat (Top (tunnel_data ME [e])) (HE e).
  Proof.
    intros Hne. destruct e as [|c d|c|c err|t]; [congruence| | |apply pass_Top; reflexivity..].
    - destruct (conn_eqb c ME) eqn:Ec.
      + apply conn_eqb_eq in Ec. subst c. cbn [tunnel_data flat_map]. rewrite conn_eqb_refl, app_nil_r.
        intros s Hok HI. revert Hok. rewrite (handle_data_eq d s HI). intros Hok Hno.
        destruct (receive_data_E d s HI Hok Hno) as (p & close & H & HQ & _).
        pose proof H as [(_ & _ & _ & _ & Hd & _) _]. rewrite Hd. split; [exists close; exact H | auto].
      + unfold handle_event. simpl. rewrite Ec. apply pass_Top. simpl. rewrite Ec. reflexivity.
    - destruct (conn_eqb c ME) eqn:Ec; [|unfold handle_event; rewrite Ec; apply pass_Top; reflexivity].
      intros s Hok HI. revert Hok. unfold handle_event. rewrite Ec, bind_get_eq.
      destruct (tstate_eqb (tunnel_state s) OPEN); [|rewrite (Inv_not_establishing s HI)]; intros Hok.
      + exact (E_Top _ _ _ _ _ (E_seq [] [] [] true [] [] [] false _ _ guarded_close_E (fun _ => closed_E) s) Hok HI).
      + exact (E_Top _ _ _ _ _ (sat_seq R CS _ _ _ E_good (sat_ret R CS _ tt E_good) (fun _ => closed_E) s) Hok HI).
  Qed.

  Notation STEP := (step R bio_write recv bio_read sendall do_handshake parse_hello CS child cf).
  Notation RUN := (run R bio_write recv bio_read sendall do_handshake parse_hello CS child cf).

  Lemma handle_event_ok e s :
    crashed (stt R CS (HE e s)) = None -> okv R CS (HE e s) = true.
  Proof.
    intro Hc. generalize (handle_event_at_event R bio_write recv bio_read sendall do_handshake parse_hello CS child cf e s).
    intros [_ C]. destruct (okv R CS (HE e s)); auto. exfalso. apply C; auto.
  Qed.

  Lemma step_spec e s :
    crashed s = None -> e <> EStart -> crashed (fst (STEP s e)) = None ->
    Top (tunnel_data ME [e]) s true (fst (STEP s e)) (snd (STEP s e)).
  Proof.
    intros Hc Hne. unfold step. rewrite Hc. generalize (handle_event_ok e s) (handle_event_Top e Hne s).
    destruct (HE e s) as [[v s'] tr]. cbn [fst snd stt trc]. intros Hok H Hc'. rewrite (Hok Hc') in H. exact H.
  Qed.

  Lemma run_crashed evs : forall s, crashed s <> None -> RUN s evs = (s, []).
  Proof.
    induction evs as [|e evs IH]; intros s Hc; cbn [run]; auto.
    unfold step. destruct (crashed s) eqn:E; [|congruence]. rewrite IH by congruence. reflexivity.
  Qed.

  (* Main invariant: an established tunnel, any sequence of events *)
  Theorem run_spec evs : forall s,
    crashed s = None -> no_start evs -> crashed (fst (RUN s evs)) = None ->
    Top (tunnel_data ME evs) s true (fst (RUN s evs)) (snd (RUN s evs)).
  Proof.
    induction evs as [|e evs IH]; intros s Hc Hns; cbn [run].
    - intros _. apply (E_Top false), E_good.
    - destruct (STEP s e) as [s1 t1] eqn:E1. destruct (RUN s1 evs) as [s2 t2] eqn:E2. cbn [fst snd]. intros Hc2.
      assert (Hc1 : crashed s1 = None).
      { destruct (crashed s1) eqn:Ec; auto. rewrite run_crashed in E2 by congruence. inversion E2; subst. congruence. }
      change (e :: evs) with ([e] ++ evs). rewrite tunnel_data_app. eapply Top_comp.
      + generalize (step_spec e s Hc). rewrite E1. intros X. apply X; [|exact Hc1]. intros ->. apply Hns. left. reflexivity.
      + generalize (IH s1 Hc1). rewrite E2. intros X. apply X; [|exact Hc2]. intro Hin. apply Hns. right. exact Hin.
  Qed.

  (* Inbound transparency: whatever the cutting of the wire stream into records and segments and
     whatever happens in between, the child has been given exactly the plaintext of the wire stream *)
  Theorem inbound_transparent evs s :
    crashed s = None -> Inv s -> no_start evs -> Qin s ->
    let s' := fst (RUN s evs) in let tr := snd (RUN s evs) in
    crashed s' = None -> has_open ME tr = false ->
    W s' = W s ++ tunnel_data ME evs /\ PO s' = PO s ++ child_data ME tr /\
    (~ bad (W s') -> PO s ++ child_data ME tr = plain (W s ++ tunnel_data ME evs)).
  Proof.
    intros Hc HI Hns Hq s' tr Hc' Hno.
    destruct (run_spec evs s Hc Hns Hc' eq_refl HI Hno) as [[k [(_ & _ & A & B & _) _]] Q].
    fold s' tr in A, B, Q. repeat split; auto. intro Hb. destruct (Q Hq) as [Hbad|He]; [tauto|]. congruence.
  Qed.

  (* Outbound transparency: the peer decodes exactly what the child asked to send *)
  Theorem outbound_transparent evs s :
    crashed s = None -> Inv s -> no_start evs -> Qout s ->
    let s' := fst (RUN s evs) in let tr := snd (RUN s evs) in
    crashed s' = None -> has_open ME tr = false -> drops tr = 0 ->
    peer_plain (WO s ++ sent_wire ME tr) = PI s ++ child_sends ME tr.
  Proof.
    intros Hc HI Hns Hq s' tr Hc' Hno Hd.
    destruct (run_spec evs s Hc Hns Hc' eq_refl HI Hno) as [[k [(_ & _ & _ & _ & _ & C & D) E]] _].
    fold s' tr in C, D, E. specialize (E Hq). unfold Qout in E. rewrite C, (D Hd) in E. exact E.
  Qed.

  (* close_notify: when the tunnel dispatches ConnectionClosed because of a close_notify, every
     plaintext byte of the wire stream has been given to the child before *)
  Theorem close_after_all_data d s :
    crashed s = None -> Inv s -> close_sent s = false ->
    let s' := fst (STEP s (EData ME d)) in let tr := snd (STEP s (EData ME d)) in
    crashed s' = None -> has_open ME tr = false -> close_sent s' = true ->
    closed_in (W s') = true /\ PO s ++ child_data ME tr = plain (W s') /\ W s' = W s ++ d.
  Proof.
    intros Hc HI Hcs. unfold step. rewrite Hc. generalize (handle_event_ok (EData ME d) s) (receive_data_E d s HI).
    rewrite (handle_data_eq d s HI). destruct (RD d s) as [[v s'] tr]. cbn [fst snd stt trc].
    intros Hok H Hc' Hno Hcs'. destruct (H (Hok Hc') Hno) as (p & close & [(_ & K & Hw & Hp & Hd & _) _] & _ & Cl).
    rewrite Hcs, Hcs' in K. destruct (Cl (eq_sym K)) as [Ca Cb]. rewrite Hd, <- Hp. auto.
  Qed.

  (* ... and nothing is delivered afterwards, whatever arrives *)
  Hypothesis closed_final : forall w x, closed_in w = true -> plain (w ++ x) = plain w.

  Theorem no_data_after_close_notify evs s :
    crashed s = None -> Inv s -> no_start evs -> closed_in (W s) = true -> PO s = plain (W s) ->
    let s' := fst (RUN s evs) in let tr := snd (RUN s evs) in
    crashed s' = None -> has_open ME tr = false -> ~ bad (W s') ->
    child_data ME tr = [].
  Proof.
    intros Hc HI Hns Hcl Hpo s' tr Hc' Hno Hb.
    destruct (inbound_transparent evs s Hc HI Hns (or_intror Hpo) Hc' Hno) as (A & B & C).
    fold s' tr in A, B, C. specialize (C Hb). rewrite closed_final in C by exact Hcl.
    rewrite <- Hpo in C. rewrite <- (app_nil_r (PO s)) in C at 2. apply app_inv_head in C. exact C.
  Qed.
End Data.
