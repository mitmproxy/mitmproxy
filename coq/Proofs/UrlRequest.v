(* Proofs/UrlRequest.v -- Request-level facts: header rewriting, _update_host_and_authority,
   the url setter/getter fixpoint, edit histories. *)
From Coq Require Import List Bool ZArith.
From MV Require Import Base.Bytes Model.Url Proofs.UrlLemmas Proofs.UrlDec Proofs.UrlParse.
Import ListNotations.

(* MultiDict.set_all with one value *)
Section Headers.
Variables k v : bytes.

Lemma get_all_nil_has h : get_all k h = [] -> has_header k h = false.
Proof.
  unfold get_all, has_header. induction h as [|f r IH]; simpl; [reflexivity|].
  destruct (key_is k f); simpl; [discriminate | exact IH].
Qed.

Lemma go_absent placed h : has_header k h = false -> set_header_go k v placed h = (h, placed).
Proof.
  unfold has_header. revert placed. induction h as [|f r IH]; simpl; intros placed H; [reflexivity|].
  apply orb_false_iff in H as [H1 H2]. rewrite H1, (IH _ H2). reflexivity.
Qed.

(* the pass leaves one value under k when it still had to place it and k occurs, none otherwise *)
Lemma go_spec h : forall placed,
  snd (set_header_go k v placed h) = placed || has_header k h
  /\ get_all k (fst (set_header_go k v placed h)) = if placed then [] else if has_header k h then [v] else [].
Proof.
  unfold get_all, has_header. induction h as [|f r IH]; intros placed; simpl.
  - rewrite orb_false_r. destruct placed; auto.
  - destruct (key_is k f) eqn:E.
    + destruct (IH true) as [I1 I2]. destruct placed; [auto|].
      destruct (set_header_go k v true r) as [r' p]. simpl in *.
      change (key_is k (fst f, v)) with (key_is k f). rewrite E. simpl. rewrite I2. auto.
    + destruct (IH placed) as [I1 I2]. destruct (set_header_go k v placed r) as [r' p]. simpl in *. rewrite E. auto.
Qed.

Lemma set_header_present h : has_header k h = true -> get_all k (set_header k v h) = [v].
Proof.
  intros H. unfold set_header. destruct (go_spec h false) as [G1 G2]. rewrite H in G1, G2.
  destruct (set_header_go k v false h) as [h' p]. simpl in *. subst. exact G2.
Qed.

Lemma go_false_fix h : get_all k h = [v] -> set_header_go k v false h = (h, true).
Proof.
  unfold get_all. induction h as [|f r IH]; simpl; intros H; [discriminate|].
  destruct (key_is k f) eqn:E; simpl in H.
  - inversion H as [[H1 H2]]. rewrite H1.
    rewrite (go_absent true r (get_all_nil_has r H2)). destruct f; simpl in *. subst. reflexivity.
  - rewrite (IH H). reflexivity.
Qed.

Lemma set_header_fix h : get_all k h = [v] -> set_header k v h = h.
Proof. intros H. unfold set_header. rewrite (go_false_fix h H). reflexivity. Qed.

End Headers.

Lemma with_scheme_same r : with_scheme r (r_scheme r) = r. Proof. destruct r; reflexivity. Qed.
Lemma with_host_same r : with_host r (r_host r) = r. Proof. destruct r; reflexivity. Qed.
Lemma with_port_same r : with_port r (r_port r) = r. Proof. destruct r; reflexivity. Qed.
Lemma with_path_same r : with_path r (r_path r) = r. Proof. destruct r; reflexivity. Qed.

Section Req.
Variable ace : bytes -> option str.
Variable uenc : str -> option bytes.

Notation U := (update_host_and_authority uenc).

Definition dest_text (r : request) : bytes := hostport (r_scheme r) (r_host r) (r_port r).

(* an existing Host header and a non-empty authority both spell the current destination *)
Definition consistent (r : request) : Prop :=
  (has_header s_Host (r_headers r) = true -> get_all s_Host (r_headers r) = [dest_text r])
  /\ (r_authority r <> [] -> r_authority r = encode_authority uenc (dest_text r)).

(* the update rewrites an existing Host header and a non-empty authority, nothing else *)
Lemma U_eq r :
  U r = mkReq (r_scheme r) (r_host r) (r_port r) (r_path r)
          (if is_nil (r_authority r) then [] else encode_authority uenc (dest_text r))
          (if has_header s_Host (r_headers r) then set_header s_Host (dest_text r) (r_headers r)
           else r_headers r)
          (r_h2 r) (r_connect r).
Proof.
  unfold update_host_and_authority, dest_text. destruct r as [s h p pa a hs h2 c].
  cbn [r_scheme r_host r_port r_headers].
  destruct (has_header s_Host hs); cbn; destruct a; reflexivity.
Qed.

Lemma U_dest r : dest_text (U r) = dest_text r.
Proof. rewrite U_eq. reflexivity. Qed.

Lemma U_consistent r : consistent (U r).
Proof.
  unfold consistent. rewrite U_dest, U_eq. cbn [r_headers r_authority]. split.
  - destruct (has_header s_Host (r_headers r)) eqn:HH; [intros _; apply set_header_present, HH | congruence].
  - destruct (is_nil (r_authority r)); [congruence | reflexivity].
Qed.

Lemma U_fix r : consistent r -> U r = r.
Proof.
  intros [C1 C2]. rewrite U_eq. destruct r as [s h p pa a hs h2 c]. cbn [r_authority r_headers] in *. f_equal.
  - destruct a; [reflexivity|]. symmetry. apply C2. discriminate.
  - destruct (has_header s_Host hs); [apply set_header_fix, C1; reflexivity | reflexivity].
Qed.

Lemma with_path_consistent r pa : consistent r -> consistent (with_path r pa).
Proof. destruct r; exact (fun H => H). Qed.

Lemma parse_host_decodes u s hb p pa :
  parse ace uenc u = Some (s, hb, p, pa) -> is_valid_host_b ace hb = true.
Proof.
  unfold parse. destruct (negb (all_ascii u)); [discriminate|].
  destruct (urlparse u) as [[[[[[s0 nl] path] params] q] f]|]; [|discriminate].
  destruct (hostname nl) as [hn|]; [|discriminate].
  destruct (idna_encode uenc hn) as [host|]; [|discriminate].
  destruct (port_of nl) as [po|]; [|discriminate].
  destruct (is_valid_host_b ace host) eqn:V; [|discriminate].
  intros H. inversion H; subst. exact V.
Qed.

Lemma valid_host_decodes hb : is_valid_host_b ace hb = true -> exists h, idna_decode ace hb = Some h.
Proof. unfold is_valid_host_b. destruct (idna_decode ace hb) as [h|]; [eauto | discriminate]. Qed.

(* the request after the url setter has assigned scheme, host, port and path in that order *)
Definition assigned (r : request) (s : bytes) (h : str) (p : Z) (pa : bytes) : request :=
  with_path (U (with_port (U (with_host (with_scheme r s) h)) p)) pa.

Lemma assigned_fields r s h p pa :
  r_scheme (assigned r s h p pa) = s /\ r_host (assigned r s h p pa) = h /\ r_port (assigned r s h p pa) = p
  /\ r_path (assigned r s h p pa) = pa /\ r_connect (assigned r s h p pa) = r_connect r.
Proof.
  unfold assigned. rewrite !U_eq. destruct r. repeat split.
Qed.

Lemma assigned_consistent r s h p pa : consistent (assigned r s h p pa).
Proof. apply with_path_consistent, U_consistent. Qed.

Lemma assigned_same r : consistent r -> assigned r (r_scheme r) (r_host r) (r_port r) (r_path r) = r.
Proof.
  intros C. unfold assigned.
  rewrite with_scheme_same, with_host_same, (U_fix r C), with_port_same, (U_fix r C). apply with_path_same.
Qed.

(* shape of a successful url assignment; a failing one assigns nothing *)
Lemma set_url_shape r u :
  match parse ace uenc u with
  | None => set_url ace uenc r u = (r, false)
  | Some (s, hb, p, pa) =>
      exists h, idna_decode ace hb = Some h /\ set_url ace uenc r u = (assigned r s h p pa, true)
  end.
Proof.
  unfold set_url. destruct (parse ace uenc u) as [[[[s hb] p] pa]|] eqn:P; [|reflexivity].
  destruct (valid_host_decodes hb (parse_host_decodes _ _ _ _ _ P)) as [h D].
  exists h. split; [exact D|]. unfold set_host_bytes. rewrite D. reflexivity.
Qed.

Lemma set_url_fields r u r1 :
  set_url ace uenc r u = (r1, true) ->
  exists s hb p pa h, parse ace uenc u = Some (s, hb, p, pa) /\ idna_decode ace hb = Some h
    /\ r1 = assigned r s h p pa.
Proof.
  pose proof (set_url_shape r u) as S.
  destruct (parse ace uenc u) as [[[[s hb] p] pa]|]; [|rewrite S; discriminate].
  destruct S as (h & D & ->). intros [= <-]. exists s, hb, p, pa, h. auto.
Qed.

Lemma set_url_ok_consistent r u r1 : set_url ace uenc r u = (r1, true) -> consistent r1.
Proof.
  intros H. destruct (set_url_fields r u r1 H) as (s & hb & p & pa & h & _ & _ & ->).
  apply assigned_consistent.
Qed.

Lemma set_url_fail_unchanged r u r1 : set_url ace uenc r u = (r1, false) -> r1 = r.
Proof.
  pose proof (set_url_shape r u) as S.
  destruct (parse ace uenc u) as [[[[s hb] p] pa]|].
  - destruct S as (h & _ & ->). discriminate.
  - rewrite S. congruence.
Qed.

Theorem step_ok_consistent r o r1 : step ace uenc r o = (r1, true) -> consistent r1.
Proof.
  destruct o as [u|h|hb|p]; simpl.
  - apply set_url_ok_consistent.
  - intros H. inversion H. apply U_consistent.
  - unfold set_host_bytes. destruct (idna_decode ace hb); intros H; inversion H. apply U_consistent.
  - intros H. inversion H. apply U_consistent.
Qed.

Lemma step_fail_unchanged r o r1 : step ace uenc r o = (r1, false) -> r1 = r.
Proof.
  destruct o as [u|h|hb|p]; simpl; try discriminate.
  - apply set_url_fail_unchanged.
  - unfold set_host_bytes. destruct (idna_decode ace hb); intros H; inversion H. reflexivity.
Qed.

Theorem run_consistent ops : forall r, consistent r -> consistent (run ace uenc r ops).
Proof.
  unfold run. induction ops as [|o ops IH]; simpl; intros r C; [exact C|].
  apply IH. destruct (step ace uenc r o) as [r1 [|]] eqn:S; simpl.
  - apply (step_ok_consistent _ _ _ S).
  - rewrite (step_fail_unchanged _ _ _ S). exact C.
Qed.

Theorem run_last_ok_consistent ops1 o ops2 r :
  snd (step ace uenc (run ace uenc r ops1) o) = true ->
  consistent (run ace uenc r (ops1 ++ o :: ops2)).
Proof.
  intros H. unfold run. rewrite fold_left_app. simpl. apply run_consistent.
  fold (run ace uenc r ops1). destruct (step ace uenc (run ace uenc r ops1) o) as [r1 b] eqn:S.
  simpl in H. subst. apply (step_ok_consistent _ _ _ S).
Qed.

Lemma wf_path_not_star path : wf_path path -> bytes_eqb path [cSTAR] = false.
Proof. intros (H & _). destruct (starts_slash _ H) as [t ->]. reflexivity. Qed.

Theorem url_fixpoint r :
  consistent r -> r_connect r = false ->
  wf_dest ace (r_scheme r) (r_host r) (r_port r) -> wf_path (r_path r) ->
  idna_decode ace (r_host r) = Some (r_host r) ->
  set_url ace uenc r (get_url r) = (r, true).
Proof.
  intros C NC WF WP D. unfold get_url. rewrite NC, (wf_path_not_star _ WP).
  pose proof (set_url_shape r (unparse (r_scheme r) (r_host r) (r_port r) (r_path r))) as S.
  rewrite (parse_unparse ace uenc _ _ _ _ WF WP) in S.
  destruct S as (h & D' & ->). rewrite D in D'. injection D' as <-. rewrite (assigned_same r C). reflexivity.
Qed.

Theorem url_roundtrip r s h p path :
  r_connect r = false -> wf_dest ace s h p -> wf_path path -> idna_decode ace h = Some h ->
  exists r1, set_url ace uenc r (unparse s h p path) = (r1, true)
    /\ r_scheme r1 = s /\ r_host r1 = h /\ r_port r1 = p /\ r_path r1 = path
    /\ get_url r1 = unparse s h p path
    /\ consistent r1
    /\ set_url ace uenc r1 (get_url r1) = (r1, true).
Proof.
  intros NC WF WP D.
  pose proof (set_url_shape r (unparse s h p path)) as S.
  rewrite (parse_unparse ace uenc _ _ _ _ WF WP) in S.
  destruct S as (h' & D' & E). rewrite D in D'. injection D' as <-.
  destruct (assigned_fields r s h p path) as (F1 & F2 & F3 & F4 & F5). rewrite NC in F5.
  pose proof (assigned_consistent r s h p path) as C.
  set (r1 := assigned r s h p path) in *.
  assert (get_url r1 = unparse s h p path) as G.
  { unfold get_url. rewrite F5, F1, F2, F3, F4, (wf_path_not_star _ WP). reflexivity. }
  exists r1. split; [exact E|]. do 4 (split; [assumption|]). split; [exact G|]. split; [exact C|].
  apply url_fixpoint; auto; rewrite ?F1, ?F2, ?F3, ?F4; auto.
Qed.

End Req.
