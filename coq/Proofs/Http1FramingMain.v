(* Proofs/Http1FramingMain.v -- framing_agree for requests and responses, and the rejection theorems (d). *)
From Coq Require Import List Bool NArith ZArith Lia ZifyBool.
From MV Require Import Base.Bytes Model.Http1Msg Model.BodySizePrelude Gen.BodySize Model.Rfc9112
  Proofs.Http1Lines Proofs.Http1Regex Proofs.Http1TeNorm Proofs.Http1Framing.
Import ListNotations.

Definition IDENTITY : bytes := [x69;x64;x65;x6e;x74;x69;x74;x79].

(* rules 5-7 of expected_http_body_size, shared by all its branches *)
Definition cl_part (is_resp : bool) (hs : headers) : res (option Z) :=
  let cl := hget CONTENT_LENGTH hs in
  if opt_truthy cl then bind (parse_content_length true (opt_val cl)) (fun n => Ok (Some n))
  else if is_resp then Ok (Some (-1)%Z) else Ok (Some 0%Z).

Definition te_part (is_resp : bool) (hs : headers) : res (option Z) :=
  let te := hget TRANSFER_ENCODING hs in
  if opt_truthy te then
    bind (parse_transfer_encoding true (opt_val te))
      (fun t => if in_set t (firstn 4 SET) then Ok None
                else if in_set t (skipn 4 SET) then
                       (if is_resp then Ok (Some (-1)%Z)
                        else if bytes_eqb t IDENTITY || hcontains CONTENT_LENGTH hs then cl_part is_resp hs
                             else Ok (Some (-1)%Z))
                     else OtherError)
  else cl_part is_resp hs.

Lemma ehbs_request r : expected_http_body_size r None = te_part false (rq_headers r).
Proof. reflexivity. Qed.

Lemma ehbs_response q r :
  expected_http_body_size q (Some r) =
  if bytes_eqb (upper (rq_method q)) HEAD then Ok (Some 0%Z)
  else if Z.leb 100 (rs_status r) && Z.leb (rs_status r) 199 then Ok (Some 0%Z)
  else if Z.eqb (rs_status r) 204 || Z.eqb (rs_status r) 304 then Ok (Some 0%Z)
  else if (Z.leb 200 (rs_status r) && Z.leb (rs_status r) 299) && bytes_eqb (upper (rq_method q)) CONNECT then Ok (Some 0%Z)
  else te_part true (rs_headers r).
Proof. reflexivity. Qed.

(* rules 3-7: on the fields of an accepted message the two decisions agree *)
Lemma framing_agree_fields m : accepted_framing m ->
  exists sz bl, te_part (is_response m) (msg_headers m) = Ok sz
             /\ fields_body_length (is_request m) (msg_version m) (msg_headers m) = Some bl /\ size_agrees sz bl.
Proof.
  intros A. unfold fields_body_length, te_part, cl_part, hget. rewrite field_values_te, field_values_cl.
  destruct A as [Ete Ecl | v n Ete Ecl C Hn P | v t Ete Ecl V P Rq _]; rewrite Ete, Ecl.
  - destruct m; [exists (Some 0%Z), BLZero | exists (Some (-1)%Z), BLUntilClose]; repeat split.
  - destruct (canon_dec_digits v C) as [Hne Hd].
    exists (Some (Z.of_N n)), (BLLen n). cbn [join_comma_sp opt_truthy opt_val].
    destruct v as [|x v]; [congruence|]. rewrite pcl_flag, P.
    split; [reflexivity|]. split; [|reflexivity]. apply (ref_cl_single (x :: v) n Hne Hd Hn).
  - destruct (ref_te_single v t P) as (n & ns & Hc & Hl & Hk).
    assert (Hv : v <> []) by (intros ->; vm_compute in P; discriminate).
    apply bytes_eqb_eq in V. rewrite V. change (version_lt_11 HTTP11) with false. cbv iota. rewrite Hc, Hl.
    cbn [join_comma_sp opt_truthy opt_val].
    destruct v as [|x v]; [congruence|]. rewrite pte_flag, P. cbn [bind]. rewrite Hk.
    destruct m; cbn [is_request is_response] in *.
    + rewrite (Rq eq_refl). exists None, BLChunked. repeat split.
    + destruct (in_set t (firstn 4 SET)); [exists None, BLChunked | exists (Some (-1)%Z), BLUntilClose]; repeat split.
Qed.

Theorem framing_agree_request r :
  validate_headers (MReq r) = Ok tt ->
  exists sz bl, expected_http_body_size r None = Ok sz
             /\ request_body_length (rq_version r) (rq_headers r) = Some bl /\ size_agrees sz bl.
Proof. intros H. rewrite ehbs_request. exact (framing_agree_fields (MReq r) (proj2 (validate_accepts _ H))). Qed.

(* the request method as the reference reads it (case-sensitive) agrees with mitmproxy's upper-cased test *)
Definition method_case_ok (m : bytes) : Prop :=
  bytes_eqb (upper m) HEAD = bytes_eqb m r_HEAD /\ bytes_eqb (upper m) CONNECT = bytes_eqb m r_CONNECT.

Theorem framing_agree_response q r st :
  validate_headers (MResp r) = Ok tt ->
  rs_status r = Z.of_N st -> method_case_ok (rq_method q) ->
  exists sz bl, expected_http_body_size q (Some r) = Ok sz
             /\ response_body_length (rq_method q) st (rs_version r) (rs_headers r) = Some bl /\ size_agrees sz bl.
Proof.
  intros H Hst [Mh Mc]. rewrite ehbs_response, Mh, Mc, Hst. unfold response_body_length.
  (* rules 1, 2: the same tests on the status, in Z and in N *)
  replace (Z.leb 100 (Z.of_N st) && Z.leb (Z.of_N st) 199) with ((100 <=? st) && (st <=? 199))%N by lia.
  replace (Z.eqb (Z.of_N st) 204 || Z.eqb (Z.of_N st) 304) with (N.eqb st 204 || N.eqb st 304) by lia.
  replace (Z.leb 200 (Z.of_N st) && Z.leb (Z.of_N st) 299) with ((200 <=? st) && (st <=? 299))%N by lia.
  rewrite (andb_comm _ (bytes_eqb (rq_method q) r_CONNECT)).
  destruct (bytes_eqb (rq_method q) r_HEAD); [exists (Some 0%Z), BLZero; repeat split|].
  destruct ((100 <=? st) && (st <=? 199))%N; [exists (Some 0%Z), BLZero; repeat split|].
  destruct (N.eqb st 204 || N.eqb st 304); [exists (Some 0%Z), BLZero; repeat split|].
  destruct (bytes_eqb (rq_method q) r_CONNECT && ((200 <=? st) && (st <=? 299))%N); [exists (Some 0%Z), BLTunnel; repeat split|].
  exact (framing_agree_fields (MResp r) (proj2 (validate_accepts _ H))).
Qed.

(* what validate_headers rejects field by field (the rejections by framing are read off
   validate_accepts where they are stated) *)
Theorem rejects_invalid_name m n v :
  In (n, v) (msg_headers m) -> existsb (byte_eqb LF) n = false -> is_token n = false -> validate_headers m <> Ok tt.
Proof.
  intros Hin Hlf Ht H. destruct (validate_accepts _ H) as [F _].
  rewrite forallb_forall in F. specialize (F _ Hin). unfold field_ok in F. simpl in F.
  apply andb_true_iff in F as [F _]. rewrite (valid_name_token _ Hlf) in F. congruence.
Qed.

Theorem rejects_cr_lf_nul_value m n v c :
  In (n, v) (msg_headers m) -> In c v -> (c = x0d \/ c = x0a \/ c = x00) -> validate_headers m <> Ok tt.
Proof.
  intros Hin Hc Hcc H. destruct (validate_accepts _ H) as [F _].
  rewrite forallb_forall in F. apply F, andb_true_iff in Hin as [_ C]. cbn [snd] in C.
  rewrite bad_value_clean, negb_involutive in C. destruct (clean_In v c C Hc) as [A B].
  destruct Hcc as [->|[->| ->]]; discriminate.
Qed.

(* "head" in lower case: mitmproxy upper-cases the method, the reference (RFC 9110 9.1) does not *)
Lemma head_case_refuted : exists q r sz bl,
  validate_headers (MResp r) = Ok tt /\ expected_http_body_size q (Some r) = Ok sz
  /\ response_body_length (rq_method q) 200 (rs_version r) (rs_headers r) = Some bl /\ ~ size_agrees sz bl.
Proof.
  exists (mkReq [] 0 [x68;x65;x61;x64] [] [] [x2f] HTTP11 []),
         (mkResp HTTP11 200 [x4f;x4b] [(CONTENT_LENGTH, [x35])]), (Some 0%Z), (BLLen 5).
  split; [vm_compute; reflexivity|]. split; [vm_compute; reflexivity|]. split; [vm_compute; reflexivity|].
  simpl. discriminate.
Qed.
