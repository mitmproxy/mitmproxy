(* Proofs/ProxyAuthHooks.v -- what the ProxyAuth hooks and the proxy core do with a request, for every
   validator, every header list and every history of events on any number of connections. *)
From Coq Require Import Arith NArith List Bool Lia.
From MV Require Import Base.Bytes Model.ProxyAuth Proofs.ListFacts.
Import ListNotations.
Local Open Scope N_scope.

Implicit Types V : validator.

(* the request carries, in the header of its entry path, Basic credentials the validator accepts *)
Definition valid_creds (ms1 : bool) (V : validator) (f : flow) : Prop :=
  exists u p, creds_of ms1 f = Some (u, p) /\ V u p = true.

Definition server_side (c : cmd) : bool :=
  match c with OpenServer | ToServer _ | Tunnel => true | _ => false end.
Definition reaches_server (o : outcome) : Prop :=
  match o with OHttp _ cmds => existsb server_side cmds = true | OSocks v => v = true end.

Definition deny_flow (c : N) (ip rp sm : bool) (hs : headers) : flow :=
  mkFlow c ip rp sm hs (Some (auth_required_status ip)) None.
Definition pass_flow (c : N) (ip rp sm : bool) (hs : headers) (u p : str) : flow :=
  mkFlow c ip rp sm (headers_del (http_auth_header ip) hs) None (Some (u, p)).

Lemma valid_creds_dec ms1 V f : valid_creds ms1 V f \/ ~ valid_creds ms1 V f.
Proof.
  unfold valid_creds. destruct (creds_of ms1 f) as [[u p]|] eqn:E.
  - destruct (V u p) eqn:EV.
    + left. exists u, p. auto.
    + right. intros (u' & p' & H1 & H2). inversion H1; subst. congruence.
  - right. intros (u' & p' & H1 & _). discriminate.
Qed.

Lemma auth_http_valid ms1 V c ip rp sm hs u p :
  creds_of ms1 (new_flow c ip rp sm hs) = Some (u, p) -> V u p = true ->
  authenticate_http ms1 V (new_flow c ip rp sm hs) = (true, pass_flow c ip rp sm hs u p).
Proof. intros H1 H2. unfold authenticate_http. rewrite H1, H2. reflexivity. Qed.

Lemma auth_http_invalid ms1 V c ip rp sm hs :
  ~ valid_creds ms1 V (new_flow c ip rp sm hs) ->
  authenticate_http ms1 V (new_flow c ip rp sm hs) = (false, deny_flow c ip rp sm hs).
Proof.
  intros H. unfold authenticate_http.
  destruct (creds_of ms1 (new_flow c ip rp sm hs)) as [[u p]|] eqn:E; [|reflexivity].
  destruct (V u p) eqn:EV; [|reflexivity].
  exfalso. apply H. exists u, p. auto.
Qed.

Lemma status_not_2xx ip : (200 <=? auth_required_status ip) && (auth_required_status ip <? 300) = false.
Proof. destruct ip; reflexivity. Qed.

Theorem unauth_request_denied ms1 V st c ip sm hs :
  lookup c st = None -> ~ valid_creds ms1 V (new_flow c ip false sm hs) ->
  step ms1 (Some V) st (EReq c ip false false sm hs) =
    (st, OHttp (deny_flow c ip false sm hs) (if sm then [Crash] else [ToClient (auth_required_status ip)])).
Proof.
  intros L H. unfold step, requestheaders. cbn [new_flow f_conn f_replay]. rewrite L.
  rewrite auth_http_invalid by exact H. reflexivity.
Qed.

Theorem unauth_connect_denied ms1 V st c ip rp sm hs :
  ~ valid_creds ms1 V (new_flow c ip rp sm hs) ->
  step ms1 (Some V) st (EReq c ip true rp sm hs) =
    (st, OHttp (deny_flow c ip rp sm hs) [ToClient (auth_required_status ip)]).
Proof.
  intros H. unfold step, http_connect. rewrite auth_http_invalid by exact H.
  unfold stream_connect, deny_flow. cbn [f_resp]. rewrite status_not_2xx. reflexivity.
Qed.

Theorem valid_request_forwarded ms1 V st c ip sm hs u p :
  lookup c st = None -> creds_of ms1 (new_flow c ip false sm hs) = Some (u, p) -> V u p = true ->
  step ms1 (Some V) st (EReq c ip false false sm hs) =
    (st, OHttp (pass_flow c ip false sm hs u p) [OpenServer; ToServer (headers_del (http_auth_header ip) hs)]).
Proof.
  intros L H1 H2. unfold step, requestheaders. cbn [new_flow f_conn f_replay]. rewrite L.
  rewrite (auth_http_valid ms1 V c ip false sm hs u p H1 H2). reflexivity.
Qed.

Theorem valid_connect_tunnel ms1 V st c ip rp sm hs u p :
  creds_of ms1 (new_flow c ip rp sm hs) = Some (u, p) -> V u p = true ->
  step ms1 (Some V) st (EReq c ip true rp sm hs) =
    (set_auth c (u, p) st, OHttp (pass_flow c ip rp sm hs u p) [Tunnel; ToClient 200]).
Proof.
  intros H1 H2. unfold step, http_connect.
  rewrite (auth_http_valid ms1 V c ip rp sm hs u p H1 H2). reflexivity.
Qed.

Theorem authenticated_request_passes ms1 V st c ip rp sm hs m :
  lookup c st = Some m ->
  step ms1 (Some V) st (EReq c ip false rp sm hs) =
    (st, OHttp (mkFlow c ip rp sm hs None (Some m)) [OpenServer; ToServer hs]).
Proof. intros L. unfold step, requestheaders. cbn [new_flow f_conn]. rewrite L. reflexivity. Qed.

Theorem replay_passes ms1 V st c ip sm hs :
  lookup c st = None ->
  step ms1 (Some V) st (EReq c ip false true sm hs) =
    (st, OHttp (new_flow c ip true sm hs) [OpenServer; ToServer hs]).
Proof. intros L. unfold step, requestheaders. cbn [new_flow f_conn f_replay]. rewrite L. reflexivity. Qed.

Lemma socks_step_any ms1 V st c u p :
  step ms1 (Some V) st (ESocks c u p) =
    if V u p then (set_auth c (u, p) st, OSocks true) else (st, OSocks false).
Proof. unfold step, socks5_auth. destruct (V u p); reflexivity. Qed.

Theorem socks_step V st c u p :
  step false (Some V) st (ESocks c u p) =
    if V u p then (set_auth c (u, p) st, OSocks true) else (st, OSocks false).
Proof. apply socks_step_any. Qed.

Lemma headers_del_spec k hs h : In h (headers_del k hs) <-> In h hs /\ name_is k h = false.
Proof.
  unfold headers_del. rewrite filter_In. split; intros [A B]; split; auto.
  - apply negb_true_iff in B. exact B.
  - rewrite B. reflexivity.
Qed.

Lemma headers_del_other k hs : forallb (fun h => negb (name_is k h)) hs = true -> headers_del k hs = hs.
Proof.
  induction hs as [|h hs IH]; intros H; [reflexivity|].
  cbn [forallb] in H. apply andb_prop in H. destruct H as [A B].
  unfold headers_del in *. cbn [filter]. rewrite A. f_equal. apply IH, B.
Qed.

Lemma lookup_set c c' v st : lookup c (set_auth c' v st) = if c' =? c then Some v else lookup c st.
Proof. reflexivity. Qed.

Definition ev_authenticates (ms1 : bool) (V : validator) (e : event) : Prop :=
  match e with
  | EReq c ip true rp sm hs => valid_creds ms1 V (new_flow c ip rp sm hs)
  | EReq _ _ false _ _ _ => False
  | ESocks _ u p => V u p = true
  end.
Definition justified (ms1 : bool) (V : validator) (hist : list event) (c : N) : Prop :=
  exists e, In e hist /\ ev_conn e = c /\ ev_authenticates ms1 V e.

(* What a step does to ProxyAuth.authenticated: an accepted CONNECT or SOCKS5 negotiation enters its own
   connection, every other event leaves the table alone. *)
Lemma step_fst ms1 V st e :
  (ev_authenticates ms1 V e /\ exists m, fst (step ms1 (Some V) st e) = set_auth (ev_conn e) m st) \/
  (~ ev_authenticates ms1 V e /\ fst (step ms1 (Some V) st e) = st).
Proof.
  destruct e as [c ip ic rp sm hs | c u p]; cbn [ev_authenticates ev_conn].
  - destruct ic.
    + destruct (valid_creds_dec ms1 V (new_flow c ip rp sm hs)) as [Hv|Hv].
      * left. split; [exact Hv|]. destruct Hv as (u & p & H1 & H2). exists (u, p).
        rewrite (valid_connect_tunnel ms1 V st c ip rp sm hs u p H1 H2). reflexivity.
      * right. split; [exact Hv|]. rewrite (unauth_connect_denied ms1 V st c ip rp sm hs Hv). reflexivity.
    + right. split; [tauto|]. unfold step, requestheaders. cbn [new_flow f_conn f_replay].
      destruct (lookup c st); [reflexivity|]. destruct rp; reflexivity.
  - rewrite socks_step_any. destruct (V u p).
    + left. split; [reflexivity|]. exists (u, p). reflexivity.
    + right. split; [discriminate|reflexivity].
Qed.

(* a connection enters ProxyAuth.authenticated only through an accepted CONNECT or SOCKS5 negotiation on it *)
Lemma step_state ms1 V st e c :
  lookup c (fst (step ms1 (Some V) st e)) <> None ->
  lookup c st <> None \/ (ev_conn e = c /\ ev_authenticates ms1 V e).
Proof.
  destruct (step_fst ms1 V st e) as [[A [m ->]]|[_ ->]]; [|auto].
  rewrite lookup_set. destruct (N.eqb_spec (ev_conn e) c); auto.
Qed.

Lemma step_mono ms1 V st e c : lookup c st <> None -> lookup c (fst (step ms1 (Some V) st e)) <> None.
Proof.
  intros H. destruct (step_fst ms1 V st e) as [[_ [m ->]]|[_ ->]]; [|exact H].
  rewrite lookup_set. destruct (ev_conn e =? c); [discriminate|exact H].
Qed.

Lemma step_sets ms1 V st e : ev_authenticates ms1 V e -> lookup (ev_conn e) (fst (step ms1 (Some V) st e)) <> None.
Proof.
  intros A. destruct (step_fst ms1 V st e) as [[_ [m ->]]|[Hn _]]; [|contradiction].
  rewrite lookup_set, N.eqb_refl. discriminate.
Qed.

Lemma final_state_app ms1 (oV : option validator) : forall a b st,
  final_state ms1 oV st (a ++ b) = final_state ms1 oV (final_state ms1 oV st a) b.
Proof. induction a as [|e a IH]; intros b st; [reflexivity|]. cbn [app final_state]. apply IH. Qed.

Lemma final_state_mono ms1 V c : forall es st,
  lookup c st <> None -> lookup c (final_state ms1 (Some V) st es) <> None.
Proof.
  induction es as [|e es IH]; intros st H; [exact H|].
  cbn [final_state]. apply IH. apply step_mono. exact H.
Qed.

Theorem authenticated_only_by_credentials ms1 V : forall hist c,
  lookup c (final_state ms1 (Some V) [] hist) <> None -> justified ms1 V hist c.
Proof.
  induction hist as [|e hist IH] using rev_ind; intros c H.
  - cbn in H. congruence.
  - rewrite final_state_app in H. cbn [final_state] in H.
    apply step_state in H. destruct H as [H|[H1 H2]].
    + destruct (IH c H) as (e0 & I & A & B). exists e0. split; [apply in_or_app; auto|auto].
    + exists e. split; [apply in_or_app; right; left; reflexivity|auto].
Qed.

(* whatever reaches the server side, after any history, is covered by credentials the validator accepts *)
Theorem history_sound ms1 V hist e :
  reaches_server (snd (step ms1 (Some V) (final_state ms1 (Some V) [] hist) e)) ->
  match e with
  | EReq c ip true rp sm hs => valid_creds ms1 V (new_flow c ip rp sm hs)
  | EReq c ip false rp sm hs =>
      valid_creds ms1 V (new_flow c ip rp sm hs) \/ rp = true \/ justified ms1 V hist c
  | ESocks c u p => V u p = true
  end.
Proof.
  set (st := final_state ms1 (Some V) [] hist).
  destruct e as [c ip ic rp sm hs | c u p].
  - destruct ic.
    + destruct (valid_creds_dec ms1 V (new_flow c ip rp sm hs)) as [Hv|Hv]; [auto|].
      rewrite (unauth_connect_denied ms1 V st c ip rp sm hs Hv). cbn. discriminate.
    + destruct (lookup c st) as [m|] eqn:L.
      * intros _. right. right. apply authenticated_only_by_credentials. fold st. congruence.
      * destruct rp; [auto|].
        destruct (valid_creds_dec ms1 V (new_flow c ip false sm hs)) as [Hv|Hv]; [auto|].
        rewrite (unauth_request_denied ms1 V st c ip sm hs L Hv). destruct sm; cbn; discriminate.
  - rewrite socks_step_any. destruct (V u p); cbn; auto.
Qed.

(* once a connection has authenticated, every later plain request on it passes untouched, whatever happened since *)
Theorem authenticated_later_pass ms1 V pre e0 mid c ip rp sm hs :
  ev_conn e0 = c -> ev_authenticates ms1 V e0 ->
  exists m,
    step ms1 (Some V) (final_state ms1 (Some V) [] (pre ++ e0 :: mid)) (EReq c ip false rp sm hs) =
      (final_state ms1 (Some V) [] (pre ++ e0 :: mid),
       OHttp (mkFlow c ip rp sm hs None (Some m)) [OpenServer; ToServer hs]).
Proof.
  intros Hc Ha. set (st := final_state ms1 (Some V) [] (pre ++ e0 :: mid)).
  assert (L : lookup c st <> None).
  { unfold st. rewrite final_state_app. cbn [final_state]. apply final_state_mono.
    subst c. apply step_sets. exact Ha. }
  destruct (lookup c st) as [m|] eqn:E; [|congruence].
  exists m. apply authenticated_request_passes. exact E.
Qed.

(* a complete RFC 1929 message is answered by what the validator says of the decoded pair *)
Lemma state_auth_msg V st c buf ub pb rest :
  state_auth_parse buf = AuthMsg ub pb rest ->
  let u := decode_with h_backslashreplace ub in
  let p := decode_with h_backslashreplace pb in
  state_auth (Some V) st c buf =
    if V u p then (set_auth c (u, p) st, SOk [x01; x00] rest) else (st, SFail [x01; x01]).
Proof. intros H. unfold state_auth, socks5_auth. rewrite H. cbn zeta. destruct (V _ _); reflexivity. Qed.

(* an RFC 1929 message for (ub, pb) is read back as exactly these two strings *)
Lemma state_auth_parse_msg ver ub pb :
  blen ub < 256 -> blen pb < 256 ->
  state_auth_parse (ver :: Nb (blen ub) :: ub ++ Nb (blen pb) :: pb) = AuthMsg ub pb [].
Proof.
  intros Hu Hp. unfold state_auth_parse, slice. cbn [nth]. rewrite (bN_Nb _ Hu).
  replace (blen (ver :: Nb (blen ub) :: ub ++ Nb (blen pb) :: pb)) with (3 + blen ub + blen pb)
    by (unfold blen; cbn [length]; rewrite app_length; cbn [length]; lia).
  (* the positions as successors over the lengths, so that nth and skipn step through the two head bytes *)
  set (k := S (length ub)).
  replace (N.to_nat (2 + blen ub)) with (S (S (length ub))) by (unfold blen; lia).
  replace (N.to_nat (3 + blen ub)) with (S (S k)) by (unfold blen, k; lia).
  change (N.to_nat 2) with 2%nat. cbn [nth skipn]. subst k.
  rewrite nth_middle, (bN_Nb _ Hp), !(proj2 (N.ltb_ge _ _)) by lia.
  replace (N.to_nat (blen ub)) with (length ub) by (unfold blen; lia).
  replace (N.to_nat (blen pb)) with (length pb) by (unfold blen; lia).
  rewrite skipn_S_exact, firstn_all, firstn_exact.
  rewrite skipn_all2 by (unfold blen; cbn [length]; rewrite app_length; cbn [length]; lia).
  reflexivity.
Qed.
