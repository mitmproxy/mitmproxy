(* Proofs/DnsLayerFrame.v -- the TCP length framing of DNSLayer.unpack_message: fuel is
   sufficient, and extraction from buf ++ data factors through extraction from buf. *)
From Coq Require Import List Bool Arith NArith Lia.
From MV Require Import Base.Bytes Model.DnsLayer.
Import ListNotations.

Section Frame.
Variable unpack : bytes -> ures.

Notation loop := (unpack_loop unpack).
Notation utcp := (unpack_tcp unpack).

(* what extraction from (buf ++ d) is, given extraction from buf *)
Definition continue_with (r0 : fres) (d : bytes) : fres :=
  match r0 with
  | ROk ms r => match utcp (r ++ d) with ROk ms' r' => ROk (ms ++ ms') r' | e => e end
  | e => e
  end.

Lemma skipn_lt n (h l : byte) rest : length (skipn n rest) < length (h :: l :: rest).
Proof. rewrite skipn_length. cbn [length]. lia. Qed.

Lemma loop_fuel : forall k buf k', length buf < k -> length buf < k' -> loop k buf = loop k' buf.
Proof.
  induction k as [|k IH]; intros buf k' H1 H2; [lia|].
  destruct k' as [|k']; [lia|].
  cbn [unpack_loop].
  destruct buf as [|h [|l rest]]; try reflexivity.
  destruct (Nat.eqb _ 0); [reflexivity|].
  destruct (Nat.ltb _ _); [reflexivity|].
  destruct (unpack _); try reflexivity.
  rewrite (IH (skipn _ rest) k'); [reflexivity| |];
    pose proof (skipn_lt (N.to_nat (u16be h l)) h l rest); lia.
Qed.

(* one round of the loop of unpack_message, with the fuel out of the way *)
Lemma utcp_frame h l rest :
  utcp (h :: l :: rest) =
  if Nat.eqb (N.to_nat (u16be h l)) 0 then RErr
  else if Nat.ltb (length rest) (N.to_nat (u16be h l)) then ROk [] (h :: l :: rest)
  else match unpack (firstn (N.to_nat (u16be h l)) rest) with
       | UOk m => match utcp (skipn (N.to_nat (u16be h l)) rest) with ROk ms b => ROk (m :: ms) b | e => e end
       | UStruct => RErr
       | UOther => RCrash
       end.
Proof.
  unfold unpack_tcp at 1. cbn [unpack_loop].
  rewrite (loop_fuel _ (skipn (N.to_nat (u16be h l)) rest) (S (length (skipn (N.to_nat (u16be h l)) rest))));
    [reflexivity | apply skipn_lt | lia].
Qed.

Lemma utcp_short buf : length buf < 2 -> utcp buf = ROk [] buf.
Proof. destruct buf as [|h [|l rest]]; cbn [length]; [reflexivity | reflexivity | lia]. Qed.

Lemma utcp_no_fuel buf : utcp buf <> RFuel.
Proof.
  induction buf as [buf IH] using (induction_ltof1 _ (@length byte)). unfold ltof in IH.
  destruct buf as [|h [|l rest]]; try discriminate. rewrite utcp_frame.
  destruct (Nat.eqb _ 0); [discriminate|].
  destruct (Nat.ltb _ _); [discriminate|].
  destruct (unpack _); try discriminate.
  specialize (IH _ (skipn_lt (N.to_nat (u16be h l)) h l rest)).
  destruct (utcp (skipn _ rest)); [discriminate..|exact IH].
Qed.

Lemma continue_with_nil buf d :
  continue_with (ROk [] buf) d = utcp (buf ++ d).
Proof. unfold continue_with. destruct (utcp (buf ++ d)); reflexivity. Qed.

Lemma utcp_app buf d : utcp (buf ++ d) = continue_with (utcp buf) d.
Proof.
  induction buf as [buf IH] using (induction_ltof1 _ (@length byte)). unfold ltof in IH.
  destruct buf as [|h [|l rest]]; try (rewrite <- continue_with_nil; reflexivity).
  rewrite (utcp_frame h l rest). set (n := N.to_nat (u16be h l)).
  destruct (Nat.ltb (length rest) n) eqn:El.
  - (* incomplete frame in buf: the merged buffer is scanned from the same place *)
    destruct (Nat.eqb n 0) eqn:En; [|apply eq_sym, continue_with_nil].
    change ((h :: l :: rest) ++ d) with (h :: l :: (rest ++ d)). rewrite utcp_frame. fold n. rewrite En. reflexivity.
  - apply Nat.ltb_ge in El.
    change ((h :: l :: rest) ++ d) with (h :: l :: (rest ++ d)). rewrite utcp_frame. fold n.
    destruct (Nat.eqb n 0); [reflexivity|].
    replace (Nat.ltb (length (rest ++ d)) n) with false by (symmetry; apply Nat.ltb_ge; rewrite app_length; lia).
    rewrite firstn_app, skipn_app. replace (n - length rest) with 0 by lia.
    rewrite firstn_O, skipn_O, app_nil_r.
    destruct (unpack (firstn n rest)); try reflexivity.
    rewrite (IH _ (skipn_lt n h l rest)).
    destruct (utcp (skipn n rest)) as [ms0 b| | |]; cbn [continue_with]; try reflexivity.
    destruct (utcp (b ++ d)); reflexivity.
Qed.

Lemma utcp_idem buf : forall ms r, utcp buf = ROk ms r -> utcp r = ROk [] r.
Proof.
  induction buf as [buf IH] using (induction_ltof1 _ (@length byte)). unfold ltof in IH. intros ms r.
  destruct buf as [|h [|l rest]]; try (rewrite utcp_short by (cbn; lia); intros [= _ <-]; apply utcp_short; cbn; lia).
  rewrite utcp_frame. set (n := N.to_nat (u16be h l)).
  destruct (Nat.eqb n 0) eqn:En; [discriminate|].
  destruct (Nat.ltb (length rest) n) eqn:El.
  - intros [= _ <-]. rewrite utcp_frame. fold n. rewrite En, El. reflexivity.
  - destruct (unpack (firstn n rest)); try discriminate.
    destruct (utcp (skipn n rest)) as [ms0 b| | |] eqn:E; try discriminate.
    intros [= _ <-]. exact (IH _ (skipn_lt n h l rest) _ _ E).
Qed.

Lemma utcp_prefix_ok buf d ms r :
  utcp (buf ++ d) = ROk ms r ->
  exists ms1 r1 ms2, utcp buf = ROk ms1 r1 /\ utcp (r1 ++ d) = ROk ms2 r /\ ms = ms1 ++ ms2.
Proof.
  rewrite utcp_app. destruct (utcp buf) as [ms1 r1| | |]; cbn [continue_with]; try discriminate.
  destruct (utcp (r1 ++ d)) as [ms2 r2| | |] eqn:E; try discriminate.
  intros H. inversion H; subst. exists ms1, r1, ms2. auto.
Qed.

Lemma utcp_zero_after_frames buf ms tail :
  utcp buf = ROk ms [] -> utcp (buf ++ x00 :: x00 :: tail) = RErr.
Proof. intros H. rewrite utcp_app, H. reflexivity. Qed.

Lemma utcp_bad_frame_after_frames buf ms h l body tail :
  utcp buf = ROk ms [] ->
  N.to_nat (u16be h l) = length body -> unpack body = UStruct ->
  utcp (buf ++ h :: l :: body ++ tail) = RErr.
Proof.
  intros H Hn Hu. rewrite utcp_app, H. cbn [continue_with app]. rewrite utcp_frame, Hn.
  destruct body as [|b0 body]; [reflexivity|]. cbn [length Nat.eqb].
  replace (Nat.ltb _ _) with false by (symmetry; apply Nat.ltb_ge; rewrite app_length; cbn [length]; lia).
  rewrite firstn_app. replace (S (length body) - length (b0 :: body)) with 0 by (cbn [length]; lia).
  rewrite firstn_O, app_nil_r. change (S (length body)) with (length (b0 :: body)).
  rewrite firstn_all, Hu. reflexivity.
Qed.

End Frame.
