(* Proofs/UrlDest.v -- what hostport writes into the Host header / authority is read back by
   parse_authority(check=True) as exactly the destination (host, non-default port). *)
From Coq Require Import List Bool Arith NArith ZArith Lia.
From MV Require Import Base.Bytes Model.Url Proofs.UrlLemmas Proofs.UrlDec Proofs.UrlParse Proofs.UrlRequest.
Import ListNotations.

Lemma ends_with_snoc c l : ends_with c (l ++ [c]) = true.
Proof.
  induction l as [|x l IH]; simpl; [apply byte_eqb_refl|].
  destruct (l ++ [c]) eqn:E; [destruct l; discriminate | exact IH].
Qed.

Lemma mem_true_span_rest (P : byte -> bool) c s a b :
  P c = false -> span P s = (a, b) -> mem c s = true -> mem c b = true.
Proof.
  intros Pc S M. destruct (span_spec _ _ _ _ S) as (-> & F & _).
  rewrite mem_app, (mem_false_of P c a Pc F) in M. exact M.
Qed.

Lemma match_tail_pt s p : (0 <= p)%Z ->
  match_tail (port_tail s p) = Some (if is_nil (port_tail s p) then None else Some (dec_of_Z p)).
Proof.
  intros Hp. destruct (dec_of_Z_spec p Hp) as (F & NE & _).
  assert (match_tail (cCOLON :: dec_of_Z p) = Some (Some (dec_of_Z p))) as H.
  { unfold match_tail. change (bytes_eqb (cCOLON :: dec_of_Z p) [cLF]) with false. cbv iota.
    rewrite byte_eqb_refl, (span_all _ _ F). apply is_nil_false in NE. rewrite NE. reflexivity. }
  unfold port_tail. destruct (default_port s) as [d|]; [destruct (d =? p)%Z|]; auto.
Qed.

(* the bracket alternative of _authority_re on [h]tail when h contains a colon *)
Lemma authority_match_bracketed h pt x :
  mem cCOLON h = true -> is_nil h = false -> mem cLF h = false ->
  forallb pt_char pt = true -> match_tail pt = Some x ->
  authority_match (cLBR :: h ++ cRBR :: pt) = Some (cLBR :: h ++ [cRBR], x).
Proof.
  intros MC NE NL PT MT. unfold authority_match.
  rewrite span_cons by reflexivity.
  destruct (span (fun b => negb (byte_eqb b cCOLON)) h) as [h0 h1] eqn:SP.
  destruct (span_spec _ _ _ _ SP) as (Eh & F0 & T1).
  assert (mem cCOLON h1 = true) as M1
    by (apply (mem_true_span_rest (fun b => negb (byte_eqb b cCOLON)) cCOLON _ _ _ eq_refl SP MC)).
  destruct h1 as [|c1 h1']; [discriminate|].
  assert (c1 = cCOLON) as -> by (apply negb_false_iff in T1; apply byte_eqb_eq in T1; exact T1).
  clear SP. subst h. rewrite <- app_assoc. cbn [app].
  rewrite span_app; [| exact F0 | reflexivity]. cbn [fst snd is_nil].
  assert (forall Y, mem cRBR Y = true -> match_tail (cCOLON :: Y) = None) as MTN.
  { intros Y MY. unfold match_tail.
    change (bytes_eqb (cCOLON :: Y) [cLF]) with false. cbv iota. rewrite byte_eqb_refl.
    destruct (span is_digit Y) as [ds rest] eqn:SD.
    assert (mem cRBR rest = true) as MR by (apply (mem_true_span_rest is_digit cRBR _ _ _ eq_refl SD MY)).
    destruct (bytes_eqb rest [cLF]) eqn:EL.
    - apply bytes_eqb_eq in EL. subst. discriminate.
    - destruct rest; [discriminate|]. rewrite andb_false_r. reflexivity. }
  rewrite MTN by (rewrite mem_app, mem_cons, byte_eqb_refl, orb_true_r; reflexivity).
  rewrite byte_eqb_refl.
  rewrite app_comm_cons, app_assoc.
  rewrite rpartition_app by (apply (mem_false_of pt_char); [reflexivity | exact PT]).
  rewrite NE, NL, MT. reflexivity.
Qed.

Section Dest.
Variable ace : bytes -> option str.
Variable uenc : str -> option bytes.

(* the port on the right is UrlC33.shown_port s p, which is defined after this file *)
Theorem parse_authority_hostport s h p :
  all_ascii h = true -> h <> [] -> is_valid_host_s ace uenc h = true ->
  starts_with [cLBR] h = false -> mem cLF h = false -> (0 <= p <= 65535)%Z ->
  parse_authority ace uenc (hostport s h p)
  = PA_ok h (match default_port s with Some d => if (d =? p)%Z then None else Some p | None => Some p end).
Proof.
  intros Ah NE V NB NL Hp.
  (* the port is shown exactly when hostport wrote one *)
  replace (match default_port s with Some d => if (d =? p)%Z then None else Some p | None => Some p end)
    with (if is_nil (port_tail s p) then None else Some p)
    by (unfold port_tail; destruct (default_port s) as [d|]; [destruct (d =? p)%Z|]; reflexivity).
  assert (0 <= p)%Z as Hp0 by lia.
  pose proof (pt_char_tail s p Hp0) as PT.
  destruct (dec_of_Z_spec p Hp0) as (_ & _ & DV).
  unfold parse_authority. rewrite (hostport_ascii s h p Ah Hp0), hostport_eq. cbn [negb].
  assert (authority_match (bracket h ++ port_tail s p)
          = Some (bracket h, if is_nil (port_tail s p) then None else Some (dec_of_Z p))) as AM.
  { unfold bracket. rewrite NB. cbn [negb]. rewrite andb_true_r.
    destruct (mem cCOLON h) eqn:MC; [|unfold authority_match].
    - (* IPv6 literal: the first alternative fails, the bracket alternative matches *)
      cbn [app]. rewrite <- app_assoc. cbn [app].
      apply is_nil_false in NE.
      apply (authority_match_bracketed h (port_tail s p) _ MC NE NL PT (match_tail_pt s p Hp0)).
    - (* name or IPv4 literal *)
      rewrite span_app.
      + apply is_nil_false in NE. rewrite NE. rewrite (match_tail_pt s p Hp0). reflexivity.
      + apply mem_false_forallb. exact MC.
      + unfold port_tail. destruct (default_port s) as [d|]; [destruct (d =? p)%Z|]; simpl; auto. }
  rewrite AM.
  (* brackets are stripped again *)
  assert ((if starts_with [cLBR] (bracket h) && ends_with cRBR (bracket h)
           then removelast (tl (bracket h)) else bracket h) = h) as ST.
  { unfold bracket. rewrite NB. cbn [negb]. rewrite andb_true_r. destruct (mem cCOLON h).
    - change (starts_with [cLBR] (cLBR :: h ++ [cRBR])) with true.
      change (cLBR :: h ++ [cRBR]) with ([cLBR] ++ h ++ [cRBR]) at 1.
      rewrite app_assoc, ends_with_snoc. cbn [andb tl]. apply removelast_last.
    - rewrite NB. reflexivity. }
  rewrite ST, V. cbn [negb].
  destruct (is_nil (port_tail s p)); [reflexivity|].
  rewrite DV. unfold is_valid_port.
  destruct (0 <=? p)%Z eqn:E1; [|apply Z.leb_gt in E1; lia].
  destruct (p <=? 65535)%Z eqn:E2; [|apply Z.leb_gt in E2; lia]. reflexivity.
Qed.

End Dest.
