(* Proofs/HarBase.v -- C41: version tables (exact characterisation) and the header/body lemmas used by the
   round-trip proof: what Message.set_content / decode do to a message without Content-Encoding. *)
From Coq Require Import List Bool NArith Lia.
From MV Require Import Base.Bytes Model.Headers Proofs.HeadersLaws Gen.HarTables Model.Har.
Import ListNotations.

Definition V11 : bytes := [x48;x54;x54;x50;x2f;x31;x2e;x31].      (* HTTP/1.1 *)
Definition V2  : bytes := [x48;x54;x54;x50;x2f;x32].              (* HTTP/2   *)
Definition V20 : bytes := [x48;x54;x54;x50;x2f;x32;x2e;x30].      (* HTTP/2.0, the spelling mitmproxy uses internally *)
Definition V3  : bytes := [x48;x54;x54;x50;x2f;x33].              (* HTTP/3   *)
Definition V10 : bytes := [x48;x54;x54;x50;x2f;x31;x2e;x30].      (* HTTP/1.0 *)

Definition import_req_version (v : bytes) : bytes := match_version req_version_table req_version_default v.
Definition import_resp_version (v : bytes) : bytes := match_version resp_version_table resp_version_default v.
Definition version_kept (v : bytes) : Prop := v = V11 \/ v = V2 \/ v = V3.

Lemma match_version_range t d v :
  match_version t d v = d \/ exists p, In (p, match_version t d v) t /\ v = p.
Proof.
  induction t as [|[p o] t IH]; cbn [match_version]; [left; reflexivity|].
  destruct (bytes_eqb v p) eqn:E.
  - right. exists p. split; [left; reflexivity|]. apply bytes_eqb_eq; exact E.
  - destruct IH as [IH|[q [Hq Hv]]]; [left; exact IH|]. right. exists q. split; [right; exact Hq|exact Hv].
Qed.

Lemma req_version_exact v : import_req_version v = v <-> version_kept v.
Proof.
  unfold import_req_version, version_kept. split.
  - intros H. destruct (match_version_range req_version_table req_version_default v) as [D|[p [Hin Hv]]].
    + left. rewrite <- H, D. reflexivity.
    + rewrite H in Hin. subst p. cbn in Hin.
      destruct Hin as [E|[E|[E|[]]]]; inversion E; subst; auto.
  - intros [H|[H|H]]; subst v; vm_compute; reflexivity.
Qed.

Lemma getitem_setitem_other hs k v k' :
  bytes_eqb (lower k') (lower k) = false -> getitem (setitem hs k v) k' = getitem hs k'.
Proof. intros H. unfold getitem, setitem. rewrite set_all_get_all, H. reflexivity. Qed.

Lemma contains_setitem_other hs k v k' :
  bytes_eqb (lower k') (lower k) = false -> contains (setitem hs k v) k' = contains hs k'.
Proof. intros H. unfold contains. rewrite getitem_setitem_other by exact H. reflexivity. Qed.

Lemma pop_absent hs k : getitem hs k = None -> pop hs k = hs.
Proof. intros H. unfold pop, delitem, contains. rewrite H. reflexivity. Qed.

(* what set_content does to the headers (Content-Length is maintained unless there is a Transfer-Encoding) *)
Definition upd_cl (hs : list field) (b : bytes) : list field :=
  if contains hs K_TE then hs else setitem hs K_CL (dec_of_N (N.of_nat (length b))).

Lemma upd_cl_ce hs b : getitem (upd_cl hs b) K_CE = getitem hs K_CE.
Proof. unfold upd_cl. destruct (contains hs K_TE); [reflexivity|]. apply getitem_setitem_other. vm_compute. reflexivity. Qed.

Lemma upd_cl_te hs b : contains (upd_cl hs b) K_TE = contains hs K_TE.
Proof. unfold upd_cl. destruct (contains hs K_TE) eqn:E; [exact E|]. rewrite contains_setitem_other; [exact E|vm_compute; reflexivity]. Qed.

Lemma upd_cl_others hs b : others K_CL (upd_cl hs b) = others K_CL hs.
Proof. unfold upd_cl. destruct (contains hs K_TE); [reflexivity|]. unfold setitem. apply set_all_untouched. Qed.

Lemma upd_cl_ct hs b : get_default (upd_cl hs b) K_CT [] = get_default hs K_CT [].
Proof.
  unfold get_default, upd_cl. destruct (contains hs K_TE); [reflexivity|].
  rewrite getitem_setitem_other; [reflexivity|vm_compute; reflexivity].
Qed.

Section NoContentEncoding.
  Variable L : lib.
  Hypothesis enc_identity : forall v, l_encode L v IDENTITY = Ok v.

  Lemma set_content_noce hs b : getitem hs K_CE = None -> set_content L hs b = Ok (upd_cl hs b, b).
  Proof.
    intros H. unfold set_content. rewrite H. cbn [or_identity]. rewrite enc_identity. cbn [bind].
    unfold upd_cl. destruct (contains hs K_TE); reflexivity.
  Qed.

  Lemma get_content_noce strict hs raw : getitem hs K_CE = None -> get_content L strict hs raw = Ok raw.
  Proof. intros H. unfold get_content. destruct raw; [rewrite H|]; reflexivity. Qed.

  (* decode(): the body is kept; the headers change only in Content-Length, and not at all for an empty body *)
  Lemma decode_noce hs b : getitem hs K_CE = None ->
    decode L hs (Some b) = Ok (match b with [] => hs | _ :: _ => upd_cl hs b end, Some b).
  Proof.
    intros H. unfold decode. destruct b as [|x b]; [reflexivity|].
    rewrite get_content_noce by exact H. cbn [bind]. rewrite pop_absent by exact H.
    rewrite set_content_noce by exact H. reflexivity.
  Qed.
End NoContentEncoding.
