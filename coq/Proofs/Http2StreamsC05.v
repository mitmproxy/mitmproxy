(* Proofs/Http2StreamsC05.v -- the concrete Http2Client model as an instance of the generic wrapper of
   Http2StreamsMap.v, reachability by running a history, and the histories that witness the refuted parts of C05. *)
From Coq Require Import List Bool NArith ZArith.
From MV Require Import Base.Bytes Model.Http2Streams Proofs.Http2StreamsMap Proofs.Http2StreamsH2 Proofs.Http2StreamsBuf.
Import ListNotations.
Open Scope N_scope.

Definition nid (c : conn) : N := next_stream_id (ch c).

(* states of the Http2Client model reachable by a history of inputs (fixd / fq: see Props/C05.v);
   nid is the next_id of the instance *)
Definition creach (fixd fq : bool) : h2client -> list input -> Prop :=
  reach conn conn_event has_free nid dead fq (conn_init true fixd).

Fixpoint crun (fq : bool) (s : h2client) (h : list input) : res h2client :=
  match h with [] => Ok s | i :: t => do r <- client_step fq s i; crun fq (fst r) t end.

Lemma crun_reach fixd fq : forall h s0 h0 s, creach fixd fq s0 h0 -> crun fq s0 h = Ok s -> creach fixd fq s (h0 ++ h).
Proof. induction h as [|i t IH]; intros s0 h0 s Hr H; cbn [crun] in H; [injection H as <-; now rewrite app_nil_r|].
  destruct (client_step fq s0 i) as [[s1 o]| |] eqn:E; cbn [bind fst] in H; try discriminate.
  replace (h0 ++ i :: t) with ((h0 ++ [i]) ++ t) by (now rewrite <- app_assoc).
  eapply IH; [|exact H]. eapply reach_step; [exact Hr|exact E]. Qed.

Lemma crun_reach0 fixd fq h s : crun fq (client_init fixd) h = Ok s -> creach fixd fq s h.
Proof. intros H. apply (crun_reach fixd fq h (client_init fixd) [] s); [apply reach_init|exact H]. Qed.

Definition bijective (s : h2client) : Prop :=
  forall c j, dget c (our s) = Some j <-> dget j (their s) = Some c.

(* SETTINGS (3, 1): MAX_CONCURRENT_STREAMS 1; (4, 1): INITIAL_WINDOW_SIZE 1.
   stream 3 waits for capacity when the server closes *)
Definition h_lost : list input :=
  [IStart; IFrames [FSettings [(3, 1)]]; IHttp (EHeaders 1 1 true); IHttp (EEom 1);
   IHttp (EHeaders 3 3 true); IHttp (EEom 3); IClosed].

(* two streams whose first event is not RequestHeaders *)
Definition h_nowf : list input := [IStart; IHttp (EData 1 []); IHttp (EData 3 [])].

(* 8 bytes sent on stream 1, then the server shrinks the initial window to 1: the stream window is -7 *)
Definition h_negwin : list input :=
  [IStart; IHttp (EHeaders 1 1 false); IHttp (EData 1 (repeat x00 8)); IFrames [FSettings [(4, 1)]]].

(* stream 1 open, stream 3 waiting *)
Definition h_sample : list input :=
  [IStart; IFrames [FSettings [(3, 1)]]; IHttp (EHeaders 1 1 false); IHttp (EHeaders 3 3 true);
   IHttp (EData 1 [x01]); IHttp (EEom 3)].

