(* Proofs/ContentviewsSafe.v -- prettify_message: totality, the final filter, view selection.
   All statements quantify over arbitrary views (partial functions), registries, data,
   metadata and view names. *)
From Coq Require Import List Bool NArith ZArith Lia.
From MV Require Import Base.Bytes Model.Strutils Model.WsUtf8 Model.Contentviews.
Import ListNotations.
Local Open Scope N_scope.

(* a C0 control or DEL other than TAB, LF, CR *)
Definition bad0 (c : N) : bool := is_c0_or_del c && negb (is_spacing c).

Lemma ecc_clean c1 t c : In c (ecc c1 t) -> bad0 c = false /\ (c1 = true -> is_c1 c = false).
Proof.
  unfold ecc. rewrite in_map_iff. intros (x & E & _).
  destruct (replaced c1 x) eqn:R.
  - subst c. split; [reflexivity | intros _; reflexivity].
  - subst c. unfold replaced in R. apply orb_false_iff in R. destruct R as [R0 R1].
    split; [exact R0|]. intros ->. exact R1.
Qed.

Lemma ecc_length c1 t : length (ecc c1 t) = length t.
Proof. apply map_length. Qed.

Lemma ecc_id c1 t : forallb (fun c => negb (replaced c1 c)) t = true -> ecc c1 t = t.
Proof.
  induction t as [|c t IH]; [reflexivity|]. cbn [forallb ecc map]. intro H.
  apply andb_true_iff in H. destruct H as [Hc Ht].
  apply negb_true_iff in Hc. rewrite Hc. f_equal. exact (IH Ht).
Qed.

Lemma content_missing_clean c : In c CONTENT_MISSING -> bad0 c = false /\ is_c1 c = false.
Proof.
  intro H.
  assert (forallb (fun c => negb (bad0 c) && negb (is_c1 c)) CONTENT_MISSING = true) as F
    by (vm_compute; reflexivity).
  rewrite forallb_forall in F. specialize (F c H). apply andb_true_iff in F.
  destruct F as [A B]. apply negb_true_iff in A. apply negb_true_iff in B. auto.
Qed.

Section Safe.
Variable M : Type.
Notation view := (view M).

Lemma best_spec (d : bytes) (m : M) : forall (reg : list view) cur p v,
  best reg d m cur = Some (p, v) ->
  (cur = Some (p, v) \/ (In v reg /\ v_prio v d m = Some p))
  /\ (forall q w, cur = Some (q, w) -> (q <= p)%Z)
  /\ (forall w q, In w reg -> v_prio w d m = Some q -> (q <= p)%Z).
Proof.
  induction reg as [|x reg IH]; intros cur p v H.
  - cbn in H. subst cur. split; [left; reflexivity|]. split.
    + intros q w E. inversion E. lia.
    + intros w q [].
  - cbn [best] in H. destruct (v_prio x d m) as [px|] eqn:Px.
    + (* whichever branch is taken, the loop goes on with a holder that is x or the old one
         and is not below either *)
      assert (exists q' w', best reg d m (Some (q', w')) = Some (p, v)
                /\ (Some (q', w') = Some (px, x) \/ Some (q', w') = cur)
                /\ (px <= q')%Z /\ (forall q w, cur = Some (q, w) -> (q <= q')%Z)) as (q' & w' & H' & O & Lx & Lc).
      { destruct cur as [[q0 w0]|]; [destruct (q0 <? px)%Z eqn:L|].
        - exists px, x. apply Z.ltb_lt in L. repeat split; [exact H | left; reflexivity | lia |].
          intros q w [= -> _]. lia.
        - exists q0, w0. apply Z.ltb_ge in L. repeat split; [exact H | right; reflexivity | exact L |].
          intros q w [= -> _]. lia.
        - exists px, x. repeat split; [exact H | left; reflexivity | lia | discriminate]. }
      apply IH in H' as (A & B & C). specialize (B q' w' eq_refl). split; [|split].
      * destruct A as [A|[A1 A2]]; [|right; split; [right; exact A1 | exact A2]].
        destruct O as [O|O]; [|left; rewrite <- O; exact A].
        rewrite A in O. inversion O; subst. right. split; [left; reflexivity | exact Px].
      * intros q w E. specialize (Lc q w E). lia.
      * intros w q [<-|Hin] Pw; [|exact (C w q Hin Pw)]. rewrite Px in Pw. inversion Pw; subst. lia.
    + apply IH in H as (A & B & C). split; [|split].
      * destruct A as [A|[A1 A2]]; [left; exact A | right; split; [right; exact A1 | exact A2]].
      * exact B.
      * intros w q [<-|Hin] Pw; [rewrite Px in Pw; discriminate Pw | exact (C w q Hin Pw)].
Qed.

(* the loop ends empty-handed only if it started so and no priority is defined *)
Lemma best_none (d : bytes) (m : M) : forall (reg : list view) cur, best reg d m cur = None ->
  cur = None /\ forall v, In v reg -> v_prio v d m = None.
Proof.
  induction reg as [|x reg IH]; intros cur H; [split; [exact H | intros v []]|].
  cbn [best] in H. destruct (v_prio x d m) as [px|] eqn:Px.
  - exfalso. destruct cur as [[q0 w0]|]; [destruct (q0 <? px)%Z|]; apply IH in H as [H _]; discriminate H.
  - apply IH in H as [Hc Hr]. split; [exact Hc|]. intros v [<-|Hin]; [exact Px | exact (Hr v Hin)].
Qed.

(* the first view among those of maximal priority wins: a later view replaces the current
   one only when strictly greater *)
Lemma best_first (d : bytes) (m : M) : forall (reg : list view) q w,
  (forall x px, In x reg -> v_prio x d m = Some px -> (px <= q)%Z) ->
  best reg d m (Some (q, w)) = Some (q, w).
Proof.
  induction reg as [|x reg IH]; intros q w H; [reflexivity|].
  cbn [best]. destruct (v_prio x d m) as [px|] eqn:Px.
  - assert (px <= q)%Z as L by (apply (H x px); [left; reflexivity | exact Px]).
    destruct (q <? px)%Z eqn:E; [apply Z.ltb_lt in E; lia|].
    apply IH. intros y py Hy. apply H. right. exact Hy.
  - apply IH. intros y py Hy. apply H. right. exact Hy.
Qed.

Lemma getitem_in : forall (reg : list view) item v,
  getitem reg item = Some v -> In v reg /\ text_eqb (v_key v) (lower_text item) = true.
Proof.
  induction reg as [|w reg IH]; intros item v H; [discriminate H|].
  cbn [getitem] in H. destruct (text_eqb (v_key w) (lower_text item)) eqn:E.
  - inversion H; subst. split; [left; reflexivity | exact E].
  - destruct (IH item v H) as [A B]. split; [right; exact A | exact B].
Qed.

(* automatic choice (or unknown explicit name): a registered view whose priority is defined
   and not below any other defined priority *)
Theorem get_view_auto_max (reg : list view) d m name v :
  (text_eqb name AUTO = true \/ getitem reg (lower_text name) = None) ->
  get_view reg d m name = Some v ->
  In v reg /\ exists p, v_prio v d m = Some p /\
    forall w q, In w reg -> v_prio w d m = Some q -> (q <= p)%Z.
Proof.
  intros Hn H. unfold get_view in H.
  assert (option_map snd (best reg d m None) = Some v) as H'.
  { destruct Hn as [Hn|Hn]; [rewrite Hn in H; exact H|].
    destruct (text_eqb name AUTO); [exact H | rewrite Hn in H; exact H]. }
  destruct (best reg d m None) as [[p v']|] eqn:B; [|discriminate H'].
  cbn in H'. inversion H'; subst v'. apply best_spec in B. destruct B as (A & _ & C).
  destruct A as [A|[A1 A2]]; [discriminate A|].
  split; [exact A1|]. exists p. split; [exact A2 | exact C].
Qed.

(* the AssertionError of get_view: no registered view has a working render_priority *)
Theorem get_view_none (reg : list view) d m name :
  get_view reg d m name = None -> forall v, In v reg -> v_prio v d m = None.
Proof.
  unfold get_view. destruct (if text_eqb name AUTO then None else getitem reg (lower_text name)); [discriminate|].
  destruct (best reg d m None) eqn:B; [discriminate|]. intros _. exact (proj2 (best_none _ _ _ _ B)).
Qed.

(* Totality: with a raw view that never fails on this input, and one view whose
   render_priority works, prettify_message returns a result: every failure of the chosen
   view is absorbed. *)
Theorem prettify_message_total c1 (rawv : view) (reg : list view) data enc m name :
  (forall d, data = Some d -> exists t, v_prettify rawv d m = inl t) ->
  (forall d, data = Some d -> exists v, In v reg /\ v_prio v d m <> None) ->
  exists r, prettify_message c1 rawv reg data enc m name = Some r.
Proof.
  intros Hraw Hprio. unfold prettify_message. destruct data as [d|]; [|eexists; reflexivity].
  destruct (get_view reg d m name) as [v|] eqn:G.
  2:{ exfalso. destruct (Hprio d eq_refl) as (v & Hin & Hv). exact (Hv (get_view_none _ _ _ _ G v Hin)). }
  destruct (v_prettify v d m) as [t|err]; [eexists; reflexivity|].
  destruct (text_eqb name AUTO); [|eexists; reflexivity].
  destruct (Hraw d eq_refl) as (t & ->). eexists; reflexivity.
Qed.

(* The only ways out: no view has a working render_priority (AssertionError in get_view), or
   the chosen view and then the raw view both fail under automatic choice. *)
Theorem prettify_message_none_inv c1 (rawv : view) (reg : list view) d enc m name :
  prettify_message c1 rawv reg (Some d) enc m name = None ->
  (forall v, In v reg -> v_prio v d m = None)
  \/ (text_eqb name AUTO = true /\ exists e, v_prettify rawv d m = inr e).
Proof.
  unfold prettify_message. intro H.
  destruct (get_view reg d m name) as [v|] eqn:G.
  - right. destruct (v_prettify v d m) as [t|err]; [discriminate H|].
    destruct (text_eqb name AUTO); [|discriminate H]. split; [reflexivity|].
    destruct (v_prettify rawv d m) as [t|e]; [discriminate H | exists e; reflexivity].
  - left. exact (get_view_none _ _ _ _ G).
Qed.

(* Filter: whatever the views return, the text of the result has no C0 control or DEL other
   than TAB / LF / CR; and no C1 control either when the live filter replaces them. *)
Theorem prettify_message_filtered c1 (rawv : view) (reg : list view) data enc m name r :
  prettify_message c1 rawv reg data enc m name = Some r ->
  forall c, In c (r_text r) -> bad0 c = false /\ (c1 = true -> is_c1 c = false).
Proof.
  unfold prettify_message. intros H c Hc. destruct data as [d|].
  - destruct (get_view reg d m name) as [v|]; [|discriminate H].
    match type of H with
    | match ?X with Some _ => _ | None => _ end = _ => destruct X as [r0|]; [|discriminate H]
    end.
    inversion H; subst r. cbn [set_text r_text] in Hc. exact (ecc_clean c1 _ c Hc).
  - inversion H; subst r. cbn [r_text] in Hc. destruct (content_missing_clean c Hc) as [A B]. auto.
Qed.

Theorem prettify_message_ok c1 (rawv : view) (reg : list view) d enc m name v t :
  get_view reg d m name = Some v -> v_prettify v d m = inl t ->
  prettify_message c1 rawv reg (Some d) enc m name
  = Some (mkRes (ecc c1 t) (v_syntax v) (Some (v_name v)) enc).
Proof. intros G P. unfold prettify_message. rewrite G, P. reflexivity. Qed.

End Safe.

(* a body with U+009B (CSI): a filter that does not replace C1 controls lets it through the raw view,
   one that does replaces it *)
Definition c1_body : bytes := [x61; xc2; x9b; x33; x31; x6d].

Lemma c1_replaced :
  exists r, prettify_message true (raw_view (M:=unit) 1) [raw_view 1] (Some c1_body) [] tt AUTO = Some r
            /\ r_text r = [97; 46; 51; 49; 109].
Proof. eexists. split; vm_compute; reflexivity. Qed.

(* non-trivial instance: a registry of three views; the best one fails; explicit choice shows
   the error, filtered (ESC in the exception text becomes a dot); automatic choice falls back. *)
Definition failing : view unit :=
  mkView (T [x4a; x53; x4f; x4e]) (T [x79; x61; x6d; x6c]) (fun _ _ => Some 5%Z) (fun _ _ => inr [27; 66; 111; 111; 109]).
Definition noprio : view unit :=
  mkView (T [x58]) S_NONE (fun _ _ => None) (fun _ _ => inl [1; 2; 3]).
Definition sample_reg : list (view unit) := register (register (register [] noprio) (raw_view 1)) failing.

Lemma sample_explicit :
  option_map r_text (prettify_message false (raw_view 1) sample_reg (Some [x41; x00; x09]) [] tt (T [x6a; x73; x6f; x6e]))
  = Some (COULDNT_PREFIX ++ T [x4a; x53; x4f; x4e] ++ [58; 10] ++ [46; 66; 111; 111; 109]).
Proof. vm_compute. reflexivity. Qed.
