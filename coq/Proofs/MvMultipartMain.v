(* Proofs/MvMultipartMain.v -- the decoder reads back what the encoder wrote, for representable
   boundaries and parts; counterexamples outside the guard (C34). *)
From Coq Require Import List Bool NArith Lia.
From MV Require Import Base.Bytes Model.MvCommon Model.MvUrl Model.MvMultipart
  Proofs.MvCommonLemmas Proofs.MvMultipartProofs.
Import ListNotations.

Lemma Dl_ne b : Dl b <> [].
Proof. discriminate. Qed.

Lemma Dl_no b c : boundary_ok b = true -> okb c = false -> memb c (Dl b) = false.
Proof.
  intros H Hc. apply andb_true_iff in H as [_ H].
  apply (forallb_memb_false okb); [exact H | exact Hc].
Qed.

(* CD_PREFIX without its final double quote: CDL k = CDP ++ DQ :: k ++ [DQ] *)
Definition CDP : bytes := removelast CD_PREFIX.

Lemma const_no_dd b s : contains DD s = false -> contains (Dl b) s = false.
Proof. unfold Dl, DD. simpl app. apply contains2. Qed.

Lemma chunk_nocontain b k v :
  boundary_ok b = true -> key_ok b k = true -> val_ok b v = true ->
  existsb (contains (Dl b)) [[]; CDL k; CT_LINE; []; v; []] = false.
Proof.
  intros Hb Hk Hv. unfold key_ok, val_ok in *.
  apply andb_true_iff in Hk as [_ Hk], Hv as [_ Hv]. apply negb_true_iff in Hk, Hv.
  pose proof (Dl_no b DQ Hb eq_refl) as Hdq.
  cbn [existsb]. rewrite (contains_nil _ (Dl_ne b)), Hv.
  rewrite (const_no_dd b CT_LINE) by (vm_compute; reflexivity).
  change (CDL k) with (CDP ++ DQ :: (k ++ DQ :: [])).
  rewrite !(contains_sep _ DQ) by (exact Hdq || apply Dl_ne).
  rewrite (contains_nil _ (Dl_ne b)), Hk.
  rewrite (const_no_dd b CDP) by (vm_compute; reflexivity). reflexivity.
Qed.

(* lines free of the delimiter, followed by anything: the splitter finds no delimiter starting inside them
   (their last byte LF is not a boundary byte) *)
Lemma split_unlines b ls t h r : boundary_ok b = true -> ls <> [] ->
  existsb (contains (Dl b)) ls = false -> split_go (Dl b) t 0 = h :: r ->
  split_go (Dl b) (unlines ls ++ t) 0 = (unlines ls ++ h) :: r.
Proof.
  intros Hb Hne Hc Ht.
  pose proof (Dl_no b CR Hb eq_refl) as Hcr. pose proof (Dl_no b LF Hb eq_refl) as Hlf.
  rewrite <- (contains_unlines (Dl b) ls (Dl_ne b) Hcr Hlf) in Hc.
  destruct (unlines_ends ls Hne) as [y Hy]. rewrite Hy in *.
  rewrite <- !app_assoc. apply split_free; assumption.
Qed.

Lemma split_body b parts :
  boundary_ok b = true -> parts_ok b parts = true ->
  split_sub (Dl b) (body b parts) = [] :: map chunk parts ++ [LAST].
Proof.
  intros Hb Hp. unfold split_sub, body. induction parts as [|[k v] parts IH].
  - cbn [map flat_map]. rewrite app_nil_l. rewrite split_match by apply Dl_ne.
    unfold LAST. rewrite <- (app_nil_r (unlines [DD])) at 1.
    rewrite (split_unlines b [DD] [] [] []); [rewrite app_nil_r; reflexivity | exact Hb | discriminate | | reflexivity].
    apply andb_true_iff in Hb as [Hb _]. destruct b; [discriminate Hb | reflexivity].
  - unfold parts_ok in Hp. simpl in Hp. apply andb_true_iff in Hp as [H1 H2].
    apply andb_true_iff in H1 as [Hk Hv]. specialize (IH H2).
    cbn [map flat_map]. rewrite <- !app_assoc. rewrite split_match by apply Dl_ne.
    unfold chunk at 1. cbn [fst snd].
    rewrite (split_unlines b _ _ [] (map chunk parts ++ [LAST]));
      [rewrite app_nil_r; reflexivity | exact Hb | discriminate | apply chunk_nocontain; assumption | exact IH].
Qed.

Lemma noline_const s : forallb (fun c => negb (nl c)) s = true -> noline s = true.
Proof. intros H; exact H. Qed.

Lemma rx_search_CDL k :
  nonempty k = true -> memb DQ k = false -> rx_search (CDL k) = Some k.
Proof.
  intros Hne Hq. unfold rx_search, CDL, CD_PREFIX. cbn [app].
  cbn -[span skipn app].
  cbn [skipn].
  rewrite (span_app (fun b => negb (byte_eqb b DQ)) k DQ []).
  - destruct k; [discriminate|reflexivity].
  - rewrite forallb_forall. intros x Hx. apply negb_true_iff. rewrite byte_eqb_sym.
    eapply memb_false_neq; eauto.
  - reflexivity.
Qed.

Lemma decode_chunk_ok b k v :
  key_ok b k = true -> val_ok b v = true -> decode_chunk (chunk (k, v)) = Add (k, v).
Proof.
  intros Hk Hv. unfold key_ok, val_ok in *. rewrite !andb_true_iff, negb_true_iff in Hk.
  destruct Hk as [[[Hne Hnl] Hq] _]. apply andb_true_iff in Hv as [Hvl _].
  assert (Hcdl : noline (CDL k) = true).
  { unfold CDL, noline. rewrite !forallb_app. fold (noline k). rewrite Hnl. reflexivity. }
  unfold decode_chunk, chunk. cbn [fst snd].
  rewrite splitlines_unlines by (cbn [forallb]; rewrite Hcdl, Hvl; reflexivity).
  cbn [starts_with DD negb]. rewrite rx_search_CDL by assumption.
  cbn [index_empty CT_LINE]. cbn [skipn concat]. rewrite !app_nil_r. reflexivity.
Qed.

Lemma collect_chunks b parts :
  parts_ok b parts = true -> collect (map decode_chunk (map chunk parts ++ [LAST])) = Some parts.
Proof.
  intros Hp. induction parts as [|[k v] parts IH].
  - vm_compute. reflexivity.
  - unfold parts_ok in Hp. simpl in Hp. apply andb_true_iff in Hp as [H1 H2].
    apply andb_true_iff in H1 as [Hk Hv]. cbn [map app]. rewrite (decode_chunk_ok b k v Hk Hv).
    cbn [collect]. rewrite (IH H2). reflexivity.
Qed.

Theorem multipart_functions_roundtrip b parts :
  boundary_ok b = true -> parts_ok b parts = true ->
  exists content, encode_multipart (Some b) parts = Some content
                  /\ decode_multipart (Some b) content = Some parts.
Proof.
  intros Hb Hp. exists (body b parts). split; [apply encode_ok; assumption|].
  unfold decode_multipart. fold (Dl b). rewrite split_body by assumption. simpl map.
  change (decode_chunk []) with Skip. cbn [collect]. apply (collect_chunks b parts Hp).
Qed.

(* outside the guard: concrete losses (each clause of the guard is needed) *)
Definition bnd : bytes := [x58; x59].                       (* XY *)
Definition view (b : bytes) (parts : pairs) : option pairs :=
  match set_multipart_form b parts with Some c => Some (get_multipart_form b c) | None => None end.

(* value a CR LF b reads back as ab *)
Lemma refuted_value_newline : view bnd [([x6b], [x61; x0d; x0a; x62])] = Some [([x6b], [x61; x62])].
Proof. vm_compute. reflexivity. Qed.
(* name a, double quote, b reads back as a *)
Lemma refuted_name_quote : view bnd [([x61; x22; x62], [x76])] = Some [([x61], [x76])].
Proof. vm_compute. reflexivity. Qed.
(* a part with an empty name is dropped *)
Lemma refuted_empty_name : view bnd [([], [x76]); ([x6b], [x77])] = Some [([x6b], [x77])].
Proof. vm_compute. reflexivity. Qed.
(* boundary a=b: the body uses a%3Db, the header keeps a=b: everything is lost *)
Lemma refuted_boundary_quoted : view [x61; x3d; x62] [([x6b], [x76])] = Some [].
Proof. vm_compute. reflexivity. Qed.
(* a value containing the delimiter is cut there (not representable with this boundary) *)
Lemma delimiter_in_value : view bnd [([x6b], [x61; x2d; x2d; x58; x59; x62])] = Some [([x6b], [x61])].
Proof. vm_compute. reflexivity. Qed.
