(* Proofs/Radix.v -- positional notation: the digit string written by a fuelled loop that emits the least significant
   digit first and prepends (the shape of Http1Msg.hex_digits, Python's %x, and of Bytes.dec_digits, Python's %d),
   read back by a left-to-right accumulation (the shape of Rfc9112.hex_value).  Stated once for a base, a digit
   writer, a digit reader and a class the digits lie in; the models' own fixpoints are instances by conversion. *)
From Coq Require Import List Bool NArith Lia.
From MV Require Import Base.Bytes.
Import ListNotations.

Lemma forall_below (P : N -> bool) k :
  forallb P (map N.of_nat (seq 0 k)) = true -> forall d, (d < N.of_nat k)%N -> P d = true.
Proof.
  intros A d H. rewrite forallb_forall in A. apply A.
  rewrite <- (N2Nat.id d). apply in_map, in_seq. lia.
Qed.

Section Radix.
  Variables (B : N) (digit : N -> byte) (val : byte -> N) (ok : byte -> bool).
  Hypothesis B_ge : (2 <= B)%N.
  Hypothesis digit_ok : forall d, (d < B)%N -> ok (digit d) = true /\ val (digit d) = d.

  Fixpoint digits (fuel : nat) (n : N) (acc : bytes) : bytes :=
    match fuel with
    | O => acc
    | S f => let d := digit (n mod B) in
             if (n <? B)%N then d :: acc else digits f (n / B)%N (d :: acc)
    end.

  Fixpoint value (s : bytes) (acc : N) : N :=
    match s with [] => acc | c :: r => value r (acc * B + val c)%N end.

  Lemma digits_spec f : forall n acc, (n < B ^ N.of_nat f)%N -> f <> O ->
    value (digits f n acc) 0%N = value acc n
    /\ (forallb ok acc = true -> forallb ok (digits f n acc) = true)
    /\ digits f n acc <> [].
  Proof.
    induction f as [|f IH]; intros n acc Hn Hf; [congruence|].
    cbn [digits].
    destruct (digit_ok (n mod B)) as [D1 D2]; [apply N.mod_lt; lia|].
    destruct (n <? B)%N eqn:E.
    - apply N.ltb_lt in E. rewrite N.mod_small in * by lia.
      split; [|split].
      + cbn [value]. rewrite D2. reflexivity.
      + intros Ha. cbn [forallb]. rewrite D1. exact Ha.
      + discriminate.
    - apply N.ltb_ge in E.
      assert (Hf' : f <> O) by (intros ->; rewrite N.pow_1_r in Hn; lia).
      assert (Hd : (n / B < B ^ N.of_nat f)%N).
      { apply N.div_lt_upper_bound; [lia|]. rewrite Nat2N.inj_succ, N.pow_succ_r' in Hn. exact Hn. }
      destruct (IH (n / B)%N (digit (n mod B) :: acc) Hd Hf') as (V & C & NE).
      split; [|split]; auto.
      + (* the digits of n / B, then n mod B *)
        rewrite V. cbn [value]. rewrite D2. f_equal.
        rewrite N.mul_comm. symmetry. apply N.div_mod. lia.
      + intros Ha. apply C. cbn [forallb]. rewrite D1. exact Ha.
  Qed.

  (* the fuel both models use: one more than the binary logarithm *)
  Lemma of_N_spec n (s := digits (S (N.to_nat (N.log2 n))) n []) :
    value s 0%N = n /\ forallb ok s = true /\ s <> [].
  Proof.
    assert (Hn : (n < B ^ N.of_nat (S (N.to_nat (N.log2 n))))%N).
    { rewrite Nat2N.inj_succ, N2Nat.id.
      destruct n as [|p]; [apply N.neq_0_lt_0, N.pow_nonzero; lia|].
      pose proof (N.log2_spec (Npos p) ltac:(lia)) as [_ L].
      eapply N.lt_le_trans; [exact L|]. apply N.pow_le_mono_l. exact B_ge. }
    destruct (digits_spec _ n [] Hn ltac:(discriminate)) as (V & C & NE).
    split; [exact V|]. split; auto.
  Qed.
End Radix.
