(* Proofs/ServerTlsLayerInv.v -- invariants of Model/ServerTlsLayer.v for every event history, every
   child layer and every OpenSSL connection object that satisfies the contract stated as Hypotheses
   below (recorded in TRUSTED of harness/props/C15.py as openssl_verifies). *)
From Coq Require Import List Bool.
From MV Require Import Base.Bytes Model.ServerTlsLayer.
Import ListNotations.

Section Inv.
  Variable eng seg : Type.
  Variable hs_step : eng -> option seg -> eng * hs_result.
  Variable send_app : eng -> bytes -> eng * send_result.
  Variable recv_app : eng -> option seg -> eng * (bytes * bool).
  Variable got_shutdown : eng -> bool.
  Variable start_conn : option eng.
  Variable cst : Type.
  Variable child_step : cst -> bool -> cev -> cst * list ccmd.

  (* the contract of the OpenSSL connection object
     live e   : e is the object tls_start_server created, or a later state of it
     ok_eng e : the handshake on e has completed successfully
     acceptable : the peer is acceptable for the configuration e was created with *)
  Variable live : eng -> Prop.
  Variable ok_eng : eng -> bool.
  Variable acceptable : Prop.
  Hypothesis H_start : forall e, start_conn = Some e -> live e /\ ok_eng e = false.
  (* do_handshake returns successfully only for an acceptable peer; a handshake completes in no other way *)
  Hypothesis H_hs : forall e d e' r, live e -> hs_step e d = (e', r) ->
    live e' /\ (r = HsDone -> acceptable) /\ (ok_eng e' = true -> r = HsDone \/ ok_eng e = true).
  (* sendall emits application plaintext only on a completed handshake and never completes one *)
  Hypothesis H_send : forall e d e' r, live e -> send_app e d = (e', r) ->
    live e' /\ (ok_eng e' = true -> ok_eng e = true) /\ (forall p, r = Sent p -> ok_eng e = true).
  Hypothesis H_recv : forall e d e' x, live e -> recv_app e d = (e', x) ->
    live e' /\ (ok_eng e' = true -> ok_eng e = true).

  Notation st := (st eng seg cst).
  Notation out := (out eng seg cst).
  Notation bind := (bind eng seg cst).

  Notation send_data := (send_data eng seg send_app cst).
  Notation handle_command := (handle_command eng seg send_app cst).
  Notation handle_commands := (handle_commands eng seg send_app cst).
  Notation event_to_child := (event_to_child eng seg send_app cst child_step).
  Notation events_to_child := (events_to_child eng seg send_app cst child_step).
  Notation start_tls := (start_tls eng seg start_conn cst).
  Notation receive_data := (receive_data eng seg send_app recv_app cst child_step).
  Notation receive_handshake_data := (receive_handshake_data eng seg hs_step send_app recv_app cst child_step).
  Notation on_handshake_error := (on_handshake_error eng seg cst).
  Notation handshake_finished := (handshake_finished eng seg send_app cst child_step).
  Notation start_handshake := (start_handshake eng seg hs_step send_app recv_app start_conn cst child_step).
  Notation on_data := (on_data eng seg hs_step send_app recv_app cst child_step).
  Notation on_closed := (on_closed eng seg send_app got_shutdown cst child_step).
  Notation on_start := (on_start eng seg hs_step send_app recv_app start_conn cst child_step).
  Notation on_open_reply := (on_open_reply eng seg hs_step send_app recv_app start_conn cst child_step).
  Notation handle := (handle eng seg hs_step send_app recv_app got_shutdown start_conn cst child_step).
  Notation step := (step eng seg hs_step send_app recv_app got_shutdown start_conn cst child_step).
  Notation run := (run eng seg hs_step send_app recv_app got_shutdown start_conn cst child_step).

  Definition ev_ok (e : cev) : Prop := e = CevOpenReply false -> acceptable.

  Definition Inv (s : st) : Prop :=
    (forall e, tls _ _ _ s = Some e -> live e /\ (ok_eng e = true -> acceptable))
    /\ (established _ _ _ s = true -> acceptable)
    /\ (tunnel_state _ _ _ s = OPEN -> acceptable)
    /\ Forall ev_ok (queue _ _ _ s).

  (* what must not happen unless the peer is acceptable: application plaintext sent to the server, the
     established hook, the child told that the connection is up, the child seeing tls_established *)
  Definition good_cmd (c : cmd) : Prop :=
    match c with
    | CSendApp _ => acceptable
    | CHook HEstablished => acceptable
    | CChild (CevOpenReply false) _ => acceptable
    | CChild _ true => acceptable
    | _ => True
    end.

  Definition P (o : out) : Prop := Inv (fst o) /\ Forall good_cmd (snd o).

  Lemma P_nil s : Inv s -> P (s, []).
  Proof. intros H; split; [exact H|constructor]. Qed.

  Lemma bind_P r f : P r -> (forall s, Inv s -> P (f s)) -> P (bind r f).
  Proof.
    unfold ServerTlsLayer.bind. destruct r as [s c]; intros [Hi Hc] Hf; simpl in *.
    destruct (crashed _ _ _ s); [split; assumption|].
    specialize (Hf s Hi). destruct (f s) as [s' c']; destruct Hf as [Hi' Hc']; simpl in *.
    split; [exact Hi'|apply Forall_app; split; assumption].
  Qed.

  Lemma crash_P s : Inv s -> P (crash _ _ _ s).
  Proof. intros H; split; [exact H|repeat constructor]. Qed.

  Lemma Inv_set_ts s t : Inv s -> (t = OPEN -> acceptable) -> Inv (set_ts _ _ _ s t).
  Proof. intros [A [B [C D]]] Ht; repeat split; auto; apply A; assumption. Qed.

  Lemma Inv_set_tls s e : Inv s -> live e -> (ok_eng e = true -> acceptable) -> Inv (set_tls _ _ _ s (Some e)).
  Proof.
    intros [A [B [C D]]] L O. split; [|auto]. intros e' E; inversion E; subst; auto.
  Qed.

  Lemma Inv_set_est s : Inv s -> acceptable -> Inv (set_est _ _ _ s true).
  Proof. intros [A [B [C D]]] Ha; repeat split; auto; apply A; assumption. Qed.

  Lemma Inv_set_queue s q : Inv s -> Forall ev_ok q -> Inv (set_queue _ _ _ s q).
  Proof. intros [A [B [C D]]] Hq; repeat split; auto; apply A; assumption. Qed.

  Lemma good_child e est : ev_ok e -> (est = true -> acceptable) -> good_cmd (CChild e est).
  Proof.
    unfold ev_ok; intros He Hest; destruct e as [| |err| |]; destruct est; simpl; auto;
      destruct err; simpl; auto.
  Qed.

  (* every event but OpenConnectionCompleted(no error) may reach the child at any time *)
  Lemma ev_ok_other e : e <> CevOpenReply false -> ev_ok e.
  Proof. intros H E; contradiction. Qed.

  (* the rules above dispose of the handlers that only sequence others: bind_P once per bind of the handler
     (hence the depths below), a *_P lemma or P_nil at each leaf, discriminate for events other than
     OpenConnectionCompleted(no error) and for states other than OPEN *)
  Hint Resolve P_nil bind_P crash_P Inv_set_ts Inv_set_queue ev_ok_other : stl.
  Hint Extern 1 (_ <> _) => discriminate : stl.
  Hint Extern 1 (_ = _ -> acceptable) => discriminate : stl.

  Lemma send_data_P s d : Inv s -> P (send_data s d).
  Proof.
    intros Hi; unfold ServerTlsLayer.send_data. destruct (tls _ _ _ s) as [e|] eqn:T; [|auto with stl].
    destruct (proj1 Hi e T) as [L O].
    destruct (send_app e d) as [e' r] eqn:S. destruct (H_send _ _ _ _ L S) as [L' [O' Sp]].
    assert (I' : Inv (set_tls _ _ _ s (Some e'))) by (apply Inv_set_tls; auto).
    destruct r as [p| |]; [|auto with stl..].
    split; [exact I'|]. repeat constructor. simpl. apply O. eapply Sp; reflexivity.
  Qed.

  Lemma handle_command_P s c : Inv s -> P (handle_command s c).
  Proof.
    intros Hi; destruct c; simpl; [|apply send_data_P; exact Hi|split; [exact Hi|repeat constructor]..].
    split; [|repeat constructor]. simpl.
    destruct Hi as [A [B [C D]]]; repeat split; auto; try discriminate; apply A; assumption.
  Qed.

  Lemma handle_commands_P cs : forall s, Inv s -> P (handle_commands s cs).
  Proof. induction cs; intros s Hi; simpl; auto using handle_command_P with stl. Qed.

  Lemma event_to_child_P s e : Inv s -> ev_ok e -> P (event_to_child s e).
  Proof.
    intros Hi He; unfold ServerTlsLayer.event_to_child.
    destruct (tstate_eqb _ ESTABLISHING && negb _).
    - apply P_nil, Inv_set_queue; [exact Hi|].
      apply Forall_app; split; [apply Hi|repeat constructor; exact He].
    - destruct (child_step _ _ e) as [c' cmds].
      apply bind_P; [|intros s' Hs'; apply handle_commands_P; exact Hs'].
      split; [exact Hi|]. repeat constructor. apply good_child; [exact He|apply Hi].
  Qed.
  Hint Resolve event_to_child_P : stl.

  Lemma events_to_child_P es : forall s, Inv s -> Forall ev_ok es ->
    P (events_to_child s es).
  Proof.
    induction es as [|e r IH]; intros s Hi Hes; simpl; [auto with stl|]. inversion Hes; subst. auto with stl.
  Qed.

  Lemma start_tls_P s : Inv s -> P (start_tls s).
  Proof.
    intros Hi; unfold ServerTlsLayer.start_tls. destruct (tls _ _ _ s); [auto with stl|].
    destruct start_conn as [e|] eqn:SC; [|split; [exact Hi|repeat constructor]].
    destruct (H_start e eq_refl) as [L O].
    split; [|repeat constructor]. apply Inv_set_tls; [exact Hi|exact L|].
    intros X; rewrite O in X; discriminate.
  Qed.

  Lemma receive_data_P s d : Inv s -> P (receive_data s d).
  Proof.
    intros Hi; unfold ServerTlsLayer.receive_data. destruct (tls _ _ _ s) as [e|] eqn:T; [|auto with stl].
    destruct (proj1 Hi e T) as [L O].
    destruct (recv_app e d) as [e' [p closed]] eqn:R. destruct (H_recv _ _ _ _ L R) as [L' O'].
    assert (I' : Inv (set_tls _ _ _ s (Some e'))) by (apply Inv_set_tls; auto).
    destruct p, closed; auto 8 with stl.
  Qed.

  Lemma receive_handshake_data_P s d : Inv s ->
    P (fst (receive_handshake_data s d))
    /\ (fst (snd (receive_handshake_data s d)) = true -> acceptable).
  Proof.
    intros Hi; unfold ServerTlsLayer.receive_handshake_data.
    destruct (tls _ _ _ s) as [e|] eqn:T; [|simpl; auto with stl].
    destruct (proj1 Hi e T) as [L O].
    destruct (hs_step e d) as [e' r] eqn:S. destruct (H_hs _ _ _ _ L S) as [L' [Dn O']].
    assert (I' : r <> HsDone -> Inv (set_tls _ _ _ s (Some e'))).
    { intros Hr. apply Inv_set_tls; [exact Hi|exact L'|]. intros X. destruct (O' X) as [Y|Y]; [contradiction|auto]. }
    destruct r; cbn [fst snd]; [split; [apply P_nil, I'|]; discriminate..|].
    assert (Ha : acceptable) by (apply Dn; reflexivity). split; [|intros _; exact Ha].
    apply bind_P; [|intros s2 H2; apply receive_data_P; exact H2].
    split; [|repeat constructor; exact Ha]. apply Inv_set_est; [|exact Ha].
    apply Inv_set_tls; [exact Hi|exact L'|intros _; exact Ha].
  Qed.

  Lemma on_handshake_error_P s : Inv s -> P (on_handshake_error s).
  Proof. intros Hi; split; [exact Hi|repeat constructor]. Qed.

  Lemma handshake_finished_P s err : Inv s -> (err = false -> acceptable) ->
    P (handshake_finished s err).
  Proof.
    intros Hi He; unfold ServerTlsLayer.handshake_finished.
    assert (I1 : Inv (set_ts _ _ _ s (if err then CLOSED else OPEN))).
    { apply Inv_set_ts; [exact Hi|]. destruct err; [discriminate|intros _; apply He; reflexivity]. }
    destruct (reply_to _ _ _ _).
    - apply bind_P; [|auto with stl].
      apply event_to_child_P; [exact I1|]. unfold ev_ok; intros X; inversion X; subst; auto.
    - apply bind_P; [apply events_to_child_P; [exact I1|apply I1]|].
      intros s2 H2. apply P_nil, Inv_set_queue; [exact H2|constructor].
  Qed.
  Hint Resolve start_tls_P receive_data_P on_handshake_error_P handshake_finished_P : stl.

  Lemma start_handshake_P s : Inv s -> P (start_handshake s).
  Proof.
    intros Hi; unfold ServerTlsLayer.start_handshake. apply bind_P; [auto with stl|].
    intros s1 H1. destruct (tls _ _ _ s1); [apply receive_handshake_data_P; exact H1 | auto with stl].
  Qed.
  Hint Resolve start_handshake_P : stl.

  Lemma on_data_P s d : Inv s -> P (on_data s d).
  Proof.
    intros Hi; unfold ServerTlsLayer.on_data. destruct (tstate_eqb _ _); [|auto with stl].
    pose proof (receive_handshake_data_P s (Some d) Hi) as [HP Hd].
    destruct (receive_handshake_data s (Some d)) as [r [done err]].
    simpl in HP, Hd.
    apply bind_P; [exact HP|]. intros s1 H1. apply bind_P; [destruct err; auto with stl|].
    intros s2 H2. destruct (done || err) eqn:DE; [|auto with stl].
    apply handshake_finished_P; [exact H2|]. intros X; subst err. rewrite orb_false_r in DE. auto.
  Qed.

  Lemma on_closed_P s : Inv s -> P (on_closed s).
  Proof.
    intros Hi; unfold ServerTlsLayer.on_closed. apply bind_P; [|auto with stl].
    destruct (tunnel_state _ _ _ s); [auto with stl..| |auto with stl].
    destruct (tls _ _ _ s) as [e|]; [destruct (got_shutdown e)|]; auto with stl.
  Qed.

  Lemma on_start_P s : Inv s -> P (on_start s).
  Proof. intros Hi; unfold ServerTlsLayer.on_start. destruct (conn_closed _ _ _ s); auto 6 with stl. Qed.

  Lemma on_open_reply_P s err : Inv s -> P (on_open_reply s err).
  Proof. intros Hi; unfold ServerTlsLayer.on_open_reply. destruct err; [auto 6 with stl | apply start_handshake_P, Hi]. Qed.

  Lemma handle_P s e : Inv s -> P (handle s e).
  Proof. intros Hi; destruct e; simpl; auto using on_start_P, on_data_P, on_closed_P with stl. Qed.

  Lemma step_P s e : Inv s -> P (step s e).
  Proof.
    intros Hi; unfold ServerTlsLayer.step.
    destruct (crashed _ _ _ s); [auto with stl|].
    destruct (awaiting_open _ _ _ s); [|apply handle_P; exact Hi].
    destruct e; try (apply P_nil; exact Hi).
    apply bind_P; [apply on_open_reply_P; exact Hi|].
    intros s1 H1.
    assert (G : forall l acc, P acc ->
              P (fold_left (fun (acc : out) (b : ev seg) =>
                   bind acc (fun s2 => if awaiting_open _ _ _ s2
                                       then (set_paused _ _ _ s2 (paused _ _ _ s2 ++ [b]), [])
                                       else handle s2 b))
                 l acc)).
    { induction l as [|b l IH]; intros acc Ha; simpl; [exact Ha|].
      apply IH. apply bind_P; [exact Ha|].
      intros s2 H2. destruct (awaiting_open _ _ _ s2); [apply P_nil; exact H2|apply handle_P; exact H2]. }
    apply G. apply P_nil; exact H1.
  Qed.

  Theorem run_P es : forall s, Inv s -> P (run s es).
  Proof.
    induction es as [|e r IH]; intros s Hi; simpl; [apply P_nil; exact Hi|].
    pose proof (step_P s e Hi) as Hs. destruct (step s e) as [s1 c1]. destruct Hs as [H1 F1]; simpl in *.
    specialize (IH s1 H1). destruct (run s1 r) as [s2 c2]. destruct IH as [H2 F2]; simpl in *.
    split; [exact H2|apply Forall_app; split; assumption].
  Qed.

  Lemma init_Inv c b : Inv (init _ _ _ c b).
  Proof. repeat split; simpl; try discriminate; constructor. Qed.

  (* every history, from the initial state: whatever indicates a usable upstream connection (the cases of
     good_cmd in the trace, the tunnel OPEN, tls_established set) implies an acceptable peer *)
  Theorem usable_accept c b es :
    let r := run (init _ _ _ c b) es in
    In (CHook HEstablished) (snd r)
    \/ (exists p, In (CSendApp p) (snd r))
    \/ (exists est, In (CChild (CevOpenReply false) est) (snd r))
    \/ (exists e, In (CChild e true) (snd r))
    \/ tunnel_state _ _ _ (fst r) = OPEN
    \/ established _ _ _ (fst r) = true ->
    acceptable.
  Proof.
    destruct (run_P es _ (init_Inv c b)) as [[A [B [C D]]] F]. rewrite Forall_forall in F.
    intros r [H|[[p H]|[[est H]|[[e H]|[H|H]]]]]; auto; specialize (F _ H); try exact F.
    destruct e as [| |[]| |]; exact F.
  Qed.

  (* what the layer emits when the handshake fails: one step, the contract is not used *)

  (* _handshake_finished first answers the OpenConnection the child is waiting for *)
  Lemma finished_replies (s : st) err :
    reply_to _ _ _ s = true ->
    exists rest, snd (ServerTlsLayer.handshake_finished eng seg send_app cst child_step s err)
                 = CChild (CevOpenReply err) (established _ _ _ s) :: rest.
  Proof.
    intros Hr. unfold ServerTlsLayer.handshake_finished, ServerTlsLayer.event_to_child. simpl.
    rewrite !Hr. simpl. rewrite andb_false_r.
    destruct (child_step _ _ _) as [c' cmds]. unfold ServerTlsLayer.bind. simpl.
    destruct (crashed _ _ _ s) eqn:Hc; simpl; [rewrite Hc; eexists; reflexivity|].
    destruct (ServerTlsLayer.handle_commands _ _ _ _ _ _) as [s3 c3]. simpl.
    destruct (crashed _ _ _ s3); simpl; eexists; reflexivity.
  Qed.

  (* OpenSSL reports an error for data received during the handshake: warning, tls_failed_server,
     CloseConnection, and the waiting child gets OpenConnectionCompleted(error) *)
  Lemma handshake_error_is_signalled (s : st) e e' d :
    crashed _ _ _ s = false -> awaiting_open _ _ _ s = false ->
    tunnel_state _ _ _ s = ESTABLISHING -> reply_to _ _ _ s = true ->
    tls _ _ _ s = Some e -> hs_step e (Some d) = (e', HsError) ->
    exists rest, snd (step s (EData _ d))
                 = [CLogWarn; CHook HFailed; CClose] ++ CChild (CevOpenReply true) (established _ _ _ s) :: rest.
  Proof.
    intros Hc Ha Ht Hr Hl Hh. unfold ServerTlsLayer.step. rewrite Hc, Ha. simpl.
    unfold ServerTlsLayer.on_data. rewrite Ht. simpl. unfold ServerTlsLayer.receive_handshake_data. rewrite Hl, Hh. simpl.
    rewrite !Hc. destruct (finished_replies (set_closed _ _ _ (set_tls _ _ _ s (Some e')) true) true Hr) as [rest E].
    destruct (ServerTlsLayer.handshake_finished _ _ _ _ _ _ _) as [s' c']. simpl in E. subst c'. eexists; reflexivity.
  Qed.

  (* the server closes during the handshake *)
  Lemma close_during_handshake_is_signalled (s : st) :
    crashed _ _ _ s = false -> awaiting_open _ _ _ s = false ->
    tunnel_state _ _ _ s = ESTABLISHING -> reply_to _ _ _ s = true ->
    exists rest, snd (step s (EClosed _))
                 = [CLogWarn; CHook HFailed; CClose] ++ CChild (CevOpenReply true) (established _ _ _ s) :: rest.
  Proof.
    intros Hc Ha Ht Hr. unfold ServerTlsLayer.step. rewrite Hc, Ha. simpl.
    unfold ServerTlsLayer.on_closed. rewrite Ht. simpl. unfold ServerTlsLayer.bind. simpl.
    rewrite !Hc. destruct (finished_replies (set_closed _ _ _ s true) true Hr) as [rest E].
    destruct (ServerTlsLayer.handshake_finished _ _ _ _ _ _ _) as [s' c']. simpl in E. subst c'.
    destruct (crashed _ _ _ s'); simpl; eexists; reflexivity.
  Qed.
End Inv.
