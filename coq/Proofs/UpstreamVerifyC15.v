(* Proofs/UpstreamVerifyC15.v -- C15: the decision taken by tls_start_server, composed with the layer
   invariant (Proofs/ServerTlsLayerInv.v) and the X.509 specification (Proofs/X509VerifyLemmas.v). *)
From Coq Require Import List Bool NArith ZArith.
From MV Require Import Base.Bytes Model.X509Verify Model.TlsStartServer Model.ServerTlsLayer.
From MV Require Import Proofs.X509VerifyLemmas Proofs.ServerTlsLayerInv Corr.C15.
Import ListNotations.

(* what a configured check is about *)
Definition target_of (i : ts_in) (t : target) : Prop :=
  let sni := o_sni (tls_start_server i) in
  (exists ip, ip_address sni = Some ip /\ t = TIp ip)
  \/ (ip_address sni = None
      /\ exists h, encode_idna (idna_hint i) sni = Some h /\ t = THost h
                   /\ host_syntax_ok h = true /\ has x00 h = false).

(* the one case analysis of the hook: whenever it returns a configuration, the verify mode follows
   ssl_insecure, a configured target is the SNI (target_of), and with verification on there is a target *)
Lemma start_server_cases i cf :
  o_res (tls_start_server i) = inr cf ->
  cf_verify cf = (if ssl_insecure i then VERIFY_NONE else VERIFY_PEER)
  /\ (forall t, cf_target cf = Some t -> target_of i t)
  /\ (ssl_insecure i = false -> exists t, cf_target cf = Some t).
Proof.
  unfold target_of, tls_start_server; simpl.
  destruct (nonempty _).
  - destruct (ip_address _) as [ip|] eqn:IP.
    + intros E; inversion E; subst; simpl. repeat split; eauto. intros t T; inversion T; subst. left; eauto.
    + destruct (encode_idna _ _) as [h|] eqn:EN; [|discriminate].
      destruct (has x00 h) eqn:NUL; [discriminate|]. destruct (host_syntax_ok h) eqn:SY; simpl; [|discriminate].
      intros E; inversion E; subst; simpl. repeat split; eauto.
      intros t T; inversion T; subst. right; split; [reflexivity|]. eauto 10.
  - destruct (ssl_insecure i); [|discriminate]. intros E; inversion E; subst; simpl. repeat split; discriminate.
Qed.

(* for an ASCII name the reference identifier is the SNI itself, byte for byte *)
Lemma ascii_reference_is_sni hint s h : is_ascii s = true -> encode_idna hint s = Some h -> h = s.
Proof.
  unfold encode_idna, idna_ascii; intros A; rewrite A. destruct s; [intros E; inversion E; reflexivity|].
  destruct (_ && _); [intros E; inversion E; reflexivity|discriminate].
Qed.

(* with ssl_insecure on the hook still has to configure the name: a trailing dot is enough to make it raise *)
Definition trailing_dot_input : ts_in :=
  mkIn true None None [x65;x78;x61;x6d;x70;x6c;x65;x2e;x63;x6f;x6d;x2e] None.   (* example.com. *)

Section Usable.
  Variable eng seg : Type.
  Variable hs_step : eng -> option seg -> eng * hs_result.
  Variable send_app : eng -> bytes -> eng * send_result.
  Variable recv_app : eng -> option seg -> eng * (bytes * bool).
  Variable got_shutdown : eng -> bool.
  Variable start_conn : option eng.
  Variable cst : Type.
  Variable child_step : cst -> bool -> cev -> cst * list ccmd.
  Notation run := (run eng seg hs_step send_app recv_app got_shutdown start_conn cst child_step).

  (* anything that means: the upstream connection is usable *)
  Definition usable (c : cst) (b : bool) (es : list (ev seg)) : Prop :=
    let r := run (init eng seg cst c b) es in
    In (CHook HEstablished) (snd r)
    \/ (exists p, In (CSendApp p) (snd r))
    \/ (exists est, In (CChild (CevOpenReply false) est) (snd r))
    \/ (exists e, In (CChild e true) (snd r))
    \/ tunnel_state _ _ _ (fst r) = OPEN
    \/ established _ _ _ (fst r) = true.
End Usable.

(* the peer is acceptable for the configuration tls_start_server produced *)
Definition accept (i : ts_in) (trust chain : list cert) (now : Z) : Prop :=
  exists cf, o_res (tls_start_server i) = inr cf /\ peer_acceptable cf trust chain now = true.

(* openssl_verifies: the contract about the OpenSSL connection object that tls_start_server creates *)
Definition openssl_verifies (i : ts_in) (trust chain : list cert) (now : Z)
    (eng seg : Type) (hs_step : eng -> option seg -> eng * hs_result)
    (send_app : eng -> bytes -> eng * send_result) (recv_app : eng -> option seg -> eng * (bytes * bool))
    (start_conn : option eng) : Prop :=
  exists (live : eng -> Prop) (ok_eng : eng -> bool),
    (forall e, start_conn = Some e -> live e /\ ok_eng e = false)
    /\ (forall e d e' r, live e -> hs_step e d = (e', r) ->
          live e' /\ (r = HsDone -> accept i trust chain now)
          /\ (ok_eng e' = true -> r = HsDone \/ ok_eng e = true))
    /\ (forall e d e' r, live e -> send_app e d = (e', r) ->
          live e' /\ (ok_eng e' = true -> ok_eng e = true) /\ (forall p, r = Sent p -> ok_eng e = true))
    /\ (forall e d e' x, live e -> recv_app e d = (e', x) ->
          live e' /\ (ok_eng e' = true -> ok_eng e = true)).

(* with verification on, anything usable means the peer passed the X.509 check for the target *)
Theorem usable_verified i trust chain now eng seg hs_step send_app recv_app got_shutdown start_conn
        cst child_step c b es :
  openssl_verifies i trust chain now eng seg hs_step send_app recv_app start_conn ->
  ssl_insecure i = false ->
  usable eng seg hs_step send_app recv_app got_shutdown start_conn cst child_step c b es ->
  exists t, target_of i t /\ x509_ok trust chain now t = true.
Proof.
  intros [live [ok_eng [H1 [H2 [H3 H4]]]]] Hi U.
  destruct (usable_accept _ _ _ _ _ _ _ _ _ live ok_eng _ H1 H2 H3 H4 c b es U) as [cf [E A]].
  destruct (start_server_cases i cf E) as (V & T & X). destruct (X Hi) as [t Ht].
  unfold peer_acceptable in A. rewrite V, Hi, Ht in A. eauto.
Qed.

Theorem verified_unless_disabled i trust chain now eng seg hs_step send_app recv_app got_shutdown start_conn
        cst child_step c b es :
  openssl_verifies i trust chain now eng seg hs_step send_app recv_app start_conn ->
  ssl_insecure i = false ->
  usable eng seg hs_step send_app recv_app got_shutdown start_conn cst child_step c b es ->
  exists t leaf extra n,
    target_of i t /\ chain = leaf :: extra
    /\ valid_path trust extra now n leaf 0%N /\ time_ok now leaf = true /\ name_ok leaf t = true.
Proof.
  intros Hc Hi U. destruct (usable_verified _ _ _ _ _ _ _ _ _ _ _ _ _ _ _ _ Hc Hi U) as [t [Tg X]].
  destruct (x509_ok_sound _ _ _ _ X) as [leaf [extra [n H]]]. exists t, leaf, extra, n. tauto.
Qed.

(* tls_start_server raised (after the repair no connection object is handed over): whatever the server,
   the child and the history do, nothing usable ever comes out; no OpenSSL contract is needed *)
Theorem no_context_never_usable (eng seg : Type) hs_step send_app recv_app got_shutdown cst child_step c b es :
  ~ usable eng seg hs_step send_app recv_app got_shutdown None cst child_step c b es.
Proof.
  intros U.
  refine (usable_accept eng seg hs_step send_app recv_app got_shutdown None cst child_step
            (fun _ => False) (fun _ => false) False _ _ _ _ c b es U).
  - intros e H; discriminate.
  - intros e d e' r [].
  - intros e d e' r [].
  - intros e d e' x [].
Qed.

(* which CAs are trusted: create_proxy_server_context *)

(* r is a CONFIGURED trusted certificate: in the CA file or the CA directory if either option is set;
   in the bundled default file only when neither is *)
Definition configured_root (tc : trust_cfg) (r : cert) : Prop :=
  match tc_file tc, tc_dir tc with
  | None, None => In r (tc_default tc)
  | f, d => In r (opt_list f) \/ In r (opt_list d)
  end.

Lemma loaded_trust_configured tc r : In r (loaded_trust tc) <-> configured_root tc r.
Proof.
  unfold loaded_trust, configured_root.
  destruct (tc_file tc), (tc_dir tc); simpl; rewrite ?in_app_iff; simpl; tauto.
Qed.

Theorem verified_by_configured_ca i tc chain now eng seg hs_step send_app recv_app got_shutdown start_conn
        cst child_step c b es :
  openssl_verifies i (loaded_trust tc) chain now eng seg hs_step send_app recv_app start_conn ->
  ssl_insecure i = false ->
  usable eng seg hs_step send_app recv_app got_shutdown start_conn cst child_step c b es ->
  exists t leaf extra n r,
    target_of i t /\ chain = leaf :: extra
    /\ valid_path (loaded_trust tc) extra now n leaf 0%N /\ time_ok now leaf = true /\ name_ok leaf t = true
    /\ configured_root tc r /\ self_issued r = true /\ time_ok now r = true.
Proof.
  intros Hc Hi U.
  destruct (verified_unless_disabled _ _ _ _ _ _ _ _ _ _ _ _ _ _ _ _ Hc Hi U)
    as [t [leaf [extra [n [Tg [Ch [Vp [Tm Nm]]]]]]]].
  destruct (valid_path_ends_in_trusted_root _ _ _ _ _ _ Vp) as [r [Hin [Ss Tr]]].
  exists t, leaf, extra, n, r. repeat split; auto. apply loaded_trust_configured; exact Hin.
Qed.

(* the specification engine of Corr/C15.v meets the four clauses of the contract, its flag a = true standing for
   the acceptance *)
Example spec_engine_contract (a : bool) (conn : option phase) :
  (forall e, conn = Some e -> e = Fresh) ->
  exists (live : phase -> Prop) (ok_eng : phase -> bool),
    (forall e, conn = Some e -> live e /\ ok_eng e = false)
    /\ (forall e d e' r, live e -> spec_hs a e d = (e', r) ->
          live e' /\ (r = HsDone -> a = true) /\ (ok_eng e' = true -> r = HsDone \/ ok_eng e = true))
    /\ (forall e d e' r, live e -> spec_send e d = (e', r) ->
          live e' /\ (ok_eng e' = true -> ok_eng e = true) /\ (forall p, r = Sent p -> ok_eng e = true))
    /\ (forall e d e' x, live e -> spec_recv e d = (e', x) ->
          live e' /\ (ok_eng e' = true -> ok_eng e = true)).
Proof.
  intros Hc. exists (fun _ => True), (fun e => phase_eqb e Done).
  split; [intros e H; split; [exact I|rewrite (Hc e H); reflexivity]|].
  split; [intros e d e' r _ H; split; [exact I|]|].
  - destruct e, d as [[]|], a; inversion H; subst; simpl; split; intros X; (discriminate X || auto).
  - split.
    + intros e d e' r _ H. destruct e; inversion H; subst; simpl; repeat split; auto; discriminate.
    + intros e d e' x _ H. inversion H; subst; split; auto.
Qed.

(* a concrete accepted handshake: example.com, leaf with SAN example.com issued by a trusted root *)
Definition s_example : bytes := [x65;x78;x61;x6d;x70;x6c;x65;x2e;x63;x6f;x6d].
Definition sample_in : ts_in := mkIn false None None s_example None.
Definition sample_root : cert := mkCert 1 1 1 1 0 1000 true None [] [] None.
Definition sample_leaf : cert := mkCert 10 1 10 1 0 1000 false None [s_example] [] None.
Definition sample_trace : list cmd :=
  run_case (match o_res (tls_start_server sample_in) with
            | inr cf => peer_acceptable cf [sample_root] [sample_leaf] 500
            | inl _ => false end)
           (Some Fresh) 0 false 0 false.
