(* Proofs/StrutilsDecode.v — escape_decode inverts the per-byte escaping, and the
   escaped text has no control characters except kept spacing. *)
From Coq Require Import List Bool NArith Lia.
From MV Require Import Base.Bytes Model.Strutils.
Import ListNotations.
Local Open Scope N_scope.

(* Per-byte: the escape of b is self-delimiting for escape_decode, whatever follows. *)
Lemma decode_esc_byte ks eq b rest :
  escape_decode (esc_byte ks eq b ++ rest) = ocons (Some b) (escape_decode rest).
Proof.
  (* only the quote, TAB, LF and CR depend on the flags *)
  destruct b; try reflexivity; destruct ks, eq; reflexivity.
Qed.

Lemma decode_direct ks eq data :
  escape_decode (escape_direct data ks eq) = Some data.
Proof.
  unfold escape_direct. induction data as [|b data IH]; [reflexivity|].
  cbn [flat_map]. rewrite decode_esc_byte, IH. reflexivity.
Qed.

Definition char_ok (ks : bool) (c : byte) : bool :=
  negb (is_cc (bN c)) || (ks && is_spacing (bN c)).

Lemma esc_byte_ok ks eq b : forallb (char_ok ks) (esc_byte ks eq b) = true.
Proof.
  revert b. apply forall_bytes. destruct ks, eq; vm_compute; reflexivity.
Qed.

Lemma direct_no_cc ks eq data : forallb (char_ok ks) (escape_direct data ks eq) = true.
Proof.
  unfold escape_direct. induction data as [|b data IH]; [reflexivity|].
  cbn [flat_map]. rewrite forallb_app, esc_byte_ok, IH. reflexivity.
Qed.
