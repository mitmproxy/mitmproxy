(* Proofs/ContentviewsDns.v -- the DNS content view: to_json / from_json round trip, and
   reencode (prettify data) composed with the wire round trip of C25. *)
From Coq Require Import List Bool Arith NArith ZArith.
From MV Require Import Base.Bytes Model.Strutils Model.WsUtf8 Model.DnsNames Model.DnsMessage
  Gen.DnsEnums Model.Contentviews Model.ContentviewsDns
  Proofs.ListFacts Proofs.DecOfN Proofs.DnsNamesRT Proofs.DnsMessageRT Proofs.DnsC25 Proofs.ContentviewsSafe.
Import ListNotations.
Local Open Scope N_scope.

Lemma removeprefix_app p y : removeprefix p (p ++ y) = y.
Proof. unfold removeprefix. rewrite starts_with_prefix. apply skipn_exact. Qed.

Lemma removesuffix_app s p : removesuffix p (s ++ p) = s.
Proof. unfold removesuffix. rewrite rev_app_distr, removeprefix_app. apply rev_involutive. Qed.

Lemma dec_value_val ds : dec_value ds = dec_val ds 0.
Proof. apply dec_val_fold. Qed.

Lemma parse_dec_of_N n : parse_dec (dec_of_N n) = Some n.
Proof.
  unfold parse_dec. rewrite dec_of_N_digits, dec_value_val, dec_of_N_val.
  pose proof (dec_of_N_nonempty n). destruct (dec_of_N n); [congruence|reflexivity].
Qed.

(* what an enum table must satisfy for the round trip: each string maps back to its number, and none starts
   with the prefix of the fallback form *)
Definition tbl_ok (pre : bytes) (t : list (N * bytes)) : bool :=
  forallb (fun ks => match tbl_rev t (snd ks) with Some k => k =? fst ks | None => false end
                     && negb (starts_with pre (snd ks))) t.

Lemma tbl_get_in t n s : tbl_get t n = Some s -> In (n, s) t.
Proof.
  induction t as [|[k s'] t IH]; [discriminate|]. cbn. destruct (k =? n) eqn:E.
  - intro H. inversion H; subst. apply N.eqb_eq in E. subst. left. reflexivity.
  - intro H. right. exact (IH H).
Qed.

Lemma tbl_rev_none t x : (forall k s, In (k, s) t -> s <> x) -> tbl_rev t x = None.
Proof.
  induction t as [|[k s'] t IH]; intro H; [reflexivity|]. cbn.
  destruct (bytes_eqb s' x) eqn:E.
  - apply bytes_eqb_eq in E. exfalso. exact (H k s' (or_introl eq_refl) E).
  - apply IH. intros k0 s0 Hin. apply (H k0 s0). right. exact Hin.
Qed.

Lemma enum_roundtrip pre t : tbl_ok pre t = true ->
  forall n, enum_from_str pre t (enum_to_str pre t n) = Some n.
Proof.
  intros OK n. unfold tbl_ok in OK. rewrite forallb_forall in OK.
  unfold enum_from_str, enum_to_str. destruct (tbl_get t n) as [s|] eqn:G.
  - apply tbl_get_in in G. specialize (OK _ G). cbn [fst snd] in OK.
    apply andb_true_iff in OK. destruct OK as [R _].
    destruct (tbl_rev t s) as [k|]; [|discriminate R]. apply N.eqb_eq in R. subst. reflexivity.
  - rewrite tbl_rev_none.
    + rewrite removeprefix_app, removesuffix_app. apply parse_dec_of_N.
    + intros k s Hin Heq. specialize (OK _ Hin). cbn [fst snd] in OK.
      apply andb_true_iff in OK. destruct OK as [_ P]. rewrite Heq, starts_with_prefix in P. discriminate P.
Qed.

Lemma op_rt n : op_from_str (op_to_str n) = Some n.
Proof. apply enum_roundtrip. vm_compute. reflexivity. Qed.
Lemma rc_rt n : rc_from_str (rc_to_str n) = Some n.
Proof. apply enum_roundtrip. vm_compute. reflexivity. Qed.
Lemma ty_rt n : ty_from_str (ty_to_str n) = Some n.
Proof. apply enum_roundtrip. vm_compute. reflexivity. Qed.
Lemma cl_rt n : cl_from_str (cl_to_str n) = Some n.
Proof. apply enum_roundtrip. vm_compute. reflexivity. Qed.

(* the two hex digits of b read back to b, and neither is a blank; checked for all 256 bytes *)
Definition hex_byte_ok (b : byte) : bool :=
  match hexval (hexdigit (bN b / 16)), hexval (hexdigit (bN b mod 16)) with
  | Some x, Some y => byte_eqb (Nb (x * 16 + y)) b
  | _, _ => false
  end
  && negb (byte_eqb (hexdigit (bN b / 16)) x20) && negb (byte_eqb (hexdigit (bN b mod 16)) x20).

Lemma hex_byte_ok_all b : hex_byte_ok b = true.
Proof. revert b. apply forall_bytes. vm_compute. reflexivity. Qed.

Lemma fromhex_hex_of d : fromhex (hex_of d) = Some d.
Proof.
  induction d as [|b d IH]; [reflexivity|].
  cbn [hex_of flat_map app fromhex]. fold (hex_of d). rewrite IH.
  pose proof (hex_byte_ok_all b) as H. unfold hex_byte_ok in H.
  apply andb_true_iff in H. destruct H as [H _]. apply andb_true_iff in H. destruct H as [H _].
  destruct (hexval (hexdigit (bN b / 16))) as [x|]; [|discriminate H].
  destruct (hexval (hexdigit (bN b mod 16))) as [y|]; [|discriminate H].
  apply byte_eqb_eq in H. rewrite H. reflexivity.
Qed.

Definition no_blank (s : bytes) : bool := forallb (fun a => negb (byte_eqb a x20)) s.

(* partition(" (") does not cut inside a prefix without blanks *)
Lemma before_sp_paren_app h s : no_blank h = true -> before_sp_paren (h ++ s) = h ++ before_sp_paren s.
Proof.
  induction h as [|a h IH]; [reflexivity|]. cbn [no_blank forallb app]. intro H.
  apply andb_true_iff in H as [Ha Hh]. apply negb_true_iff in Ha.
  cbn [before_sp_paren]. rewrite Ha, <- (IH Hh). destruct (h ++ s); reflexivity.
Qed.

Lemma hex_of_no_blank d : no_blank (hex_of d) = true.
Proof.
  induction d as [|b d IH]; [reflexivity|].
  pose proof (hex_byte_ok_all b) as H. unfold hex_byte_ok in H.
  apply andb_true_iff in H as [H N2]. apply andb_true_iff in H as [_ N1].
  cbn [hex_of flat_map app no_blank forallb]. rewrite N1, N2. exact IH.
Qed.

(* the hex fallback reads the bytes back from 0x<hex>, whatever follows from the first " (" on *)
Lemma hex_fallback_cut d s : before_sp_paren s = [] -> hex_fallback (ZEROX ++ hex_of d ++ s) = Some d.
Proof.
  intro Hs. unfold hex_fallback.
  rewrite removeprefix_app, before_sp_paren_app, Hs, app_nil_r by apply hex_of_no_blank.
  apply fromhex_hex_of.
Qed.

Lemma hex_fallback_hex d : hex_fallback (hex_str d) = Some d.
Proof. unfold hex_str. rewrite <- (app_nil_r (hex_of d)). apply hex_fallback_cut. reflexivity. Qed.

Lemma hex_fallback_invalid t d : hex_fallback (invalid_str t d) = Some d.
Proof. unfold invalid_str, hex_str. rewrite <- app_assoc. apply hex_fallback_cut. reflexivity. Qed.

Lemma map_opt_map {A B} (f : A -> option B) (g : B -> A) (l : list B) :
  (forall x, In x l -> f (g x) = Some x) -> map_opt f (map g l) = Some l.
Proof.
  induction l as [|x l IH]; intro H; [reflexivity|]. cbn [map map_opt].
  rewrite (H x (or_introl eq_refl)), IH; [reflexivity|]. intros y Hy. apply H. right. exact Hy.
Qed.

Section DnsProofs.
Variable lib_enc : N -> bytes -> option djson.
Variable lib_dec : N -> djson -> option bytes.

Notation data_json := (data_json lib_enc).
Notation data_from_json := (data_from_json lib_dec).
Notation rr_to_json := (rr_to_json lib_enc).
Notation rr_from_json := (rr_from_json lib_dec).
Notation m_to_json := (m_to_json lib_enc).
Notation m_from_json := (m_from_json lib_dec).

(* The complement of the findings about record data:
   - A / AAAA / HTTPS: what the library prints it parses back to the same bytes, and it
     rejects the marker string used for unprintable data (both hold of ipaddress for every
     input; for HTTPS records it is a guard on the data);
   - NS / CNAME / PTR: the data is a name in canonical uncompressed form
     (complement of dns-name-rdata-garbled);
   - TXT: the data is well-formed UTF-8 (complement of dns-txt-not-utf8-garbled). *)
Definition rdata_ok (t : N) (d : bytes) : Prop :=
  if is_lib_type t then
    (forall j, lib_enc t d = Some j -> lib_dec t j = Some d)
    /\ (lib_enc t d = None -> lib_dec t (DStr (invalid_str t d)) = None)
  else if is_name_type t then exists n, DnsNames.unpack d = Ok n /\ DnsNames.pack n = Ok d
  else if t =? T_TXT then utf8_valid d = true
  else True.

Lemma data_roundtrip t d : rdata_ok t d -> data_from_json t (data_json t d) = Some d.
Proof.
  unfold rdata_ok, ContentviewsDns.data_from_json, ContentviewsDns.data_json, data_attempt.
  destruct (is_lib_type t) eqn:L.
  - intros [H1 H2]. destruct (lib_enc t d) as [j|] eqn:E.
    + rewrite (H1 j eq_refl). reflexivity.
    + rewrite (H2 eq_refl). apply hex_fallback_invalid.
  - destruct (is_name_type t) eqn:Nm.
    + intros (n & U & P). rewrite U, P. reflexivity.
    + destruct (t =? T_TXT) eqn:X.
      * intros ->. reflexivity.
      * intros _. apply hex_fallback_hex.
Qed.

Lemma q_roundtrip q : q_from_json (q_to_json q) = Some q.
Proof. destruct q. unfold q_from_json, q_to_json. cbn. rewrite ty_rt, cl_rt. reflexivity. Qed.

Definition rr_ok (r : rr) : Prop := rdata_ok (r_type r) (r_data r).

Lemma rr_roundtrip r : rr_ok r -> rr_from_json (rr_to_json r) = Some r.
Proof.
  destruct r as [n t c ttl d]. unfold rr_ok, ContentviewsDns.rr_from_json, ContentviewsDns.rr_to_json.
  cbn. intro H. rewrite ty_rt, cl_rt, (data_roundtrip t d H). reflexivity.
Qed.

Lemma rrs_roundtrip l : Forall rr_ok l -> map_opt rr_from_json (map rr_to_json l) = Some l.
Proof. intro F. apply map_opt_map. rewrite Forall_forall in F. intros x Hx. apply rr_roundtrip, F, Hx. Qed.

Definition clear_reserved (m : message) : message :=
  mkMsg (m_id m) (m_query m) (m_op_code m) (m_aa m) (m_tc m) (m_rd m) (m_ra m) 0 (m_rcode m)
        (m_questions m) (m_answers m) (m_authorities m) (m_additionals m).

Lemma message_json_roundtrip sz m :
  Forall rr_ok (all_rrs m) -> m_from_json (m_to_json sz m) = Some (clear_reserved m).
Proof.
  intro F. unfold all_rrs in F. apply Forall_app in F. destruct F as [F1 F]. apply Forall_app in F.
  destruct F as [F2 F3]. unfold ContentviewsDns.m_from_json, ContentviewsDns.m_to_json. cbn.
  rewrite op_rt, rc_rt, (map_opt_map _ _ _ (fun q _ => q_roundtrip q)),
          (rrs_roundtrip _ F1), (rrs_roundtrip _ F2), (rrs_roundtrip _ F3).
  reflexivity.
Qed.

Lemma clear_reserved_id m : m_reserved m = 0 -> clear_reserved m = m.
Proof. destruct m. cbn. intros ->. reflexivity. Qed.

(* the AD bit (reserved = 2) of a query is lost *)
Definition ad_query : message :=
  mkMsg 42 true 0 false false true false 2 0 [mkQ [x61] 1 1] [] [] [].
(* a TXT record whose data is not UTF-8 comes back as the text of the marker string *)
Definition txt_bad : rr := mkRR [x61] 16 1 5 [x01; xff].

(* a CNAME record whose data is not a complete name comes back as a name made of the marker string *)
Definition cname_bad : rr := mkRR [x61] 5 1 5 [x05; x61; x62; x63].

Variable yaml_dumps : mjson -> text.
Variable yaml_loads : text -> option mjson.
(* the contract of the YAML library for one document: what is dumped loads back to the same
   value, and (ruamel escapes every non-printable character) the dump has nothing that the
   final filter of prettify_message replaces *)
Definition yaml_ok (j : mjson) : Prop :=
  yaml_loads (yaml_dumps j) = Some j
  /\ forall c, In c (yaml_dumps j) -> replaced true c = false.

Notation dns_prettify := (dns_prettify lib_enc yaml_dumps).
Notation dns_reencode := (dns_reencode lib_dec yaml_loads).

Lemma yaml_unfiltered c1 j : yaml_ok j -> ecc c1 (yaml_dumps j) = yaml_dumps j.
Proof.
  intros [_ yaml_printable]. apply ecc_id. apply forallb_forall. intros c Hc. apply negb_true_iff.
  pose proof (yaml_printable c Hc) as P. unfold replaced in *. destruct c1; [exact P|].
  apply orb_false_iff in P. destruct P as [P _]. rewrite P. reflexivity.
Qed.

Definition strip (tcp : bool) (b : bytes) : bytes := if tcp then skipn 2 b else b.

Lemma reencode_prettify c1 tcp data m :
  DnsMessage.unpack (strip tcp data) = Ok m -> Forall rr_ok (all_rrs m) ->
  yaml_ok (m_to_json (msg_size m) m) ->
  exists t, dns_prettify tcp data = inl t /\
    dns_reencode tcp (ecc c1 t) =
      match pack_message (clear_reserved m) tcp with Ok b => Some b | Err _ => None end.
Proof.
  intros U F Y. unfold strip in U.
  assert (dns_prettify tcp data = inl (yaml_dumps (m_to_json (msg_size m) m))) as P.
  { unfold ContentviewsDns.dns_prettify. cbv zeta. destruct tcp; cbv iota in U |- *; rewrite U; reflexivity. }
  eexists. split; [exact P|]. unfold ContentviewsDns.dns_reencode.
  rewrite (yaml_unfiltered _ _ Y). destruct Y as [Y _]. rewrite Y, (message_json_roundtrip _ m F). reflexivity.
Qed.

(* The property, on the complement of the findings: a DNS message that decodes to m (with the
   reserved bits clear and record data as in rdata_ok, and within the guards of the wire
   round trip C25) renders, and re-encoding the unedited rendering gives bytes that decode
   to exactly m: same header fields, questions and records. *)
Theorem dns_view_roundtrip c1 tcp data m :
  DnsMessage.unpack (strip tcp data) = Ok m ->
  m_reserved m = 0 -> Forall rr_ok (all_rrs m) ->
  yaml_ok (m_to_json (msg_size m) m) ->
  wf_msg m -> Forall rdata_guard (all_rrs m) ->
  (tcp = true -> forall b, packed m = Ok b -> N.of_nat (length b) < 65536) ->
  exists t out, dns_prettify tcp data = inl t /\ dns_reencode tcp (ecc c1 t) = Some out
    /\ DnsMessage.unpack (strip tcp out) = Ok m.
Proof.
  intros U R F Y W G L.
  destruct (reencode_prettify c1 tcp data m U F Y) as (t & P & E).
  rewrite (clear_reserved_id m R) in E.
  destruct (message_roundtrip m W G) as [Pk Un].
  exists t. unfold pack_message in E. rewrite Pk in E. cbn [bind] in E. destruct tcp.
  - rewrite (pack_u16_ok _ (L eq_refl _ Pk)) in E. cbn [bind] in E.
    eexists. split; [exact P|]. split; [exact E|]. cbn [strip put_u16be app skipn]. exact Un.
  - eexists. split; [exact P|]. split; [exact E|]. exact Un.
Qed.

End DnsProofs.

(* the contracts are satisfiable: a toy library (the data itself as an opaque value, except that A data
   must have four bytes) and a toy YAML with one fixed printable dump, loaded back as the one message of
   the instance below *)
Definition toy_enc (t : N) (d : bytes) : option djson :=
  if (t =? T_A) && negb (length d =? 4)%nat then None else Some (DOpaque d).
Definition toy_dec (t : N) (j : djson) : option bytes :=
  match j with DOpaque d => Some d | DStr _ => None end.

Definition good_query : bytes :=
  [x00; x2a; x01; x00; x00; x01; x00; x00; x00; x00; x00; x00; x03; x64; x6e; x73; x06; x67; x6f; x6f;
   x67; x6c; x65; x00; x00; x01; x00; x01].

Example toy_lib_ok : forall d, rdata_ok toy_enc toy_dec T_A d.
Proof.
  intros d. unfold rdata_ok. change (is_lib_type T_A) with true. cbn [toy_dec]. split.
  - intros j E. unfold toy_enc in E. destruct ((T_A =? T_A) && negb (length d =? 4)%nat); [discriminate|].
    inversion E. reflexivity.
  - reflexivity.
Qed.

Definition good_msg : message :=
  mkMsg 42 true 0 false false true false 0 0 [mkQ [x64; x6e; x73; x2e; x67; x6f; x6f; x67; x6c; x65] 1 1] [] [] [].
Definition toy_dumps (j : mjson) : text := [105; 100; 58; 32; 52; 50; 10].
Definition toy_loads (t : text) : option mjson := Some (m_to_json toy_enc 0 good_msg).

(* every hypothesis of dns_view_roundtrip holds of a real query (dns.google A, id 42) over UDP, and the
   conclusion is a 28-byte message equal to the input; the query has no records, so rr_ok and
   rdata_guard are not exercised by it *)
Lemma good_query_instance :
  DnsMessage.unpack good_query = Ok good_msg /\ m_reserved good_msg = 0
  /\ Forall (rr_ok toy_enc toy_dec) (all_rrs good_msg)
  /\ yaml_ok toy_dumps toy_loads (m_to_json toy_enc (msg_size good_msg) good_msg)
  /\ wf_msg good_msg /\ Forall rdata_guard (all_rrs good_msg)
  /\ (forall b, packed good_msg = Ok b -> N.of_nat (length b) < 65536)
  /\ dns_reencode toy_dec toy_loads false (ecc false (toy_dumps (m_to_json toy_enc 0 good_msg))) = Some good_query.
Proof.
  split; [vm_compute; reflexivity|]. split; [reflexivity|]. split; [constructor|]. split.
  - split; [reflexivity|]. intros c Hc.
    assert (forallb (fun c => negb (replaced true c)) (toy_dumps (m_to_json toy_enc 0 good_msg)) = true) as F
      by (vm_compute; reflexivity).
    rewrite forallb_forall in F. apply negb_true_iff. exact (F c Hc).
  - split; [apply wf_msgb_ok; vm_compute; reflexivity|]. split; [constructor|]. split.
    + intros b Pb. assert (packed good_msg = Ok good_query) as E by (vm_compute; reflexivity).
      rewrite E in Pb. inversion Pb; subst b. vm_compute. reflexivity.
    + vm_compute. reflexivity.
Qed.
