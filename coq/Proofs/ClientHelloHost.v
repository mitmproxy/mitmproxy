(* Proofs/ClientHelloHost.v -- C13: an RFC 6066 HostName (dot-joined LDH labels) passes is_valid_host, provided
   the IDNA library accepts its ACE-prefixed labels. *)
From Coq Require Import List Bool Arith NArith Lia ZifyBool.
From MV Require Import Base.Bytes Model.ClientHello Model.TlsRef Proofs.ClientHelloBase.
Import ListNotations.
Local Open Scope N_scope.

Lemma label_char_facts b :
  ref_label_char b = true ->
  label_char b = true /\ byte_eqb b DOT = false /\ is_ascii_b b = true /\ byte_eqb b x0a = false.
Proof.
  intros H. split; [exact H|].
  assert (N : forall x, ref_label_char x = false -> byte_eqb b x = false).
  { intros x Hx. destruct (byte_eqb b x) eqn:E; [|reflexivity]. apply byte_eqb_eq in E. congruence. }
  split; [apply N; reflexivity|]. split; [|apply N; reflexivity].
  unfold is_ascii_b. apply orb_true_iff in H as [H|H%byte_eqb_eq]; [|subst; reflexivity].
  apply orb_true_iff in H as [H|H%byte_eqb_eq]; [|subst; reflexivity].
  unfold is_alpha, is_upper, is_lower, is_digit in H. lia.
Qed.

Definition nodots (l : bytes) : Prop := forallb (fun b => negb (byte_eqb b DOT)) l = true.

Lemma split_nodots l : nodots l -> split_on DOT l = [l].
Proof.
  unfold nodots. induction l as [|c l IH]; [reflexivity|]. cbn [forallb split_on]. intros H.
  apply andb_prop in H. destruct H as [Hc Hl]. apply negb_true_iff in Hc. rewrite Hc.
  rewrite IH by exact Hl. reflexivity.
Qed.

Lemma split_app_dot l rest : nodots l -> split_on DOT (l ++ DOT :: rest) = l :: split_on DOT rest.
Proof.
  unfold nodots. induction l as [|c l IH]; intros H.
  - cbn [app split_on]. replace (byte_eqb DOT DOT) with true by reflexivity. reflexivity.
  - cbn [forallb] in H. apply andb_prop in H. destruct H as [Hc Hl]. apply negb_true_iff in Hc.
    cbn [app split_on]. rewrite Hc. rewrite IH by exact Hl. reflexivity.
Qed.

Lemma split_join ls : ls <> [] -> Forall nodots ls -> split_on DOT (join_dot ls) = ls.
Proof.
  induction ls as [|l t IH]; intros Hne Hf; [congruence|].
  inversion Hf as [|? ? Hl Ht]; subst. destruct t as [|l2 t].
  - cbn [join_dot]. apply split_nodots, Hl.
  - change (join_dot (l :: l2 :: t)) with (l ++ DOT :: join_dot (l2 :: t)). rewrite split_app_dot by exact Hl.
    rewrite IH; [reflexivity|discriminate|exact Ht].
Qed.

Lemma ref_label_nodots l : ref_label l -> nodots l.
Proof.
  intros (_ & _ & H). unfold nodots. rewrite forallb_forall in *. intros b Hb.
  destruct (label_char_facts b (H b Hb)) as (_ & Hd & _). rewrite Hd. reflexivity.
Qed.

Definition last_is_label_char (s : bytes) : Prop :=
  match rev s with c :: _ => ref_label_char c = true | [] => False end.

Lemma label_last l : ref_label l -> last_is_label_char l.
Proof.
  intros (Hne & _ & H). unfold last_is_label_char. destruct (rev l) as [|c r] eqn:E.
  - apply (f_equal (@rev byte)) in E. rewrite rev_involutive in E. cbn in E. congruence.
  - rewrite forallb_forall in H. apply H. apply in_rev. rewrite E. left. reflexivity.
Qed.

Lemma join_last ls : ls <> [] -> Forall ref_label ls -> last_is_label_char (join_dot ls).
Proof.
  induction ls as [|l t IH]; intros Hne Hf; [congruence|].
  inversion Hf as [|? ? Hl Ht]; subst. destruct t as [|l2 t].
  - cbn [join_dot]. apply label_last, Hl.
  - change (join_dot (l :: l2 :: t)) with (l ++ DOT :: join_dot (l2 :: t)).
    specialize (IH ltac:(discriminate) Ht). unfold last_is_label_char in *.
    rewrite rev_app_distr. cbn [rev]. destruct (rev (join_dot (l2 :: t))) as [|c r]; [contradiction|].
    cbn [app]. exact IH.
Qed.

Lemma label_valid_ref l : ref_label l -> label_valid l = true.
Proof.
  intros R. pose proof (label_last l R) as L. destruct R as (Hne & Hlen & H).
  unfold label_valid, last_is_label_char in *.
  destruct (rev l) as [|c r] eqn:E; [contradiction|].
  destruct (label_char_facts c L) as (_ & _ & _ & Hnl).
  (* the last byte is no line feed, so nothing is cut off *)
  replace (match c with x0a => rev r | _ => l end) with l by (destruct c; try reflexivity; discriminate Hnl).
  rewrite !andb_true_iff, !N.leb_le. repeat split; [|exact Hlen|exact H].
  destruct l; [congruence|]. unfold blen. cbn [length]. lia.
Qed.

Lemma drop_last_nonempty (ls : list bytes) : Forall (fun l => l <> []) ls -> drop_last_if_empty ls = ls.
Proof.
  intros H. unfold drop_last_if_empty. destruct (rev ls) as [|[|c x] r] eqn:E; try reflexivity.
  exfalso. rewrite Forall_forall in H. apply (H []); [|reflexivity].
  apply (proj2 (in_rev ls [])). rewrite E. left. reflexivity.
Qed.

Lemma ref_hostname_valid ace_ok ls :
  ls <> [] -> Forall ref_label ls -> len (join_dot ls) <= 253 ->
  (forall l, In l ls -> starts_with ACE l = true -> ace_ok l = true) ->
  is_valid_host ace_ok (join_dot ls) = true.
Proof.
  intros Hne Hf Hlen Hace.
  assert (Hsplit : split_on DOT (join_dot ls) = ls).
  { apply split_join; [exact Hne|]. eapply Forall_impl; [|exact Hf]. apply ref_label_nodots. }
  pose proof (join_last ls Hne Hf) as Hlast.
  assert (Hidna : idna_decodes ace_ok (join_dot ls) = true).
  { unfold idna_decodes. destruct (is_nil (join_dot ls)); [reflexivity|].
    destruct (negb (contains_sub ACE (join_dot ls)) && forallb is_ascii_b (join_dot ls)); [reflexivity|].
    rewrite Hsplit. rewrite drop_last_nonempty.
    2:{ eapply Forall_impl; [|exact Hf]. intros l (H & _). exact H. }
    rewrite forallb_forall. intros l Hin. rewrite Forall_forall in Hf.
    destruct (Hf l Hin) as (_ & Hl63 & Hch). unfold to_unicode_ok.
    unfold len in Hl63. unfold blen.
    destruct (1024 <? N.of_nat (length l)) eqn:E; [lia|].
    destruct (starts_with ACE l) eqn:Es; cbn [negb].
    - apply Hace; assumption.
    - rewrite forallb_forall in *. intros b Hb. apply (label_char_facts b (Hch b Hb)). }
  unfold is_valid_host. rewrite Hidna. cbn [negb].
  unfold len in Hlen. unfold blen.
  destruct (255 <? N.of_nat (length (join_dot ls))) eqn:E; [lia|].
  assert (Hend : ends_with DOT (join_dot ls) = false).
  { unfold ends_with, last_is_label_char in *. destruct (rev (join_dot ls)) as [|c r]; [reflexivity|].
    apply (label_char_facts c Hlast). }
  rewrite Hend, andb_false_r. rewrite Hsplit.
  assert (forallb label_valid ls = true).
  { rewrite forallb_forall. intros l Hin. rewrite Forall_forall in Hf. apply label_valid_ref, Hf, Hin. }
  rewrite H. reflexivity.
Qed.
