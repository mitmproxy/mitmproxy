(* Proofs/ErrorPage.v — html.escape leaves no markup; dedent/strip only delete whitespace;
   the HTTP/1 error response is one correctly framed message. *)
From Coq Require Import List Bool NArith Arith Lia ZifyBool Ascii String.
From MV Require Import Base.Bytes Model.ErrorPage Proofs.ListFacts Proofs.DecOfN.
Import ListNotations.
Local Open Scope N_scope.

Definition is_markup (c : N) : bool := (c =? LT) || (c =? GT) || (c =? DQUOTE) || (c =? SQUOTE).

Lemma esc_char_no_markup c : forallb (fun d => negb (is_markup d)) (esc_char c) = true.
Proof.
  unfold esc_char.
  destruct (c =? AMP) eqn:E1; [reflexivity|].
  destruct (c =? LT) eqn:E2; [reflexivity|].
  destruct (c =? GT) eqn:E3; [reflexivity|].
  destruct (c =? DQUOTE) eqn:E4; [reflexivity|].
  destruct (c =? SQUOTE) eqn:E5; [reflexivity|].
  simpl. unfold is_markup. rewrite E2, E3, E4, E5. reflexivity.
Qed.

Lemma escape_no_markup m : forallb (fun d => negb (is_markup d)) (html_escape m) = true.
Proof.
  unfold html_escape. induction m as [|c m IH]; [reflexivity|].
  cbn [flat_map]. rewrite forallb_app, esc_char_no_markup, IH. reflexivity.
Qed.

(* the inverse scanner: entity references back to characters; fuel = length *)
Fixpoint unescape (fuel : nat) (t : text) : text :=
  match fuel with
  | O => []
  | S f =>
    match t with
    | [] => []
    | c :: t' =>
      if text_starts (lit "&amp;") t then AMP :: unescape f (skipn 5 t)
      else if text_starts (lit "&lt;") t then LT :: unescape f (skipn 4 t)
      else if text_starts (lit "&gt;") t then GT :: unescape f (skipn 4 t)
      else if text_starts (lit "&quot;") t then DQUOTE :: unescape f (skipn 6 t)
      else if text_starts (lit "&#x27;") t then SQUOTE :: unescape f (skipn 6 t)
      else c :: unescape f t'
    end
  end.

Lemma unescape_esc_char f c rest :
  unescape (S f) (esc_char c ++ rest) = c :: unescape f rest.
Proof.
  unfold esc_char.
  destruct (c =? AMP) eqn:E1; [apply N.eqb_eq in E1; subst; reflexivity|].
  destruct (c =? LT) eqn:E2; [apply N.eqb_eq in E2; subst; reflexivity|].
  destruct (c =? GT) eqn:E3; [apply N.eqb_eq in E3; subst; reflexivity|].
  destruct (c =? DQUOTE) eqn:E4; [apply N.eqb_eq in E4; subst; reflexivity|].
  destruct (c =? SQUOTE) eqn:E5; [apply N.eqb_eq in E5; subst; reflexivity|].
  cbn [app unescape].
  (* c is no ampersand, and every entity reference starts with one *)
  assert (H : forall p, hd_error p = Some AMP -> text_starts p (c :: rest) = false).
  { intros [|x p] [=]. subst x. cbn [text_starts]. rewrite N.eqb_sym, E1. reflexivity. }
  rewrite !H by reflexivity. reflexivity.
Qed.

Lemma unescape_escape m : forall f, (List.length m <= f)%nat -> unescape f (html_escape m) = m.
Proof.
  unfold html_escape. induction m as [|c m IH]; intros f Hf.
  - destruct f; reflexivity.
  - destruct f as [|f]; [simpl in Hf; lia|].
    cbn [flat_map]. rewrite unescape_esc_char. f_equal. apply IH. simpl in Hf. lia.
Qed.

(* dedent and strip delete only whitespace: [nonws] of the text is unchanged *)
Definition nonws (t : text) : text := filter (fun c => negb (is_ws c)) t.

Lemma nonws_app a b : nonws (a ++ b) = nonws a ++ nonws b.
Proof. apply filter_app. Qed.

Lemma nonws_rev a : nonws (rev a) = rev (nonws a).
Proof.
  induction a as [|c a IH]; [reflexivity|].
  simpl. rewrite nonws_app, IH. simpl. destruct (negb (is_ws c)); simpl; [reflexivity|rewrite app_nil_r; reflexivity].
Qed.

Lemma nonws_lstrip t : nonws (lstrip t) = nonws t.
Proof.
  induction t as [|c t IH]; [reflexivity|].
  simpl. destruct (is_ws c) eqn:E; simpl; rewrite ?E; simpl; [exact IH | reflexivity].
Qed.

Lemma nonws_strip t : nonws (strip t) = nonws t.
Proof.
  unfold strip. rewrite nonws_rev, nonws_lstrip, nonws_rev, nonws_lstrip, rev_involutive. reflexivity.
Qed.

Lemma is_sp_ws c : is_sp c = true -> is_ws c = true.
Proof. unfold is_sp, is_ws. lia. Qed.

Lemma nonws_all_sp l : forallb is_sp l = true -> nonws l = [].
Proof.
  induction l as [|c l IH]; [reflexivity|]. simpl. intros H. apply andb_true_iff in H as [H1 H2].
  rewrite (is_sp_ws c H1). simpl. apply IH, H2.
Qed.

Lemma nonws_blank l : nonws (blank_ws l) = nonws l.
Proof. unfold blank_ws. destruct (forallb is_sp l) eqn:E; [rewrite (nonws_all_sp l E); reflexivity | reflexivity]. Qed.

Definition nonws_lines (ls : list text) : text := flat_map nonws ls.

Lemma nonws_join ls : nonws (join_nl ls) = nonws_lines ls.
Proof.
  induction ls as [|l ls IH]; [reflexivity|].
  destruct ls as [|l2 ls].
  - simpl. rewrite app_nil_r. reflexivity.
  - (* join_nl matches on the tail as well, so simpl does not expose this step *)
    change (join_nl (l :: l2 :: ls)) with (l ++ NL :: join_nl (l2 :: ls)).
    rewrite nonws_app. change (nonws (NL :: join_nl (l2 :: ls))) with (nonws (join_nl (l2 :: ls))).
    rewrite IH. reflexivity.
Qed.

Lemma nonws_split t : forall cur, nonws_lines (split_nl t cur) = nonws (rev cur ++ t).
Proof.
  induction t as [|c t IH]; intros cur.
  - simpl. rewrite !app_nil_r. reflexivity.
  - cbn [split_nl]. destruct (c =? NL) eqn:E.
    + apply N.eqb_eq in E. subst c. cbn [nonws_lines flat_map]. fold (nonws_lines (split_nl t [])).
      rewrite IH. simpl. rewrite !nonws_app. reflexivity.
    + rewrite IH. simpl. rewrite <- app_assoc. reflexivity.
Qed.

Lemma nonws_lines_map f ls :
  (forall l, nonws (f l) = nonws l) -> nonws_lines (map f ls) = nonws_lines ls.
Proof.
  intros H. induction ls as [|l ls IH]; [reflexivity|]. simpl. rewrite H, IH. reflexivity.
Qed.

Lemma leading_ws_sp l : forallb is_sp (leading_ws l) = true.
Proof. induction l as [|c l IH]; [reflexivity|]. simpl. destruct (is_sp c) eqn:E; [simpl; rewrite E, IH; reflexivity | reflexivity]. Qed.

Lemma common_prefix_sp a b : forallb is_sp a = true -> forallb is_sp (common_prefix a b) = true.
Proof.
  revert b; induction a as [|x a IH]; intros b H; [reflexivity|].
  destruct b as [|y b]; [reflexivity|]. simpl in *. apply andb_true_iff in H as [H1 H2].
  destruct (x =? y); [simpl; rewrite H1, (IH b H2); reflexivity | reflexivity].
Qed.

Definition osp (m : option text) : Prop := match m with Some t => forallb is_sp t = true | None => True end.

Lemma margin_step_sp m i : osp m -> forallb is_sp i = true -> osp (margin_step m i).
Proof.
  intros Hm Hi. destruct m as [t|]; simpl; [|exact Hi].
  destruct (text_starts t i); [exact Hm|].
  destruct (text_starts i t); [exact Hi|]. apply common_prefix_sp, Hm.
Qed.

Lemma margin_of_sp ls : forall m, osp m -> osp (margin_of ls m).
Proof.
  induction ls as [|l ls IH]; intros m Hm; [exact Hm|].
  simpl. apply IH. unfold indent_of. destruct l; [exact Hm|]. apply margin_step_sp; [exact Hm | apply leading_ws_sp].
Qed.

Lemma text_starts_split m l : text_starts m l = true -> l = m ++ skipn (List.length m) l.
Proof.
  revert l; induction m as [|x m IH]; intros l H; [reflexivity|].
  destruct l as [|y l]; [discriminate|]. simpl in H. apply andb_true_iff in H as [H1 H2].
  apply N.eqb_eq in H1. subst y. simpl. f_equal. apply IH, H2.
Qed.

Lemma nonws_remove_margin m l : forallb is_sp m = true -> nonws (remove_margin m l) = nonws l.
Proof.
  intros Hm. unfold remove_margin. destruct (text_starts m l) eqn:E; [|reflexivity].
  rewrite (text_starts_split m l E) at 2. rewrite nonws_app, (nonws_all_sp m Hm). reflexivity.
Qed.

Lemma nonws_dedent t : nonws (dedent t) = nonws t.
Proof.
  unfold dedent.
  assert (Hl : nonws_lines (map blank_ws (split_nl t [])) = nonws t).
  { rewrite (nonws_lines_map blank_ws _ nonws_blank), nonws_split. reflexivity. }
  pose proof (margin_of_sp (map blank_ws (split_nl t [])) None I) as Hm.
  destruct (margin_of (map blank_ws (split_nl t [])) None) as [[|c m]|].
  - rewrite nonws_join. exact Hl.
  - rewrite nonws_join, (nonws_lines_map _ _ (fun l => nonws_remove_margin (c :: m) l Hm)). exact Hl.
  - rewrite nonws_join. exact Hl.
Qed.

(* every markup character of the page comes from the fixed template: the page, whitespace aside,
   is template-prefix ++ escaped message ++ template-suffix, and the escaped message has none *)
Theorem page_structure code reason msg :
  nonws (format_error_text code reason msg)
  = nonws (pre0 code reason) ++ nonws (html_escape msg) ++ nonws post0
  /\ forallb (fun d => negb (is_markup d)) (nonws (html_escape msg)) = true.
Proof.
  split.
  - unfold format_error_text, template. rewrite nonws_strip, nonws_dedent, !nonws_app. reflexivity.
  - pose proof (escape_no_markup msg) as H. rewrite forallb_forall in *. intros x Hx.
    apply H. unfold nonws in Hx. apply filter_In in Hx. apply Hx.
Qed.

Definition no_cr (s : bytes) : Prop := Forall (fun c => byte_eqb c x0d = false) s.

Lemma take_line_spec l : forall acc rest, no_cr l ->
  take_line (l ++ CRLF ++ rest) acc = Some (rev acc ++ l, rest).
Proof.
  induction l as [|c l IH]; intros acc rest H.
  - simpl. rewrite app_nil_r. reflexivity.
  - inversion H as [|? ? Hc Hl]; subst. cbn [app take_line]. rewrite Hc.
    rewrite (IH (c :: acc) rest Hl). simpl. rewrite <- app_assoc. reflexivity.
Qed.

Lemma no_cr_app a b : no_cr a -> no_cr b -> no_cr (a ++ b).
Proof. intros; apply Forall_app; split; assumption. Qed.

Lemma no_cr_blit s : forallb (fun a => negb (N_of_ascii a =? 13)) (list_ascii_of_string s) = true -> no_cr (blit s).
Proof.
  unfold blit, no_cr. intros H. rewrite forallb_forall in H. apply Forall_forall. intros c Hc.
  apply in_map_iff in Hc as [a [<- Ha]]. specialize (H a Ha). apply negb_true_iff in H.
  apply byte_eqb_neq. intros E. apply N.eqb_neq in H. apply H.
  assert (L : N_of_ascii a < 256) by apply N_ascii_bounded.
  rewrite <- (bN_Nb (N_of_ascii a) L), E. reflexivity.
Qed.

Lemma no_cr_digits s : forallb is_digit s = true -> no_cr s.
Proof.
  intro H. rewrite forallb_forall in H. apply Forall_forall. intros c Hc. specialize (H c Hc).
  apply byte_eqb_neq. intros ->. discriminate H.
Qed.

Lemma parse_dec_digits s : forall a, forallb is_digit s = true -> parse_dec s a = Some (dec_val s a).
Proof.
  induction s as [|c s IH]; intros a H; [reflexivity|].
  cbn [forallb] in H. apply andb_true_iff in H as [Hc Hs].
  cbn [parse_dec dec_val]. rewrite Hc. apply IH, Hs.
Qed.

(* field lines (non-empty, without CR) are read back one by one up to the empty line *)
Lemma read_fields_lines ls : forall f acc body,
  Forall (fun l => no_cr l /\ l <> []) ls -> (List.length ls < f)%nat ->
  read_fields f (flat_map (fun l => l ++ CRLF) ls ++ CRLF ++ body) acc = Some (rev acc ++ ls, body).
Proof.
  induction ls as [|l ls IH]; intros f acc body H Hf; (destruct f as [|f]; [cbn in Hf; lia|]).
  - rewrite app_nil_r. reflexivity.
  - inversion H as [|? ? [Hl Hne] Hls]; subst.
    cbn [flat_map read_fields]. rewrite <- !app_assoc, (take_line_spec l [] _ Hl). cbn [rev app].
    destruct l; [contradiction|].
    rewrite IH by (try assumption; cbn in Hf; lia). cbn [rev]. rewrite <- app_assoc. reflexivity.
Qed.

(* two facts about the field lookup of the reference reader; error_response_framed does its lookup among four
   fixed names by computation and does not need them *)
Lemma find_cl_skip name l ls :
  field_value name l = None -> find_field name (l :: ls) = find_field name ls.
Proof. intros H. simpl. rewrite H. reflexivity. Qed.

Lemma field_value_prefix_mismatch name p rest :
  List.length p = List.length name -> bytes_eqb (lower p) (lower name) = false ->
  field_value name (p ++ rest) = None.
Proof.
  intros HL HE. unfold field_value. rewrite <- HL, firstn_exact, HE. reflexivity.
Qed.

(* any message laid out as status line, field lines, empty line, body, whose first content-length field
   is the decimal length of the body, is read back as exactly these parts *)
Lemma ref_read_framed status fields len body :
  no_cr status -> Forall (fun l => no_cr l /\ l <> []) fields ->
  find_field (blit "content-length") fields = Some len ->
  len <> [] -> forallb is_digit len = true -> dec_val len 0 = N.of_nat (List.length body) ->
  ref_read_response (status ++ CRLF ++ flat_map (fun l => l ++ CRLF) fields ++ CRLF ++ body)
  = Some (mkRef status fields body []).
Proof.
  intros Hs Hf Hcl Hne Hd Hval. unfold ref_read_response.
  rewrite (take_line_spec status [] _ Hs). cbn [rev app].
  assert (Hn : (List.length fields <= List.length (flat_map (fun l => l ++ CRLF) fields))%nat)
    by (clear; induction fields; cbn; rewrite ?app_length; cbn; lia).
  rewrite (read_fields_lines fields _ [] body Hf) by (rewrite app_length; lia). cbn [rev app].
  rewrite Hcl. destruct len; [contradiction|].
  rewrite (parse_dec_digits _ 0 Hd), Hval, Nat2N.id, Nat.leb_refl, firstn_all, skipn_all. reflexivity.
Qed.

Theorem error_response_framed code reason ver body :
  no_cr reason -> no_cr ver ->
  ref_read_response (make_error_response code reason ver body)
  = Some (mkRef (blit "HTTP/1.1 " ++ dec_of_N code ++ [x20] ++ reason)
                [blit "Server: " ++ ver; blit "Connection: close"; blit "Content-Type: text/html";
                 blit "content-length: " ++ dec_of_N (N.of_nat (List.length body))]
                body []).
Proof.
  intros Hr Hv.
  set (len := dec_of_N (N.of_nat (List.length body))).
  set (status := blit "HTTP/1.1 " ++ dec_of_N code ++ [x20] ++ reason).
  set (fields := [blit "Server: " ++ ver; blit "Connection: close"; blit "Content-Type: text/html";
                  blit "content-length: " ++ len]).
  assert (E : make_error_response code reason ver body
              = status ++ CRLF ++ flat_map (fun l => l ++ CRLF) fields ++ CRLF ++ body).
  { unfold make_error_response, status, fields. cbn [flat_map]. rewrite <- !app_assoc. reflexivity. }
  rewrite E. apply (ref_read_framed status fields len).
  - repeat apply no_cr_app; try assumption; try (apply no_cr_blit; reflexivity).
    + apply no_cr_digits, dec_of_N_digits.
    + constructor; [reflexivity | constructor].
  - unfold fields. repeat apply Forall_cons; try apply Forall_nil; (split; [|discriminate]).
    + apply no_cr_app; [apply no_cr_blit; reflexivity | exact Hv].
    + apply no_cr_blit; reflexivity.
    + apply no_cr_blit; reflexivity.
    + apply no_cr_app; [apply no_cr_blit; reflexivity | apply no_cr_digits, dec_of_N_digits].
  - (* none of Server, Connection, Content-Type matches content-length; the fourth line does *)
    reflexivity.
  - apply dec_of_N_nonempty.
  - apply dec_of_N_digits.
  - apply dec_of_N_val.
Qed.
