(* Proofs/MvMultipartProofs.v -- the guard under which the multipart round trip holds, the string facts
   about searching, splitting and joining lines, and the encoder's side: encode_multipart writes
   body b parts (C34).  The decoder's side is Proofs/MvMultipartMain.v. *)
From Coq Require Import List Bool NArith Lia.
From MV Require Import Base.Bytes Model.MvCommon Model.MvUrl Model.MvMultipart Proofs.ListFacts Proofs.MvCommonLemmas.
Import ListNotations.

(* The guard of the round trip.  okb: a boundary byte that quote(b, safe="/") leaves alone; nl: CR or LF;
   Dl b: the delimiter --b; a name is non-empty, on one line, without double quote and delimiter; a value
   is on one line without delimiter. *)
Definition okb (c : byte) : bool := unreserved c || byte_eqb c SLASH.
Definition boundary_ok (b : bytes) : bool := nonempty b && forallb okb b.
Definition nl (c : byte) : bool := byte_eqb c CR || byte_eqb c LF.
Definition noline (s : bytes) : bool := forallb (fun c => negb (nl c)) s.
Definition Dl (b : bytes) : bytes := DD ++ b.
Definition key_ok (b k : bytes) : bool :=
  nonempty k && noline k && negb (memb DQ k) && negb (contains (Dl b) k).
Definition val_ok (b v : bytes) : bool := noline v && negb (contains (Dl b) v).
Definition parts_ok (b : bytes) (parts : pairs) : bool :=
  forallb (fun kv => key_ok b (fst kv) && val_ok b (snd kv)) parts.

Lemma starts_with_sep D c a b : memb c D = false -> starts_with D (a ++ c :: b) = starts_with D a.
Proof.
  revert a. induction D as [|d D IH]; intros a H.
  - destruct a; reflexivity.
  - apply memb_cons_false in H as [H1 H2].
    destruct a as [|x a]; simpl.
    + rewrite H1. reflexivity.
    + rewrite (IH a H2). reflexivity.
Qed.

Lemma contains_nil D : D <> [] -> contains D [] = false.
Proof. destruct D; [congruence|reflexivity]. Qed.

Lemma contains_sep D c a b : D <> [] -> memb c D = false ->
  contains D (a ++ c :: b) = contains D a || contains D b.
Proof.
  intros Hne H. induction a as [|x a IH].
  - simpl app. simpl contains at 1. rewrite contains_nil by exact Hne.
    change (c :: b) with ([] ++ c :: b). rewrite starts_with_sep by exact H.
    destruct D; [congruence|reflexivity].
  - simpl app. simpl contains. rewrite IH.
    change (x :: a ++ c :: b) with ((x :: a) ++ c :: b). rewrite starts_with_sep by exact H.
    rewrite orb_assoc. reflexivity.
Qed.

Lemma contains_cons_sep D c b : D <> [] -> memb c D = false -> contains D (c :: b) = contains D b.
Proof.
  intros Hne H. change (c :: b) with ([] ++ c :: b). rewrite contains_sep by assumption.
  rewrite contains_nil by exact Hne. reflexivity.
Qed.

Lemma starts_with2 x y D s : starts_with (x :: y :: D) s = true -> starts_with [x; y] s = true.
Proof.
  destruct s as [|s0 [|s1 s]]; simpl; intros H; try discriminate.
  - rewrite andb_false_r in H. discriminate.
  - apply andb_true_iff in H as [H1 H]. apply andb_true_iff in H as [H2 _]. rewrite H1, H2. reflexivity.
Qed.

Lemma contains2 x y D s : contains [x; y] s = false -> contains (x :: y :: D) s = false.
Proof.
  induction s as [|c s IH]; intros H; [reflexivity|].
  cbn [contains] in *. apply orb_false_iff in H as [H1 H2].
  rewrite (IH H2), orb_false_r.
  destruct (starts_with (x :: y :: D) (c :: s)) eqn:E; [|reflexivity].
  apply starts_with2 in E. congruence.
Qed.

Lemma contains_prefix D t : D <> [] -> contains D (D ++ t) = true.
Proof.
  destruct D as [|d D]; [congruence|]. intros _. simpl app. cbn [contains].
  change (d :: D ++ t) with ((d :: D) ++ t). rewrite starts_with_prefix. reflexivity.
Qed.

Lemma split_skip D p t : split_go D (p ++ t) (length p) = split_go D t 0.
Proof.
  induction p as [|x p IH]; [destruct t; reflexivity|]. simpl. exact IH.
Qed.

Lemma split_match D t : D <> [] -> split_go D (D ++ t) 0 = [] :: split_go D t 0.
Proof.
  destruct D as [|d D]; [congruence|]. intros _.
  change ((d :: D) ++ t) with (d :: (D ++ t)). cbn [split_go].
  change (d :: D ++ t) with ((d :: D) ++ t). rewrite starts_with_prefix.
  replace (length (d :: D) - 1) with (length D) by (simpl; lia). rewrite split_skip. reflexivity.
Qed.

(* no delimiter starts inside a text that does not contain it and whose last byte z is not a delimiter byte
   (so none straddles its end either): the splitter keeps the text in one piece *)
Lemma starts_with_free D y z t :
  memb z D = false -> contains D (y ++ [z]) = false -> starts_with D (y ++ z :: t) = false.
Proof.
  intros Hz Hc. rewrite (starts_with_sep D z y t Hz), <- (starts_with_sep D z y [] Hz).
  destruct y; cbn [app contains] in *; apply orb_false_iff in Hc; apply Hc.
Qed.

Lemma split_free D y z t h r :
  memb z D = false -> contains D (y ++ [z]) = false -> split_go D t 0 = h :: r ->
  split_go D (y ++ z :: t) 0 = (y ++ z :: h) :: r.
Proof.
  intros Hz Hc Ht. induction y as [|c y IH].
  - pose proof (starts_with_free D [] z t Hz Hc) as S. cbn [app split_go] in *. rewrite S, Ht. reflexivity.
  - pose proof (starts_with_free D (c :: y) z t Hz Hc) as S. cbn [app split_go contains] in *.
    apply orb_false_iff in Hc. rewrite S, IH by apply Hc. reflexivity.
Qed.

Lemma splitlines_line l rest : noline l = true -> splitlines (l ++ CR :: LF :: rest) = l :: splitlines rest.
Proof.
  induction l as [|c l IH]; intros H; [reflexivity|].
  unfold noline in H. simpl in H. apply andb_true_iff in H as [H1 H2].
  unfold nl in H1. apply negb_true_iff in H1. apply orb_false_iff in H1 as [Hcr Hlf].
  change ((c :: l) ++ CR :: LF :: rest) with (c :: (l ++ CR :: LF :: rest)).
  cbn [splitlines]. rewrite Hlf, Hcr. rewrite (IH H2). reflexivity.
Qed.

(* The encoder joins lines with CRLF and ends with one: its output is a sequence of lines each followed
   by CRLF. Searching, splitting into lines and joining are stated once for that shape. *)
Definition unlines (ls : list bytes) : bytes := flat_map (fun l => l ++ CRLF) ls.

Lemma unlines_app a b : unlines (a ++ b) = unlines a ++ unlines b.
Proof. apply flat_map_app. Qed.

Lemma join_unlines ls x : join CRLF (ls ++ [x]) = unlines ls ++ x.
Proof.
  unfold unlines. induction ls as [|l ls IH]; [reflexivity|].
  cbn [app flat_map]. rewrite <- !app_assoc, <- IH.
  destruct (ls ++ [x]) eqn:E; [destruct ls; discriminate | reflexivity].
Qed.

Lemma splitlines_unlines ls : forallb noline ls = true -> splitlines (unlines ls) = ls.
Proof.
  unfold unlines. induction ls as [|l ls IH]; intros H; [reflexivity|].
  simpl in H. apply andb_true_iff in H as [Hl Hls].
  cbn [flat_map]. rewrite <- app_assoc. change (CRLF ++ ?r) with (CR :: LF :: r).
  rewrite (splitlines_line l _ Hl), (IH Hls). reflexivity.
Qed.

Lemma contains_unlines D ls : D <> [] -> memb CR D = false -> memb LF D = false ->
  contains D (unlines ls) = existsb (contains D) ls.
Proof.
  intros Hne Hcr Hlf. unfold unlines. induction ls as [|l ls IH]; [apply contains_nil, Hne|].
  cbn [flat_map existsb]. rewrite <- app_assoc. change (CRLF ++ ?r) with (CR :: LF :: r).
  rewrite (contains_sep D CR), (contains_cons_sep D LF), IH by assumption. reflexivity.
Qed.

Lemma unlines_ends ls : ls <> [] -> exists y, unlines ls = y ++ [LF].
Proof.
  intros Hne. destruct (exists_last Hne) as [ls' [l ->]].
  exists (unlines ls' ++ l ++ [CR]). rewrite unlines_app. unfold unlines at 2. cbn [flat_map].
  rewrite app_nil_r, <- !app_assoc. reflexivity.
Qed.

(* the Content-Disposition line of a part named k *)
Definition CDL (k : bytes) : bytes := CD_PREFIX ++ k ++ [DQ].
(* what follows the delimiter of one part: the rest of the delimiter line, two header lines, the blank line,
   the value, and the line the next delimiter starts on *)
Definition chunk (kv : bytes * bytes) : bytes := unlines [[]; CDL (fst kv); CT_LINE; []; snd kv; []].
Definition LAST : bytes := unlines [DD].
Definition body (b : bytes) (parts : pairs) : bytes :=
  flat_map (fun kv => Dl b ++ chunk kv) parts ++ Dl b ++ LAST.

Lemma quote_id safe s : forallb (fun c => unreserved c || memb c safe) s = true -> quote safe s = s.
Proof.
  unfold quote. induction s as [|c s IH]; intros H; [reflexivity|].
  simpl in H. apply andb_true_iff in H as [H1 H2]. cbn [flat_map]. rewrite (IH H2).
  unfold quote_byte. rewrite H1. reflexivity.
Qed.

Lemma boundary_quote b : boundary_ok b = true -> quote [SLASH] b = b.
Proof.
  intros H. apply andb_true_iff in H as [_ H]. apply quote_id.
  eapply forallb_impl; [|exact H]. intros c Hc. unfold okb in Hc. unfold memb. simpl.
  rewrite orb_false_r. exact Hc.
Qed.

Lemma encode_join b parts :
  forallb (fun kv => nonempty (fst kv)) parts = true ->
  join CRLF (flat_map (part_hdrs b) parts ++ [DD ++ b ++ DD ++ CRLF]) = body b parts.
Proof.
  intros H. rewrite join_unlines. unfold body. change (DD ++ b ++ DD ++ CRLF) with (Dl b ++ LAST). f_equal.
  induction parts as [|kv parts IH]; [reflexivity|].
  simpl in H. apply andb_true_iff in H as [H1 H2].
  cbn [flat_map]. rewrite unlines_app, (IH H2). f_equal.
  unfold part_hdrs. rewrite H1. unfold chunk, unlines. cbn [flat_map app]. rewrite <- app_assoc. reflexivity.
Qed.

Lemma not_boundary_value b v : contains (Dl b) v = false -> boundary_in_value b v = false.
Proof.
  intros H.
  assert (N : forall t, bytes_eqb v (Dl b ++ t) = false).
  { intros t. destruct (bytes_eqb v (Dl b ++ t)) eqn:E; [|reflexivity].
    apply bytes_eqb_eq in E. rewrite E, contains_prefix in H by discriminate. discriminate. }
  unfold boundary_in_value. change (DD ++ b ++ [LF]) with (Dl b ++ [LF]).
  rewrite (N [LF]), orb_false_r, <- (app_nil_r (DD ++ b)). apply N.
Qed.

Lemma encode_ok b parts :
  boundary_ok b = true -> parts_ok b parts = true ->
  encode_multipart (Some b) parts = Some (body b parts).
Proof.
  intros Hb Hp. unfold encode_multipart. rewrite (boundary_quote b Hb).
  assert (E : existsb (fun kv => boundary_in_value b (snd kv)) parts = false).
  { unfold parts_ok in Hp. induction parts as [|kv parts IH]; [reflexivity|].
    simpl in Hp. apply andb_true_iff in Hp as [H1 H2]. simpl. rewrite (IH H2), orb_false_r.
    apply andb_true_iff in H1 as [_ Hv]. unfold val_ok in Hv. apply andb_true_iff in Hv as [_ Hv].
    apply negb_true_iff in Hv. apply not_boundary_value, Hv. }
  rewrite E. f_equal. apply encode_join.
  unfold parts_ok in Hp. eapply forallb_forall. intros kv Hin. rewrite forallb_forall in Hp.
  specialize (Hp kv Hin). apply andb_true_iff in Hp as [Hk _]. unfold key_ok in Hk.
  repeat (apply andb_true_iff in Hk as [Hk _]). exact Hk.
Qed.
