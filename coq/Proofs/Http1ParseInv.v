(* Proofs/Http1ParseInv.v -- parse_establishes_inv for the field section: every header list produced by
   _read_headers and accepted by the generated validate_headers satisfies the invariant of head_roundtrip. *)
From Coq Require Import List Bool NArith ZArith Lia.
From MV Require Import Base.Bytes Model.Http1Msg Model.BodySizePrelude Gen.BodySize Model.Rfc9112
  Proofs.Http1Regex Proofs.Http1Framing Proofs.Http1FramingMain Proofs.Http1Lines Proofs.Http1Roundtrip.
Import ListNotations.

Lemma ows_pyspace b : is_ows b = true -> is_pyspace b = true.
Proof.
  assert (H : forall b, implb (is_ows b) (is_pyspace b) = true) by (apply forall_bytes; vm_compute; reflexivity).
  intros E. specialize (H b). rewrite E in H. exact H.
Qed.

Lemma rtrim_rstrip t : rtrim_ows (rstrip t) = rstrip t.
Proof.
  induction t as [|x t IH]; simpl; auto.
  destruct (rstrip t) as [|y r] eqn:E.
  - destruct (is_pyspace x) eqn:P; simpl; auto.
    destruct (is_ows x) eqn:O; auto. rewrite (ows_pyspace _ O) in P. discriminate.
  - change (rtrim_ows (x :: y :: r)) with (match rtrim_ows (y :: r) with [] => if is_ows x then [] else [x] | t0 => x :: t0 end).
    rewrite IH. reflexivity.
Qed.

Lemma rstrip_head x t : rstrip (x :: t) = [] \/ exists r, rstrip (x :: t) = x :: r.
Proof. simpl. destruct (rstrip t); [destruct (is_pyspace x)|]; eauto. Qed.

Lemma strip_trim_stable s : trim_ows (strip s) = strip s.
Proof.
  unfold trim_ows, strip.
  assert (L : ltrim_ows (rstrip (lstrip s)) = rstrip (lstrip s)).
  { induction s as [|x s IH]; simpl; auto. destruct (is_pyspace x) eqn:P; auto.
    destruct (rstrip_head x s) as [E | [r E]]; rewrite E; auto.
    simpl. destruct (is_ows x) eqn:O; auto. rewrite (ows_pyspace _ O) in P. discriminate. }
  rewrite L. apply rtrim_rstrip.
Qed.

(* a value _read_headers produces is stripped, or was continued by an obs-fold and then holds CR LF *)
Definition vprop (f : header) : Prop := (exists x, snd f = strip x) \/ clean (snd f) = false.

Lemma read_headers_go_values lines : forall ret hs,
  Forall vprop ret -> _read_headers_go lines ret = Ok hs -> Forall vprop hs.
Proof.
  induction lines as [|l lines IH]; intros ret hs P H; simpl in H.
  - injection H as <-. apply Forall_rev, P.
  - destruct l as [|c l']; [discriminate|].
    destruct (byte_eqb c SP || byte_eqb c HT).
    + destruct ret as [|[n v] ret']; [discriminate|].
      refine (IH _ _ _ H). inversion P; subst. constructor; auto.
      right. cbn [snd]. rewrite !clean_app. apply andb_false_r.
    + destruct (partition1 COLON (c :: l')) as [[name found] value].
      destruct found; [|discriminate]. destruct name; [discriminate|].
      refine (IH _ _ _ H). constructor; auto. left. simpl. eauto.
Qed.

Theorem parse_establishes_inv_fields lines hs m :
  _read_headers lines = Ok hs -> msg_headers m = hs -> validate_headers m = Ok tt ->
  Forall (fun f => existsb (byte_eqb LF) (fst f) = false) hs ->
  Forall field_inv hs.
Proof.
  intros R <- V NL. destruct (validate_accepts _ V) as [F _].
  pose proof (read_headers_go_values lines [] _ (Forall_nil _) R) as VP.
  rewrite forallb_forall in F. rewrite Forall_forall in *.
  intros [n v] Hin. specialize (F _ Hin). specialize (VP _ Hin). specialize (NL _ Hin).
  unfold field_ok in F. cbn [fst snd] in *. apply andb_true_iff in F as [F1 C].
  rewrite bad_value_clean, negb_involutive in C. rewrite (valid_name_token _ NL) in F1.
  split; [exact F1|]. split; [exact C|].
  destruct VP as [[x ->] | N]; [apply strip_trim_stable | cbn [snd] in N; congruence].
Qed.
