(* Proofs/ConnHandlerPair.v -- the hook word of every upstream connection is determined by the
   program counter of its task (pairing grammar), together with the writer / transports-entry
   state; the client hook word is determined by the program counter of handle_client. *)
From Coq Require Import List Bool Arith Lia.
From MV Require Import Model.ConnHandler Proofs.ConnHandlerBase.
Import ListNotations.

Definition srv_hook (h : hookname) : bool :=
  match h with HServerConnect | HServerConnected | HServerConnectError | HServerDisconnected => true | _ => false end.
Definition cli_hook (h : hookname) : bool :=
  match h with HClientConnected | HClientDisconnected => true | _ => false end.

(* hook calls about upstream connection c, newest first *)
Fixpoint proj (c : nat) (tr : list ev) : list hookname :=
  match tr with
  | [] => []
  | EHook h c' :: t => if srv_hook h && Nat.eqb c' c then h :: proj c t else proj c t
  | _ :: t => proj c t
  end.
(* client hook calls, newest first *)
Fixpoint cproj (tr : list ev) : list hookname :=
  match tr with
  | [] => []
  | EHook h _ :: t => if cli_hook h then h :: cproj t else cproj t
  | _ :: t => cproj t
  end.

Definition xword (x : exitk) : list hookname :=
  match x with
  | XNoAddr | XLostStart => []
  | XLostConnectHook | XLostSem => [HServerConnect]
  | XErr _ => [HServerConnectError; HServerConnect]
  | XLostConnectedHook => [HServerConnected; HServerConnect]
  | XClosed _ => [HServerDisconnected; HServerConnected; HServerConnect]
  end.
Definition rword (p : cpc) : list hookname :=
  match p with
  | P0 => []
  | PHookConnect | PSem _ | PConnecting => [HServerConnect]
  | PHookErrKilled | PHookErr _ => [HServerConnectError; HServerConnect]
  | PHookConnected | PRead | PDrainLock _ | PDrain _ _ | PEvent => [HServerConnected; HServerConnect]
  | PHookDisc _ => [HServerDisconnected; HServerConnected; HServerConnect]
  | PDone x => xword x
  end.
Definition mword (p : mpc) : list hookname :=
  match p with
  | M0 => []
  | MHookConn | MWaitHandler => [HClientConnected]
  | _ => [HClientDisconnected; HClientConnected]
  end.

(* writer / entry / task as a function of the program counter (upstream connections) *)
Definition wokv (p : cpc) (w : wst) (e t : bool) : Prop :=
  match p with
  | P0 | PHookConnect | PHookErrKilled | PSem _ | PConnecting | PHookErr _ => w = WNone /\ e = true /\ t = true
  | PHookConnected | PRead | PDrainLock _ | PDrain _ _ | PEvent => w = WOpen /\ e = true /\ t = true
  | PHookDisc _ => w = WClosed /\ e = false /\ t = true
  | PDone (XClosed _) => w = WClosed /\ e = false
  | PDone XLostConnectedHook => w = WOpen
  | PDone _ => w = WNone
  end.
Definition wok (x : conn) : Prop := wokv (c_pc x) (c_writer x) (c_entry x) (c_task x).

Definition cinv (c : nat) (s : st) : Prop :=
  proj c (trace s) = rword (c_pc (getc s c)) /\ wok (getc s c).

(* cancel, wake_next and wake_first move a waiting task between waiter states from outside; neither the
   hook word nor the writer condition sees the difference *)
Definition kpc (p : cpc) : cpc :=
  match p with PSem _ => PSem WPending | PDrainLock _ => PDrainLock WPending | _ => p end.
Lemma rword_kpc : forall p, rword (kpc p) = rword p. Proof. destruct p; auto. Qed.
Lemma wokv_kpc : forall p w e t, wokv (kpc p) w e t <-> wokv p w e t. Proof. destruct p; simpl; tauto. Qed.

Definition ksoft (x y : conn) : Prop :=
  c_addr y = c_addr x /\ kpc (c_pc y) = kpc (c_pc x) /\ c_task y = c_task x /\
  c_entry y = c_entry x /\ c_writer y = c_writer x.
Lemma ksoft_refl : forall x, ksoft x x. Proof. unfold ksoft; intuition. Qed.
Lemma ksoft_trans : forall x y z, ksoft x y -> ksoft y z -> ksoft x z.
Proof. unfold ksoft; intuition congruence. Qed.
Lemma psoft_ksoft : forall x y, psoft x y -> ksoft x y.
Proof.
  unfold psoft, ksoft. intros x y (A & P & T & E & W). repeat split; auto.
  destruct P as [P | [[P P'] | [P P']]]; rewrite P; auto; rewrite P'; auto.
Qed.
Definition knew (y : conn) : Prop := exists a, ksoft (new_conn a) y.

Definition okev (c : nat) (e : ev) : bool :=
  match e with EHook h c' => srv_hook h && Nat.eqb c' c | _ => true end.

Lemma proj_okev : forall c c' evs t, forallb (okev c) evs = true -> c' <> c -> proj c' (evs ++ t) = proj c' t.
Proof.
  induction evs; simpl; intros; auto. apply andb_true_iff in H as [H1 H2].
  destruct a; simpl; auto. simpl in H1. apply andb_true_iff in H1 as [H1 H3]. apply Nat.eqb_eq in H3. subst.
  rewrite H1. simpl. destruct (Nat.eqb c c') eqn:E; [apply Nat.eqb_eq in E; congruence|]. auto.
Qed.
Lemma cproj_okev : forall c evs t, forallb (okev c) evs = true -> cproj (evs ++ t) = cproj t.
Proof.
  induction evs; simpl; intros; auto. apply andb_true_iff in H as [H1 H2].
  destruct a; simpl; auto. simpl in H1. apply andb_true_iff in H1 as [H1 H3].
  destruct h; simpl in *; try discriminate; auto.
Qed.
Lemma nohook_okev : forall c evs, forallb nohook evs = true -> forallb (okev c) evs = true.
Proof. induction evs; simpl; intros; auto. apply andb_true_iff in H as [H1 H2]. rewrite IHevs; auto. destruct a; simpl in *; auto; discriminate. Qed.
(* events without hooks are fine for every task: read them as events of a task other than c *)
Lemma proj_nohook : forall c evs t, forallb nohook evs = true -> proj c (evs ++ t) = proj c t.
Proof. intros. apply (proj_okev (S c)); auto using nohook_okev. Qed.
Lemma cproj_frame : forall s s', frame s s' -> cproj (trace s') = cproj (trace s).
Proof. intros s s' []. destruct f_trace as (evs & T & N). rewrite T. apply (cproj_okev 0); auto using nohook_okev. Qed.

(* what a step of task c does to the others *)
Record oframe (c : nat) (s s' : st) : Prop := mkO {
  o_len : length (conns s) <= length (conns s');
  o_old : forall c', c' <> c -> c' < length (conns s) -> ksoft (getc s c') (getc s' c');
  o_new : forall c', c' <> c -> length (conns s) <= c' -> c' < length (conns s') -> knew (getc s' c');
  o_main : mainpc s' = mainpc s;
  o_td : teardown_n s' = teardown_n s;
  o_trace : exists evs, trace s' = evs ++ trace s /\ forallb (okev c) evs = true }.

Lemma oframe_refl : forall c s, oframe c s s.
Proof. intros. constructor; auto using ksoft_refl; try lia. exists []; auto. Qed.

Lemma oframe_trans : forall c s1 s2 s3, oframe c s1 s2 -> oframe c s2 s3 -> oframe c s1 s3.
Proof.
  intros c s1 s2 s3 [] []. constructor; try lia; try congruence.
  - intros. eapply ksoft_trans; [apply o_old0; auto|apply o_old1; auto; lia].
  - intros. destruct (Nat.lt_ge_cases c' (length (conns s2))).
    + destruct (o_new0 c') as [a Ha]; auto. exists a. eapply ksoft_trans; eauto.
    + apply o_new1; auto.
  - destruct o_trace0 as (e1 & T1 & N1), o_trace1 as (e2 & T2 & N2).
    exists (e2 ++ e1). rewrite T2, T1, app_assoc. split; auto. rewrite forallb_app, N1, N2. auto.
Qed.

Lemma frame_oframe : forall c s s', frame s s' -> oframe c s s'.
Proof.
  intros c s s' F. constructor; try apply F.
  - apply (frame_len _ _ F).
  - intros. apply psoft_ksoft, frame_getc; auto.
  - intros. destruct (frame_getc_new _ _ c' F) as [a Ha]; auto. exists a. apply psoft_ksoft; auto.
  - destruct (f_trace _ _ F) as (evs & T & N). exists evs. split; auto using nohook_okev.
Qed.

Lemma of_frame : forall c s s1 s2, frame s1 s2 -> oframe c s s1 -> oframe c s s2.
Proof. intros. eapply oframe_trans; eauto using frame_oframe. Qed.

(* connection d may change within ksoft; the task's own connection c may change at will *)
Lemma of_setc_other : forall c s s1 d x, d = c \/ ksoft (getc s1 d) x -> oframe c s s1 -> oframe c s (setc s1 d x).
Proof.
  intros c s s1 d x D H. eapply oframe_trans; eauto. constructor; simpl; auto.
  - rewrite upd_length; auto.
  - intros. destruct (Nat.eq_dec d c').
    + subst. rewrite getc_setc_same; auto. destruct D; [congruence|auto].
    + rewrite getc_setc_other; auto using ksoft_refl.
  - intros. rewrite upd_length in *. lia.
  - exists []; auto.
Qed.

Lemma of_setc : forall c s s1 x, oframe c s s1 -> oframe c s (setc s1 c x).
Proof. intros. apply of_setc_other; auto. Qed.

Lemma of_emit : forall c s s1 e, okev c e = true -> oframe c s s1 -> oframe c s (emit s1 e).
Proof.
  intros. eapply oframe_trans; eauto. constructor; simpl; auto using ksoft_refl; try lia.
  exists [e]. simpl. rewrite H. auto.
Qed.

Lemma of_set_sem : forall c s s1 a v q, oframe c s s1 -> oframe c s (set_sem s1 a v q).
Proof.
  intros. eapply oframe_trans; eauto. constructor; simpl; auto using ksoft_refl; try lia. exists []; auto.
Qed.

Lemma first_pending_pc : forall s q d, first_pending s q = Some d -> c_pc (getc s d) = PSem WPending.
Proof.
  induction q; simpl; intros; try discriminate.
  destruct (c_pc (getc s a)) eqn:E; auto. destruct w; auto. inversion H; subst; auto.
Qed.

Lemma ksoft_wake : forall x q k f, kpc q = kpc (c_pc x) -> ksoft x (with_wake (with_pc x q) k f).
Proof. unfold ksoft; simpl; auto. Qed.

Lemma of_wake_next : forall c s s1 a, oframe c s s1 -> oframe c s (wake_next s1 a).
Proof.
  intros. unfold wake_next. destruct (first_pending s1 (semq s1 a)) eqn:E; auto.
  apply of_set_sem, of_setc_other; auto. right. apply ksoft_wake. rewrite (first_pending_pc _ _ _ E). auto.
Qed.

Lemma of_release_of : forall c s s1 d, oframe c s s1 -> oframe c s (release_of s1 d).
Proof.
  intros. unfold release_of, sem_release. destruct (c_addr (getc s1 d)); auto.
  apply of_wake_next. apply of_set_sem. auto.
Qed.

Lemma of_finish : forall c s s1 x k, oframe c s s1 -> oframe c s (finish s1 c x k).
Proof. intros. unfold finish. apply of_emit; auto. apply of_setc. auto. Qed.

Lemma of_goto : forall c s s1 p, oframe c s s1 -> oframe c s (goto s1 c p).
Proof. intros. unfold goto. apply of_setc. auto. Qed.

Lemma of_hook_at : forall c s s1 h p, srv_hook h = true -> oframe c s s1 -> oframe c s (hook_at s1 c h p).
Proof. intros. unfold hook_at. apply of_goto. apply of_emit; auto. simpl. rewrite H, Nat.eqb_refl. auto. Qed.

Lemma of_server_event : forall c s s1 e, oframe c s s1 -> oframe c s (server_event s1 e).
Proof. intros. eapply of_frame; eauto. apply frame_server_event. Qed.

Lemma of_set_lock : forall c s s1 b q, oframe c s s1 -> oframe c s (set_lock s1 b q).
Proof. intros. eapply of_frame; eauto. apply frame_set_lock. Qed.
Lemma of_drain_error : forall c s s1 d, oframe c s s1 -> oframe c s (drain_error s1 d).
Proof. intros. eapply of_frame; eauto. apply frame_drain_error. Qed.
Lemma of_wake_first : forall c s s1, oframe c s s1 -> oframe c s (wake_first s1).
Proof.
  intros. unfold wake_first. destruct (dlockq s1); auto. destruct (c_pc (getc s1 n)) eqn:E; auto. destruct w; auto.
  apply of_setc_other; auto. right. apply ksoft_wake. rewrite E. auto.
Qed.
Lemma of_lock_release : forall c s s1, oframe c s s1 -> oframe c s (lock_release s1).
Proof. intros. unfold lock_release. destruct (dlocked s1); auto. apply of_wake_first, of_set_lock. auto. Qed.
Lemma of_setc_cong : forall c s s1 d b, oframe c s s1 -> oframe c s (setc s1 d (with_cong (getc s1 d) b)).
Proof. intros. eapply of_frame; eauto. apply frame_setc, psoft_flags. Qed.

Lemma of_hc_cleanup : forall c s s1 b, oframe c s s1 -> oframe c s (hc_cleanup s1 c b).
Proof.
  intros. unfold hc_cleanup. destruct (Nat.eqb c 0).
  - apply of_finish. apply of_setc. apply of_emit; auto.
  - apply of_hook_at; auto. apply of_setc. apply of_emit; auto.
Qed.

Lemma of_hc_after_loop : forall c s s1 b, oframe c s s1 -> oframe c s (hc_after_loop s1 c b).
Proof.
  intros. unfold hc_after_loop.
  match goal with |- context [server_event ?S _] => assert (oframe c s S) by (destruct b; apply of_setc; auto) end.
  destruct (_ && _).
  - apply of_goto. apply of_server_event. auto.
  - apply of_hc_cleanup. apply of_server_event. auto.
Qed.

Lemma of_hc_read : forall c s s1, oframe c s s1 -> oframe c s (hc_read s1 c).
Proof. intros. unfold hc_read. apply of_goto. apply of_emit; auto. Qed.

Lemma of_enter : forall c s s1, oframe c s s1 -> oframe c s (enter_sem_body s1 c).
Proof. intros. unfold enter_sem_body. apply of_goto. apply of_emit; auto. Qed.

Lemma of_drain_go : forall c l s s1, oframe c s s1 -> oframe c s (drain_go s1 c l).
Proof.
  induction l; simpl; intros.
  - apply of_hc_read, of_lock_release. auto.
  - destruct (c_writer (getc s1 a)); auto. destruct (c_broken (getc s1 a)).
    + apply IHl, of_drain_error. auto.
    + destruct (c_cong (getc s1 a)); auto. apply of_goto, of_emit; auto.
Qed.
Lemma of_drain_start : forall c s s1, oframe c s s1 -> oframe c s (drain_start s1 c).
Proof.
  intros. unfold drain_start. destruct (lock_free s1).
  - apply of_drain_go, of_set_lock. auto.
  - apply of_goto, of_set_lock. auto.
Qed.

#[local] Hint Resolve oframe_refl of_drain_start of_drain_go of_lock_release of_wake_first of_set_lock
  of_drain_error of_setc_cong of_finish of_hook_at of_hc_read of_enter of_hc_after_loop of_hc_cleanup
  of_release_of of_server_event of_goto of_wake_next of_set_sem of_setc : oframe.

Lemma oframe_run_conn : forall s c, oframe c s (run_conn s c).
Proof.
  intros. unfold run_conn.
  destruct (c_pc (getc s c)); destruct (c_cf (getc s c)); auto 9 with oframe.
  (* left: P0 and PHookConnect, stepped; PSem cancelled, stepped; PConnecting and PRead, stepped;
     PDrainLock cancelled, stepped; PDrain stepped *)
  - destruct (Nat.eqb c 0); auto with oframe. destruct (c_addr (getc s c)); auto with oframe.
  - match goal with |- context [if ?k then setc _ _ (with_err _) else _] => destruct k end;
    (match goal with |- context [c_err (getc ?S c)] => destruct (c_err (getc S c)) end; [auto with oframe|]);
    (match goal with |- context [c_addr (getc ?S c)] => destruct (c_addr (getc S c)) end; [|auto with oframe]);
    (match goal with |- context [sem_locked ?S ?a] => destruct (sem_locked S a) end); auto 9 with oframe.
  - destruct (c_addr (getc s c)); auto with oframe. destruct w; auto 9 with oframe.
  - destruct (c_addr (getc s c)); auto with oframe. destruct w; auto with oframe.
    match goal with |- context [Nat.ltb 0 ?v] => destruct (Nat.ltb 0 v) end; auto 9 with oframe.
  - destruct (c_wk (getc s c)) as [[| | |[|]|]|]; auto 9 with oframe.
  - destruct (c_wk (getc s c)) as [[| |[| |]| |]|]; auto 9 with oframe.
  - destruct w; auto with oframe; match goal with |- context [if dlocked ?S then _ else _] => destruct (dlocked S) end; auto 9 with oframe.
  - destruct w; auto 9 with oframe.
  - destruct (c_wk (getc s c)) as [[| | | |[|]]|]; auto 9 with oframe.
Qed.

(* What a step of task c does to c itself: OV follows the program counter (up to the state of a semaphore / lock waiter), writer, entry,
   task flag and hook word of connection c through the primitives run_conn is made of *)
Definition OV (c : nat) (S : st) (p : cpc) (w : wst) (e t : bool) (h : list hookname) : Prop :=
  c < length (conns S) /\ kpc (c_pc (getc S c)) = kpc p /\ c_writer (getc S c) = w /\
  c_entry (getc S c) = e /\ c_task (getc S c) = t /\ proj c (trace S) = h.

Lemma ov_cinv : forall c S p w e t h, OV c S p w e t h -> h = rword p -> wokv p w e t -> cinv c S.
Proof.
  intros c S p w e t h (L & P & W & E & T & H) Hh Hw. split.
  - rewrite H, Hh, <- rword_kpc, <- P, rword_kpc. auto.
  - unfold wok. rewrite W, E, T. apply wokv_kpc. rewrite P. apply wokv_kpc. auto.
Qed.

Lemma cinv_ov : forall c S, c < length (conns S) -> cinv c S -> exists w e t,
  OV c S (c_pc (getc S c)) w e t (rword (c_pc (getc S c))) /\ wokv (c_pc (getc S c)) w e t.
Proof. intros c S L [H1 H2]. do 3 eexists. split; [|exact H2]. repeat split; auto. Qed.

Lemma ov_frame : forall c S S' p w e t h, frame S S' -> OV c S p w e t h -> OV c S' p w e t h.
Proof.
  intros c S S' p w e t h F (L & P & W & E & T & H).
  pose proof (frame_len _ _ F). pose proof (psoft_ksoft _ _ (frame_getc _ _ c F L)) as (A & K & T' & E' & W').
  destruct F. destruct f_trace as (evs & Tr & N).
  repeat split; try congruence; try lia. rewrite Tr, proj_nohook; auto.
Qed.

Lemma ov_setc_pc : forall c S p w e t h x q, OV c S p w e t h -> kpc (c_pc x) = kpc q ->
  c_writer x = c_writer (getc S c) -> c_entry x = c_entry (getc S c) -> c_task x = c_task (getc S c) ->
  OV c (setc S c x) q w e t h.
Proof.
  intros c S p w e t h x q (L & P & W & E & T & H) Px Wx Ex Tx. unfold OV. rewrite len_setc, getc_setc_same; auto.
  rewrite Px, Wx, Ex, Tx. repeat split; auto.
Qed.
Lemma ov_setc_io : forall c S p w e t h x e' w', OV c S p w e t h ->
  c_pc x = c_pc (getc S c) -> c_task x = c_task (getc S c) -> OV c (setc S c (with_io x e' w')) p w' e' t h.
Proof.
  intros c S p w e t h x e' w' (L & P & W & E & T & H) Px Tx. unfold OV. rewrite len_setc, getc_setc_same; auto.
  simpl. rewrite Px, Tx. repeat split; auto.
Qed.
(* wake-up payload, cancellation flag, read / write state, error flag *)
Lemma ov_setc_flags : forall c S p w e t h x, OV c S p w e t h ->
  c_pc x = c_pc (getc S c) -> c_writer x = c_writer (getc S c) -> c_entry x = c_entry (getc S c) ->
  c_task x = c_task (getc S c) -> OV c (setc S c x) p w e t h.
Proof. intros c S p w e t h x H Px. apply (ov_setc_pc _ _ _ _ _ _ _ _ _ H). rewrite Px. apply H. Qed.
(* another waiter (or c itself, if it is one) is woken *)
Lemma ov_setc_wake : forall c S p w e t h d q k f, OV c S p w e t h -> kpc q = kpc (c_pc (getc S d)) ->
  OV c (setc S d (with_wake (with_pc (getc S d) q) k f)) p w e t h.
Proof.
  intros c S p w e t h d q k f (L & P & W & E & T & H) Q. unfold OV. rewrite len_setc. destruct (Nat.eq_dec d c).
  - subst. rewrite getc_setc_same; auto. simpl. rewrite Q. repeat split; auto.
  - rewrite getc_setc_other; auto. repeat split; auto.
Qed.

Lemma ov_emit_hook : forall c S p w e t h k, srv_hook k = true -> OV c S p w e t h -> OV c (emit S (EHook k c)) p w e t (k :: h).
Proof. intros c S p w e t h k K (L & P & W & E & T & H). unfold OV; simpl. rewrite K, Nat.eqb_refl. simpl. repeat split; auto. congruence. Qed.
Lemma ov_emit_other : forall c S p w e t h ev, nohook ev = true -> OV c S p w e t h -> OV c (emit S ev) p w e t h.
Proof. intros c S p w e t h ev K (L & P & W & E & T & H). unfold OV; simpl. repeat split; auto. destruct ev; auto; discriminate. Qed.
(* OV only reads conns and trace, so these two hold by conversion; oframe is a record indexed by the
   state and needs of_set_sem, of_set_lock proved *)
Lemma ov_set_sem : forall c S p w e t h a v q, OV c S p w e t h -> OV c (set_sem S a v q) p w e t h.
Proof. intros c S p w e t h a v q H. exact H. Qed.
Lemma ov_set_lock : forall c S p w e t h b q, OV c S p w e t h -> OV c (set_lock S b q) p w e t h.
Proof. intros c S p w e t h b q H. exact H. Qed.

Lemma ov_wake_next : forall c S p w e t h a, OV c S p w e t h -> OV c (wake_next S a) p w e t h.
Proof.
  intros c S p w e t h a H. unfold wake_next. destruct (first_pending S (semq S a)) eqn:E0; auto.
  apply ov_set_sem, ov_setc_wake; auto. rewrite (first_pending_pc _ _ _ E0). auto.
Qed.
Lemma ov_release_of : forall c S p w e t h d, OV c S p w e t h -> OV c (release_of S d) p w e t h.
Proof. intros. unfold release_of, sem_release. destruct (c_addr (getc S d)); auto. apply ov_wake_next, ov_set_sem; auto. Qed.
Lemma ov_server_event : forall c S p w e t h le, OV c S p w e t h -> OV c (server_event S le) p w e t h.
Proof. intros. eapply ov_frame; eauto using frame_server_event. Qed.
Lemma ov_drain_error : forall c S p w e t h d, OV c S p w e t h -> OV c (drain_error S d) p w e t h.
Proof. intros. eapply ov_frame; eauto using frame_drain_error. Qed.
Lemma ov_setc_cong : forall c S p w e t h d b, OV c S p w e t h -> OV c (setc S d (with_cong (getc S d) b)) p w e t h.
Proof. intros. eapply ov_frame; eauto. apply frame_setc, psoft_flags. Qed.
Lemma ov_wake_first : forall c S p w e t h, OV c S p w e t h -> OV c (wake_first S) p w e t h.
Proof.
  intros c S p w e t h H. unfold wake_first. destruct (dlockq S); auto.
  destruct (c_pc (getc S n)) eqn:E0; auto. destruct w0; auto. apply ov_setc_wake; auto. rewrite E0. auto.
Qed.
Lemma ov_lock_release : forall c S p w e t h, OV c S p w e t h -> OV c (lock_release S) p w e t h.
Proof. intros. unfold lock_release. destruct (dlocked S); auto. apply ov_wake_first, ov_set_lock. auto. Qed.

Lemma ov_goto : forall c S p w e t h q, OV c S p w e t h -> OV c (goto S c q) q w e t h.
Proof. intros. unfold goto. eapply ov_setc_pc; eauto. Qed.
Lemma ov_finish : forall c S p w e t h x k, OV c S p w e t h -> OV c (finish S c x k) (PDone x) w e t h.
Proof. intros. unfold finish. apply ov_emit_other; auto. eapply ov_setc_pc; eauto. Qed.
Lemma ov_hook_at : forall c S p w e t h k q, srv_hook k = true -> OV c S p w e t h -> OV c (hook_at S c k q) q w e t (k :: h).
Proof. intros. unfold hook_at. eapply ov_goto. eapply ov_emit_hook; eauto. Qed.
Lemma ov_hc_read : forall c S p w e t h, OV c S p w e t h -> OV c (hc_read S c) PRead w e t h.
Proof. intros. unfold hc_read. eapply ov_goto. eapply ov_emit_other; eauto. Qed.
Lemma ov_enter : forall c S p w e t h, OV c S p w e t h -> OV c (enter_sem_body S c) PConnecting w e t h.
Proof. intros. unfold enter_sem_body. eapply ov_goto. eapply ov_emit_other; eauto. Qed.
Lemma ov_hc_cleanup : forall c S p w e t h b, Nat.eqb c 0 = false -> OV c S p w e t h ->
  OV c (hc_cleanup S c b) (PHookDisc b) WClosed false t (HServerDisconnected :: h).
Proof.
  intros. unfold hc_cleanup. rewrite H. eapply ov_hook_at; auto. eapply ov_setc_io; try reflexivity. eapply ov_emit_other; eauto.
Qed.

#[local] Hint Resolve ov_set_lock ov_lock_release ov_wake_first ov_drain_error ov_setc_cong ov_finish ov_hook_at
  ov_hc_read ov_enter ov_hc_cleanup ov_release_of ov_server_event ov_goto ov_wake_next ov_set_sem
  ov_setc_io ov_setc_flags ov_emit_other : ov.

(* the common last step: the tracked values satisfy the invariant *)
Ltac ov_done := eapply ov_cinv; [eauto 9 with ov | reflexivity | simpl; auto].

Lemma own_hc_after_loop : forall c S p b, Nat.eqb c 0 = false ->
  OV c S p WOpen true true [HServerConnected; HServerConnect] -> cinv c (hc_after_loop S c b).
Proof.
  intros c S p b C H. unfold hc_after_loop.
  match goal with |- context [server_event ?S1 _] =>
    assert (H1 : OV c S1 p WOpen true true [HServerConnected; HServerConnect]) by (destruct b; auto with ov) end.
  destruct (_ && _); ov_done.
Qed.

Lemma own_drain_go : forall c l S p,
  OV c S p WOpen true true [HServerConnected; HServerConnect] -> cinv c (drain_go S c l).
Proof.
  induction l; simpl; intros S p H.
  - ov_done.
  - destruct (c_writer (getc S a)); eauto. destruct (c_broken (getc S a)); eauto with ov.
    destruct (c_cong (getc S a)); eauto. ov_done.
Qed.
Lemma own_drain_start : forall c S p,
  OV c S p WOpen true true [HServerConnected; HServerConnect] -> cinv c (drain_start S c).
Proof.
  intros. unfold drain_start. destruct (lock_free S).
  - eapply own_drain_go. eapply ov_set_lock; eauto.
  - destruct (c_cf (getc S c)); ov_done.
Qed.

#[local] Hint Resolve own_hc_after_loop own_drain_go own_drain_start : ov.

Lemma own_run_conn : forall s c, Nat.eqb c 0 = false -> c < length (conns s) -> cinv c s -> cinv c (run_conn s c).
Proof.
  intros s c C L I. destruct (cinv_ov _ _ L I) as (wr & en & tk & H & W).
  unfold run_conn. rewrite C.
  destruct (c_pc (getc s c)); [simpl in H, W; destruct W as (-> & -> & ->); destruct (c_cf (getc s c)) .. | exact I].
  all: try solve [ov_done | eauto 9 with ov].
  (* left: the same cases as in oframe_run_conn *)
  - destruct (c_addr (getc s c)); ov_done.
  - match goal with |- context [if ?k then setc _ _ (with_err _) else _] => destruct k end;
    (match goal with |- context [c_err (getc ?S c)] => destruct (c_err (getc S c)) end; [ov_done|]);
    (match goal with |- context [c_addr (getc ?S c)] => destruct (c_addr (getc S c)) end; [|ov_done]);
    (match goal with |- context [sem_locked ?S ?a] => destruct (sem_locked S a) end); ov_done.
  - destruct (c_addr (getc s c)); [|ov_done]. destruct w; ov_done.
  - destruct (c_addr (getc s c)); [|ov_done]. destruct w; try solve [ov_done].
    match goal with |- context [Nat.ltb 0 ?v] => destruct (Nat.ltb 0 v) end; ov_done.
  - destruct (c_wk (getc s c)) as [[| | |[|]|]|]; ov_done.
  - destruct (c_wk (getc s c)) as [[| |[| |]| |]|]; try solve [ov_done]; eauto 9 with ov.
  - destruct w; try solve [ov_done];
      (match goal with |- context [if dlocked ?S then _ else _] => destruct (dlocked S) end; eauto 9 with ov).
  - destruct w; try solve [ov_done]; eauto 9 with ov.
  - destruct (c_wk (getc s c)) as [[| | | |[|]]|]; try solve [ov_done]; eauto 9 with ov.
Qed.

Definition Inv1 (s : st) : Prop :=
  (forall c, 1 <= c -> cinv c s) /\ cproj (trace s) = mword (mainpc s).

Lemma cinv_oframe : forall c c' s s', oframe c' s s' -> c <> c' -> cinv c s -> cinv c s'.
Proof.
  intros c c' s s' [L Ho Hn _ _ (evs & T & N)] D [I1 I2]. unfold cinv, wok in *.
  rewrite T, (proj_okev _ _ _ _ N D).
  destruct (Nat.lt_ge_cases c (length (conns s))) as [Lt | Ge].
  - destruct (Ho c D Lt) as (A & K & T' & E & W). rewrite T', E, W. split.
    + rewrite I1, <- rword_kpc, <- K, rword_kpc. auto.
    + apply wokv_kpc. rewrite K. apply wokv_kpc. auto.
  - rewrite (getc_oob s c Ge) in *. simpl in I1. rewrite I1.
    destruct (Nat.lt_ge_cases c (length (conns s'))) as [Lt' | Ge'].
    + destruct (Hn c D Ge Lt') as (a & A & K & T' & E & W). simpl in *. rewrite T', E, W. split.
      * rewrite <- rword_kpc, K. auto.
      * apply wokv_kpc. rewrite K. simpl. auto.
    + rewrite (getc_oob s' c Ge'). simpl. auto.
Qed.

(* a frame step is a step of any task: take one other than c *)
Lemma cinv_frame : forall c s s', frame s s' -> cinv c s -> cinv c s'.
Proof. intros c s s' F. apply (cinv_oframe c (S c)); auto using frame_oframe. Qed.

Lemma inv1_frame : forall s s', frame s s' -> Inv1 s -> Inv1 s'.
Proof. intros s s' F [I1 I2]. split; eauto using cinv_frame. rewrite (cproj_frame _ _ F), (f_main _ _ F). auto. Qed.

Lemma inv1_run_conn : forall s c, c < length (conns s) -> Inv1 s -> Inv1 (run_conn s c).
Proof.
  intros s c L [I1 I2]. pose proof (oframe_run_conn s c) as O. split.
  - intros c' C'. destruct (Nat.eq_dec c' c).
    + subst. apply own_run_conn; auto. apply Nat.eqb_neq. lia.
    + eapply cinv_oframe; eauto.
  - destruct O as [_ _ _ M _ (evs & T & N)]. rewrite M, T, (cproj_okev _ _ _ N). auto.
Qed.

(* Steps of handle_client and of hook tasks are frame steps (server_event, cancel_all) interleaved
   with changes to connection 0, the fields of handle_client and non-server hook events: the latter
   leave cinv c for c >= 1 as it is, up to conversion. *)
Lemma cinv_same : forall c s s', getc s' c = getc s c -> proj c (trace s') = proj c (trace s) -> cinv c s -> cinv c s'.
Proof. unfold cinv. intros c s s' G T. rewrite G, T. auto. Qed.

Lemma cinv_run_main : forall s c, c <> 0 -> cinv c s -> cinv c (run_main s).
Proof.
  intros s c C I. unfold run_main. destruct (mainpc s); try exact I.
  - match goal with |- context [client_err ?S1] => set (s1 := S1) end.
    assert (I1 : cinv c s1) by exact I. destruct (client_err s1).
    + apply (cinv_same c s1); auto. apply (getc_setc_other s1 0 c). auto.
    + apply (cinv_frame c _ _ (frame_server_event s1 LStart)) in I1.
      apply (cinv_same c (server_event s1 LStart)); auto. apply (getc_setc_other _ 0 c). auto.
  - match goal with |- context [existsb c_entry (conns ?S0)] => set (s0 := S0) end.
    assert (I0 : cinv c s0) by exact I.
    pose proof (cinv_frame c _ _ (frame_cancel_all (length (conns s)) s0 0) I0).
    destruct (existsb c_entry (conns s0)); auto. destruct (waited (conns s0) 0); auto.
Qed.

Lemma cproj_run_main : forall s, cproj (trace s) = mword (mainpc s) -> cproj (trace (run_main s)) = mword (mainpc (run_main s)).
Proof.
  intros s H. unfold run_main. destruct (mainpc s) eqn:E; simpl in H.
  - simpl. rewrite H. auto.
  - match goal with |- context [client_err ?S1] => destruct (client_err S1) end.
    + simpl. rewrite H. auto.
    + simpl. rewrite (cproj_frame _ _ (frame_server_event _ _)). simpl. auto.
  - simpl. rewrite H. auto.
  - match goal with |- context [existsb c_entry ?L] => destruct (existsb c_entry L) end.
    + match goal with |- context [waited ?L 0] => destruct (waited L 0) end; simpl;
        rewrite (cproj_frame _ _ (frame_cancel_all _ _ _)); simpl; auto.
    + simpl. auto.
  - simpl. auto.
  - rewrite E. simpl. auto.
Qed.

Lemma inv1_run_main : forall s, Inv1 s -> Inv1 (run_main s).
Proof.
  intros s [I1 I2]. split; [|apply cproj_run_main; auto].
  intros c C. apply cinv_run_main; auto. lia.
Qed.

Lemma inv1_run_hook : forall s k, Inv1 s -> Inv1 (run_hook s k).
Proof.
  intros s k [I1 I2]. unfold run_hook. destruct (geth s k); [split; auto| |split; auto].
  pose proof (frame_server_event s (LHookDone k)) as F. split.
  - intros c C. exact (cinv_frame c _ _ F (I1 c C)).
  - simpl. rewrite (cproj_frame _ _ F), (f_main _ _ F). auto.
Qed.

Lemma inv1_init : forall sc, Inv1 (init sc).
Proof.
  intros. split; auto. intros c C. unfold cinv, wok, getc. simpl.
  destruct c; [lia|]. destruct c; simpl; auto.
Qed.

Theorem pairing_invariant : forall sc l, Inv1 (run (init sc) l).
Proof. apply reach_ind; eauto using inv1_init, inv1_frame, inv1_run_main, inv1_run_conn, inv1_run_hook. Qed.
