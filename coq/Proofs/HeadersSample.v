(* Proofs/HeadersSample.v -- the concrete values on which C35_nonvacuous shows that the hypotheses of the
   C35 theorems are satisfiable. *)
From Coq Require Import List Bool NArith ZArith.
From MV Require Import Base.Bytes Model.Headers Proofs.HeadersLaws.
Import ListNotations.

(* Host: example.com / accept: a / Accept: b *)
Definition sample_fields : list field :=
  [([x48; x6f; x73; x74], [x65; x78; x61; x6d; x70; x6c; x65; x2e; x63; x6f; x6d]);
   ([x61; x63; x63; x65; x70; x74], [x61]);
   ([x41; x63; x63; x65; x70; x74], [x62])].
(* the same with other capitalisation: HOST / Accept / ACCEPT *)
Definition sample_fields' : list field :=
  [([x48; x4f; x53; x54], [x65; x78; x61; x6d; x70; x6c; x65; x2e; x63; x6f; x6d]);
   ([x41; x63; x63; x65; x70; x74], [x61]);
   ([x41; x43; x43; x45; x50; x54], [x62])].
Definition ACCEPT : bytes := [x41; x43; x43; x45; x50; x54].
Definition accept : bytes := [x61; x63; x63; x65; x70; x74].
Definition sample_ops : list op :=
  [OSetAll false ACCEPT [[x31]; [x32]; [x33]]; OGetItem false accept; OCopy false; ODelItem true accept; OIter true].
Definition sample_ops' : list op :=
  [OSetAll false accept [[x31]; [x32]; [x33]]; OGetItem false ACCEPT; OCopy false; ODelItem true ACCEPT; OIter true].
