(* Proofs/FilterHeader.v -- the content-type filters search each Content-Type field value on its own (none when
   the header is absent); the header filters search the serialised header block of each present message. *)
From Coq Require Import List Bool.
From MV Require Import Base.Bytes Model.FilterHeader.
Import ListNotations.

Lemma check_ct_spec s fields : check_content_type s fields = existsb s (ct_values fields).
Proof.
  unfold check_content_type, ct_values. induction fields as [| f fs IH]; [reflexivity |].
  simpl. destruct (is_ct f); simpl; rewrite IH; reflexivity.
Qed.

Lemma fct_spec s f : fcontent_type s f = existsb s (ct_values (req_fields f) ++ ct_values (resp_fields f)).
Proof.
  destruct f as [rq rs |]; [| reflexivity]. simpl. rewrite existsb_app, <- !check_ct_spec.
  destruct (check_content_type s rq); [reflexivity |]. destruct rs; reflexivity.
Qed.
Lemma fasset_spec types f :
  fasset types f = existsb (fun v => existsb (fun i => i v) types) (ct_values (resp_fields f)).
Proof.
  destruct f as [rq [r |] |]; try reflexivity. simpl.
  induction types as [| i types IH].
  - simpl. induction (ct_values r); [reflexivity | assumption].
  - simpl. rewrite IH, check_ct_spec. clear IH. induction (ct_values r) as [| v vs IHv]; [reflexivity |].
    simpl. rewrite <- IHv. destruct (i v), (existsb (fun i0 => i0 v) types), (existsb i vs); reflexivity.
Qed.

Definition present_blocks (f : flowh) : list bytes :=
  match f with
  | HttpH rq rs => headers_bytes rq :: match rs with Some r => [headers_bytes r] | None => [] end
  | OtherH => []
  end.
