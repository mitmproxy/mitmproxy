(* Proofs/IgnoreHostsDecide.v -- C19.  _ignore_connection: the decision is stable under appended data
   (segmentation independence), the rules are honoured, every destination form is among the host names. *)
From Coq Require Import List Bool NArith Lia.
From MV Require Import Base.Bytes Model.ClientHello Model.IgnoreHosts.
From MV Require Import Proofs.ClientHelloBase Proofs.ClientHelloMain Proofs.IgnoreHostsScan.
Import ListNotations.

(* the first bytes could still become an HTTP request line: three letters, no HTTP/ yet, line not finished *)
Definition http_prefix_undecided (p : bytes) : bool :=
  alpha3 p && negb (host_header_expected p) && negb (existsb is_lf p).

Definition seg_guard (p : bytes) : Prop :=
  (3 <= length p)%nat /\ http_prefix_undecided p = false.

Lemma alpha3_app p t : (3 <= length p)%nat -> alpha3 (p ++ t) = alpha3 p.
Proof. destruct p as [|a [|b [|c r]]]; simpl; intros L; solve [lia | reflexivity]. Qed.

Lemma seg_guard_app p t : seg_guard p -> seg_guard (p ++ t).
Proof.
  intros [L H]. split; [rewrite app_length; lia|].
  unfold http_prefix_undecided in *. rewrite (alpha3_app _ _ L).
  destruct (alpha3 p); [|reflexivity]. simpl in *.
  destruct (host_header_expected p) eqn:E.
  - rewrite (expected_app _ t E). reflexivity.
  - simpl in H. apply negb_false_iff in H. rewrite existsb_app, H. apply andb_false_r.
Qed.

Lemma expected_stable p t : seg_guard p -> host_header_expected (p ++ t) = host_header_expected p.
Proof.
  intros [L H]. unfold http_prefix_undecided in H.
  destruct (alpha3 p) eqn:A.
  - simpl in H. destruct (host_header_expected p) eqn:E.
    + apply expected_app. exact E.
    + simpl in H. apply negb_false_iff in H. rewrite (expected_lf _ t L H). exact E.
  - rewrite (expected_not_alpha _ t L A).
    destruct (host_header_expected p) eqn:E; [|reflexivity].
    apply expected_alpha3 in E. congruence.
Qed.

Theorem host_header_stable p t :
  seg_guard p -> no_empty_host p = true -> get_host_header p [] <> HNeeds ->
  get_host_header (p ++ t) [] = get_host_header p [].
Proof.
  intros G N H. unfold get_host_header in *. simpl in *.
  rewrite (expected_stable _ t G).
  destruct (host_header_expected p); [|reflexivity].
  destruct (search_host p) as [r|] eqn:S; [|contradiction].
  rewrite (search_app _ t _ N S). reflexivity.
Qed.

Lemma starts_tls_stable p t : (3 <= length p)%nat -> starts_like_tls_record (p ++ t) = starts_like_tls_record p.
Proof.
  intros L. unfold starts_like_tls_record. rewrite !at_app_lt by lia.
  assert (E : forall s, (3 <= length s)%nat -> (2 <? blen s)%N = true)
    by (intros s Hs; apply N.ltb_lt; unfold blen; lia).
  rewrite !E by (rewrite ?app_length; lia). reflexivity.
Qed.

Theorem client_hello_stable p t :
  (3 <= length p)%nat -> get_client_hello p <> CNeeds -> get_client_hello (p ++ t) = get_client_hello p.
Proof.
  intros L H. unfold get_client_hello in *. rewrite (starts_tls_stable _ t L).
  destruct (starts_like_tls_record p); [|reflexivity].
  unfold parse_client_hello in *. rewrite (parse_stable false p t); [reflexivity|].
  intros E. rewrite E in H. contradiction.
Qed.

Lemma is_nil_false {A} (l : list A) : is_nil l = false <-> l <> [].
Proof. destruct l; split; (discriminate || contradiction || reflexivity). Qed.

Section Decide.
  Variable pat : Type.
  Variable re_search : pat -> bytes -> bool.
  Variable ace_ok : bytes -> bool.
  Notation hostnames_of := (hostnames_of ace_ok).
  Notation ignore_connection := (ignore_connection re_search ace_ok).
  Notation first_decision := (first_decision re_search ace_ok).

  Lemma hostnames_stable (c : cfg pat) p t l :
    seg_guard p -> no_empty_host p = true ->
    hostnames_of c p [] = Names l -> hostnames_of c (p ++ t) [] = Names l.
  Proof.
    intros G N H. unfold IgnoreHosts.hostnames_of in *.
    destruct (address c) as [[h po]|]; [|exact H].
    assert (HH : get_host_header p [] <> HNeeds) by (intros E; rewrite E in H; discriminate).
    rewrite (host_header_stable p t G N HH).
    assert (CH : get_client_hello p <> CNeeds)
      by (intros E; rewrite E in H; destruct (get_host_header p []); discriminate).
    rewrite (client_hello_stable p t (proj1 G) CH). exact H.
  Qed.

  Theorem decision_stable (c : cfg pat) p t :
    seg_guard p -> no_empty_host p = true ->
    ignore_connection c p [] <> NeedsMore ->
    ignore_connection c (p ++ t) [] = ignore_connection c p [].
  Proof.
    intros G N H. unfold IgnoreHosts.ignore_connection in *.
    destruct (is_nil (ignore_hosts c) && is_nil (allow_hosts c)); [reflexivity|].
    destruct (wg_exempt c); [reflexivity|].
    destruct (hostnames_of c p []) as [|l] eqn:E; [contradiction|].
    rewrite (hostnames_stable c p t l G N E). reflexivity.
  Qed.

  (* NextLayer asks after every segment; the outcome is the decision on everything received *)
  Lemma first_decision_gen (c : cfg pat) : forall rest buf s,
    seg_guard (buf ++ s) -> no_empty_host (buf ++ s ++ concat rest) = true ->
    first_decision c buf (s :: rest) = ignore_connection c (buf ++ s ++ concat rest) [].
  Proof.
    induction rest as [|s2 rest IH]; intros buf s G N.
    - simpl. rewrite app_nil_r. destruct (ignore_connection c (buf ++ s) []); reflexivity.
    - cbn [IgnoreHosts.first_decision concat] in *. rewrite app_assoc in N |- *.
      destruct (ignore_connection c (buf ++ s) []) eqn:D.
      + apply IH; [apply seg_guard_app, G | exact N].
      + rewrite decision_stable, D; [reflexivity | exact G | | rewrite D; discriminate].
        apply no_empty_host_prefix in N. exact N.
  Qed.

  Lemma any_match_spec rexes hosts :
    any_match re_search rexes hosts = true <->
    exists h r, In h hosts /\ In r rexes /\ re_search r h = true.
  Proof.
    unfold any_match. rewrite existsb_exists. split.
    - intros [h [Hh E]]. apply existsb_exists in E as [r [Hr E]]. exists h, r. auto.
    - intros [h [r [Hh [Hr E]]]]. exists h. split; [exact Hh|]. apply existsb_exists. exists r. auto.
  Qed.

  Lemma any_match_false rexes hosts :
    any_match re_search rexes hosts = false <->
    forall h r, In h hosts -> In r rexes -> re_search r h = false.
  Proof.
    rewrite <- not_true_iff_false, any_match_spec. split.
    - intros F h r Hh Hr. destruct (re_search r h) eqn:E; [exfalso; apply F; eauto | reflexivity].
    - intros F (h & r & Hh & Hr & E). rewrite (F h r Hh Hr) in E. discriminate.
  Qed.

  (* with an option set and no WireGuard exemption the decision is one boolean of the host names *)
  Definition ignored_b (c : cfg pat) (hs : list bytes) : bool :=
    negb (is_nil hs)
    && ((negb (is_nil (allow_hosts c)) && negb (any_match re_search (allow_hosts c) hs))
        || (negb (is_nil (ignore_hosts c)) && any_match re_search (ignore_hosts c) hs)).

  Lemma decision_rules (c : cfg pat) dc ds :
    (ignore_hosts c <> [] \/ allow_hosts c <> []) -> wg_exempt c = false ->
    ignore_connection c dc ds =
    match hostnames_of c dc ds with NNeeds => NeedsMore | Names hs => Decided (ignored_b c hs) hs end.
  Proof.
    intros O W. unfold IgnoreHosts.ignore_connection, ignored_b. rewrite W.
    replace (is_nil (ignore_hosts c) && is_nil (allow_hosts c)) with false
      by (symmetry; apply andb_false_iff; rewrite !is_nil_false; exact O).
    destruct (hostnames_of c dc ds) as [|hs]; [reflexivity|].
    destruct (is_nil hs), (negb (is_nil (allow_hosts c)) && negb (any_match re_search (allow_hosts c) hs)),
      (negb (is_nil (ignore_hosts c)) && any_match re_search (ignore_hosts c) hs); reflexivity.
  Qed.

  Theorem rules_honoured (c : cfg pat) dc ds b hs :
    ignore_connection c dc ds = Decided b hs ->
    (ignore_hosts c <> [] \/ allow_hosts c <> []) -> wg_exempt c = false ->
    hostnames_of c dc ds = Names hs /\
    (b = true <->
       hs <> [] /\
       ((allow_hosts c <> [] /\ forall h r, In h hs -> In r (allow_hosts c) -> re_search r h = false)
        \/ (ignore_hosts c <> [] /\ exists h r, In h hs /\ In r (ignore_hosts c) /\ re_search r h = true))).
  Proof.
    intros H O W. rewrite (decision_rules c dc ds O W) in H.
    destruct (hostnames_of c dc ds) as [|l]; [discriminate|]. injection H as <- <-.
    split; [reflexivity|]. unfold ignored_b.
    rewrite andb_true_iff, orb_true_iff, !andb_true_iff, !negb_true_iff, !is_nil_false,
      any_match_false, any_match_spec.
    reflexivity.
  Qed.

  Definition opt_name (p : N) (o : option bytes) : list bytes :=
    match o with Some n => if is_nil n then [] else [fmt_hp n p] | None => [] end.

  Lemma app_opt_name l p o :
    match o with Some n => if is_nil n then l else l ++ [fmt_hp n p] | None => l end = l ++ opt_name p o.
  Proof. unfold opt_name. destruct o as [n|]; [destruct (is_nil n)|]; rewrite ?app_nil_r; reflexivity. Qed.

  Lemma in_opt_name p n : n <> [] -> In (fmt_hp n p) (opt_name p (Some n)).
  Proof. destruct n; [contradiction | left; reflexivity]. Qed.

  (* the host names, in order: peer address, server address, Host header, SNI of the ClientHello, SNI of the
     client's TLS session *)
  Lemma names_shape (c : cfg pat) dc ds hs :
    hostnames_of c dc ds = Names hs ->
    hs = match peername c with Some (h, p) => [fmt_hp h p] | None => [] end
         ++ match address c with
            | None => []
            | Some (h, p) =>
              fmt_hp h p
              :: match get_host_header dc ds with HSome v => [if has_port v then v else fmt_hp v p] | _ => [] end
              ++ opt_name p (match get_client_hello dc with CSome hl => sni ace_ok hl | _ => None end)
              ++ opt_name p (client_sni c)
            end.
  Proof.
    unfold IgnoreHosts.hostnames_of. intros H.
    destruct (address c) as [[h p]|]; [|injection H as <-; rewrite app_nil_r; reflexivity].
    destruct (get_host_header dc ds) as [| |v]; [discriminate| |];
      (destruct (get_client_hello dc) as [| |hl]; [discriminate| |]);
      injection H as <-; rewrite !app_opt_name, <- !app_assoc; reflexivity.
  Qed.

  Theorem destination_forms (c : cfg pat) (dc ds : bytes) (hs : list bytes) :
    hostnames_of c dc ds = Names hs ->
    (forall h p, address c = Some (h, p) -> In (fmt_hp h p) hs) /\
    (forall h p, peername c = Some (h, p) -> In (fmt_hp h p) hs) /\
    (forall h p hl n, address c = Some (h, p) -> get_client_hello dc = CSome hl -> sni ace_ok hl = Some n ->
                      n <> [] -> In (fmt_hp n p) hs) /\
    (forall h p n, address c = Some (h, p) -> client_sni c = Some n -> n <> [] -> In (fmt_hp n p) hs) /\
    (forall h p v, ds = [] -> address c = Some (h, p) -> get_host_header dc [] = HSome v ->
                   In (if has_port v then v else fmt_hp v p) hs).
  Proof.
    intros H. rewrite (names_shape c dc ds hs H). repeat split.
    - intros h p ->. apply in_or_app. right. apply in_eq.
    - intros h p ->. apply in_or_app. left. apply in_eq.
    - intros h p hl n -> -> -> N. apply in_or_app. right. apply in_cons, in_or_app. right.
      apply in_or_app. left. apply in_opt_name, N.
    - intros h p n -> -> N. apply in_or_app. right. apply in_cons, in_or_app. right.
      apply in_or_app. right. apply in_opt_name, N.
    - intros h p v -> -> ->. apply in_or_app. right. apply in_cons, in_or_app. left. apply in_eq.
  Qed.
End Decide.

(* the full statement is false: two families of counterexamples *)
Definition lit_search (p h : bytes) : bool := contains_sub p h.
Definition no_ace (_ : bytes) : bool := false.
Definition ex_cfg : cfg bytes :=
  {| ignore_hosts := [[x65; x76; x69; x6c]];      (* evil *)
     allow_hosts := []; wireguard := false; peername := None;
     address := Some ([x31; x2e; x32; x2e; x33; x2e; x34], 80%N); client_sni := None |}.
(* GET  |  / HTTP/1.1 CRLF Host: evil.com CRLF CRLF *)
Definition ex_s1 : bytes := [x47; x45; x54; x20].
Definition ex_s2 : bytes :=
  [x2f; x20; x48; x54; x54; x50; x2f; x31; x2e; x31; x0d; x0a;
   x48; x6f; x73; x74; x3a; x20; x65; x76; x69; x6c; x2e; x63; x6f; x6d; x0d; x0a; x0d; x0a].
(* POST / HTTP/1.1 CRLF Content-Length: 10 CRLF Host: CRLF CRLF  |  evil.com CRLF *)
Definition ex_p1 : bytes :=
  [x50; x4f; x53; x54; x20; x2f; x20; x48; x54; x54; x50; x2f; x31; x2e; x31; x0d; x0a;
   x43; x6f; x6e; x74; x65; x6e; x74; x2d; x4c; x65; x6e; x67; x74; x68; x3a; x20; x31; x30; x0d; x0a;
   x48; x6f; x73; x74; x3a; x0d; x0a; x0d; x0a].
Definition ex_p2 : bytes := [x65; x76; x69; x6c; x2e; x63; x6f; x6d; x0d; x0a].

(* the guards are satisfiable on an ordinary request cut inside the Host line *)
Definition ok_s1 : bytes :=
  [x47; x45; x54; x20; x2f; x20; x48; x54; x54; x50; x2f; x31; x2e; x31; x0d; x0a; x48; x6f; x73; x74; x3a; x65; x76].
Definition ok_s2 : bytes := [x69; x6c; x2e; x63; x6f; x6d; x0d; x0a; x0d; x0a].
