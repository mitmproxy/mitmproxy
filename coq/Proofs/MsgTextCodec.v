(* Proofs/MsgTextCodec.v -- names that resolve to an exact codec; decode (encode s) = s for the exact
   codecs ASCII, Latin-1, UTF-8 (strict) and UTF-8-sig; on scalar text the surrogateescape encoder
   equals the strict one. *)
From Coq Require Import ZArith NArith List Bool Lia ZifyBool.
From MV Require Import Base.Bytes Model.MsgText.
Import ListNotations.
Local Open Scope N_scope.

Definition exact (c : codec) : Prop := match c with COther _ => False | _ => True end.

(* a name that resolves to an exact codec reaches no abstract one; for a literal name the
   hypotheses are [eq_refl] and [I] *)
Lemma encode_exact C e c s : resolve (lower e) = c -> exact c ->
  encode C e s = match exact_encode c s with Some b => EBytes b | None => EValueErr end.
Proof. unfold encode. intros -> Hc. destruct c; [reflexivity .. | contradiction]. Qed.

Lemma decode_exact C e c b : resolve (lower e) = c -> exact c ->
  decode C e b = match exact_decode c b with Some s => DStr s | None => DValueErr end.
Proof. unfold decode. intros -> Hc. destruct c; [reflexivity .. | contradiction]. Qed.

Lemma decode_exact_DStr C e c b t : resolve (lower e) = c -> exact c ->
  decode C e b = DStr t -> exact_decode c b = Some t.
Proof.
  intros Hr Hc. rewrite (decode_exact C e c b Hr Hc).
  destruct (exact_decode c b); [intros [= ->]; reflexivity | discriminate].
Qed.

Lemma narrow_rt (limit : N) : limit <= 256 -> forall s b,
  narrow_encode limit s = Some b -> narrow_decode limit b = Some s.
Proof.
  intros Hl. unfold narrow_encode, narrow_decode.
  induction s as [|c s IH]; intros b H; cbn [map_opt] in *.
  - injection H as <-. reflexivity.
  - destruct (c <? limit) eqn:E; [|discriminate].
    destruct (map_opt _ s) as [r|] eqn:Er; [|discriminate].
    injection H as <-. cbn [map_opt].
    rewrite bN_Nb by lia. rewrite E. rewrite (IH r eq_refl). reflexivity.
Qed.

Lemma is_cont_Nb n : 128 <= n <= 191 -> is_cont (Nb n) = true.
Proof. intros. unfold is_cont. rewrite bN_Nb by lia. lia. Qed.

Lemma second_ok_Nb n0 n1 : n0 < 256 -> 128 <= n1 <= 191 ->
  (n0 = 224 -> 160 <= n1) -> (n0 = 237 -> n1 <= 159) ->
  (n0 = 240 -> 144 <= n1) -> (n0 = 244 -> n1 <= 143) ->
  second_ok (Nb n0) (Nb n1) = true.
Proof.
  intros. unfold second_ok, is_cont. rewrite !bN_Nb by lia.
  destruct (n0 =? 224) eqn:A; [lia|].
  destruct (n0 =? 237) eqn:A1; [lia|].
  destruct (n0 =? 240) eqn:A2; [lia|].
  destruct (n0 =? 244) eqn:A3; lia.
Qed.

Lemma step1 n r : n < 128 -> utf8_step (Nb n :: r) = U8Ok n r.
Proof. intros H. unfold utf8_step. rewrite bN_Nb by lia. destruct (n <? 128) eqn:E; [reflexivity | lia]. Qed.

Lemma step2 n0 n1 r : 194 <= n0 < 224 -> 128 <= n1 <= 191 ->
  utf8_step (Nb n0 :: Nb n1 :: r) = U8Ok ((n0 - 192) * 64 + (n1 - 128)) r.
Proof.
  intros H0 H1. unfold utf8_step. rewrite (is_cont_Nb n1 H1), !bN_Nb by lia.
  destruct (n0 <? 128) eqn:E1; [lia|].
  destruct ((194 <=? n0) && (n0 <? 224)) eqn:E2; [reflexivity | lia].
Qed.

Lemma step3 n0 n1 n2 r : 224 <= n0 < 240 -> 128 <= n1 <= 191 -> 128 <= n2 <= 191 ->
  (n0 = 224 -> 160 <= n1) -> (n0 = 237 -> n1 <= 159) ->
  utf8_step (Nb n0 :: Nb n1 :: Nb n2 :: r) = U8Ok ((n0 - 224) * 4096 + (n1 - 128) * 64 + (n2 - 128)) r.
Proof.
  intros H0 H1 H2 Ha Hb. unfold utf8_step.
  rewrite (second_ok_Nb n0 n1), (is_cont_Nb n2 H2), !bN_Nb by lia.
  destruct (n0 <? 128) eqn:E1; [lia|].
  destruct ((194 <=? n0) && (n0 <? 224)) eqn:E2; [lia|].
  destruct ((224 <=? n0) && (n0 <? 240)) eqn:E3; [reflexivity | lia].
Qed.

Lemma step4 n0 n1 n2 n3 r : 240 <= n0 < 245 -> 128 <= n1 <= 191 -> 128 <= n2 <= 191 -> 128 <= n3 <= 191 ->
  (n0 = 240 -> 144 <= n1) -> (n0 = 244 -> n1 <= 143) ->
  utf8_step (Nb n0 :: Nb n1 :: Nb n2 :: Nb n3 :: r)
  = U8Ok ((n0 - 240) * 262144 + (n1 - 128) * 4096 + (n2 - 128) * 64 + (n3 - 128)) r.
Proof.
  intros H0 H1 H2 H3 Ha Hb. unfold utf8_step.
  rewrite (second_ok_Nb n0 n1), (is_cont_Nb n2 H2), (is_cont_Nb n3 H3), !bN_Nb by lia.
  destruct (n0 <? 128) eqn:E1; [lia|].
  destruct ((194 <=? n0) && (n0 <? 224)) eqn:E2; [lia|].
  destruct ((224 <=? n0) && (n0 <? 240)) eqn:E3; [lia|].
  destruct ((240 <=? n0) && (n0 <? 245)) eqn:E4; [reflexivity | lia].
Qed.

Lemma scalar_bounds c : is_scalar c = true -> (c < 55296 \/ 57343 < c) /\ c <= 1114111.
Proof. unfold is_scalar, is_surrogate. lia. Qed.

(* the base-64 digits of c, as utf8_cp writes them; lia reads quotients and remainders in N as
   integer terms of unknown sign, hence the lower bounds *)
Lemma digits64 c :
  c = 64 * (c / 64) + c mod 64 /\ c / 64 = 64 * (c / 4096) + (c / 64) mod 64
  /\ c / 4096 = 64 * (c / 262144) + (c / 4096) mod 64
  /\ 0 <= c mod 64 < 64 /\ 0 <= (c / 64) mod 64 < 64 /\ 0 <= (c / 4096) mod 64 < 64.
Proof.
  change 4096 with (64 * 64). change 262144 with (64 * 64 * 64). rewrite <- !N.div_div by discriminate.
  repeat split; try (apply N.div_mod; discriminate); try apply N.le_0_l; apply N.mod_lt; discriminate.
Qed.

Lemma utf8_step_cp c rest : is_scalar c = true -> utf8_step (utf8_cp c ++ rest) = U8Ok c rest.
Proof.
  intros Hs. apply scalar_bounds in Hs as [Hsur Hmax].
  destruct (digits64 c) as (D0 & D1 & D2 & L0 & L1 & L2). unfold utf8_cp.
  destruct (N.ltb_spec c 128); [|destruct (N.ltb_spec c 2048); [|destruct (N.ltb_spec c 65536)]]; cbn [app].
  - apply step1. lia.
  - rewrite step2 by lia. f_equal. lia.
  - rewrite step3 by lia. f_equal. lia.
  - rewrite step4 by lia. f_equal. lia.
Qed.

Lemma utf8_cp_nonempty c : (1 <= length (utf8_cp c))%nat.
Proof.
  unfold utf8_cp. destruct (c <? 128); [cbn; lia|].
  destruct (c <? 2048); [cbn; lia|]. destruct (c <? 65536); cbn; lia.
Qed.

Definition utf8_bytes (s : text) : bytes := flat_map utf8_cp s.

Lemma utf8_encode_spec s b : utf8_encode s = Some b ->
  b = utf8_bytes s /\ Forall (fun c => is_scalar c = true) s.
Proof.
  unfold utf8_encode. revert b. induction s as [|c s IH]; intros b H; cbn [concat_opt] in H.
  - injection H as <-. split; [reflexivity | constructor].
  - unfold utf8_cp_strict in H at 1. destruct (is_scalar c) eqn:E; [|discriminate].
    destruct (concat_opt utf8_cp_strict s) as [r|] eqn:Er; [|discriminate].
    injection H as <-. destruct (IH r eq_refl) as [-> HF].
    split; [reflexivity | constructor; assumption].
Qed.

Lemma utf8_encode_scalar s : Forall (fun c => is_scalar c = true) s ->
  utf8_encode s = Some (utf8_bytes s).
Proof.
  unfold utf8_encode. induction 1 as [|c s Hc HF IH]; cbn [concat_opt]; [reflexivity|].
  unfold utf8_cp_strict at 1. rewrite Hc, IH. reflexivity.
Qed.

Lemma utf8_decode_bytes se s : Forall (fun c => is_scalar c = true) s ->
  forall fuel, (length (utf8_bytes s) <= fuel)%nat ->
  utf8_decode_fuel se fuel (utf8_bytes s) = Some s.
Proof.
  induction 1 as [|c s Hc HF IH]; intros fuel Hf.
  - destruct fuel; reflexivity.
  - cbn [utf8_bytes flat_map] in *. fold (utf8_bytes s) in *.
    rewrite app_length in Hf. pose proof (utf8_cp_nonempty c) as Hn.
    destruct fuel as [|f]; [lia|].
    cbn [utf8_decode_fuel]. rewrite (utf8_step_cp c _ Hc).
    rewrite IH by lia. reflexivity.
Qed.

Theorem utf8_rt s b : utf8_encode s = Some b -> utf8_decode b = Some s.
Proof.
  intros H. apply utf8_encode_spec in H as [-> HF]. unfold utf8_decode.
  apply utf8_decode_bytes; [assumption | lia].
Qed.

Lemma escaped_not_scalar c : is_scalar c = true -> is_escaped_byte c = false.
Proof. unfold is_scalar, is_surrogate, is_escaped_byte. lia. Qed.

Lemma utf8_encode_se_scalar s : Forall (fun c => is_scalar c = true) s ->
  utf8_encode_se s = utf8_encode s.
Proof.
  unfold utf8_encode_se, utf8_encode. induction 1 as [|c s Hc HF IH]; cbn [concat_opt]; [reflexivity|].
  rewrite IH. unfold utf8_cp_se. rewrite (escaped_not_scalar c Hc). reflexivity.
Qed.

(* utf-8-sig: one BOM is added and one is removed *)
Theorem utf8sig_rt s b : utf8sig_encode s = Some b -> utf8sig_decode b = Some s.
Proof.
  unfold utf8sig_encode, utf8sig_decode. destruct (utf8_encode s) as [r|] eqn:E; [|discriminate].
  intros H. injection H as <-. cbn [bom8 app starts_with]. rewrite !byte_eqb_refl. cbn [andb skipn].
  apply utf8_rt. exact E.
Qed.

Theorem exact_rt c s b : In c [CAscii; CLatin1; CUtf8; CUtf8Sig] ->
  exact_encode c s = Some b -> exact_decode c b = Some s.
Proof.
  intros [<- | [<- | [<- | [<- | []]]]]; cbn [exact_encode exact_decode].
  - apply narrow_rt. lia.
  - apply narrow_rt. lia.
  - apply utf8_rt.
  - apply utf8sig_rt.
Qed.
