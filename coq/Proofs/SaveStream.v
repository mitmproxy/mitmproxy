(* Proofs/SaveStream.v -- the stream file is complete after every option change (successful,
   failed + rolled back) and every finished flow. *)
From Coq Require Import List Bool Arith.
From MV Require Import Model.SaveStream.
Import ListNotations.

Section P.
  Variable openable : nat -> bool.

  Lemma with_opt_same s : with_opt s (opt s) = s.
  Proof. destruct s; reflexivity. Qed.

  (* writer, current_path and option agree: such a state is given by the option and the disk *)
  Definition reg (c : option spec) (f : nat -> list nat) : sstate :=
    {| opt := c; cur := option_map sp_path c; strm := option_map sp_path c; fs := f; crashed := false |}.

  Lemma configure_reg c f : configure openable (reg c f) = Some (reg c f).
  Proof. destruct c as [sp|]; [|reflexivity]. unfold configure, maybe_rotate. cbn. now rewrite Nat.eqb_refl. Qed.

  (* an option change whose target cannot be opened is rejected and changes NOTHING:
     not the files, not the writer, not current_path, not the option *)
  Theorem failed_change_is_noop c f o :
    configure openable (with_opt (reg c f) o) = None -> set_option openable o (reg c f) = (reg c f, true).
  Proof.
    intros Hf. unfold set_option. rewrite Hf.
    now rewrite with_opt_same, configure_reg.
  Qed.

  (* one update with a new file AND an unparsable filter is rejected before the file is touched *)
  Theorem bad_filter_is_noop c f o : set_option_bad_filter openable o (reg c f) = (reg c f, true).
  Proof.
    unfold set_option_bad_filter.
    change (with_opt (with_opt (reg c f) o) (opt (reg c f))) with (reg c f). now rewrite configure_reg.
  Qed.

  (* the end hook appends exactly this flow to the current stream file, touches no other file,
     never exits *)
  Theorem save_flow_appends c f r :
    save_flow openable r (reg c f)
    = match c with Some sp => reg c (upd f (sp_path sp) (f (sp_path sp) ++ [r])) | None => reg c f end.
  Proof. destruct c as [sp|]; [|reflexivity]. unfold save_flow, maybe_rotate. cbn. now rewrite Nat.eqb_refl. Qed.

  (* an option change: off / same path (only the mode changes, nothing is reopened) /
     another path that opens / one that does not *)
  Lemma set_option_reg c f o :
    set_option openable o (reg c f) =
    match o with
    | None => (reg None f, false)
    | Some sp =>
        if match c with Some c0 => Nat.eqb (sp_path c0) (sp_path sp) | None => false end
        then (reg o f, false)
        else if openable (sp_path sp)
             then (reg o (upd f (sp_path sp) (if sp_append sp then f (sp_path sp) else [])), false)
             else (reg c f, true)
    end.
  Proof.
    destruct c as [c0|]; destruct o as [sp|]; unfold set_option, configure, maybe_rotate, done; cbn;
      try reflexivity.
    - destruct (Nat.eqb (sp_path c0) (sp_path sp)) eqn:E.
      + apply Nat.eqb_eq in E. unfold reg, with_opt. cbn. now rewrite E.
      + destruct (openable (sp_path sp)); cbn; rewrite ?Nat.eqb_refl; reflexivity.
    - destruct (openable (sp_path sp)); reflexivity.
  Qed.

  (* all event sequences: the state stays of this form and the disk holds what the reference says *)
  Lemma run_reg evs : forall c f, exists c', run openable (reg c f) evs = reg c' (reference openable evs c f).
  Proof.
    induction evs as [|e r IH]; intros c f; [exists c; reflexivity|].
    cbn [run reference]. destruct e as [o|o|x]; cbn [step].
    - rewrite set_option_reg. destruct o as [sp|]; [|apply IH].
      destruct (match c with Some c0 => Nat.eqb (sp_path c0) (sp_path sp) | None => false end); [apply IH|].
      destruct (openable (sp_path sp)); apply IH.
    - rewrite bad_filter_is_noop. apply IH.
    - rewrite save_flow_appends. destruct c; apply IH.
  Qed.

  Lemma run_init f evs : exists c, run openable (init_state f) evs = reg c (reference openable evs None f).
  Proof. exact (run_reg evs None f). Qed.
End P.

(* non-vacuity: path 3 cannot be opened; two flows, rejected change, a third flow *)
Definition ex_open (p : nat) : bool := negb (Nat.eqb p 3).
Definition ex_events : list sev :=
  [SetOpt (Some {| sp_append := false; sp_path := 0 |}); Finish 1; Finish 2;
   SetOpt (Some {| sp_append := false; sp_path := 3 |}); Finish 4].
