(* Proofs/StickyCookieMain.v -- what the jar holds after a history (jar_has) and that reachable jars are
   well-formed (wf); attached cookies come from matching entries (attached_sound), foreign entries are
   ignored, expired ones leave no binding; the concrete histories of the C54 witnesses. *)
From Coq Require Import List Bool NArith.
From MV Require Import Base.Bytes Model.StickyCookie Proofs.EqbIff Proofs.StickyCookieSpec.
Import ListNotations.

Lemma ostr_eqb_eq a b : ostr_eqb a b = true <-> a = b.
Proof. apply (option_eqb_eq _ bytes_eqb_eq). Qed.

Lemma key_eqb_eq a b : key_eqb a b = true <-> a = b.
Proof.
  destruct a as [[d1 p1] q1], b as [[d2 p2] q2]. unfold key_eqb.
  rewrite !andb_true_iff, bytes_eqb_eq, N.eqb_eq, ostr_eqb_eq.
  split; [intros [[-> ->] ->]; reflexivity | intros H; inversion H; auto].
Qed.

Lemma key_eqb_neq a b : key_eqb a b = false -> a <> b.
Proof. apply (eqb_false_iff _ key_eqb_eq). Qed.

Lemma bytes_eqb_neq' a b : bytes_eqb a b = false -> a <> b.
Proof. apply (eqb_false_iff _ bytes_eqb_eq). Qed.

Definition jar_has (j : jar) (k : key) (n : str) (v : option str) : Prop :=
  exists d, In (k, d) j /\ In (n, v) d.

Lemma jar_has_cons k0 d0 j k n v :
  jar_has ((k0, d0) :: j) k n v <-> (k0 = k /\ In (n, v) d0) \/ jar_has j k n v.
Proof.
  unfold jar_has. split.
  - intros (d & [E|H] & Hd); [injection E as -> ->; auto | right; exists d; auto].
  - intros [[-> H] | (d & H & Hd)]; [exists d0 | exists d]; simpl; auto.
Qed.

Lemma dict_set_in {V} n (v : V) d m w :
  In (m, w) (dict_set n v d) -> (m, w) = (n, v) \/ In (m, w) d.
Proof.
  induction d as [|[m' w'] d IH]; simpl.
  - intros [H|[]]. left. congruence.
  - destruct (bytes_eqb n m') eqn:E.
    + apply bytes_eqb_eq in E; subst m'. intros [H|H]; [left; congruence | right; right; exact H].
    + intros [H|H]; [right; left; exact H|]. destruct (IH H); auto.
Qed.

Lemma dict_pop_in {V} n (d : list (str * V)) x : In x (dict_pop n d) -> In x d.
Proof.
  induction d as [|[m' w'] d IH]; simpl; [tauto|].
  destruct (bytes_eqb n m'); [auto|]. intros [H|H]; auto.
Qed.

Lemma jar_set_has k n v j k' n' v' :
  jar_has (jar_set k n v j) k' n' v' -> (k', n', v') = (k, n, v) \/ jar_has j k' n' v'.
Proof.
  induction j as [|[k0 d0] j IH]; simpl.
  - rewrite jar_has_cons. intros [[<- [E|[]]] | (d & [] & _)]. left. congruence.
  - destruct (key_eqb k k0) eqn:E; rewrite !jar_has_cons.
    + apply key_eqb_eq in E; subst k0. intros [[<- H] | H]; [|auto].
      apply dict_set_in in H as [H|H]; [left; congruence | auto].
    + intros [H|H]; [auto|]. destruct (IH H); auto.
Qed.

Lemma jar_del_has k n j k' n' v' : jar_has (jar_del k n j) k' n' v' -> jar_has j k' n' v'.
Proof.
  induction j as [|[k0 d0] j IH]; simpl; [tauto|].
  destruct (key_eqb k k0) eqn:E; rewrite jar_has_cons.
  - destruct (dict_pop n d0) as [|x d1] eqn:Ep; [auto|]. rewrite jar_has_cons.
    intros [[-> H]|H]; [|auto]. left. split; [reflexivity|]. apply (dict_pop_in n). rewrite Ep. exact H.
  - rewrite jar_has_cons. intros [H|H]; auto.
Qed.

Lemma apply_action_has j a k n v :
  jar_has (apply_action j a) k n v -> a = ASet k n v \/ jar_has j k n v.
Proof.
  destruct a as [k0 n0 v0|k0 n0| |]; simpl; auto.
  - intros H. apply jar_set_has in H as [H|H]; [left; congruence | right; exact H].
  - intros H. right. eapply jar_del_has, H.
Qed.

(* an entry that raises ends the loop with the jar as it is; any other entry is applied *)
Lemma response_loop_cons v host port c cs j :
  fst (response_loop v host port (c :: cs) j) = j \/
  fst (response_loop v host port (c :: cs) j)
  = fst (response_loop v host port cs (apply_action j (cookie_action v host port c))).
Proof. simpl. destruct (cookie_action v host port c); auto. Qed.

Lemma response_loop_has v host port cs : forall j k n val,
  jar_has (fst (response_loop v host port cs j)) k n val ->
  jar_has j k n val \/ exists c, In c cs /\ cookie_action v host port c = ASet k n val.
Proof.
  induction cs as [|c cs IH]; intros j k n val; [auto|].
  destruct (response_loop_cons v host port c cs j) as [-> | ->]; [auto|].
  intro H. apply IH in H as [H | (c' & Hin & Hc')].
  - apply apply_action_has in H as [H|H]; [|auto]. right. exists c. split; [left; reflexivity | exact H].
  - right. exists c'. split; [right; exact Hin | exact Hc'].
Qed.

Lemma run_has v flt_on h : forall j k n val,
  jar_has (fold_left (step v flt_on) h j) k n val ->
  jar_has j k n val \/
  exists host port cs c, In (Resp host port cs) h /\ In c cs /\ flt_on = true
                         /\ cookie_action v host port c = ASet k n val.
Proof.
  induction h as [|e h IH]; intros j k n val; simpl; [auto|].
  intros H. apply IH in H as [H | (host & port & cs & c & H1 & H2)].
  - destruct e as [host port cs | ]; simpl in H; [|auto].
    unfold response in H. destruct flt_on; [|auto].
    apply response_loop_has in H as [H | (c & Hin & Hc)]; [auto|].
    right. exists host, port, cs, c. auto.
  - right. exists host, port, cs, c. split; [right; exact H1 | exact H2].
Qed.

Lemma cookie_action_spec v host port c :
  match cookie_action v host port c with
  | ASet k n val =>
      exists d q, k = (d, port, q) /\ ckey c host port = (Some d, port, q) /\ domain_match v host d = true
                  /\ c_expired c = Some false /\ n = c_name c /\ val = c_value c
  | ADel k n =>
      exists d q, k = (d, port, q) /\ ckey c host port = (Some d, port, q) /\ domain_match v host d = true
                  /\ c_expired c = Some true /\ n = c_name c
  | ASkip | AErr => True
  end.
Proof.
  unfold cookie_action, ckey. destruct (match c_domain c with Some d => d | None => Some host end) as [d|]; [|exact I].
  destruct (domain_match v host d) eqn:Ed; [|exact I].
  destruct (c_expired c) as [[|]|]; [| |exact I]; eexists _, _; repeat split; exact Ed.
Qed.

Lemma request_loop_in v host port path : forall j l n val,
  request_loop v host port path j = Some l -> In (n, val) l ->
  exists d cp, jar_has j (d, port, Some cp) n val
               /\ domain_match v host d = true /\ path_match v path cp = true.
Proof.
  induction j as [|[[[d p] [cp|]] c] j IH]; intros l n val; simpl.
  - intros H. inversion H; subst. intros [].
  - destruct (request_loop v host port path j) as [r|] eqn:Er; [|discriminate].
    intros H Hin. inversion H; subst l; clear H.
    assert (Hr : In (n, val) r -> exists d0 cp0, jar_has ((d, p, Some cp, c) :: j) (d0, port, Some cp0) n val
               /\ domain_match v host d0 = true /\ path_match v path cp0 = true).
    { intros Hi. destruct (IH r n val eq_refl Hi) as (d0 & cp0 & Hj & H3).
      exists d0, cp0. rewrite jar_has_cons. auto. }
    destruct (domain_match v host d && (port =? p)%N && path_match v path cp) eqn:Em; [|auto].
    apply in_app_or in Hin as [Hin|Hin]; [|auto].
    apply andb_true_iff in Em as [Em Hp]. apply andb_true_iff in Em as [Hd Hport].
    apply N.eqb_eq in Hport; subst p.
    exists d, cp. rewrite jar_has_cons. auto.
  - discriminate.
Qed.

Lemma request_header v flt_on fmatch host port path orig j hdr :
  request v flt_on fmatch host port path orig j = Some hdr ->
  hdr = orig \/ exists l, hdr = Some (format_cookie_header l) /\ flt_on = true /\ fmatch = true
                          /\ request_loop v host port path j = Some l.
Proof.
  unfold request. destruct flt_on; [|intros H; inversion H; auto].
  destruct fmatch.
  - destruct (request_loop v host port path j) as [[|x l]|]; intros H; inversion H; auto.
    right. exists (x :: l). auto.
  - intros H; inversion H; auto.
Qed.

(* (n, val) was set by a non-expired Set-Cookie entry of a response in h on the same port; D relates the
   responding host and the request host to the key domain, P the request path to the key path *)
Definition attached_by (D P : str -> str -> Prop) (h : list event) (host : str) (port : N) (path n : str)
  (val : option str) : Prop :=
  exists rhost cs c d cp,
    In (Resp rhost port cs) h /\ In c cs
    /\ c_name c = n /\ c_value c = val /\ c_expired c = Some false
    /\ ckey c rhost port = (Some d, port, Some cp)
    /\ D rhost d /\ D host d /\ P path cp.

(* for any variant: D and P are whatever its domain and path tests guarantee *)
Theorem attached_sound v (D P : str -> str -> Prop) :
  (forall a b, domain_match v a b = true -> D a b) -> (forall t cp, path_match v t cp = true -> P t cp) ->
  forall flt_on h host port path l n val,
  request_loop v host port path (run v flt_on h) = Some l -> In (n, val) l ->
  attached_by D P h host port path n val.
Proof.
  intros HD HP flt_on h host port path l n val Hl Hin.
  destruct (request_loop_in _ _ _ _ _ _ _ _ Hl Hin) as (d & cp & Hhas & Hd & Hp).
  unfold run in Hhas. apply run_has in Hhas as [(dd & [] & _) | (rhost & rport & cs & c & H1 & H2 & _ & Ha)].
  pose proof (cookie_action_spec v rhost rport c) as S. rewrite Ha in S.
  destruct S as (d' & q & Hk & Hck & Hdm & He & Hn & Hv).
  inversion Hk; subst. exists rhost, cs, c, d', cp. auto 12.
Qed.

Theorem header_sound v (D P : str -> str -> Prop) :
  (forall a b, domain_match v a b = true -> D a b) -> (forall t cp, path_match v t cp = true -> P t cp) ->
  forall flt_on fmatch h host port path orig hdr,
  request v flt_on fmatch host port path orig (run v flt_on h) = Some hdr ->
  hdr = orig \/
  exists l, hdr = Some (format_cookie_header l) /\ flt_on = true /\ fmatch = true /\
    forall n val, In (n, val) l -> attached_by D P h host port path n val.
Proof.
  intros HD HP flt_on fmatch h host port path orig hdr H.
  apply request_header in H as [H | (l & H1 & H3 & H4 & H5)]; [left; exact H|].
  right. exists l. repeat (split; [assumption|]). intros n val Hin.
  exact (attached_sound v D P HD HP _ _ _ _ _ _ _ _ H5 Hin).
Qed.

(* variant Orig: the same conclusion outside the three findings *)
Definition no_dom_finding (a b : str) : Prop :=
  dom_inner_substring a b = false /\ dom_extra_dots a b = false.
Definition no_path_finding (t cp : str) : Prop := path_segment_boundary t cp = true.

Lemma domain_match_orig_partial a b :
  domain_match_orig a b = true -> no_dom_finding a b -> rfc_domain_match (lower a) (rfc_cookie_domain b).
Proof.
  intros H [G1 G2]. apply domain_match_orig_decompose in H as [H|[H|H]]; [|congruence|congruence].
  apply domain_match_fixed_rfc, H.
Qed.

Lemma path_match_orig_rfc t cp :
  path_match Orig t cp = true -> no_path_finding t cp -> exists u, uri_path_of u t /\ rfc_path_match u cp.
Proof. intros H G. apply path_match_fixed_rfc, path_match_orig_fixed; assumption. Qed.

Lemma not_rfc_domain_match s d :
  bytes_eqb s d = false -> ends_with (DOT :: d) s = false -> ~ rfc_domain_match s d.
Proof.
  intros H1 H2 [H | [[n Hn] _]].
  - subst. rewrite bytes_eqb_refl in H1. discriminate.
  - subst s. rewrite ends_with_complete in H2. discriminate.
Qed.

Definition s_example_com : str := [x65;x78;x61;x6d;x70;x6c;x65;x2e;x63;x6f;x6d].
Definition s_www : str := [x77;x77;x77;x2e] ++ s_example_com.
Definition s_evil_host : str := [x61;x2e] ++ s_example_com ++ [x2e;x65;x76;x69;x6c;x2e;x6f;x72;x67].
Definition s_sid : str := [x73;x69;x64].
Definition s_foo : str := [x2f;x66;x6f;x6f].
Definition s_foobar : str := s_foo ++ [x62;x61;x72].
Definition refute_cookie (path : option (option str)) : cookie :=
  Cookie s_sid (Some [x31]) (Some (Some (DOT :: s_example_com))) path (Some false).
(* www.example.com:80 sets sid=1; Domain=.example.com -- then a request to a.example.com.evil.org:80 *)
Definition refute_history_dom : list event :=
  [Resp ([x77;x77;x77;x2e] ++ s_example_com) 80 [refute_cookie None]].
(* the same cookie with Path=/foo -- then a request for /foobar *)
Definition refute_history_path : list event :=
  [Resp ([x77;x77;x77;x2e] ++ s_example_com) 80 [refute_cookie (Some (Some s_foo))]].

Theorem orig_refuted_path :
  exists l, request_loop Orig s_www 80 s_foobar (run Orig true refute_history_path) = Some l
    /\ In (s_sid, Some [x31]) l
    /\ forall d cp, jar_has (run Orig true refute_history_path) (d, 80%N, Some cp) s_sid (Some [x31]) ->
         forall u, uri_path_of u s_foobar -> ~ rfc_path_match u cp.
Proof.
  exists [(s_sid, Some [x31])]. split; [vm_compute; reflexivity|]. split; [left; reflexivity|].
  intros d cp (dd & Hin & _). vm_compute in Hin. destruct Hin as [Hin|[]]. inversion Hin; subst. clear Hin.
  intros u [Hq [Hu | [q Hu]]].
  - subst u. intros [H | (rest & H & Hne & [[p Hp] | [r Hr]])].
    + vm_compute in H. discriminate.
    + apply (f_equal (@rev byte)) in Hp. rewrite rev_app_distr in Hp. vm_compute in Hp. discriminate.
    + subst rest. vm_compute in H. discriminate.
  - exfalso. assert (Hi : In QMARK s_foobar) by (rewrite Hu; apply in_or_app; right; left; reflexivity).
    vm_compute in Hi. repeat (destruct Hi as [Hi|Hi]; [discriminate|]). exact Hi.
Qed.

(* an entry whose key domain is not D-related to the responding host does nothing, whatever D the
   variant's domain test guarantees *)
Lemma foreign_cookie_ignored v (D : str -> str -> Prop) :
  (forall a b, domain_match v a b = true -> D a b) ->
  forall host port c d q,
  ckey c host port = (Some d, port, q) -> ~ D host d -> cookie_action v host port c = ASkip.
Proof.
  intros HD host port c d q Hk Hn. unfold cookie_action. rewrite Hk.
  destruct (domain_match v host d) eqn:E; [destruct (Hn (HD _ _ E)) | reflexivity].
Qed.

Lemma response_loop_skip v host port cs : forall j,
  (forall c, In c cs -> cookie_action v host port c = ASkip) ->
  response_loop v host port cs j = (j, true).
Proof.
  induction cs as [|c cs IH]; intros j H; simpl; [reflexivity|].
  rewrite (H c (or_introl eq_refl)). simpl. apply IH. intros c' Hc'. apply H. right; exact Hc'.
Qed.

Theorem foreign_response_ignored v (D : str -> str -> Prop) :
  (forall a b, domain_match v a b = true -> D a b) ->
  forall flt_on host port cs j,
  (forall c, In c cs -> exists d q, ckey c host port = (Some d, port, q) /\ ~ D host d) ->
  response v flt_on host port cs j = (j, true).
Proof.
  intros HD flt_on host port cs j H. unfold response. destruct flt_on; [|reflexivity].
  apply response_loop_skip. intros c Hc. destruct (H c Hc) as (d & q & Hk & Hn).
  exact (foreign_cookie_ignored v D HD _ _ _ d q Hk Hn).
Qed.

(* jar keys are distinct, and so are the names within each entry *)
Definition wf (j : jar) : Prop :=
  NoDup (map fst j) /\ Forall (fun e => NoDup (map fst (snd e))) j.

Lemma dict_set_keys {V} n (v : V) d m :
  In m (map fst (dict_set n v d)) -> m = n \/ In m (map fst d).
Proof.
  intro H. apply in_map_iff in H as [[m' w] [<- H]].
  apply dict_set_in in H as [E|H]; [left; injection E as E _; exact E | right; exact (in_map fst _ _ H)].
Qed.

Lemma dict_set_nodup {V} n (v : V) d : NoDup (map fst d) -> NoDup (map fst (dict_set n v d)).
Proof.
  induction d as [|[m' w'] d IH]; simpl; intros H.
  - constructor; [intros []|constructor].
  - inversion H; subst. destruct (bytes_eqb n m') eqn:E; simpl; [constructor; assumption|].
    constructor; [|auto]. intros Hin. apply dict_set_keys in Hin as [Hin|Hin]; [|contradiction].
    subst. rewrite bytes_eqb_refl in E. discriminate.
Qed.

Lemma dict_pop_keys {V} n (d : list (str * V)) m : In m (map fst (dict_pop n d)) -> In m (map fst d).
Proof. intro H. apply in_map_iff in H as [x [<- H]]. exact (in_map fst _ _ (dict_pop_in _ _ _ H)). Qed.

Lemma dict_pop_nodup {V} n (d : list (str * V)) :
  NoDup (map fst d) -> NoDup (map fst (dict_pop n d)) /\ ~ In n (map fst (dict_pop n d)).
Proof.
  induction d as [|[m' w'] d IH]; simpl; intros H.
  - split; [constructor | intros []].
  - inversion H; subst. destruct (IH H3) as [I1 I2]. destruct (bytes_eqb n m') eqn:E.
    + apply bytes_eqb_eq in E; subst. auto.
    + simpl. split.
      * constructor; [|exact I1]. intros Hin. apply dict_pop_keys in Hin. contradiction.
      * intros [Hm|Hm]; [subst; rewrite bytes_eqb_refl in E; discriminate | contradiction].
Qed.

Lemma jar_set_keys k n v j k' : In k' (map fst (jar_set k n v j)) -> k' = k \/ In k' (map fst j).
Proof.
  induction j as [|[k0 d0] j IH]; simpl.
  - intros [H|[]]; auto.
  - destruct (key_eqb k k0); simpl; [auto|]. intros [H|H]; [auto|]. destruct (IH H); auto.
Qed.

Lemma jar_del_keys k n j k' : In k' (map fst (jar_del k n j)) -> In k' (map fst j).
Proof.
  induction j as [|[k0 d0] j IH]; simpl; [tauto|].
  destruct (key_eqb k k0); simpl.
  - destruct (dict_pop n d0); simpl; tauto.
  - intros [H|H]; auto.
Qed.

Lemma wf_cons k d j : wf ((k, d) :: j) <-> ~ In k (map fst j) /\ NoDup (map fst d) /\ wf j.
Proof. unfold wf. simpl. rewrite NoDup_cons_iff, Forall_cons_iff. simpl. tauto. Qed.

Lemma jar_set_wf k n v j : wf j -> wf (jar_set k n v j).
Proof.
  induction j as [|[k0 d0] j IH]; simpl; intro H.
  - apply wf_cons. split; [intros []|]. split; [exact (dict_set_nodup n v [] (NoDup_nil _)) | exact H].
  - apply wf_cons in H. destruct H as (Hk & Hd & Hj). destruct (key_eqb k k0) eqn:E; apply wf_cons.
    + split; [exact Hk|]. split; [apply dict_set_nodup, Hd | exact Hj].
    + split; [|split; [exact Hd | exact (IH Hj)]].
      intro Hin. apply jar_set_keys in Hin as [->|Hin]; [|contradiction]. apply key_eqb_neq in E. congruence.
Qed.

Lemma jar_del_spec k n j : wf j -> wf (jar_del k n j) /\ forall val, ~ jar_has (jar_del k n j) k n val.
Proof.
  induction j as [|[k0 d0] j IH]; simpl; intro H; [split; [exact H | intros val (d & [] & _)]|].
  apply wf_cons in H. destruct H as (Hk & Hd & Hj). destruct (IH Hj) as [IW IG].
  destruct (key_eqb k k0) eqn:E.
  - apply key_eqb_eq in E; subst k0.
    assert (Hno : forall val, ~ jar_has j k n val) by (intros val (d & Hin & _); exact (Hk (in_map fst _ _ Hin))).
    destruct (dict_pop_nodup n d0 Hd) as [Pn Pg].
    destruct (dict_pop n d0) as [|x d1]; [split; assumption|]. split; [apply wf_cons; auto|].
    intro val. rewrite jar_has_cons. intros [[_ Hn]|Hn]; [exact (Pg (in_map fst _ _ Hn)) | exact (Hno val Hn)].
  - split.
    + apply wf_cons. split; [|split; [exact Hd | exact IW]]. intro Hin. exact (Hk (jar_del_keys _ _ _ _ Hin)).
    + intro val. rewrite jar_has_cons. intros [[Ek _]|Hn]; [|exact (IG val Hn)]. apply key_eqb_neq in E. congruence.
Qed.

Lemma apply_action_wf j a : wf j -> wf (apply_action j a).
Proof. intro H. destruct a; simpl; [apply jar_set_wf, H | apply jar_del_spec, H | exact H | exact H]. Qed.

Lemma response_loop_wf v host port cs : forall j, wf j -> wf (fst (response_loop v host port cs j)).
Proof.
  induction cs as [|c cs IH]; intros j H; [exact H|].
  destruct (response_loop_cons v host port c cs j) as [-> | ->]; [exact H | apply IH, apply_action_wf, H].
Qed.

Lemma run_wf v flt_on h : wf (run v flt_on h).
Proof.
  unfold run. induction h as [|e h IH] using rev_ind; [split; constructor|].
  rewrite fold_left_app. destruct e; simpl; [|exact IH]. unfold response. destruct flt_on; [|exact IH].
  apply response_loop_wf, IH.
Qed.

Lemma response_loop_app v host port cs1 cs2 j :
  response_loop v host port (cs1 ++ cs2) j =
  let '(j1, ok) := response_loop v host port cs1 j in
  if ok then response_loop v host port cs2 j1 else (j1, false).
Proof.
  revert j; induction cs1 as [|c cs1 IH]; intros j; simpl; [reflexivity|].
  destruct (cookie_action v host port c); simpl; auto.
Qed.

(* the deletion leaves no binding in a well-formed jar, and nothing after it sets one *)
Theorem expired_removed_from v host port cs1 c cs2 k n j :
  wf j -> cookie_action v host port c = ADel k n ->
  (forall c' val, In c' cs2 -> cookie_action v host port c' <> ASet k n val) ->
  snd (response_loop v host port (cs1 ++ c :: cs2) j) = true ->
  forall val, ~ jar_has (fst (response_loop v host port (cs1 ++ c :: cs2) j)) k n val.
Proof.
  intros W Hc Hno Hok val. rewrite response_loop_app in *.
  pose proof (response_loop_wf v host port cs1 j W) as W1.
  destruct (response_loop v host port cs1 j) as [j1 [|]]; [|discriminate].
  simpl in *. rewrite Hc in *. simpl in *.
  intros Hhas. apply response_loop_has in Hhas as [Hhas | (c' & Hin & Hset)].
  - exact (proj2 (jar_del_spec k n j1 W1) val Hhas).
  - exact (Hno c' val Hin Hset).
Qed.

Definition nv_history : list event :=
  [Resp s_www 80 [refute_cookie (Some (Some s_foo))];
   Req s_www 80 s_foo true None;
   Resp s_www 80 [Cookie [x61] (Some [x32]) None None (Some false)]].

Theorem fixed_host_only flt_on h host port path l n val :
  request_loop Fixed host port path (run Fixed flt_on h) = Some l -> In (n, val) l ->
  (forall rhost p cs c, In (Resp rhost p cs) h -> In c cs -> c_domain c = None /\ first_is DOT (lower rhost) = false) ->
  exists rhost cs, In (Resp rhost port cs) h /\ lower rhost = lower host.
Proof.
  intros Hl Hin Hall.
  destruct (attached_sound Fixed (fun a b => domain_match_fixed a b = true) (fun _ _ => True)
              (fun _ _ H => H) (fun _ _ _ => I) _ _ _ _ _ _ _ _ Hl Hin)
    as (rhost & cs & c & d & cp & H1 & H2 & _ & _ & _ & H6 & _ & H8 & _).
  destruct (Hall _ _ _ _ H1 H2) as [Hd Hf]. exists rhost, cs. split; [exact H1|].
  unfold ckey in H6. rewrite Hd in H6. inversion H6; subst d.
  symmetry. exact (domain_match_fixed_nodot _ _ H8 Hf).
Qed.
