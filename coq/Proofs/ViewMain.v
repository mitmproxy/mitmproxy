(* Proofs/ViewMain.v -- histories: induction over operation sequences, the user-level statements of C43,
   and one concrete history (marked-only mode, a re-sorted flow, reversal) for the non-vacuity statement. *)
From Coq Require Import List Bool Arith NArith ZArith Lia Permutation Sorted.
From MV Require Import Base.Bytes Model.View Proofs.ViewBase Proofs.ViewSpec Proofs.ViewPrim Proofs.ViewOps
  Proofs.ViewSteps.
Import ListNotations.

Lemma Inv_init : Inv init.
Proof.
  constructor.
  - constructor; simpl; [constructor | apply ksorted_nil | intros k id [] | constructor].
  - intros id [].
  - reflexivity.
  - intros id. simpl. tauto.
  - intros k id [].
Qed.

Lemma step_ok o s : Inv s -> exists s', step o s = Ok s' /\ post s s'.
Proof.
  intros I.
  assert (I0 : Inv (set_log [] s)).
  { apply (Inv_same s); [constructor| | |apply (i_focus _ I) | exact I]; reflexivity. }
  pose proof (do_op_ok o (set_log [] s) I0 eq_refl) as P. unfold step.
  destruct (do_op o (set_log [] s)) as [[[] s']|e]; [exists s'; split; [reflexivity | exact P] | destruct P].
Qed.

Lemma run_ok ops : forall s, Inv s -> exists s', run ops s = Ok s' /\ Inv s'.
Proof.
  induction ops as [|o t IH]; intros s I; simpl.
  - exists s. auto.
  - destruct (step_ok o s I) as (s1 & E & P). rewrite E. apply IH. apply P.
Qed.

Definition key_of (s : state) (id : N) : N := generate (okey s) (attr s id).
Definition in_order (s : state) (a b : N) : Prop := if reversed s then (b <= a)%N else (a <= b)%N.
(* list(view) is ordered by the current key of the selected order, descending when reversed *)
Definition view_sorted (s : state) : Prop := StronglySorted (in_order s) (map (key_of s) (visible s)).
(* list(view) is ordered by the keys the view has cached for the selected order *)
Definition view_sorted_cached (s : state) : Prop :=
  exists kv : list (N * N), map snd kv = visible s /\ StronglySorted (in_order s) (map fst kv)
  /\ forall k id, In (k, id) kv -> cache_of s id (okey s) = Some k.

Lemma In_visible s id : In id (visible s) <-> In id (raw_ids s).
Proof. unfold visible. destruct (reversed s); [symmetry; apply in_rev | tauto]. Qed.
Lemma NoDup_visible s : NoDup (raw_ids s) -> NoDup (visible s).
Proof. unfold visible. destruct (reversed s); [apply NoDup_rev | auto]. Qed.

Lemma sorted_cached_of_core s : CoreV s -> view_sorted_cached s.
Proof.
  intros C. unfold view_sorted_cached, visible, in_order, raw_ids. destruct (reversed s).
  - exists (rev (view s)). split; [apply map_rev|]. split.
    + rewrite map_rev. apply (StronglySorted_rev N.le), (c_sorted _ C).
    + intros k id H. apply in_rev in H. apply (c_cached _ C _ _ H).
  - exists (view s). split; [reflexivity|]. split; [apply (c_sorted _ C)|].
    intros k id H. apply (c_cached _ C _ _ H).
Qed.

Lemma sorted_of_fresh s : CoreV s -> FreshV s -> view_sorted s.
Proof.
  intros C Fr. unfold view_sorted, visible, in_order. pose proof (c_sorted _ C) as S. unfold ksorted in S.
  replace (keys (view s)) with (map (key_of s) (raw_ids s)) in S.
  2:{ unfold keys, raw_ids. rewrite map_map. symmetry. apply map_ext_in. intros [k id] H. apply (Fr k id H). }
  destruct (reversed s).
  - rewrite map_rev. apply (StronglySorted_rev N.le). exact S.
  - exact S.
Qed.

Lemma always_inv ops : exists s, run ops init = Ok s /\ Inv s.
Proof. apply run_ok, Inv_init. Qed.

Lemma inv_of_run ops s : run ops init = Ok s -> Inv s.
Proof. intros H. destruct (always_inv ops) as (s' & E & I). rewrite E in H. inversion H; subst. exact I. Qed.

Lemma no_exception : forall ops, exists s, run ops init = Ok s.
Proof. intros ops. destruct (always_inv ops) as (s & E & _). eauto. Qed.

Lemma view_bounds : forall ops s, run ops init = Ok s ->
  NoDup (visible s)
  /\ (forall id, In id (visible s) -> In id (store s) /\ fmatches (filt s) (attr s id) = true)
  /\ (forall id, In id (store s) -> wanted s id = true -> In id (visible s))
  /\ view_sorted_cached s.
Proof.
  intros ops s H. apply inv_of_run in H. destruct H as [C _ _ Sh _].
  split; [apply NoDup_visible, (c_nodup _ C)|]. split; [|split].
  - intros id Hin. apply In_visible, Sh in Hin as [Hs Hw]. split; [exact Hs|].
    unfold wanted in Hw. apply andb_true_iff in Hw. apply Hw.
  - intros id Hs Hw. apply In_visible, Sh. auto.
  - apply sorted_cached_of_core, C.
Qed.

Lemma view_exact : forall ops s, run ops init = Ok s ->
  Permutation (visible s) (filter (wanted s) (store s)).
Proof.
  intros ops s H. apply inv_of_run in H. destruct H as [C _ _ Sh _].
  apply NoDup_Permutation; [apply NoDup_visible, (c_nodup _ C) | apply NoDup_filter, (c_store _ C)|].
  intros id. rewrite In_visible, filter_In. apply Sh.
Qed.

Lemma view_sorted_always : forall ops s, run ops init = Ok s -> view_sorted s.
Proof. intros ops s H. apply inv_of_run in H. apply sorted_of_fresh; apply H. Qed.

Lemma focus_in_view : forall ops s, run ops init = Ok s ->
  (forall f, focus s = Some f -> In f (visible s)) /\ (focus s = None <-> visible s = []).
Proof.
  intros ops s H. apply inv_of_run in H. pose proof (i_focus _ H) as F. unfold FocusOk in F.
  destruct (focus s) as [g|].
  - apply In_visible in F. split; [intros f [= <-]; exact F|]. split; [discriminate|].
    intros H0. rewrite H0 in F. destruct F.
  - split; [discriminate|]. split; [intros _ | reflexivity].
    unfold visible, raw_ids. rewrite F. destruct (reversed s); reflexivity.
Qed.

Lemma settings_only_stored : forall ops s id, run ops init = Ok s -> In id (settings_ids s) -> In id (store s).
Proof. intros ops s id H. apply inv_of_run in H. apply (i_sids _ H). Qed.

Lemma signals_match : forall ops s o s', run ops init = Ok s -> step o s = Ok s' ->
  notif (raw_ids s) (log s') (raw_ids s').
Proof.
  intros ops s o s' H E. apply inv_of_run in H. destruct (step_ok o s H) as (s1 & E1 & P).
  rewrite E in E1. inversion E1; subst. apply P.
Qed.

(* id, time key, size key, marked; method and url keys are 0 *)
Definition fl (id t z : N) (mk : bool) : flow := mkFlow id t 0 0 z [] mk.

Definition hist_good : list op :=
  [Add (fl 0 1 2 true); Add (fl 1 2 1 true); SetOrder OSize; ToggleMarked; Update (fl 0 1 0 true); SetReversed true].
Lemma good_history : exists s, run hist_good init = Ok s
  /\ visible s = [1%N; 0%N] /\ show_marked s = true /\ focus s = Some 0%N /\ key_of s 1%N = 1%N /\ key_of s 0%N = 0%N.
Proof. eexists. split; [vm_compute; reflexivity|]. vm_compute. repeat split; reflexivity. Qed.
