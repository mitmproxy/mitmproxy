(* Proofs/WebAuth.v -- lemmas about Model/WebAuth.v, first for an arbitrary route table that
   passes boolean well-formedness checks, then for the generated table Gen.WebRoutes.mitmweb
   (the checks are decided by vm_compute on the finite table). *)
From Coq Require Import List Bool NArith Lia.
From MV Require Import Base.Bytes Model.WebAuth Gen.WebRoutes Proofs.EqbIff.
Import ListNotations.

(* the request carries neither a valid session cookie nor a valid password/token *)
Definition creds_invalid (av : bytes -> bytes -> bool) (stored : bytes) (q : request) : Prop :=
  current_user q = false /\
  forall pw, effective_password q = Some pw -> is_valid_password av stored pw = false.

Definition creds_valid (av : bytes -> bytes -> bool) (stored : bytes) (q : request) : Prop :=
  current_user q = true \/
  exists pw, effective_password q = Some pw /\ is_valid_password av stored pw = true.

(* the route the request resolves to is not one of tornado's static file rules *)
Definition not_static (a : app) (q : request) : Prop :=
  match lookup_route a q with Some (_, r) => rt_kind r = Mitm | None => True end.

(* the method is implemented by the matched handler class *)
Definition implemented (a : app) (q : request) : Prop :=
  exists i r n, lookup_route a q = Some (i, r) /\ assoc_meth (q_meth q) (rt_methods r) = Some (Some n).

Definition s_same_origin : bytes := [x73;x61;x6d;x65;x2d;x6f;x72;x69;x67;x69;x6e].
Definition s_none : bytes := [x6e;x6f;x6e;x65].

(* the browser marks the request as not same-origin and not user-initiated *)
Definition cross_site (q : request) : Prop :=
  exists v, q_sfs q = Some v /\ v <> s_same_origin /\ v <> s_none.

(* outcome [out] leaves the state alone, sets no auth cookie, carries no handler data *)
Definition refused {St D : Type} (s : St) (out : St * response D) : Prop :=
  fst out = s /\ rs_cookie (snd out) = false /\ (forall d, rs_body (snd out) <> BInner d).

Definition method_wrapped (e : meth * option nat) : bool :=
  match snd e with Some O => false | _ => true end.

Definition route_wrapped (r : route) : bool :=
  match rt_kind r with Mitm => forallb method_wrapped (rt_methods r) | Static => true end.

Definition app_wrapped (a : app) : bool := forallb route_wrapped (a_routes a).

(* every implemented unsafe method sits behind the Sec-Fetch-Site prepare *)
Definition method_guarded (r : route) (e : meth * option nat) : bool :=
  match e with
  | (m, Some _) => tornado_safe m || match rt_prep r with PrepSfs => true | _ => false end
  | (_, None) => true
  end.

Definition route_guarded (r : route) : bool :=
  rt_xsrf r && forallb (method_guarded r) (rt_methods r).

Definition app_guarded (a : app) : bool :=
  a_xsrf_cookies a
  && forallb route_guarded (a_routes a)
  && forallb tornado_safe (a_safe a)
  && list_eqb bytes_eqb (a_sfs_allowed a) [s_same_origin; s_none].

Lemma meth_eqb_eq a b : meth_eqb a b = true -> a = b.
Proof. destruct a, b; simpl; intro H; try reflexivity; discriminate H. Qed.

Lemma assoc_meth_In m l v : assoc_meth m l = Some v -> In (m, v) l.
Proof.
  induction l as [|[m' v'] l IH]; simpl; intro H; [discriminate|].
  destruct (meth_eqb m m') eqn:E.
  - apply meth_eqb_eq in E. injection H as ->. subst. now left.
  - right. now apply IH.
Qed.

Lemma lookup_route_In a q i r : lookup_route a q = Some (i, r) -> In r (a_routes a).
Proof.
  unfold lookup_route. destruct (q_route q) as [j|]; [|discriminate].
  destruct (nth_error (a_routes a) j) as [r'|] eqn:E; [|discriminate].
  intro H. injection H as _ ->. eapply nth_error_In; eauto.
Qed.

Lemma wrapped_positive a r m n :
  app_wrapped a = true -> In r (a_routes a) -> rt_kind r = Mitm -> In (m, Some n) (rt_methods r) ->
  (1 <= n)%nat.
Proof.
  intros HW Hr HK Hin.
  unfold app_wrapped in HW. rewrite forallb_forall in HW. specialize (HW _ Hr).
  unfold route_wrapped in HW. rewrite HK in HW. rewrite forallb_forall in HW.
  specialize (HW _ Hin). unfold method_wrapped in HW. simpl in HW.
  destruct n; [discriminate | lia].
Qed.

Section Auth.
  Variable D : Type.
  Variable av : bytes -> bytes -> bool.
  Variable stored : bytes.

  (* the outermost wrapper stops an unauthenticated request: 403, or 400 when a token argument is not UTF-8 *)
  Lemma wrapped_call_invalid k r q :
    creds_invalid av stored q ->
    exists st b, wrapped_call D av stored (S k) r q = Stop st b false
                 /\ (st = 403 \/ st = 400)%N /\ (forall d, b <> BInner d)
                 /\ (decode_all (q_token q) <> None -> st = 403%N).
  Proof.
    intros [HC HP]. simpl. unfold require_auth. rewrite HC.
    destruct (effective_password q) as [pw|] eqn:E.
    - rewrite (HP pw eq_refl).
      eexists _, _. split; [reflexivity|]. split; [now left|]. split; [|reflexivity].
      intro d. destruct (rt_login r); discriminate.
    - eexists _, _. split; [reflexivity|]. split; [now right|]. split; [discriminate|].
      intro Hdec. exfalso.
      unfold effective_password in E.
      destruct (nonempty _) in E; [discriminate|].
      unfold get_argument_token in E. destruct (decode_all (q_token q)); [discriminate|].
      now apply Hdec.
  Qed.

  Lemma wrapped_call_valid n r q :
    creds_valid av stored q -> exists c, wrapped_call D av stored n r q = Pass c.
  Proof.
    intro H. induction n as [|k [c IH]]; simpl; [now exists false|].
    assert (E : exists c0, require_auth D av stored r q = Pass c0).
    { unfold require_auth. destruct H as [H|(pw & E & V)].
      - rewrite H. now exists false.
      - destruct (current_user q); [now exists false|]. rewrite E, V. now exists true. }
    destruct E as [c0 E]. rewrite E, IH. now eexists.
  Qed.
End Auth.

(* what is claimed of the response [rs] to a request without valid credentials: no auth cookie,
   nothing a handler body wrote, a refusal status; with an implemented method and decodable token
   arguments the status is 403 (or what prepare raises) *)
Definition unauth_ok {D : Type} (a : app) (q : request) (rs : response D) : Prop :=
  rs_cookie rs = false /\ (forall d, rs_body rs <> BInner d)
  /\ (rs_status rs = 400 \/ rs_status rs = 403 \/ rs_status rs = 404 \/ rs_status rs = 405
      \/ rs_status rs = a_sfs_status a)%N
  /\ (implemented a q -> decode_all (q_token q) <> None ->
      rs_status rs = 403%N \/ rs_status rs = a_sfs_status a).

(* Such a request never reaches a handler body: the answer is one fixed response, whatever the
   server state and the handler bodies are. *)
Lemma unauth_response (D : Type) av stored a q :
  app_wrapped a = true -> not_static a q -> creds_invalid av stored q ->
  exists rs : response D,
    (forall St inner (s : St), handle St D inner av stored a s q = (s, rs)) /\ unauth_ok a q rs.
Proof.
  intros HW HS HC. unfold handle, not_static in *.
  assert (R : forall st : N,
            (st = 400 \/ st = 403 \/ st = 404 \/ st = 405 \/ st = a_sfs_status a)%N ->
            (implemented a q -> st = 403%N \/ st = a_sfs_status a) ->
            @unauth_ok D a q (Build_response st BError false)).
  { intros st U I. unfold unauth_ok. simpl. repeat split; auto. discriminate. }
  destruct (lookup_route a q) as [[i r]|] eqn:L.
  2:{ eexists. split; [reflexivity|]. apply R.
      - destruct (meth_eqb (q_meth q) OTHER); auto.
      - intros (i & r & n & L2 & _). congruence. }
  destruct (assoc_meth (q_meth q) (rt_methods r)) as [impl|] eqn:A.
  2:{ eexists. split; [reflexivity|]. apply R; [auto|]. intros (i2 & r2 & n & L2 & A2). congruence. }
  destruct (negb (tornado_safe (q_meth q)) && a_xsrf_cookies a && rt_xsrf r && negb (q_xsrf_ok q)).
  { eexists. split; [reflexivity|]. apply R; auto. }
  destruct (prepare_refuses a r q).
  { eexists. split; [reflexivity|]. apply R; auto 6. }
  destruct impl as [n|].
  2:{ eexists. split; [reflexivity|]. apply R; [auto|]. intros (i2 & r2 & n & L2 & A2). congruence. }
  pose proof (wrapped_positive a r _ n HW (lookup_route_In _ _ _ _ L) HS (assoc_meth_In _ _ _ A)) as Hn.
  destruct n as [|k]; [inversion Hn|].
  destruct (wrapped_call_invalid D av stored k r q HC) as (st & b & E & Hst & Hb & H403).
  rewrite E. eexists. split; [reflexivity|]. unfold unauth_ok. simpl. repeat split; auto.
  destruct Hst as [-> | ->]; auto.
Qed.

Section Pipeline.
  Variable St D : Type.
  Variable inner : nat -> meth -> St -> request -> St * (N * D).
  Variable av : bytes -> bytes -> bool.
  Variable stored : bytes.
  Variable a : app.

  Lemma refuse_refused s st : refused s (refuse St D s st).
  Proof. unfold refused, refuse; simpl. repeat split. discriminate. Qed.

  Lemma mem_bytes_allowed v :
    list_eqb bytes_eqb (a_sfs_allowed a) [s_same_origin; s_none] = true ->
    v <> s_same_origin -> v <> s_none -> mem_bytes v (a_sfs_allowed a) = false.
  Proof.
    intros HL H1 H2.
    assert (E : a_sfs_allowed a = [s_same_origin; s_none]) by (apply (list_eqb_eq _ bytes_eqb_eq), HL).
    rewrite E. unfold mem_bytes; simpl.
    destruct (bytes_eqb v s_same_origin) eqn:E1; [apply bytes_eqb_eq in E1; contradiction|].
    destruct (bytes_eqb v s_none) eqn:E2; [apply bytes_eqb_eq in E2; contradiction|].
    reflexivity.
  Qed.

  Lemma mem_safe_false m :
    forallb tornado_safe (a_safe a) = true -> tornado_safe m = false -> mem_meth m (a_safe a) = false.
  Proof.
    intros HF HM. unfold mem_meth. rewrite forallb_forall in HF.
    destruct (existsb (meth_eqb m) (a_safe a)) eqn:E; [|reflexivity].
    apply existsb_exists in E as (m' & Hin & Heq). apply meth_eqb_eq in Heq. subst m'.
    rewrite (HF _ Hin) in HM. discriminate.
  Qed.

  Lemma unsafe_refused_gen s q :
    app_guarded a = true -> tornado_safe (q_meth q) = false ->
    (q_xsrf_ok q = false \/ cross_site q) ->
    refused s (handle St D inner av stored a s q).
  Proof.
    intros HG HM HX. unfold handle.
    unfold app_guarded in HG. apply andb_prop in HG as [HG Hallow].
    apply andb_prop in HG as [HG Hsafe]. apply andb_prop in HG as [Hxc Hroutes].
    destruct (lookup_route a q) as [[i r]|] eqn:L; [|apply refuse_refused].
    destruct (assoc_meth (q_meth q) (rt_methods r)) as [impl|] eqn:A; [|apply refuse_refused].
    rewrite forallb_forall in Hroutes. specialize (Hroutes _ (lookup_route_In _ _ _ _ L)).
    unfold route_guarded in Hroutes. apply andb_prop in Hroutes as [Hrx Hms].
    rewrite HM, Hxc, Hrx. simpl.
    destruct (q_xsrf_ok q) eqn:X; simpl; [|apply refuse_refused].
    destruct HX as [HX|(v & Hv & N1 & N2)]; [discriminate|].
    destruct impl as [n|].
    2:{ destruct (prepare_refuses a r q); apply refuse_refused. }
    rewrite forallb_forall in Hms. specialize (Hms _ (assoc_meth_In _ _ _ A)).
    simpl in Hms. rewrite HM in Hms. simpl in Hms.
    unfold prepare_refuses. destruct (rt_prep r); try discriminate.
    rewrite Hv, (mem_safe_false _ Hsafe HM), (mem_bytes_allowed v Hallow N1 N2). simpl.
    apply refuse_refused.
  Qed.

  Lemma valid_admitted_gen s q :
    implemented a q -> tornado_safe (q_meth q) = true ->
    (forall m, tornado_safe m = true -> mem_meth m (a_safe a) = true) ->
    creds_valid av stored q ->
    exists d, rs_body (snd (handle St D inner av stored a s q)) = BInner d.
  Proof.
    intros (i & r & n & L & A) HM Hsafe HV. unfold handle. rewrite L, A, HM. simpl.
    assert (P : prepare_refuses a r q = false).
    { unfold prepare_refuses. destruct (rt_prep r); try reflexivity.
      rewrite (Hsafe _ HM). reflexivity. }
    rewrite P.
    destruct (wrapped_call_valid D av stored n r q HV) as [c E]. rewrite E.
    destruct (inner i (q_meth q) s q) as [s' [st d]]. simpl. now exists d.
  Qed.
End Pipeline.

Lemma mitmweb_wrapped : app_wrapped mitmweb = true.
Proof. vm_compute. reflexivity. Qed.

Lemma mitmweb_guarded : app_guarded mitmweb = true.
Proof. vm_compute. reflexivity. Qed.

Lemma mitmweb_sfs_status : a_sfs_status mitmweb = 403%N.
Proof. vm_compute. reflexivity. Qed.

Lemma mitmweb_safe_complete : forall m, tornado_safe m = true -> mem_meth m (a_safe mitmweb) = true.
Proof. intros m; destruct m; simpl; intro E; try discriminate E; vm_compute; reflexivity. Qed.

(* the table also contains tornado static file rules, which are not wrapped *)
Definition has_unwrapped (a : app) : bool :=
  existsb (fun r => existsb (fun e => match snd e with Some O => true | _ => false end) (rt_methods r)) (a_routes a).

Lemma all_wrapped_refuted :
  exists r m, In r (a_routes mitmweb) /\ In (m, Some O) (rt_methods r).
Proof.
  assert (E : has_unwrapped mitmweb = true) by (vm_compute; reflexivity).
  unfold has_unwrapped in E. apply existsb_exists in E as (r & Hr & E).
  apply existsb_exists in E as ([m v] & Hin & E). simpl in E.
  destruct v as [[|n]|]; try discriminate. now exists r, m.
Qed.

(* at mitmweb the Sec-Fetch-Site refusal is a 403 like that of the wrapper *)
Lemma unauth_mitmweb (D : Type) av stored q :
  not_static mitmweb q -> creds_invalid av stored q ->
  exists rs : response D,
    (forall St inner (s : St), handle St D inner av stored mitmweb s q = (s, rs))
    /\ rs_cookie rs = false /\ (forall d, rs_body rs <> BInner d)
    /\ (rs_status rs = 400 \/ rs_status rs = 403 \/ rs_status rs = 404 \/ rs_status rs = 405)%N
    /\ (implemented mitmweb q -> decode_all (q_token q) <> None -> rs_status rs = 403%N).
Proof.
  intros HS HC.
  destruct (unauth_response D av stored mitmweb q mitmweb_wrapped HS HC) as (rs & E & C & B & U & T).
  rewrite mitmweb_sfs_status in U, T. exists rs. repeat split; auto; tauto.
Qed.

Definition secret : bytes := [x68;x75;x6e;x74;x65;x72;x32].       (* hunter2 *)
Definition no_argon (_ _ : bytes) : bool := false.
Definition unit_inner (_ : nat) (_ : meth) (s : nat) (_ : request) : nat * (N * unit) := (S s, (200%N, tt)).

(* rule 9 is Flows (GET), rule 21 is ClearAll (POST) in the generated table; the witnesses
   below are checked by computation, so a renumbering makes them fail loudly *)
Definition q_anon_flows : request := Build_request (Some 9%nat) GET None None [] false None.
Definition q_badutf8 : request := Build_request (Some 9%nat) GET None None [None] false None.
Definition q_token_flows : request := Build_request (Some 9%nat) GET None None [Some secret] false None.
Definition q_cookie_clear_cross : request :=
  Build_request (Some 21%nat) POST (Some s_y) None [] true (Some [x63;x72;x6f;x73;x73;x2d;x73;x69;x74;x65]).

Lemma creds_invalid_anon : creds_invalid no_argon secret q_anon_flows.
Proof.
  split; [reflexivity|]. intros pw E. vm_compute in E. injection E as <-. reflexivity.
Qed.

Lemma creds_invalid_badutf8 : creds_invalid no_argon secret q_badutf8.
Proof. split; [reflexivity|]. intros pw E. vm_compute in E. discriminate. Qed.

(* an undecodable token argument is refused with 400, not 403 *)
Lemma status_403_refuted :
  exists q, not_static mitmweb q /\ creds_invalid no_argon secret q /\ implemented mitmweb q /\
    rs_status (snd (handle nat unit unit_inner no_argon secret mitmweb O q)) = 400%N.
Proof.
  exists q_badutf8. split; [vm_compute; reflexivity|]. split; [exact creds_invalid_badutf8|].
  split; [|vm_compute; reflexivity].
  eexists _, _, _. split; vm_compute; reflexivity.
Qed.

Lemma nonvacuous :
  creds_invalid no_argon secret q_anon_flows /\ not_static mitmweb q_anon_flows /\ implemented mitmweb q_anon_flows
  /\ handle nat unit unit_inner no_argon secret mitmweb O q_anon_flows = (O, Build_response 403%N BEmpty false)
  /\ handle nat unit unit_inner no_argon secret mitmweb O q_token_flows = (1%nat, Build_response 200%N (BInner tt) true)
  /\ tornado_safe (q_meth q_cookie_clear_cross) = false /\ cross_site q_cookie_clear_cross
  /\ handle nat unit unit_inner no_argon secret mitmweb O q_cookie_clear_cross = (O, Build_response 403%N BError false).
Proof.
  split; [exact creds_invalid_anon|]. split; [vm_compute; reflexivity|].
  split; [eexists _, _, _; split; vm_compute; reflexivity|].
  split; [vm_compute; reflexivity|]. split; [vm_compute; reflexivity|].
  split; [reflexivity|]. split; [|vm_compute; reflexivity].
  eexists. split; [reflexivity|]. split; discriminate.
Qed.

Fixpoint config_after (hash_ok : bytes -> bool) (st : bool * bytes) (h : list step) : bool * bytes :=
  match h with
  | [] => st
  | SetPassword opt fresh :: r => config_after hash_ok (configure hash_ok st opt fresh) r
  | Request _ :: r => config_after hash_ok st r
  end.

(* the password in force after the option changes of h (requests do not matter) *)
Definition password_after (hash_ok : bytes -> bool) (st : bool * bytes) (h : list step) : bytes :=
  snd (config_after hash_ok st h).

Fixpoint requests_in (h : list step) : nat :=
  match h with
  | [] => O
  | SetPassword _ _ :: r => requests_in r
  | Request _ :: r => S (requests_in r)
  end.

Section HistoryProofs.
  Variable St D : Type.
  Variable inner : nat -> meth -> St -> request -> St * (N * D).
  Variable av : bytes -> bytes -> bool.
  Variable hash_ok : bytes -> bool.
  Variable a : app.

  Let run := run_history St D inner av hash_ok a.

  (* a request inside a history is answered with the password configured by the option changes
     before it, whatever requests (successful logins included) came earlier *)
  Lemma history_stateless h1 : forall st s q h2,
    exists s1, nth_error (run st s (h1 ++ Request q :: h2)) (requests_in h1)
               = Some (snd (handle St D inner av (password_after hash_ok st h1) a s1 q)).
  Proof.
    unfold password_after.
    induction h1 as [|[opt fresh|q0] h1 IH]; intros st s q h2; simpl.
    - exists s. reflexivity.
    - apply IH.
    - apply IH.
  Qed.
End HistoryProofs.

(* witness: log in with the old password, rotate, present the old password again (403), then the new one *)
Definition old_pw : bytes := [x6f;x6c;x64].
Definition new_pw : bytes := [x6e;x65;x77].
Definition q_with_token (pw : bytes) : request := Build_request (Some 9%nat) GET None None [Some pw] false None.
Definition rotate_history : list step :=
  [SetPassword old_pw []; Request (q_with_token old_pw); SetPassword new_pw []; Request (q_with_token old_pw); Request (q_with_token new_pw)].
