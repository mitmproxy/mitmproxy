(* Proofs/ConnLiterals.v -- a boolean sweep over a list read as a statement about its members;
   Props/C36.v uses it for the typed connection fields (Model/ConnLiterals.v). *)
From Coq Require Import List Bool.

Lemma forallb_In {A} (f : A -> bool) l : forallb f l = true -> forall x, In x l -> f x = true.
Proof. intros H x Hx. rewrite forallb_forall in H. auto. Qed.
