(* Proofs/QuicDemuxCore.v -- basic facts about the RawQuicLayer model and two induction principles:
   a state predicate that survives each atomic action of the command translation survives the nested
   event_to_child recursion for every child and every fuel (Principle); one that survives
   event_to_child and the bookkeeping around it survives every schedule of events (Schedule). *)
From Coq Require Import NArith Arith List Bool.
From MV Require Import Base.Bytes Model.QuicIdsPrelude Gen.QuicIds Model.QuicDemux Proofs.QuicIds.
Import ListNotations.
Open Scope N_scope.

Section Core.
Variable C : Type.
Variable child_step : C -> connst * connst -> cevent -> C * list ccmd.
Notation state := (state C).
Notation slayer := (slayer C).

Definition keeps_ids (f : slayer -> slayer) : Prop := forall l, cid (f l) = cid l /\ sid (f l) = sid l.

Lemma keeps_set_conn s g : keeps_ids (set_conn C s g).
Proof. intros l; destruct s; split; reflexivity. Qed.
Lemma keeps_set_cst c : keeps_ids (set_cst C c).
Proof. intros l; split; reflexivity. Qed.

Lemma nth_upd L f (ls : list slayer) L' :
  nth_error (upd_nth C L f ls) L' =
  if Nat.eqb L L' then option_map f (nth_error ls L') else nth_error ls L'.
Proof.
  revert L L'; induction ls as [|x t IH]; intros [|n] [|m]; cbn; auto; destruct (Nat.eqb n m); reflexivity.
Qed.
Lemma nth_upd_same L f (ls : list slayer) l : nth_error ls L = Some l -> nth_error (upd_nth C L f ls) L = Some (f l).
Proof. intros H. rewrite nth_upd, Nat.eqb_refl, H. reflexivity. Qed.
Lemma length_upd L f (ls : list slayer) : length (upd_nth C L f ls) = length ls.
Proof. revert L; induction ls as [|x t IH]; intros [|n]; cbn; auto. Qed.

Definition has_id (st : state) (L : nat) (s : side) (id : N) : Prop :=
  exists l, nth_error (layers st) L = Some l /\ stream_id l s = Some id.

Lemma stream_id_keeps f l s : keeps_ids f -> stream_id (f l) s = stream_id l s.
Proof. intros K; destruct (K l) as [A B]; destruct s; cbn; congruence. Qed.

Lemma has_id_upd st L f L' s id : keeps_ids f -> (has_id (upd_layer C L f st) L' s id <-> has_id st L' s id).
Proof.
  intros K. unfold has_id, upd_layer; cbn. rewrite nth_upd.
  destruct (Nat.eqb L L'); [|tauto].
  destruct (nth_error (layers st) L') as [l|]; cbn.
  - split; intros (l' & E & H); inversion E; subst.
    + exists l; split; auto. rewrite stream_id_keeps in H; auto.
    + exists (f l'); split; auto. rewrite stream_id_keeps; auto.
  - split; intros (l' & E & _); discriminate.
Qed.

Definition inner_err (e : errk) : Prop :=
  e = AssertStreamId \/ e = AssertOpenClient \/ e = AssertOpenTwice \/ e = AssertTsStart \/
  e = CounterIndex \/ e = Internal \/ e = OutOfFuel.

Section Principle.
Variable P : state -> Prop.
Variable w : wrap.
Variable L : nat.
Hypothesis H_cst : forall st c, P st -> P (upd_layer C L (set_cst C c) st).
Hypothesis H_read : forall st s, P st -> P (upd_layer C L (set_conn C s (set_read false)) st).
Hypothesis H_end : forall st s, P st -> P (upd_layer C L (set_conn C s (set_end true)) st).
Hypothesis H_fail : forall st e, P st -> inner_err e -> P (fail C e st).
Hypothesis H_pass : forall st l n, P st -> nth_error (layers st) L = Some l -> P (emit C w L (OPass L n) st).
Hypothesis H_send : forall st l s id d, P st -> nth_error (layers st) L = Some l -> stream_id l s = Some id ->
  can_write (conn_of s l) = true -> P (emit C w L (OSend L s id d false) st).
Hypothesis H_fin : forall st l s id, P st -> nth_error (layers st) L = Some l -> stream_id l s = Some id ->
  can_write (conn_of s l) = true ->
  P (emit C w L (OSend L s id [] true) (upd_layer C L (set_conn C s (set_write false)) st)).
Hypothesis H_stop : forall st l s id, P st -> nth_error (layers st) L = Some l -> stream_id l s = Some id ->
  P (emit C w L (OStop L s id 0) st).
Hypothesis H_open : forall st l id nx, P st -> nth_error (layers st) L = Some l -> sid l = None ->
  get_next_available_stream_id (next_ids st) true (stream_is_unidirectional (cid l)) = Some (id, nx) ->
  P (let st1 := open_server_stream C L id (with_next C nx st) in
     with_server_ids C (dict_set id L (server_ids st1)) st1).

Definition rec_ok (rec : wrap -> nat -> cevent -> state -> state) : Prop :=
  forall ev st, P st -> P (rec w L ev st).

Lemma layers_emit w' L' o st : layers (emit C w' L' o st) = layers st.
Proof.
  unfold emit. destruct w'; destruct o; cbn; try reflexivity.
  - destruct fin; cbn; try reflexivity.
    destruct (nth_error (layers st) L'); cbn; try reflexivity.
    destruct (_ && _); reflexivity.
  - destruct (is_empty d); reflexivity.
Qed.

Lemma close_P rec s st : rec_ok rec -> P st -> P (close_stream_layer_with C rec w L s st).
Proof.
  intros R H. unfold close_stream_layer_with.
  destruct (nth_error (layers st) L) as [l|]; [|apply H_fail; auto; unfold inner_err; tauto].
  destruct (negb (ts_start (conn_of s l))).
  - apply H_fail; [apply H_read; auto | unfold inner_err; tauto].
  - destruct (ts_end (conn_of s l)); [apply H_read; auto|].
    apply R. apply H_end. apply H_read. auto.
Qed.

Lemma do_cmd_P rec cmd st : rec_ok rec -> P st -> P (do_cmd C rec w L cmd st).
Proof.
  intros R H. unfold do_cmd.
  destruct (nth_error (layers st) L) as [l|] eqn:El; [|apply H_fail; auto; unfold inner_err; tauto].
  destruct cmd as [s d|s half|s|n].
  - destruct (stream_id l s) as [id|] eqn:Ei; [|apply H_fail; auto; unfold inner_err; tauto].
    destruct (can_write (conn_of s l)) eqn:Ew; auto. eapply H_send; eauto.
  - destruct (stream_id l s) as [id|] eqn:Ei; [|apply H_fail; auto; unfold inner_err; tauto].
    set (st1 := if can_write (conn_of s l) then _ else st).
    assert (P1 : P st1).
    { unfold st1. destruct (can_write (conn_of s l)) eqn:Ew; auto. eapply H_fin; eauto. }
    assert (E1 : exists l1, nth_error (layers st1) L = Some l1 /\ stream_id l1 s = Some id).
    { unfold st1. destruct (can_write (conn_of s l)); [|eauto].
      rewrite layers_emit. cbn. exists (set_conn C s (set_write false) l). split.
      - apply nth_upd_same; auto.
      - rewrite stream_id_keeps; auto. apply keeps_set_conn. }
    destruct half; auto.
    destruct E1 as (l1 & E1 & I1).
    apply close_P; auto.
    destruct (_ || _); auto. eapply H_stop; eauto.
  - destruct s; [apply H_fail; auto; unfold inner_err; tauto|].
    destruct (sid l) eqn:Es; [apply H_fail; auto; unfold inner_err; tauto|].
    destruct (get_next_available_stream_id _ _ _) as [[id nx]|] eqn:Eg; [|apply H_fail; auto; unfold inner_err; tauto].
    apply R. eapply (H_open st l id nx); eauto.
  - eapply H_pass; eauto.
Qed.

Lemma run_cmds_P rec cmds st : rec_ok rec -> P st -> P (run_cmds C rec w L cmds st).
Proof.
  intros R. revert st. induction cmds as [|c t IH]; intros st H; cbn; auto.
  destruct (err st); auto. apply IH. apply do_cmd_P; auto.
Qed.

Lemma etc_P fuel : rec_ok (etc C child_step fuel).
Proof.
  induction fuel as [|f IH]; intros ev st H; cbn.
  - apply H_fail; auto; unfold inner_err; tauto.
  - destruct (nth_error (layers st) L) as [l|]; [|apply H_fail; auto; unfold inner_err; tauto].
    destruct (child_step (cst l) (cconn l, sconn l) ev) as [c' cmds].
    apply run_cmds_P; auto.
Qed.

Lemma close_layer_P s st : P st -> P (close_stream_layer C child_step w L s st).
Proof. apply close_P. apply etc_P. Qed.

End Principle.
End Core.

(* A state predicate that survives event_to_child, the bookkeeping around it (connection flags that do
   not reopen a write side, failures other than those in [bad], layer creation, the connection-close
   command and the root flags) survives every event, hence holds after every schedule. *)
Section Schedule.
Variable C : Type.
Variable child_step : C -> connst * connst -> cevent -> C * list ccmd.
Variable new_child : nat -> C.
Notation state := (state C).
Variable P : state -> Prop.
Variable bad : errk -> Prop.
Hypothesis bad_only : forall e, bad e -> e = UnexpectedStreamEvent.
Hypothesis S_fail : forall e st, ~ bad e -> P st -> P (fail C e st).
Hypothesis S_conn : forall L s g st, (forall c, can_write c = false -> can_write (g c) = false) ->
  P st -> P (upd_layer C L (set_conn C s g) st).

Section Layer.
Variable L : nat.
Hypothesis S_etc_at : forall w ev st, P st -> P (etc C child_step FUEL w L ev st).

Lemma close_keeps w s st : P st -> P (close_stream_layer C child_step w L s st).
Proof.
  apply (close_P C P w L); [intros; apply S_conn; auto | intros; apply S_conn; auto | | intros ev st0; apply S_etc_at].
  (* the failures inside event_to_child are not the one [bad] may name *)
  intros st0 e H He. apply S_fail; [|exact H]. intros B. apply bad_only in B. subst e.
  destruct He as [E|[E|[E|[E|[E|[E|E]]]]]]; discriminate.
Qed.

Lemma post_keeps from k st : (forall c, k = KStop c -> ~ bad UnexpectedStreamEvent) ->
  P st -> P (post C child_step from k L st).
Proof.
  intros Hk H. unfold post. destruct (err st); auto.
  destruct k as [d fin|code|code].
  - set (st1 := if is_empty d then st else _).
    assert (H1 : P st1) by (unfold st1; destruct (is_empty d); auto).
    destruct (err st1); auto. destruct fin; auto. apply close_keeps; auto.
  - apply close_keeps; auto.
  - apply S_fail; eauto.
Qed.
End Layer.

Hypothesis S_etc : forall w L ev st, P st -> P (etc C child_step FUEL w L ev st).
Hypothesis S_create : forall from id st L st2, P st ->
  dict_get id (match from with Cl => client_ids st | Sv => server_ids st end) = None ->
  negb (Bool.eqb (stream_is_client_initiated id) (is_cl from)) = false ->
  create_layer C new_child from id st = Some (L, st2) -> P st2.
Hypothesis S_close_conn : forall s code st, P st -> P (push C (OCloseConn s code) st).
Hypothesis S_roots : forall c s d st, P st -> P (with_roots C c s d st).

Lemma step_keeps st ev : (forall from id c, ev = SStream from id (KStop c) -> ~ bad UnexpectedStreamEvent) ->
  P st -> P (step C child_step new_child st ev).
Proof.
  intros Hk H. unfold step. destruct (err st); auto. destruct (done st); auto.
  assert (Hf : forall e st0, e <> UnexpectedStreamEvent -> P st0 -> P (fail C e st0)).
  { intros e st0 He. apply S_fail. intros B. exact (He (bad_only e B)). }
  destruct ev as [from id k|from code].
  - assert (Hp : forall L st0, P st0 -> P (post C child_step from k L st0)).
    { intros L st0. apply post_keeps; [intros; apply S_etc; assumption | intros c ->; exact (Hk from id c eq_refl)]. }
    unfold handle_stream. destruct (dict_get id _) as [L|] eqn:Eg; auto.
    destruct (negb _) eqn:Ei; [apply Hf; [discriminate | exact H]|].
    destruct (create_layer C new_child from id st) as [[L st2]|] eqn:Ec; [|apply Hf; [discriminate | exact H]].
    apply Hp, S_etc. eapply S_create; eauto.
  - unfold handle_conn_closed.
    match goal with |- P (fold_left _ ?ls ?s) => assert (H2 : P s); [|generalize ls; generalize dependent s] end.
    { destruct from; cbn [root_s root_c with_roots]; [destruct (root_s st) | destruct (root_c st)]; auto. }
    intros s2 H2 ls. revert s2 H2. induction ls as [|L t IH]; intros s2 H2; cbn; auto.
    apply IH. destruct (err s2); auto. apply close_keeps; [intros; apply S_etc; assumption|]. apply S_conn; auto.
Qed.

Lemma run_keeps evs : (forall from id c, In (SStream from id (KStop c)) evs -> ~ bad UnexpectedStreamEvent) ->
  P init_state -> P (run C child_step new_child evs).
Proof.
  unfold run. generalize (init_state : state). induction evs as [|e t IH]; intros st Hk H; cbn; auto.
  apply IH; [intros; eapply Hk; right; eauto|]. apply step_keeps; auto. intros from id c ->. eapply Hk; left; reflexivity.
Qed.
End Schedule.
