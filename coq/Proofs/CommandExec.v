(* Proofs/CommandExec.v -- command lines built from well-formed atoms separated by lexer
   whitespace: the lexer returns exactly the atoms and separators, execute hands the unquoted
   atoms to call_strings, and the character-level specification spec_words agrees. *)
From Coq Require Import List Bool NArith.
From MV Require Import Base.Bytes Model.Command Proofs.CommandLex.
Import ListNotations.
Open Scope N_scope.
Local Arguments in_chars : simpl never.
Local Arguments is_uspace : simpl never.

Inductive atom :=
| Plain (w : str)                 (* a bare word *)
| Quoted (q : char) (body : str). (* q body q *)

Definition atom_text (a : atom) : str :=
  match a with Plain w => w | Quoted q b => q :: b ++ [q] end.
Definition atom_value (a : atom) : str :=
  match a with Plain w => w | Quoted _ b => b end.
Definition atom_ok (a : atom) : bool :=
  match a with
  | Plain w => nonempty w && no_special w && negb (isspace w)
  | Quoted q b => is_quote q && negb (in_chars q b)
  end.
Definition sep_ok (w : str) : bool := nonempty w && all_ws w.
Definition item_ok (it : str * atom) : bool := sep_ok (fst it) && atom_ok (snd it).

Definition tail_text (rest : list (str * atom)) (trail : str) : str :=
  flat_map (fun it => fst it ++ atom_text (snd it)) rest ++ trail.
Definition line_text (lead : str) (a0 : atom) (rest : list (str * atom)) (trail : str) : str :=
  lead ++ atom_text a0 ++ tail_text rest trail.

Definition no_tab (s : str) : bool := negb (in_chars c_tab s).
Definition nonsp (t : str) : bool := negb (isspace t).

Lemma plain_ok w : atom_ok (Plain w) = true -> nonempty w = true /\ no_special w = true /\ isspace w = false.
Proof. simpl. rewrite !andb_true_iff, negb_true_iff. tauto. Qed.

Lemma quoted_ok q b : atom_ok (Quoted q b) = true -> is_quote q = true /\ in_chars q b = false.
Proof. simpl. rewrite andb_true_iff, negb_true_iff. tauto. Qed.

Lemma plain_head c w : no_special (c :: w) = true -> in_chars c QUOTES = false /\ in_chars c WS = false.
Proof. simpl. intros H. apply andb_true_iff in H as [H _]. apply negb_true_iff in H. apply not_special, H. Qed.

Lemma in_chars_cons c x l : in_chars c (x :: l) = (c =? x) || in_chars c l.
Proof. reflexivity. Qed.

Lemma ws_uspace c : in_chars c WS = true -> is_uspace c = true.
Proof.
  rewrite in_chars_In. unfold WS. simpl.
  intros [H | [H | [H | [H | []]]]]; subst; reflexivity.
Qed.

Lemma ws_isspace w : nonempty w = true -> all_ws w = true -> isspace w = true.
Proof.
  destruct w as [|c w]; [discriminate|]. intros _ H. unfold isspace.
  apply forallb_forall. intros x Hx. unfold all_ws in H. rewrite forallb_forall in H.
  apply ws_uspace, H, Hx.
Qed.

Lemma quote_not_uspace q : is_quote q = true -> is_uspace q = false.
Proof. intros H. destruct (is_quote_cases q H); subst; reflexivity. Qed.

Lemma atom_text_nonsp a : atom_ok a = true -> nonsp (atom_text a) = true.
Proof.
  destruct a as [w | q b]; simpl; intros H.
  - apply andb_true_iff in H as [_ H]. exact H.
  - apply andb_true_iff in H as [Hq _]. unfold nonsp, isspace. simpl.
    rewrite (quote_not_uspace q Hq). reflexivity.
Qed.

Lemma atom_stops_ws a r : atom_ok a = true -> stops p_ws (atom_text a ++ r) = true.
Proof.
  destruct a as [w | q b]; simpl; intros H.
  - apply plain_ok in H as (Hn & Hs & _). destruct w as [|c w]; [discriminate|].
    cbn [app stops]. unfold p_ws. rewrite (proj2 (plain_head c w Hs)). reflexivity.
  - apply quoted_ok in H as [Hq _]. unfold p_ws. rewrite (quote_not_ws q Hq). reflexivity.
Qed.

Definition starts_ws (s : str) : bool :=
  match s with [] => true | c :: _ => in_chars c WS end.

Lemma starts_ws_stops_plain s : starts_ws s = true -> stops p_plain s = true.
Proof.
  destruct s as [|c s]; [reflexivity|]. simpl. intros H. unfold p_plain.
  rewrite (ws_special c H). reflexivity.
Qed.

Lemma all_ws_starts_ws w : all_ws w = true -> starts_ws w = true.
Proof. destruct w as [|c w]; [reflexivity|]. simpl. intros H. apply andb_true_iff in H. tauto. Qed.

Lemma sep_starts_ws w r : sep_ok w = true -> starts_ws (w ++ r) = true.
Proof.
  unfold sep_ok. intros H. apply andb_true_iff in H as [Hn Hw].
  destruct w as [|c w]; [discriminate|]. simpl in *. apply andb_true_iff in Hw. tauto.
Qed.

Lemma item_ok_cons sep a rest : forallb item_ok ((sep, a) :: rest) = true ->
  sep_ok sep = true /\ nonempty sep = true /\ all_ws sep = true /\ atom_ok a = true /\ forallb item_ok rest = true.
Proof.
  simpl. unfold item_ok, sep_ok. simpl. rewrite !andb_true_iff. intros [[[Hn Hw] Ha] Hr].
  rewrite Hn, Hw. auto.
Qed.

Lemma tail_text_cons sep a rest final :
  tail_text ((sep, a) :: rest) final = sep ++ atom_text a ++ tail_text rest final.
Proof. unfold tail_text. simpl. rewrite <- !app_assoc. reflexivity. Qed.

Lemma tail_starts_ws rest final :
  forallb item_ok rest = true -> starts_ws final = true -> starts_ws (tail_text rest final) = true.
Proof.
  destruct rest as [|[sep a] rest]; intros Hr Hf; [exact Hf|].
  apply item_ok_cons in Hr as [Hs _]. rewrite tail_text_cons. apply sep_starts_ws, Hs.
Qed.

Lemma mf_atom a r :
  atom_ok a = true -> starts_ws r = true ->
  match_first (atom_text a ++ r) = Some (atom_text a, r).
Proof.
  destruct a as [w | q b]; simpl; intros H Hr.
  - apply plain_ok in H as (Hn & Hs & _). apply mf_plain; auto using starts_ws_stops_plain.
  - apply quoted_ok in H as [Hq Hb]. rewrite <- app_assoc. simpl. apply mf_quoted_closed; assumption.
Qed.

Definition tail_tokens (rest : list (str * atom)) : list str :=
  flat_map (fun it => [fst it; atom_text (snd it)]) rest.

(* [final] is whatever ends the line: trailing white space, or a separator and an unclosed quote *)
Lemma lex_tail rest final tsf :
  forallb item_ok rest = true -> starts_ws final = true -> lex final = LexOk tsf ->
  lex (tail_text rest final) = LexOk (tail_tokens rest ++ tsf).
Proof.
  intros Hr Hf Hl. induction rest as [|[sep a] rest IH]; [exact Hl|].
  apply item_ok_cons in Hr as (_ & Hn & Hw & Ha & Hr).
  pose proof (tail_starts_ws rest final Hr Hf) as Hst. rewrite tail_text_cons.
  rewrite (lex_cons _ sep (atom_text a ++ tail_text rest final)) by (apply mf_ws; auto using atom_stops_ws).
  rewrite (lex_cons _ (atom_text a) (tail_text rest final)) by (apply mf_atom; assumption).
  rewrite (IH Hr). reflexivity.
Qed.

Lemma nonsp_tail_tokens rest :
  forallb item_ok rest = true -> filter nonsp (tail_tokens rest) = map (fun it => atom_text (snd it)) rest.
Proof.
  induction rest as [|[sep a] rest IH]; intros Hr; [reflexivity|].
  apply item_ok_cons in Hr as (_ & Hn & Hw & Ha & Hr). simpl.
  unfold nonsp at 1. rewrite (ws_isspace sep Hn Hw). simpl.
  rewrite (atom_text_nonsp a Ha), (IH Hr). reflexivity.
Qed.

Lemma lex_lead w r ts :
  all_ws w = true -> stops p_ws r = true -> lex r = LexOk ts ->
  exists ts', lex (w ++ r) = LexOk ts' /\ filter nonsp ts' = filter nonsp ts.
Proof.
  intros Hw Hr Hl. destruct w as [|c w]; [exists ts; auto|].
  exists ((c :: w) :: ts). split.
  - rewrite (lex_cons _ (c :: w) r) by (apply mf_ws; auto). rewrite Hl. reflexivity.
  - simpl. unfold nonsp at 1. rewrite (ws_isspace (c :: w)) by auto. reflexivity.
Qed.

Lemma lex_ws w : all_ws w = true -> exists ts, lex w = LexOk ts /\ filter nonsp ts = [].
Proof.
  intros Hw. destruct (lex_lead w [] [] Hw eq_refl eq_refl) as [ts H].
  rewrite app_nil_r in H. exists ts. exact H.
Qed.

Lemma unquote_atom a : atom_ok a = true -> unquote (atom_text a) = atom_value a.
Proof.
  destruct a as [w | q b]; simpl; intros H.
  - apply plain_ok in H as (_ & Hs & _). destruct w as [|c [|d w]]; try reflexivity.
    unfold unquote. rewrite (proj1 (plain_head _ _ Hs)). reflexivity.
  - apply quoted_ok in H as [Hq _]. unfold unquote.
    destruct (b ++ [q]) as [|d r] eqn:E; [destruct b; discriminate|]. rewrite <- E.
    unfold is_quote in Hq. rewrite Hq, last_last, N.eqb_refl, removelast_last. reflexivity.
Qed.

Lemma unquote_items rest : forallb item_ok rest = true ->
  map unquote (map (fun it => atom_text (snd it)) rest) = map (fun it => atom_value (snd it)) rest.
Proof.
  induction rest as [|[sep a] rest IH]; intros Hr; [reflexivity|].
  apply item_ok_cons in Hr as (_ & _ & _ & Ha & Hr). simpl.
  rewrite (unquote_atom a Ha), (IH Hr). reflexivity.
Qed.

Lemma nonspace_values_filter ts :
  nonspace_values (map (fun part => (part, isspace part)) ts) = filter nonsp ts.
Proof.
  unfold nonspace_values. induction ts as [|t ts IH]; [reflexivity|].
  simpl. unfold nonsp at 1. destruct (isspace t); simpl; rewrite IH; reflexivity.
Qed.

Lemma execute_call_lexed kt s ts n a :
  parse_string kt s = LexOk ts -> filter nonsp ts = n :: a ->
  execute_call kt s = CallStrings (unquote n) (map unquote a).
Proof.
  intros H F. unfold execute_call, parse_partial. rewrite H.
  rewrite nonspace_values_filter. destruct ts; [discriminate|]. rewrite F. reflexivity.
Qed.

Lemma expandtabs_no_tab s : forall col, no_tab s = true -> expandtabs_go col s = s.
Proof.
  induction s as [|c s IH]; intros col H; [reflexivity|].
  unfold no_tab in *. rewrite in_chars_cons, negb_orb in H. apply andb_true_iff in H as [Hc Hs].
  apply negb_true_iff in Hc. rewrite N.eqb_sym in Hc. cbn [expandtabs_go]. rewrite Hc.
  destruct ((c =? c_lf) || (c =? c_cr)); rewrite IH by exact Hs; reflexivity.
Qed.

Lemma parse_string_no_tab kt s : kt = true \/ no_tab s = true -> parse_string kt s = lex s.
Proof.
  unfold parse_string. intros [-> | H]; [reflexivity|]. destruct kt; [reflexivity|].
  unfold expandtabs. rewrite expandtabs_no_tab by exact H. reflexivity.
Qed.

Lemma spec_plain_run w : forall x rest,
  no_special w = true -> spec_go None (Some x) (w ++ rest) = spec_go None (Some (rev w ++ x)) rest.
Proof.
  induction w as [|c w IH]; intros x rest H; [reflexivity|].
  destruct (plain_head c w H) as [Hq Hs]. simpl in H. apply andb_true_iff in H as [_ Hw].
  simpl app. cbn [spec_go push]. rewrite Hs, Hq, IH by exact Hw. simpl. rewrite <- app_assoc. reflexivity.
Qed.

Lemma spec_in_quote q b : forall x rest,
  in_chars q b = false -> spec_go (Some q) (Some x) (b ++ rest) = spec_go (Some q) (Some (rev b ++ x)) rest.
Proof.
  induction b as [|c b IH]; intros x rest H; [reflexivity|].
  unfold in_chars in H. simpl in H. apply orb_false_iff in H as [Hc Hb].
  simpl app. cbn [spec_go push]. rewrite N.eqb_sym, Hc, IH by exact Hb. simpl. rewrite <- app_assoc. reflexivity.
Qed.

Lemma spec_atom a rest :
  atom_ok a = true ->
  spec_go None None (atom_text a ++ rest) = spec_go None (Some (rev (atom_text a))) rest.
Proof.
  destruct a as [w | q b]; simpl; intros H.
  - apply plain_ok in H as (Hn & Hs & _). destruct w as [|c w]; [discriminate|].
    destruct (plain_head c w Hs) as [Hcq Hcw]. simpl in Hs. apply andb_true_iff in Hs as [_ Hw].
    simpl app. cbn [spec_go push]. rewrite Hcw, Hcq, spec_plain_run by exact Hw. reflexivity.
  - apply quoted_ok in H as [Hq Hb]. unfold is_quote in Hq. rewrite (quote_not_ws q Hq), Hq.
    rewrite <- app_assoc. simpl push. rewrite spec_in_quote by exact Hb. simpl app. cbn [spec_go push].
    rewrite N.eqb_refl, rev_app_distr. reflexivity.
Qed.

Lemma spec_ws_run w : forall rest, all_ws w = true -> spec_go None None (w ++ rest) = spec_go None None rest.
Proof.
  induction w as [|c w IH]; intros rest H; [reflexivity|].
  simpl in H. apply andb_true_iff in H as [Hc Hw]. simpl. rewrite Hc. simpl. apply IH, Hw.
Qed.

Lemma spec_ws w : all_ws w = true -> spec_words w = [].
Proof. intros H. unfold spec_words. rewrite <- (app_nil_r w), spec_ws_run by exact H. reflexivity. Qed.

Lemma spec_atom_tail a tail : atom_ok a = true -> starts_ws tail = true ->
  spec_words (atom_text a ++ tail) = atom_text a :: spec_words tail.
Proof.
  intros Ha Ht. unfold spec_words. rewrite spec_atom by exact Ha.
  destruct tail as [|c r]; simpl in *; [|rewrite Ht; simpl]; rewrite rev_involutive; reflexivity.
Qed.

Lemma spec_tail rest final :
  forallb item_ok rest = true -> starts_ws final = true ->
  spec_words (tail_text rest final) = map (fun it => atom_text (snd it)) rest ++ spec_words final.
Proof.
  intros Hr Hf. induction rest as [|[sep a] rest IH]; [reflexivity|].
  apply item_ok_cons in Hr as (_ & _ & Hw & Ha & Hr). rewrite tail_text_cons.
  unfold spec_words at 1. rewrite spec_ws_run by exact Hw. fold (spec_words (atom_text a ++ tail_text rest final)).
  rewrite spec_atom_tail, (IH Hr) by auto using tail_starts_ws. reflexivity.
Qed.

(* final is whatever ends the line, with its tokens tsf: the parts and the words agree up to final, where the
   parts go on with the non-space tokens of final and the words with its words *)
Theorem line_split kt lead a0 rest final tsf :
  all_ws lead = true -> atom_ok a0 = true -> forallb item_ok rest = true ->
  starts_ws final = true -> lex final = LexOk tsf ->
  let line := lead ++ atom_text a0 ++ tail_text rest final in
  kt = true \/ no_tab line = true ->
  exists parts,
    parse_partial kt line = PPOk parts
    /\ nonspace_values parts = atom_text a0 :: map (fun it => atom_text (snd it)) rest ++ filter nonsp tsf
    /\ spec_words line = atom_text a0 :: map (fun it => atom_text (snd it)) rest ++ spec_words final
    /\ execute_call kt line
       = CallStrings (atom_value a0) (map (fun it => atom_value (snd it)) rest ++ map unquote (filter nonsp tsf)).
Proof.
  intros Hl Ha Hr Hf Lf line Hk.
  pose proof (tail_starts_ws rest final Hr Hf) as Hst.
  destruct (lex_lead lead (atom_text a0 ++ tail_text rest final) (atom_text a0 :: tail_tokens rest ++ tsf) Hl)
    as [ts [L F]].
  { apply atom_stops_ws, Ha. }
  { rewrite (lex_cons _ (atom_text a0) (tail_text rest final)) by (apply mf_atom; assumption).
    rewrite (lex_tail rest final tsf) by assumption. reflexivity. }
  simpl in F. rewrite (atom_text_nonsp a0 Ha), filter_app, nonsp_tail_tokens in F by exact Hr.
  assert (P : parse_string kt line = LexOk ts) by (rewrite parse_string_no_tab by exact Hk; exact L).
  exists (map (fun part => (part, isspace part)) ts). split; [|split; [|split]].
  - unfold parse_partial. rewrite P. reflexivity.
  - rewrite nonspace_values_filter. exact F.
  - unfold line, spec_words. rewrite spec_ws_run by exact Hl. fold (spec_words (atom_text a0 ++ tail_text rest final)).
    rewrite spec_atom_tail, spec_tail by assumption. reflexivity.
  - rewrite (execute_call_lexed kt line ts _ _ P F).
    rewrite map_app, unquote_items, (unquote_atom a0 Ha) by exact Hr. reflexivity.
Qed.

Lemma execute_call_line kt lead a0 rest trail :
  all_ws lead = true -> atom_ok a0 = true -> forallb item_ok rest = true -> all_ws trail = true ->
  kt = true \/ no_tab (line_text lead a0 rest trail) = true ->
  exists parts,
    parse_partial kt (line_text lead a0 rest trail) = PPOk parts
    /\ nonspace_values parts = spec_words (line_text lead a0 rest trail)
    /\ nonspace_values parts = atom_text a0 :: map (fun it => atom_text (snd it)) rest
    /\ execute_call kt (line_text lead a0 rest trail)
       = CallStrings (atom_value a0) (map (fun it => atom_value (snd it)) rest).
Proof.
  unfold line_text. intros Hl Ha Hr Ht Hk. destruct (lex_ws trail Ht) as [tsf [Lf Ff]].
  destruct (line_split kt lead a0 rest trail tsf Hl Ha Hr (all_ws_starts_ws trail Ht) Lf Hk)
    as [parts (H1 & H2 & H3 & H4)].
  rewrite Ff, app_nil_r in H2, H4. rewrite (spec_ws trail Ht), app_nil_r in H3.
  exists parts. rewrite H3. auto.
Qed.
