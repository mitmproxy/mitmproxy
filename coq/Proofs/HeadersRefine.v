(* Proofs/HeadersRefine.v -- the line-by-line model of _MultiDict/Headers (Model/Headers.v)
   refines the abstract ordered multimap (Model/MultimapSpec.v): every operation returns the
   result of the specification and commutes with the abstraction, hence so does every history. *)
From Coq Require Import List Bool NArith ZArith Lia.
From MV Require Import Base.Bytes Model.Headers Model.MultimapSpec.
Import ListNotations.

Lemma bytes_eqb_sym a b : bytes_eqb a b = bytes_eqb b a.
Proof. apply eq_true_iff_eq. rewrite !bytes_eqb_eq. split; congruence. Qed.

Lemma filter_map_comm {A B} (g : A -> B) (P : B -> bool) l :
  filter P (map g l) = map g (filter (fun x => P (g x)) l).
Proof.
  induction l as [|x l IH]; simpl; [reflexivity|].
  destruct (P (g x)); simpl; rewrite IH; reflexivity.
Qed.

Lemma existsb_filter {A} (P : A -> bool) l :
  existsb P l = match filter P l with [] => false | _ :: _ => true end.
Proof.
  induction l as [|x l IH]; simpl; [reflexivity|].
  destruct (P x); simpl; [reflexivity | exact IH].
Qed.

Lemma unabs_abs fs : unabs (abs fs) = fs.
Proof.
  unfold unabs, abs. rewrite map_map. rewrite <- (map_id fs) at 2.
  apply map_ext. intros [k v]. reflexivity.
Qed.

Lemma abs_inj a b : abs a = abs b -> a = b.
Proof. intros H. rewrite <- (unabs_abs a), <- (unabs_abs b), H. reflexivity. Qed.

Lemma abs_app a b : abs (a ++ b) = abs a ++ abs b.
Proof. apply map_app. Qed.

Lemma abs_length fs : length (abs fs) = length fs.
Proof. apply map_length. Qed.

Lemma get_all_refines fs k : get_all fs k = s_get_all bytes_eqb (abs fs) (lower k).
Proof.
  unfold get_all, s_get_all, abs. rewrite filter_map_comm, map_map. reflexivity.
Qed.

Lemma contains_get_all (m : list hentry) (c : bytes) :
  s_contains bytes_eqb m c = match s_get_all bytes_eqb m c with [] => false | _ :: _ => true end.
Proof.
  unfold s_contains, s_get_all. rewrite existsb_filter.
  destruct (filter (s_match bytes_eqb c) m); reflexivity.
Qed.

Lemma getitem_refines fs k :
  getitem fs k = s_getitem bytes_eqb _reduce_values (abs fs) (lower k).
Proof.
  unfold getitem, s_getitem. rewrite contains_get_all, <- get_all_refines.
  destruct (get_all fs k); reflexivity.
Qed.

Lemma contains_refines fs k : contains fs k = s_contains bytes_eqb (abs fs) (lower k).
Proof.
  unfold contains. rewrite getitem_refines. unfold s_getitem.
  destruct (s_contains bytes_eqb (abs fs) (lower k)); reflexivity.
Qed.

Lemma others_abs c fs :
  s_others bytes_eqb c (abs fs) = abs (filter (fun f => negb (bytes_eqb c (_kconv (fst f)))) fs).
Proof.
  unfold s_others, abs. rewrite filter_map_comm. f_equal.
  apply filter_ext. intros [a b]. unfold s_match, e_canon, _kconv. simpl.
  rewrite bytes_eqb_sym. reflexivity.
Qed.

Lemma delitem_refines fs k :
  option_map abs (delitem fs k) = s_delitem bytes_eqb (abs fs) (lower k).
Proof.
  unfold delitem, s_delitem. rewrite contains_refines.
  destruct (s_contains bytes_eqb (abs fs) (lower k)); simpl; [|reflexivity].
  rewrite others_abs. reflexivity.
Qed.

Lemma set_all_loop_refines c fs : forall vs acc,
  abs (fst (set_all_loop c fs vs acc)) = abs acc ++ s_replace bytes_eqb c vs (abs fs)
  /\ snd (set_all_loop c fs vs acc) = skipn (s_count bytes_eqb (abs fs) c) vs.
Proof.
  induction fs as [|[k v] fs IH]; intros vs acc; simpl.
  - rewrite app_nil_r. split; reflexivity.
  - unfold s_count, s_match, e_canon, _kconv in *. simpl.
    destruct (bytes_eqb (lower k) c) eqn:E; simpl.
    + destruct vs as [|v0 vs].
      * destruct (IH [] acc) as [H1 H2]. split; [exact H1|].
        rewrite H2, skipn_nil. reflexivity.
      * destruct (IH vs (acc ++ [(k, v0)])) as [H1 H2]. split; [|exact H2].
        etransitivity; [exact H1|]. rewrite abs_app, <- app_assoc. reflexivity.
    + destruct (IH vs (acc ++ [(k, v)])) as [H1 H2]. split; [|exact H2].
      etransitivity; [exact H1|]. rewrite abs_app, <- app_assoc. reflexivity.
Qed.

Lemma set_all_rest_eq k vs : forall acc,
  set_all_rest k vs acc = acc ++ map (fun v => (k, v)) vs.
Proof.
  induction vs as [|v vs IH]; intros acc; simpl.
  - rewrite app_nil_r. reflexivity.
  - rewrite IH, <- app_assoc. reflexivity.
Qed.

Lemma set_all_refines fs k vs :
  abs (set_all fs k vs) = s_set_all lower bytes_eqb (abs fs) k vs.
Proof.
  unfold set_all, s_set_all, _kconv.
  destruct (set_all_loop_refines (lower k) fs vs []) as [H1 H2].
  destruct (set_all_loop (lower k) fs vs []) as [nf rest]. simpl in H1, H2.
  rewrite set_all_rest_eq, abs_app, H1, H2. f_equal.
  unfold abs. rewrite map_map. reflexivity.
Qed.

Lemma slice_index_pos i n : slice_index i n = s_pos i n.
Proof.
  unfold slice_index, s_pos. cbv zeta.
  destruct (Z.ltb_spec i 0) as [A|A]; cbv iota.
  - destruct (Z.ltb_spec (i + Z.of_nat n) 0) as [B|B]; cbv iota.
    + destruct (Z.ltb_spec (Z.of_nat n) 0); lia.
    + destruct (Z.ltb_spec (Z.of_nat n) (i + Z.of_nat n)); lia.
  - destruct (Z.ltb_spec i 0) as [B|B]; cbv iota; [lia|].
    destruct (Z.ltb_spec (Z.of_nat n) i); lia.
Qed.

Lemma insert_refines fs i k v :
  abs (insert fs i k v) = s_insert lower (abs fs) i k v.
Proof.
  unfold insert, s_insert. rewrite abs_length, slice_index_pos.
  rewrite !abs_app. unfold abs. rewrite firstn_map, skipn_map. reflexivity.
Qed.

Lemma slice_index_len n : slice_index (Z.of_nat n) n = n.
Proof. rewrite slice_index_pos. unfold s_pos. destruct (Z.ltb_spec (Z.of_nat n) 0); lia. Qed.

Lemma add_eq fs k v : add fs k v = fs ++ [(k, v)].
Proof.
  unfold add, insert. rewrite slice_index_len, firstn_all, skipn_all. rewrite app_nil_r. reflexivity.
Qed.

Lemma add_refines fs k v : abs (add fs k v) = s_add lower (abs fs) k v.
Proof. rewrite add_eq, abs_app. reflexivity. Qed.

Lemma iter_loop_refines fs : forall seen (pre : list hentry),
  (forall c, mem c seen = existsb (s_match bytes_eqb c) pre) ->
  iter_loop fs seen = map e_spelled (s_firsts bytes_eqb pre (abs fs)).
Proof.
  induction fs as [|[k v] fs IH]; intros seen pre Hinv; simpl; [reflexivity|].
  unfold e_canon at 1. simpl. unfold _kconv. rewrite <- Hinv.
  assert (Hnext : forall seen',
            (forall c, mem c seen' = bytes_eqb (lower k) c || mem c seen) ->
            forall c, mem c seen' = existsb (s_match bytes_eqb c) ((lower k, k, v) :: pre)).
  { intros seen' H c. rewrite H. simpl. unfold s_match at 1, e_canon. simpl. rewrite Hinv. reflexivity. }
  destruct (mem (lower k) seen) eqn:E; simpl.
  - apply IH. apply Hnext. intros c.
    destruct (bytes_eqb (lower k) c) eqn:E2; [|reflexivity].
    apply bytes_eqb_eq in E2. subst c. exact E.
  - unfold e_spelled at 1. simpl. f_equal. apply IH. apply Hnext. intros c. simpl.
    rewrite bytes_eqb_sym. reflexivity.
Qed.

Lemma iter_refines fs : iter fs = s_iter bytes_eqb (abs fs).
Proof. unfold iter, s_iter. apply iter_loop_refines. intros c. reflexivity. Qed.

Lemma set_of_length fs : forall acc seen,
  (forall c, mem c acc = mem c seen) ->
  length (set_of (map (fun f => _kconv (fst f)) fs) acc) = length acc + length (iter_loop fs seen).
Proof.
  induction fs as [|[k v] fs IH]; intros acc seen Hinv; simpl; [lia|].
  rewrite Hinv. destruct (mem (_kconv k) seen) eqn:E; simpl.
  - apply IH. exact Hinv.
  - rewrite (IH (_kconv k :: acc) (_kconv k :: seen)); [simpl; lia|].
    intros c. simpl. rewrite Hinv. reflexivity.
Qed.

Lemma len_iter fs : len fs = N.of_nat (length (iter fs)).
Proof. unfold len, iter. rewrite (set_of_length fs [] []); [reflexivity|]. intros c; reflexivity. Qed.

Lemma len_refines fs : len fs = s_len bytes_eqb (abs fs).
Proof. unfold s_len. rewrite len_iter, iter_refines. reflexivity. Qed.

Lemma eq_refines a b : eq a b = s_eq (abs a) (abs b).
Proof. unfold eq, s_eq. rewrite !unabs_abs. reflexivity. Qed.

Lemma sreg_abs st t : sreg (abs_state st) t = abs (reg st t).
Proof. destruct st, t; reflexivity. Qed.

Lemma set_sreg_abs st t fs : set_sreg (abs_state st) t (abs fs) = abs_state (set_reg st t fs).
Proof. destruct st, t; reflexivity. Qed.

Lemma step_refines st o :
  s_step (abs_state st) o = (fst (step st o), abs_state (snd (step st o))).
Proof.
  destruct o; simpl; rewrite ?sreg_abs.
  - rewrite <- getitem_refines. reflexivity.
  - rewrite <- contains_refines. reflexivity.
  - unfold setitem. rewrite <- set_all_refines, set_sreg_abs. reflexivity.
  - rewrite <- delitem_refines. destruct (delitem (reg st t) key); simpl; [|reflexivity].
    rewrite set_sreg_abs. reflexivity.
  - rewrite <- get_all_refines. reflexivity.
  - rewrite <- set_all_refines, set_sreg_abs. reflexivity.
  - rewrite <- add_refines, set_sreg_abs. reflexivity.
  - rewrite <- insert_refines, set_sreg_abs. reflexivity.
  - rewrite <- iter_refines. reflexivity.
  - rewrite <- len_refines. reflexivity.
  - destruct st as [a b]. simpl. rewrite <- eq_refines. reflexivity.
  - unfold copy. rewrite set_sreg_abs. reflexivity.
Qed.

Theorem run_refines : forall ops st,
  s_run (abs_state st) ops = (fst (run_ops st ops), abs_state (snd (run_ops st ops))).
Proof.
  induction ops as [|o ops IH]; intros st; simpl; [reflexivity|].
  rewrite step_refines. destruct (step st o) as [r st'] eqn:E. simpl.
  rewrite IH. destruct (run_ops st' ops) as [obs st''] eqn:E2. simpl.
  rewrite sreg_abs, unabs_abs. reflexivity.
Qed.
