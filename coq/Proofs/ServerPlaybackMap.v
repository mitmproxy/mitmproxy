(* Proofs/ServerPlaybackMap.v -- lemmas about the flowmap operations, the index invariant
   (every bucket holds exactly the pending recordings whose key under the current options is the
   bucket key; no duplicate keys; no empty bucket) and its preservation by every flowmap operation.
   Under the invariant next_flow is pop_loop on the bucket of the request key (next_flow_eq). *)
From Coq Require Import List Bool Permutation.
From MV Require Import Base.Bytes Model.ServerPlayback Proofs.ServerPlaybackKey.
Import ListNotations.

Definition keys (m : flowmap) : list key := map fst m.
Definition noresp (r : recording) : Prop := rec_has_resp r = false.

(* flowmap.get(k, []) *)
Definition bucket (k : key) (m : flowmap) : list recording :=
  match fm_find k m with Some l => l | None => [] end.

(* the bucket under k becomes rest; an emptied bucket is deleted *)
Definition fm_shrink (k : key) (rest : list recording) (m : flowmap) : flowmap :=
  if nonempty rest then fm_set k rest m else fm_del k m.

Lemma pending_cons k l m : pending ((k, l) :: m) = l ++ pending m.
Proof. reflexivity. Qed.

Lemma in_pending r m : In r (pending m) <-> exists k l, In (k, l) m /\ In r l.
Proof.
  unfold pending. rewrite in_concat. split.
  - intros [l [Hl Hr]]. apply in_map_iff in Hl. destruct Hl as [[k l2] [E Hin]]. simpl in E. subst l2.
    exists k, l. auto.
  - intros [k [l [Hin Hr]]]. exists l. split; [|exact Hr]. apply in_map_iff. exists (k, l). auto.
Qed.

Lemma fm_find_in k : forall m l, fm_find k m = Some l -> In (k, l) m.
Proof.
  induction m as [|[k3 l3] m IH]; intros l H; simpl in H; [discriminate|].
  destruct (key_eqb k k3) eqn:E.
  - apply key_eqb_eq in E. injection H as <-. subst. left. reflexivity.
  - right. auto.
Qed.

Lemma in_fm_find k l : forall m, NoDup (keys m) -> In (k, l) m -> fm_find k m = Some l.
Proof.
  induction m as [|[k3 l3] m IH]; intros ND H; simpl in *; [contradiction|].
  inversion ND as [|? ? Hn ND2]; subst.
  destruct H as [H|H].
  - injection H as -> ->. rewrite key_eqb_refl. reflexivity.
  - destruct (key_eqb k k3) eqn:E; [|auto].
    apply key_eqb_eq in E. subst k3. destruct (Hn (in_map fst _ _ H)).
Qed.

Lemma fm_find_none k : forall m, fm_find k m = None -> ~ In k (keys m).
Proof.
  induction m as [|[k3 l3] m IH]; intros H Hin; simpl in *; [contradiction|].
  destruct (key_eqb k k3) eqn:E; [discriminate|].
  apply key_eqb_neq in E. destruct Hin as [Hin|Hin]; [congruence|]. exact (IH H Hin).
Qed.

Lemma bucket_in k m x : In x (bucket k m) -> In (k, bucket k m) m.
Proof.
  unfold bucket. destruct (fm_find k m) as [l|] eqn:F; [|intros []]. intros _. apply fm_find_in. exact F.
Qed.

Lemma fm_add_bucket k r : forall m k2 l2,
  In (k2, l2) (fm_add k r m) -> In (k2, l2) m \/ (k2, l2) = (k, bucket k m ++ [r]).
Proof.
  unfold bucket. induction m as [|[k3 l3] m IH]; intros k2 l2 H; simpl in *.
  - destruct H as [H|[]]. right. symmetry. exact H.
  - destruct (key_eqb k k3) eqn:E.
    + apply key_eqb_eq in E. subst k3. destruct H as [H|H]; [right; symmetry; exact H | left; right; exact H].
    + destruct H as [H|H]; [left; left; exact H|]. destruct (IH _ _ H); auto.
Qed.

Lemma fm_add_keys k r : forall m,
  keys (fm_add k r m) = if existsb (key_eqb k) (keys m) then keys m else keys m ++ [k].
Proof.
  induction m as [|[k3 l3] m IH]; simpl; [reflexivity|].
  destruct (key_eqb k k3) eqn:E; simpl; [reflexivity|].
  rewrite IH. destruct (existsb (key_eqb k) (keys m)); reflexivity.
Qed.

Lemma fm_add_nodup k r m : NoDup (keys m) -> NoDup (keys (fm_add k r m)).
Proof.
  intro H. rewrite fm_add_keys. destruct (existsb (key_eqb k) (keys m)) eqn:E; [exact H|].
  apply (Permutation_NoDup (Permutation_cons_append (keys m) k)).
  constructor; [|exact H].
  intro Hin. rewrite <- not_true_iff_false, existsb_exists in E. apply E. exists k. split; [exact Hin | apply key_eqb_refl].
Qed.

Lemma fm_add_pending k r : forall m, Permutation (pending (fm_add k r m)) (pending m ++ [r]).
Proof.
  induction m as [|[k3 l3] m IH]; simpl fm_add.
  - reflexivity.
  - destruct (key_eqb k k3); rewrite !pending_cons.
    + rewrite <- !app_assoc. apply Permutation_app_head. apply Permutation_app_comm.
    + rewrite <- app_assoc. apply Permutation_app_head. exact IH.
Qed.

Lemma fm_del_bucket k : forall m k2 l2, In (k2, l2) (fm_del k m) -> In (k2, l2) m.
Proof.
  induction m as [|[k3 l3] m IH]; intros k2 l2 H; simpl in *; [contradiction|].
  destruct (key_eqb k k3); [right; exact H|].
  destruct H as [H|H]; [left; exact H | right; auto].
Qed.

Lemma fm_del_nodup k : forall m, NoDup (keys m) -> NoDup (keys (fm_del k m)).
Proof.
  induction m as [|[k3 l3] m IH]; intros ND; simpl in *; [exact ND|].
  inversion ND as [|? ? Hn ND2]; subst.
  destruct (key_eqb k k3); [exact ND2|].
  simpl. constructor; [|auto]. intro Hin. apply Hn.
  apply in_map_iff in Hin. destruct Hin as [[k2 l2] [<- Hin]]. exact (in_map fst _ _ (fm_del_bucket _ _ _ _ Hin)).
Qed.

Lemma fm_del_absent k : forall m, fm_find k m = None -> fm_del k m = m.
Proof.
  induction m as [|[k3 l3] m IH]; intro H; simpl in *; [reflexivity|].
  destruct (key_eqb k k3); [discriminate|]. rewrite (IH H). reflexivity.
Qed.

Lemma fm_set_bucket k l : forall m k2 l2,
  In (k2, l2) (fm_set k l m) -> In (k2, l2) m \/ (k2, l2) = (k, l).
Proof.
  induction m as [|[k3 l3] m IH]; intros k2 l2 H; simpl in *; [contradiction|].
  destruct (key_eqb k k3) eqn:E.
  - apply key_eqb_eq in E. subst k3. destruct H as [H|H]; [right; symmetry; exact H | left; right; exact H].
  - destruct H as [H|H]; [left; left; exact H|]. destruct (IH _ _ H); auto.
Qed.

Lemma fm_set_keys k l : forall m, keys (fm_set k l m) = keys m.
Proof.
  induction m as [|[k3 l3] m IH]; simpl; [reflexivity|].
  destruct (key_eqb k k3); simpl; [|rewrite IH]; reflexivity.
Qed.

Lemma pending_bucket k : forall m, Permutation (pending m) (bucket k m ++ pending (fm_del k m)).
Proof.
  unfold bucket. induction m as [|[k3 l3] m IH]; simpl fm_find; simpl fm_del; [reflexivity|].
  destruct (key_eqb k k3); rewrite !pending_cons; [reflexivity|].
  rewrite IH at 1. apply Permutation_app_swap_app.
Qed.

Lemma fm_set_pending k l2 : forall m,
  fm_find k m <> None -> Permutation (pending (fm_set k l2 m)) (l2 ++ pending (fm_del k m)).
Proof.
  induction m as [|[k3 l3] m IH]; intro H; simpl in *; [contradiction|].
  destruct (key_eqb k k3); rewrite !pending_cons; [reflexivity|].
  rewrite (IH H). apply Permutation_app_swap_app.
Qed.

Lemma fm_shrink_bucket k rest m k2 l2 :
  In (k2, l2) (fm_shrink k rest m) -> In (k2, l2) m \/ ((k2, l2) = (k, rest) /\ rest <> []).
Proof.
  unfold fm_shrink. destruct rest as [|x rest]; simpl nonempty; intro H.
  - left. exact (fm_del_bucket _ _ _ _ H).
  - destruct (fm_set_bucket _ _ _ _ _ H) as [H2|H2]; [left; exact H2 | right; split; [exact H2 | discriminate]].
Qed.

Lemma fm_shrink_nodup k rest m : NoDup (keys m) -> NoDup (keys (fm_shrink k rest m)).
Proof.
  unfold fm_shrink. destruct (nonempty rest); [rewrite fm_set_keys; auto | apply fm_del_nodup].
Qed.

Lemma fm_shrink_pending k rest m :
  incl rest (bucket k m) -> Permutation (pending (fm_shrink k rest m)) (rest ++ pending (fm_del k m)).
Proof.
  unfold fm_shrink, bucket. destruct rest as [|x rest]; simpl nonempty; intro H; [reflexivity|].
  apply fm_set_pending. destruct (fm_find k m); [discriminate | destruct (H x (or_introl eq_refl))].
Qed.

Definition olist {A} (x : option A) : list A := match x with Some a => [a] | None => [] end.

Lemma pop_loop_find l : fst (pop_loop l) = find rec_has_resp l.
Proof. induction l as [|r t IH]; simpl; [reflexivity|]. destruct (rec_has_resp r); [reflexivity|exact IH]. Qed.

Lemma pop_loop_spec l :
  exists sk, l = sk ++ olist (fst (pop_loop l)) ++ snd (pop_loop l) /\ Forall noresp sk /\
    match fst (pop_loop l) with Some r => rec_has_resp r = true | None => snd (pop_loop l) = [] end.
Proof.
  induction l as [|r t [sk [El [Fsk R]]]]; simpl.
  - exists []. repeat split. constructor.
  - destruct (rec_has_resp r) eqn:E.
    + exists []. repeat split; [constructor | exact E].
    + exists (r :: sk). simpl. rewrite <- El. repeat split; [constructor; assumption | exact R].
Qed.

Record Inv (o : options) (m : flowmap) : Prop := {
  inv_keys : forall k l, In (k, l) m -> forall r, In r l -> _hash o (rec_req r) = k;
  inv_nodup : NoDup (keys m);
  inv_nonempty : forall k l, In (k, l) m -> l <> []
}.

Lemma Inv_nil o : Inv o [].
Proof. constructor; simpl; try contradiction. constructor. Qed.

Lemma in_bucket o m k r : Inv o m -> In r (bucket k m) <-> In r (pending m) /\ _hash o (rec_req r) = k.
Proof.
  intros [HK HN _]. split.
  - intro H. pose proof (bucket_in _ _ _ H) as Hb. split; [|exact (HK _ _ Hb _ H)].
    apply in_pending. exists k, (bucket k m). auto.
  - intros [H <-]. apply in_pending in H. destruct H as [k [l [Hin Hr]]].
    rewrite (HK _ _ Hin _ Hr). unfold bucket. rewrite (in_fm_find _ _ _ HN Hin). exact Hr.
Qed.

Lemma Inv_fm_add o r m : Inv o m -> Inv o (fm_add (_hash o (rec_req r)) r m).
Proof.
  intros [HK HN HE]. constructor.
  - intros k l Hin r2 Hr2. destruct (fm_add_bucket _ _ _ _ _ Hin) as [H|E]; [exact (HK _ _ H _ Hr2)|].
    injection E as -> ->. apply in_app_or in Hr2. destruct Hr2 as [Hr2|[<-|[]]]; [|reflexivity].
    exact (HK _ _ (bucket_in _ _ _ Hr2) _ Hr2).
  - apply fm_add_nodup. exact HN.
  - intros k l Hin. destruct (fm_add_bucket _ _ _ _ _ Hin) as [H|E]; [exact (HE _ _ H)|].
    injection E as _ ->. intro E. exact (app_cons_not_nil _ _ _ (eq_sym E)).
Qed.

Lemma Inv_add_flows o : forall fs m, Inv o m -> Inv o (add_flows o fs m).
Proof.
  unfold add_flows. induction fs as [|f fs IH]; intros m H; simpl; [exact H|].
  apply IH. destruct f as [r|]; simpl; [apply Inv_fm_add; exact H | exact H].
Qed.

Lemma Inv_load_flows o fs : Inv o (load_flows o fs).
Proof. apply Inv_add_flows. apply Inv_nil. Qed.

Lemma Inv_ext o o2 m : (forall r, _hash o2 r = _hash o r) -> Inv o m -> Inv o2 m.
Proof.
  intros E [HK HN HE]. constructor; auto. intros k l Hin r Hr. rewrite E. eauto.
Qed.

Lemma Inv_fm_shrink o k rest m : Inv o m -> incl rest (bucket k m) -> Inv o (fm_shrink k rest m).
Proof.
  intros [HK HN HE] Hincl. constructor.
  - intros k2 l2 H r Hr. destruct (fm_shrink_bucket _ _ _ _ _ H) as [H2|[E _]]; [exact (HK _ _ H2 _ Hr)|].
    injection E as -> ->. exact (HK _ _ (bucket_in _ _ _ (Hincl _ Hr)) _ (Hincl _ Hr)).
  - apply fm_shrink_nodup. exact HN.
  - intros k2 l2 H. destruct (fm_shrink_bucket _ _ _ _ _ H) as [H2|[E Hne]]; [exact (HE _ _ H2)|].
    injection E as _ ->. exact Hne.
Qed.

Lemma Inv_configure o upd m :
  Inv o m -> Inv (fst (configure o upd m)) (snd (configure o upd m)).
Proof.
  intro H. unfold configure. destruct (existsb in_hash_options upd) eqn:E; simpl.
  - apply Inv_load_flows.
  - apply (Inv_ext o); [|exact H]. intro r. apply hash_fold_other. exact E.
Qed.

(* the test of next_flow: server_replay_reuse or the older server_replay_nopop *)
Definition reuse_on (o : options) : bool := o_reuse o || o_nopop o.

(* no bucket is empty, so pop(0) never raises; a key that is absent behaves like an empty bucket *)
Lemma next_flow_eq o rq m :
  Inv o m ->
  next_flow o rq m =
    (match fst (pop_loop (bucket (_hash o rq) m)) with Some r => NfFlow r | None => NfNone end,
     if reuse_on o then m else fm_shrink (_hash o rq) (snd (pop_loop (bucket (_hash o rq) m))) m).
Proof.
  intros [_ _ HE]. unfold next_flow, reuse_on, bucket, fm_shrink.
  destruct (fm_find (_hash o rq) m) as [l|] eqn:F.
  - rewrite <- pop_loop_find.
    destruct l as [|x l]; [destruct (HE _ _ (fm_find_in _ _ _ F) eq_refl)|].
    destruct (pop_loop_spec (x :: l)) as [_ [_ [_ R]]].
    destruct (pop_loop (x :: l)) as [[r|] rest]; simpl in R; [|subst rest];
      destruct (o_reuse o || o_nopop o); reflexivity.
  - simpl. rewrite (fm_del_absent _ _ F). destruct (o_reuse o || o_nopop o); reflexivity.
Qed.

Definition final (s : state) (h : list op) : state := fold_left (fun s x => fst (step s x)) h s.

Lemma last_cons {A} : forall L (a d : A), last (a :: L) d = last L a.
Proof.
  induction L as [|b L IH]; intros a d; [reflexivity|].
  change (last (b :: L) d = last (b :: L) a). rewrite !IH. reflexivity.
Qed.

Lemma run_last : forall h s, last (map fst (run s h)) s = final s h.
Proof.
  induction h as [|x h IH]; intros s; [reflexivity|].
  simpl run. change (final s (x :: h)) with (final (fst (step s x)) h).
  destruct (step s x) as [s2 out]. simpl map. rewrite last_cons. apply IH.
Qed.

Lemma final_snoc s h x : final s (h ++ [x]) = fst (step (final s h) x).
Proof. unfold final. rewrite fold_left_app. reflexivity. Qed.
