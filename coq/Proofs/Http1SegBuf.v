(* Proofs/Http1SegBuf.v -- facts about the ReceiveBuffer model of Model/Http1Seg.v:
   the two search-offset caches never change a result (buf_inv), results are determined by a prefix of the data
   (appending bytes to the buffer does not change a successful extraction); splitN and maybe_extract_at_most read
   through firstn / skipn, and what it does on appended data. *)
From Coq Require Import List Bool NArith ZArith Arith Lia.
From MV Require Import Base.Bytes Model.Http1Seg.
Import ListNotations.

Lemma option_map_map {A B C} (f : A -> B) (g : B -> C) (o : option A) :
  option_map g (option_map f o) = option_map (fun x => g (f x)) o.
Proof. destruct o; reflexivity. Qed.

Lemma option_map_ext {A B} (f g : A -> B) (o : option A) : (forall x, f x = g x) -> option_map f o = option_map g o.
Proof. intros H; destruct o; simpl; [rewrite H|]; reflexivity. Qed.

Lemma option_map_id {A} (o : option A) : option_map (fun x => x) o = o.
Proof. destruct o; reflexivity. Qed.

Lemma find_crlf_cons2 a b t :
  find_crlf (a :: b :: t) = if byte_eqb a CR && byte_eqb b LF then Some 0 else option_map S (find_crlf (b :: t)).
Proof. reflexivity. Qed.

Lemma find_crlf_bound d : forall i, find_crlf d = Some i -> i + 2 <= length d.
Proof.
  induction d as [|a t IH]; intros i H; [discriminate|].
  destruct t as [|b t']; [discriminate|]. rewrite find_crlf_cons2 in H.
  destruct (byte_eqb a CR && byte_eqb b LF).
  - inversion H; subst; simpl; lia.
  - destruct (find_crlf (b :: t')) eqn:E; [|discriminate]. inversion H; subst.
    specialize (IH _ eq_refl). simpl in *; lia.
Qed.

Lemma find_crlf_app d x : forall i, find_crlf d = Some i -> find_crlf (d ++ x) = Some i.
Proof.
  induction d as [|a t IH]; intros i H; [discriminate|].
  destruct t as [|b t']; [discriminate|].
  change ((a :: b :: t') ++ x) with (a :: b :: (t' ++ x)).
  rewrite find_crlf_cons2 in *. destruct (byte_eqb a CR && byte_eqb b LF); [exact H|].
  destruct (find_crlf (b :: t')) eqn:E; [|discriminate].
  change (b :: t' ++ x) with ((b :: t') ++ x). rewrite (IH _ eq_refl). exact H.
Qed.

Definition nls_ok (d : bytes) (n : nat) : Prop := n <= length d /\ find_crlf (firstn n d) = None.

Lemma find_crlf_from_ok d : forall n, find_crlf (firstn n d) = None -> find_crlf_from (n - 1) d = find_crlf d.
Proof.
  unfold find_crlf_from. induction d as [|a t IH]; intros n H.
  - rewrite skipn_nil. reflexivity.
  - destruct n as [|[|k]].
    + simpl. apply option_map_id.
    + simpl. apply option_map_id.
    + change (S (S k) - 1) with (S k). change (skipn (S k) (a :: t)) with (skipn k t).
      change (firstn (S (S k)) (a :: t)) with (a :: firstn (S k) t) in H.
      specialize (IH (S k)). replace (S k - 1) with k in IH by lia.
      destruct t as [|b t'].
      * rewrite skipn_nil. reflexivity.
      * change (firstn (S k) (b :: t')) with (b :: firstn k t') in H. rewrite find_crlf_cons2 in H.
        rewrite find_crlf_cons2. destruct (byte_eqb a CR && byte_eqb b LF); [discriminate|].
        destruct (find_crlf (b :: firstn k t')) eqn:E; [discriminate|].
        change (b :: firstn k t') with (firstn (S k) (b :: t')) in E.
        rewrite <- (IH E). rewrite option_map_map. apply option_map_ext. intros; lia.
Qed.

Lemma nls_ok_app d x n : nls_ok d n -> nls_ok (d ++ x) n.
Proof.
  intros [Hl Hf]. split; [rewrite app_length; lia|].
  rewrite firstn_app. replace (n - length d) with 0 by lia. simpl. rewrite app_nil_r. exact Hf.
Qed.

Lemma blank_at_bound d k : blank_at d = Some k -> 2 <= k /\ k <= length d.
Proof.
  destruct d as [|a [|b t]]; simpl; try discriminate.
  destruct (byte_eqb a LF); [|discriminate].
  destruct (byte_eqb b LF); [intros H; inversion H; simpl; lia|].
  destruct (byte_eqb b CR); [|discriminate].
  destruct t as [|c t']; [discriminate|]. destruct (byte_eqb c LF); [|discriminate].
  intros H; inversion H; simpl; lia.
Qed.

Lemma blank_at_app_some d x k : blank_at d = Some k -> blank_at (d ++ x) = Some k.
Proof.
  destruct d as [|a [|b t]]; simpl; try discriminate.
  destruct (byte_eqb a LF); [|discriminate].
  destruct (byte_eqb b LF); [auto|].
  destruct (byte_eqb b CR); [|discriminate].
  destruct t as [|c t']; [discriminate|]. simpl. auto.
Qed.

Lemma blank_at_app3 d x : 3 <= length d -> blank_at (d ++ x) = blank_at d.
Proof. destruct d as [|a [|b [|c t]]]; simpl; intros; try lia. reflexivity. Qed.

Lemma blank_at_firstn d n : 3 <= n -> blank_at (firstn n d) = blank_at d.
Proof.
  intros H. destruct n as [|[|[|n]]]; try lia.
  destruct d as [|a [|b [|c t]]]; reflexivity.
Qed.

Lemma blank_search_cons a t :
  blank_search (a :: t) = match blank_at (a :: t) with Some k => Some k | None => option_map S (blank_search t) end.
Proof. reflexivity. Qed.

Lemma blank_search_bound d : forall k, blank_search d = Some k -> 2 <= k /\ k <= length d.
Proof.
  induction d as [|a t IH]; intros k H.
  - simpl in H. discriminate.
  - rewrite blank_search_cons in H. destruct (blank_at (a :: t)) eqn:E.
    + inversion H; subst. apply blank_at_bound in E. exact E.
    + destruct (blank_search t) eqn:E2; [|discriminate]. inversion H; subst.
      destruct (IH _ eq_refl). simpl. lia.
Qed.

Lemma blank_search_app d x : forall k, blank_search d = Some k -> blank_search (d ++ x) = Some k.
Proof.
  induction d as [|a t IH]; intros k H; [simpl in H; discriminate|].
  change ((a :: t) ++ x) with (a :: (t ++ x)). rewrite blank_search_cons in *.
  destruct (blank_at (a :: t)) eqn:E.
  - change (a :: t ++ x) with ((a :: t) ++ x). rewrite (blank_at_app_some _ _ _ E). exact H.
  - destruct (blank_search t) eqn:E2; [|discriminate].
    destruct (blank_search_bound _ _ E2) as [? ?].
    change (a :: t ++ x) with ((a :: t) ++ x). rewrite blank_at_app3 by (simpl; lia). rewrite E.
    rewrite (IH _ eq_refl). exact H.
Qed.

Definition mls_ok (d : bytes) (m : nat) : Prop :=
  m = 0 \/ (m + 2 <= length d /\ blank_search (firstn (m + 2) d) = None).

Lemma blank_search_from_ok : forall m d, blank_search (firstn (m + 2) d) = None -> blank_search_from m d = blank_search d.
Proof.
  unfold blank_search_from. induction m as [|m IH]; intros d H.
  - simpl. apply option_map_id.
  - destruct d as [|a t]; [reflexivity|].
    change (skipn (S m) (a :: t)) with (skipn m t).
    change (firstn (S m + 2) (a :: t)) with (a :: firstn (m + 2) t) in H.
    rewrite blank_search_cons in H.
    destruct (blank_at (a :: firstn (m + 2) t)) eqn:E; [discriminate|].
    destruct (blank_search (firstn (m + 2) t)) eqn:E2; [discriminate|].
    change (a :: firstn (m + 2) t) with (firstn (S (m + 2)) (a :: t)) in E.
    rewrite blank_at_firstn in E by lia.
    rewrite blank_search_cons, E. rewrite <- (IH _ E2).
    rewrite option_map_map. apply option_map_ext. intros; lia.
Qed.

Lemma mls_ok_app d x m : mls_ok d m -> mls_ok (d ++ x) m.
Proof.
  intros [H|[Hl Hs]]; [left; exact H|right].
  split; [rewrite app_length; lia|].
  rewrite firstn_app. replace (m + 2 - length d) with 0 by lia. simpl. rewrite app_nil_r. exact Hs.
Qed.

Definition buf_inv (b : rbuf) : Prop := nls_ok (b_data b) (b_nls b) /\ mls_ok (b_data b) (b_mls b).

Lemma buf_inv_zero d : buf_inv (mkBuf d 0 0).
Proof. split; [split; simpl; [lia|reflexivity]|left; reflexivity]. Qed.

Lemma buf_inv_add b x : buf_inv b -> buf_inv (buf_add b x).
Proof. intros [H1 H2]. split; simpl; [apply nls_ok_app|apply mls_ok_app]; assumption. Qed.

Lemma starts_with_length p d : starts_with p d = true -> length p <= length d.
Proof. intros H. apply starts_with_spec in H as [r ->]. rewrite app_length. apply Nat.le_add_r. Qed.

Lemma starts_with_app_long p d x : length p <= length d -> starts_with p (d ++ x) = starts_with p d.
Proof.
  revert d; induction p as [|a p IH]; intros d H; [reflexivity|].
  destruct d as [|b d]; [simpl in H; lia|]. simpl in *.
  destruct (byte_eqb a b); [simpl; apply IH; lia|reflexivity].
Qed.

(* bytes that lstrip leaves alone stop it *)
Lemma lstrip_app_fixed d x : lstrip_crlf x = x -> lstrip_crlf (d ++ x) = lstrip_crlf d ++ x.
Proof.
  intros H. induction d as [|a t IH]; [exact H|]. simpl. destruct (byte_eqb a CR || byte_eqb a LF); [exact IH|reflexivity].
Qed.

Lemma splitN_eq d : forall n, splitN d n = (firstn (N.to_nat n) d, skipn (N.to_nat n) d).
Proof.
  induction d as [|y t IH]; intros n; [destruct (N.to_nat n); reflexivity|].
  cbn [splitN]. destruct (N.eqb_spec n 0) as [->|Hn]; [reflexivity|].
  rewrite IH. replace (N.to_nat n) with (S (N.to_nat (N.pred n))) by lia. reflexivity.
Qed.

Lemma at_most_eq b n :
  maybe_extract_at_most b n =
  match firstn (N.to_nat n) (b_data b) with
  | [] => (None, b)
  | a => (Some a, mkBuf (skipn (N.to_nat n) (b_data b)) 0 0)
  end.
Proof. unfold maybe_extract_at_most. rewrite splitN_eq. destruct (firstn _ _); reflexivity. Qed.

Lemma at_most_some b n a b' : maybe_extract_at_most b n = (Some a, b') ->
  a = firstn (N.to_nat n) (b_data b) /\ a <> [] /\ b' = mkBuf (skipn (N.to_nat n) (b_data b)) 0 0.
Proof. rewrite at_most_eq. destruct (firstn _ _); [discriminate|]. intros [= <- <-]. repeat split. discriminate. Qed.

Lemma at_most_intro b n : firstn (N.to_nat n) (b_data b) <> [] ->
  maybe_extract_at_most b n = (Some (firstn (N.to_nat n) (b_data b)), mkBuf (skipn (N.to_nat n) (b_data b)) 0 0).
Proof. rewrite at_most_eq. destruct (firstn _ _); [congruence|reflexivity]. Qed.

Lemma at_most_all b : b_data b <> [] ->
  maybe_extract_at_most b (N.of_nat (length (b_data b))) = (Some (b_data b), mkBuf [] 0 0).
Proof. intros H. rewrite at_most_intro; rewrite Nat2N.id, ?firstn_all, ?skipn_all; [reflexivity|exact H]. Qed.

Lemma at_most_concat b n d b' : maybe_extract_at_most b n = (Some d, b') -> d <> [] /\ d ++ b_data b' = b_data b.
Proof. intros H. destruct (at_most_some _ _ _ _ H) as (-> & Hne & ->). split; [exact Hne|apply firstn_skipn]. Qed.

Lemma at_most_shrinks b n d b' : maybe_extract_at_most b n = (Some d, b') -> length (b_data b') < length (b_data b).
Proof.
  intros H. destruct (at_most_concat _ _ _ _ H) as [Hd <-]. rewrite app_length. destruct d; [congruence|simpl; lia].
Qed.

Lemma at_most_none b n b' : maybe_extract_at_most b n = (None, b') -> b' = b.
Proof. rewrite at_most_eq. destruct (firstn _ _); [congruence|discriminate]. Qed.

(* either everything asked for was buffered, or the whole buffer was taken and the rest comes from x *)
Lemma at_most_app b x n a b' : x <> [] -> maybe_extract_at_most b n = (Some a, b') ->
  maybe_extract_at_most (buf_add b x) n = (Some a, mkBuf (b_data b' ++ x) 0 0) /\ N.of_nat (length a) = n
  \/ b' = mkBuf [] 0 0 /\ (N.of_nat (length a) < n)%N /\
     exists y r, maybe_extract_at_most (mkBuf x 0 0) (n - N.of_nat (length a)) = (Some y, r) /\
                 maybe_extract_at_most (buf_add b x) n = (Some (a ++ y), r).
Proof.
  intros Hx H. destruct (at_most_some _ _ _ _ H) as (-> & Hne & ->). cbn [b_data].
  set (k := N.to_nat n) in *. set (d := b_data b) in *.
  destruct (le_lt_dec k (length d)) as [L|L].
  - left. rewrite at_most_intro; cbn [b_data buf_add]; fold k d; rewrite firstn_app, ?skipn_app;
      replace (k - length d) with 0 by lia; cbn [firstn skipn]; rewrite ?app_nil_r; [|exact Hne].
    split; [reflexivity|]. rewrite firstn_length_le by exact L. lia.
  - right. rewrite (firstn_all2 d), (skipn_all2 d) in * by lia. split; [reflexivity|]. split; [lia|].
    assert (Hy : firstn (k - length d) x <> []).
    { destruct x; [congruence|]. destruct (k - length d) eqn:K; [lia|discriminate]. }
    exists (firstn (k - length d) x), (mkBuf (skipn (k - length d) x) 0 0). split.
    + rewrite at_most_intro; cbn [b_data]; replace (N.to_nat (n - N.of_nat (length d))) with (k - length d) by lia;
        [reflexivity|exact Hy].
    + rewrite at_most_intro; cbn [b_data buf_add]; fold k d;
        rewrite firstn_app, ?skipn_app, (firstn_all2 d), ?(skipn_all2 d) by lia; [reflexivity|].
      intros X. apply app_eq_nil in X. tauto.
Qed.

Lemma at_most_none_data b n b' : maybe_extract_at_most b n = (None, b') -> n <> 0%N -> b_data b = [].
Proof.
  rewrite at_most_eq. destruct (b_data b); [reflexivity|]. intros H Hn. destruct (N.to_nat n) eqn:K; [lia|discriminate].
Qed.

(* what an extraction finds in the data: how many bytes it consumes and its result *)
Definition next_line_cut (d : bytes) : option (nat * bytes) :=
  option_map (fun i => (i + 2, firstn (i + 2) d)) (find_crlf d).
Definition lines_cut (d : bytes) : option (nat * list bytes) :=
  if starts_with [LF] d then Some (1, []) else if starts_with CRLF d then Some (2, [])
  else option_map (fun idx => (idx, lines_of (firstn idx d))) (blank_search d).

(* a cut consumes at least one byte and is determined by the part of the data it consumes *)
Record prefix_cut {A} (cut : bytes -> option (nat * A)) : Prop := {
  cut_bound : forall d k r, cut d = Some (k, r) -> 1 <= k <= length d;
  cut_app : forall d x k r, cut d = Some (k, r) -> cut (d ++ x) = Some (k, r)
}.

(* op extracts what cut finds; when there is nothing to extract only the caches change, and stay valid *)
Definition extracts {A} (op : rbuf -> option A * rbuf) (cut : bytes -> option (nat * A)) : Prop :=
  forall b, buf_inv b ->
    match cut (b_data b) with
    | Some (k, r) => op b = (Some r, mkBuf (skipn k (b_data b)) 0 0)
    | None => fst (op b) = None /\ b_data (snd (op b)) = b_data b /\ buf_inv (snd (op b))
    end.

Lemma firstn_app_le {A} n (d x : list A) : n <= length d -> firstn n (d ++ x) = firstn n d.
Proof. intros H. rewrite firstn_app. replace (n - length d) with 0 by lia. apply app_nil_r. Qed.

Lemma next_line_cut_prefix : prefix_cut next_line_cut.
Proof.
  unfold next_line_cut. split; intros d; [|intros x]; intros k r H; destruct (find_crlf d) as [i|] eqn:E; try discriminate;
    injection H as <- <-; pose proof (find_crlf_bound _ _ E).
  - lia.
  - rewrite (find_crlf_app _ x _ E). cbn. rewrite firstn_app_le by assumption. reflexivity.
Qed.

Lemma lines_cut_prefix : prefix_cut lines_cut.
Proof.
  unfold lines_cut. split; intros d; [|intros x]; intros k r H.
  - destruct (starts_with [LF] d) eqn:E1; [apply starts_with_length in E1; injection H as <- _; exact (conj (le_n 1) E1)|].
    destruct (starts_with CRLF d) eqn:E2; [apply starts_with_length in E2; injection H as <- _; cbn in E2; lia|].
    destruct (blank_search d) as [idx|] eqn:E3; [|discriminate]. injection H as <- _.
    destruct (blank_search_bound _ _ E3). lia.
  - destruct (starts_with [LF] d) eqn:E1; [rewrite (starts_with_app _ _ x E1); exact H|].
    destruct (starts_with CRLF d) eqn:E2.
    { pose proof (starts_with_length _ _ E2) as L. cbn in L.
      rewrite starts_with_app_long, E1, (starts_with_app _ _ x E2) by (cbn; lia). exact H. }
    destruct (blank_search d) as [idx|] eqn:E3; [|discriminate]. destruct (blank_search_bound _ _ E3).
    rewrite !starts_with_app_long, E1, E2, (blank_search_app _ x _ E3) by (cbn; lia). cbn in *.
    rewrite firstn_app_le by assumption. exact H.
Qed.

Lemma next_line_extracts : extracts maybe_extract_next_line next_line_cut.
Proof.
  intros b [[_ H1] H2]. unfold maybe_extract_next_line, next_line_cut.
  rewrite Nat.max_0_l, (find_crlf_from_ok _ _ H1). destruct (find_crlf (b_data b)) eqn:E; cbn [option_map fst snd]; [reflexivity|].
  split; [reflexivity|]. split; [reflexivity|]. split; [|exact H2]. split; [apply le_n|cbn; rewrite firstn_all; exact E].
Qed.

Lemma lines_extracts : extracts maybe_extract_lines lines_cut.
Proof.
  intros b [H1 H2]. unfold maybe_extract_lines, lines_cut. cbv zeta.
  destruct (starts_with [LF] (b_data b)); [reflexivity|]. destruct (starts_with CRLF (b_data b)); [reflexivity|].
  assert (E : blank_search_from (b_mls b) (b_data b) = blank_search (b_data b)).
  { destruct H2 as [H|[_ H]]; [rewrite H; unfold blank_search_from; simpl; apply option_map_id|].
    apply blank_search_from_ok; exact H. }
  rewrite E. destruct (blank_search (b_data b)) eqn:E3; cbn [option_map fst snd]; [reflexivity|].
  split; [reflexivity|]. split; [reflexivity|]. split; [exact H1|]. unfold mls_ok. cbn [b_data b_mls].
  destruct (le_lt_dec 2 (length (b_data b))) as [Hl|Hl]; [right|left; lia].
  split; [lia|]. replace (length (b_data b) - 2 + 2) with (length (b_data b)) by lia. rewrite firstn_all. exact E3.
Qed.

Section Extract.
Context {A : Type} (op : rbuf -> option A * rbuf) (cut : bytes -> option (nat * A)).
Hypothesis E : extracts op cut.
Hypothesis P : prefix_cut cut.

Lemma extract_inv b : buf_inv b -> buf_inv (snd (op b)).
Proof. intros I. specialize (E b I). destruct (cut (b_data b)) as [[k r]|]; [rewrite E; apply buf_inv_zero|apply E]. Qed.

Lemma extract_shrinks b r b' : buf_inv b -> op b = (Some r, b') -> length (b_data b') < length (b_data b).
Proof.
  intros I H. specialize (E b I). destruct (cut (b_data b)) as [[k r0]|] eqn:C.
  - rewrite E in H. injection H as _ <-. cbn. rewrite skipn_length. destruct (cut_bound _ P _ _ _ C). lia.
  - destruct E as [E0 _]. rewrite H in E0. discriminate.
Qed.

Lemma extract_app b x r b' : buf_inv b -> op b = (Some r, b') -> op (buf_add b x) = (Some r, buf_add b' x).
Proof.
  intros I H. pose proof (E b I) as E1. pose proof (E _ (buf_inv_add b x I)) as E2. cbn [b_data buf_add] in E2.
  destruct (cut (b_data b)) as [[k r0]|] eqn:C.
  - rewrite (cut_app _ P _ x _ _ C) in E2. rewrite E1 in H. injection H as <- <-. rewrite E2.
    destruct (cut_bound _ P _ _ _ C). unfold buf_add. cbn [b_data b_nls b_mls]. rewrite skipn_app.
    replace (k - length (b_data b)) with 0 by lia. reflexivity.
  - destruct E1 as [E0 _]. rewrite H in E0. discriminate.
Qed.

Lemma extract_none b b' : buf_inv b -> op b = (None, b') -> b_data b' = b_data b /\ buf_inv b'.
Proof.
  intros I H. specialize (E b I). destruct (cut (b_data b)) as [[k r0]|]; [rewrite E in H; discriminate|].
  rewrite H in E. exact (proj2 E).
Qed.
End Extract.

Lemma at_most_inv b n : buf_inv b -> buf_inv (snd (maybe_extract_at_most b n)).
Proof.
  intros H. unfold maybe_extract_at_most. destruct (splitN (b_data b) n) as [[|a o] r]; simpl; [exact H|apply buf_inv_zero].
Qed.
