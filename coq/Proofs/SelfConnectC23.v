(* Proofs/SelfConnectC23.v -- C23: the self-connect guard of Proxyserver.server_connect (generated
   model Gen/SelfConnect.v, in which servers that listen on both transports are covered) against the
   specification Model/SelfSpec.v.  All statements are for every server list, host string, port
   and transport. *)
From Coq Require Import NArith List Bool Lia Ascii String.
From MV Require Import Base.Bytes Model.SelfConnectBase Model.SelfSpec Gen.SelfConnect Proofs.DecOfN.
Import ListNotations.
Open Scope N_scope.

Definition recognised (ch lh : bytes) : Prop :=
  ch = s_localhost \/ ch = s_127_0_0_1 \/ ch = s_v6_loop \/ ch = lh.

Lemma transport_test : forall mt ct,
  in_tuple transport_eqb mt [ct; BOTH] = true <-> transport_compatible mt ct.
Proof.
  intros mt ct. unfold transport_compatible, in_tuple. cbn [existsb].
  destruct mt, ct; cbn; split; intros H; try reflexivity; try discriminate; auto;
    destruct H as [H|H]; discriminate.
Qed.

Lemma self_connect_iff : forall ch cp ct srv lh lp,
  self_connect ch cp ct srv lh lp = true <->
  cp = lp /\ recognised ch lh /\ transport_compatible (mode_transport srv) ct.
Proof.
  intros. unfold self_connect, recognised. rewrite !andb_true_iff, N.eqb_eq, transport_test.
  unfold in_tuple. cbn [existsb]. rewrite !orb_true_iff, !bytes_eqb_eq.
  fold s_localhost s_127_0_0_1 s_v6_loop.
  split.
  - intros [[Hp Hh] Ht]. split; [exact Hp|]. split; [|exact Ht].
    destruct Hh as [H|[H|[H|[H|H]]]]; auto. discriminate.
  - intros [Hp [Hh Ht]]. split; [split; [exact Hp|]|exact Ht].
    destruct Hh as [H|[H|[H|H]]]; auto.
Qed.

Lemma server_connect_flags_iff : forall servers ch cp ct,
  server_connect servers ch cp ct = Some error_message <->
  exists srv la, In srv servers /\ In la (listen_addrs srv) /\ self_connect ch cp ct srv (fst la) (snd la) = true.
Proof.
  intros. unfold server_connect.
  transitivity (existsb (fun srv => existsb (fun la => self_connect ch cp ct srv (fst la) (snd la)) (listen_addrs srv))
                        servers = true).
  { destruct (existsb _ servers); split; congruence. }
  rewrite existsb_exists. split.
  - intros [srv [Hs H]]. apply existsb_exists in H as [la [Hl H]]. exists srv, la. auto.
  - intros [srv [la [Hs [Hl H]]]]. exists srv. split; [exact Hs|]. apply existsb_exists. exists la. auto.
Qed.

Theorem exact : forall servers ch cp ct,
  server_connect servers ch cp ct = Some error_message <->
  exists srv la, In srv servers /\ In la (listen_addrs srv)
    /\ cp = snd la /\ recognised ch (fst la) /\ transport_compatible (mode_transport srv) ct.
Proof.
  intros. rewrite server_connect_flags_iff. split; intros [srv [la [Hs [Hl H]]]]; exists srv, la;
    (split; [exact Hs|]; split; [exact Hl|]); apply self_connect_iff; exact H.
Qed.

(* the property, restricted to the recognised spellings (the complement is the finding) *)
Theorem partial : forall servers srv la ch cp ct,
  In srv servers -> In la (listen_addrs srv) ->
  denotes_listener srv la ch cp ct -> recognised ch (fst la) ->
  server_connect servers ch cp ct = Some error_message.
Proof.
  intros servers srv la ch cp ct Hs Hl [Hp [Ht _]] Hr. apply exact. exists srv, la. auto.
Qed.

(* ... and that guard is exact: with one listener, an unrecognised spelling is never stopped *)
Theorem unrecognised_not_flagged : forall mt la ch cp ct,
  ~ recognised ch (fst la) ->
  server_connect [{| mode_transport := mt; listen_addrs := [la] |}] ch cp ct = None.
Proof.
  intros mt la ch cp ct Hn. unfold server_connect. cbn [existsb listen_addrs].
  destruct (self_connect ch cp ct _ (fst la) (snd la)) eqn:E; [|reflexivity].
  apply self_connect_iff in E as (_ & Hr & _). contradiction.
Qed.

(* the explicit listen address is stopped on the right port for every compatible transport, servers that
   listen on both transports included *)
Theorem explicit_listen_address : forall servers srv la cp ct,
  In srv servers -> In la (listen_addrs srv) -> cp = snd la ->
  transport_compatible (mode_transport srv) ct ->
  server_connect servers (fst la) cp ct = Some error_message.
Proof.
  intros servers srv la cp ct Hs Hl Hp Ht. apply exact. exists srv, la. unfold recognised. auto 10.
Qed.

(* dotted-decimal printing is injective on octets: needed to say which 127.x.y.z are missed *)
Definition no_dot (s : bytes) : bool := forallb (fun b => negb (byte_eqb b dot)) s.

Lemma no_dot_digits s : forallb is_digit s = true -> no_dot s = true.
Proof.
  unfold no_dot. rewrite !forallb_forall. intros H c Hc. specialize (H c Hc).
  apply negb_true_iff, byte_eqb_neq. intros ->. discriminate H.
Qed.

Lemma split_at_dot : forall a b r r', no_dot a = true -> no_dot b = true ->
  a ++ dot :: r = b ++ dot :: r' -> a = b /\ r = r'.
Proof.
  induction a as [|x a IH]; intros [|y b] r r' Ha Hb H; cbn in *.
  - injection H as ->. auto.
  - injection H as <- _. discriminate Hb.
  - injection H as -> _. discriminate Ha.
  - injection H as -> H. apply andb_prop in Ha as [_ Ha]. apply andb_prop in Hb as [_ Hb].
    destruct (IH b r r' Ha Hb H) as [-> ->]. auto.
Qed.

Lemma dotted_inj : forall n m, n < 4294967296 -> m < 4294967296 -> dotted n = dotted m -> n = m.
Proof.
  intros n m Hn Hm H. unfold dotted in H.
  pose proof (fun k => no_dot_digits _ (dec_of_N_digits k)) as D.
  destruct (split_at_dot _ _ _ _ (D _) (D _) H) as [E1 H1].
  destruct (split_at_dot _ _ _ _ (D _) (D _) H1) as [E2 H2].
  destruct (split_at_dot _ _ _ _ (D _) (D _) H2) as [E3 E4].
  apply dec_of_N_inj in E1, E2, E3, E4.
  assert (S : forall a b, a / 256 = b / 256 -> a mod 256 = b mod 256 -> a = b).
  { intros a b Hd Hr. rewrite (N.div_mod a 256), (N.div_mod b 256), Hd, Hr by lia. reflexivity. }
  rewrite !N.mod_small in E1 by (apply N.div_lt_upper_bound; lia).
  (* octet by octet from the lowest: equal quotients by 256 (E1..E3, after N.div_div) and equal remainders *)
  apply S; [apply S; [apply S|]|]; rewrite ?N.div_div by lia; assumption.
Qed.

Lemma dotted_127_0_0_1 : dotted 2130706433 = s_127_0_0_1.
Proof. vm_compute. reflexivity. Qed.

Lemma dotted_loop_prefix : forall n, in_loop4 n = true ->
  exists r, dotted n = [x31; x32; x37; x2e] ++ r.
Proof.
  intros n H. unfold in_loop4 in H. apply andb_prop in H. destruct H as [H1 H2].
  apply N.leb_le in H1. apply N.leb_le in H2.
  assert (E : n / 16777216 = 127).
  { symmetry. apply (N.div_unique n 16777216 127 (n - 2130706432)); lia. }
  unfold dotted. rewrite E. change (127 mod 256) with 127. change (dec_of_N 127) with [x31; x32; x37].
  eexists. reflexivity.
Qed.

(* EVERY address of 127.0.0.0/8 other than 127.0.0.1, written in dotted decimal, is let through when
   mitmproxy listens on all interfaces (or on any loopback/wildcard address other than that very
   spelling): the guard recognises a single member of the /8 *)
Theorem loopback_v4_missed : forall n mt lh p ct,
  in_loop4 n = true -> n <> 2130706433 -> dotted n <> lh ->
  local_dest (dotted n)
  /\ server_connect [{| mode_transport := mt; listen_addrs := [(lh, p)] |}] (dotted n) p ct = None.
Proof.
  intros n mt lh p ct Hn Hne Hlh. split; [apply LD_v4; exact Hn|].
  apply unrecognised_not_flagged. cbn [fst]. unfold recognised.
  destruct (dotted_loop_prefix n Hn) as [r Hr].
  intros [H|[H|[H|H]]].
  - rewrite Hr in H. discriminate.
  - rewrite <- dotted_127_0_0_1 in H. apply dotted_inj in H; [exact (Hne H)| |lia].
    unfold in_loop4 in Hn. apply andb_prop in Hn. destruct Hn as [_ H2]. apply N.leb_le in H2. lia.
  - rewrite Hr in H. discriminate.
  - exact (Hlh H).
Qed.

(* same for the IPv4-mapped spelling of EVERY loopback address, 127.0.0.1 included *)
Theorem mapped_loopback_missed : forall n mt lh p ct,
  in_loop4 n = true -> s_mapped_prefix ++ dotted n <> lh ->
  local_dest (s_mapped_prefix ++ dotted n)
  /\ server_connect [{| mode_transport := mt; listen_addrs := [(lh, p)] |}] (s_mapped_prefix ++ dotted n) p ct = None.
Proof.
  intros n mt lh p ct Hn Hlh. split; [apply LD_mapped; exact Hn|].
  apply unrecognised_not_flagged. cbn [fst]. unfold recognised.
  destruct (dotted_loop_prefix n Hn) as [r Hr]. rewrite Hr.
  intros [H|[H|[H|H]]]; try discriminate. rewrite <- Hr in H. exact (Hlh H).
Qed.

(* every spelling of the name other than the all-lower-case one without trailing dot *)
Theorem localhost_names_missed : forall s mt lh p ct,
  is_localhost_name s = true -> s <> s_localhost -> s <> lh ->
  local_dest s /\ server_connect [{| mode_transport := mt; listen_addrs := [(lh, p)] |}] s p ct = None.
Proof.
  intros s mt lh p ct Hs Hne Hlh. split; [apply LD_name; exact Hs|].
  apply unrecognised_not_flagged. cbn [fst]. unfold recognised.
  intros [H|[H|[H|H]]]; try (subst s; vm_compute in Hs; discriminate); auto.
Qed.

(* concrete counterexamples to the full property, one per spelling family:
   mitmproxy listening on all IPv4 interfaces (0.0.0.0:8080, regular mode, TCP) *)
Definition srv_all : server := {| mode_transport := TCP; listen_addrs := [(s_wild4, 8080)] |}.
Definition b (s : string) : bytes := map (fun a => Nb (N_of_ascii a)) (list_ascii_of_string s).

Definition counterexample (ch : bytes) : Prop :=
  denotes_listener srv_all (s_wild4, 8080) ch 8080 TCP /\ server_connect [srv_all] ch 8080 TCP = None.

Lemma denotes_all : forall ch, local_dest ch -> denotes_listener srv_all (s_wild4, 8080) ch 8080 TCP.
Proof.
  intros ch H. split; [reflexivity|]. split; [left; reflexivity|]. right. split; [|exact H].
  right. right. left. reflexivity.
Qed.

Theorem refuted :
  counterexample (dotted 2130706434)                   (* 127.0.0.2 *)
  /\ counterexample (b "LOCALHOST")
  /\ counterexample (b "localhost.")
  /\ counterexample s_wild6                            (* :: *)
  /\ counterexample (s_mapped_prefix ++ dotted 2130706433)   (* ::ffff:127.0.0.1 *)
  /\ counterexample s_v6_loop_short                    (* 0:0:0:0:0:0:0:1 *)
  (* the wildcard 0.0.0.0 is missed when listening on loopback *)
  /\ (denotes_listener {| mode_transport := TCP; listen_addrs := [(s_127_0_0_1, 8080)] |} (s_127_0_0_1, 8080) s_wild4 8080 TCP
      /\ server_connect [{| mode_transport := TCP; listen_addrs := [(s_127_0_0_1, 8080)] |}] s_wild4 8080 TCP = None).
Proof.
  assert (cex : forall ch, local_dest ch -> server_connect [srv_all] ch 8080 TCP = None -> counterexample ch).
  { intros ch H1 H2. split; [apply denotes_all; exact H1|exact H2]. }
  split; [apply cex; [apply LD_v4|]; vm_compute; reflexivity|].
  split; [apply cex; [apply LD_name|]; vm_compute; reflexivity|].
  split; [apply cex; [apply LD_name|]; vm_compute; reflexivity|].
  split; [apply cex; [apply LD_wild; right; left; reflexivity|vm_compute; reflexivity]|].
  split; [apply cex; [apply LD_mapped|]; vm_compute; reflexivity|].
  split; [apply cex; [apply LD_v6; right; left; reflexivity|vm_compute; reflexivity]|].
  split; [|vm_compute; reflexivity].
  split; [reflexivity|]. split; [left; reflexivity|]. right. split.
  - left. exists 2130706433. split; [vm_compute; reflexivity|]. symmetry. exact dotted_127_0_0_1.
  - apply LD_wild. left. reflexivity.
Qed.

(* non-vacuity: the hypotheses of [partial] are satisfiable with a non-trivial configuration, also for
   a server that listens on both transports (dns mode) asked over UDP, and the guard does not fire
   on an unrelated destination *)
Definition srv_dns : server := {| mode_transport := BOTH; listen_addrs := [(s_wild4, 53); (s_wild6, 53)] |}.

Theorem nonvacuous :
  denotes_listener srv_dns (s_wild6, 53) s_localhost 53 UDP
  /\ recognised s_localhost (fst (s_wild6, 53))
  /\ server_connect [srv_all; srv_dns] s_localhost 53 UDP = Some error_message
  /\ server_connect [srv_all; srv_dns] s_localhost 8080 UDP = None
  /\ server_connect [srv_all; srv_dns] (b "example.com") 8080 TCP = None
  /\ server_connect [srv_all; srv_dns] s_v6_loop 8080 TCP = Some error_message.
Proof.
  split.
  { split; [reflexivity|]. split; [right; reflexivity|]. right. split.
    - right. right. right. reflexivity.
    - apply LD_name. vm_compute. reflexivity. }
  split; [left; reflexivity|].
  split; [vm_compute; reflexivity|]. split; [vm_compute; reflexivity|].
  split; vm_compute; reflexivity.
Qed.
