(* Proofs/WsFragment.v -- Fragmentizer: the fragments concatenate to the content, only the last one
   is final, original lengths are reused when the length is unchanged, otherwise FRAGMENT_SIZE
   chunks; binary payloads are exact; text payloads are exact iff every fragment is valid UTF-8,
   in particular when the content is valid and every cut is at a code-point boundary. *)
From Coq Require Import List Bool Arith NArith Lia.
From MV Require Import Base.Bytes Model.WsUtf8 Model.Websocket Proofs.WsUtf8.
Import ListNotations.

(* what wsproto puts on the wire for an event handed to send (contract) *)
Definition wire_payload (e : wsevent) : bytes :=
  match e with WText d _ _ => encode d | WBytes d _ _ => d | _ => [] end.

Inductive wf_frags : list (bytes * bool) -> Prop :=
| wf_last d : wf_frags [(d, true)]
| wf_cons d r : wf_frags r -> wf_frags ((d, false) :: r).

Lemma reuse_spec : forall lens c, wf_frags (reuse lens c) /\ concat (map fst (reuse lens c)) = c.
Proof.
  induction lens as [|l rest IH]; intros c; cbn [reuse]; [split; [constructor|cbn; apply app_nil_r]|].
  destruct rest as [|l2 rest']; [split; [constructor|cbn; apply app_nil_r]|].
  destruct (IH (skipn l c)) as [W C]. split; [constructor; exact W|].
  cbn [map fst concat]. rewrite C. apply firstn_skipn.
Qed.

Lemma reuse_lens : forall lens c, lens <> [] -> length c = sum_nat lens ->
  map (fun df => length (fst df)) (reuse lens c) = lens.
Proof.
  induction lens as [|l rest IH]; intros c Hne Hlen; [contradiction|].
  cbn [reuse]. destruct rest as [|l2 rest'].
  - cbn in *. f_equal. lia.
  - cbn [map fst]. cbn [sum_nat fold_right] in Hlen. f_equal.
    + apply firstn_length_le. lia.
    + apply IH; [discriminate|]. rewrite skipn_length. cbn [sum_nat fold_right]. lia.
Qed.

Inductive chunk_sizes (fs : nat) : list (bytes * bool) -> Prop :=
| cs_last d : length d <= fs -> chunk_sizes fs [(d, true)]
| cs_cons d r : length d = fs -> chunk_sizes fs r -> chunk_sizes fs ((d, false) :: r).

Lemma rechunk_spec : forall fuel fs c fr, rechunk fuel fs c = Some fr ->
  wf_frags fr /\ concat (map fst fr) = c /\ chunk_sizes fs fr.
Proof.
  induction fuel as [|f IH]; intros fs c fr H; [discriminate|]. cbn [rechunk] in H.
  destruct (fs <? length c) eqn:E.
  - apply Nat.ltb_lt in E. destruct (rechunk f fs (skipn fs c)) as [r|] eqn:Er; [|discriminate].
    cbn in H. injection H as <-. destruct (IH _ _ _ Er) as (W & C & S).
    split; [constructor; exact W|]. split; [cbn [map fst concat]; rewrite C; apply firstn_skipn|].
    constructor; [apply firstn_length_le; lia|exact S].
  - apply Nat.ltb_ge in E. injection H as <-.
    split; [constructor|]. split; [cbn; apply app_nil_r|constructor; exact E].
Qed.

Lemma rechunk_total : forall fuel fs c, 0 < fs -> length c < fuel -> exists fr, rechunk fuel fs c = Some fr.
Proof.
  induction fuel as [|f IH]; intros fs c Hfs Hl; [lia|]. cbn [rechunk].
  destruct (fs <? length c) eqn:E; [|eauto].
  apply Nat.ltb_lt in E.
  destruct (IH fs (skipn fs c) Hfs) as [r Hr]; [rewrite skipn_length; lia|].
  rewrite Hr. cbn. eauto.
Qed.

Lemma rechunk_last_nonempty : forall fuel fs c fr, 0 < fs -> rechunk fuel fs c = Some fr -> c <> [] ->
  Forall (fun df => fst df <> []) fr.
Proof.
  induction fuel as [|f IH]; intros fs c fr Hfs H Hc; [discriminate|]. cbn [rechunk] in H.
  destruct (fs <? length c) eqn:E.
  - apply Nat.ltb_lt in E.
    destruct (rechunk f fs (skipn fs c)) as [r|] eqn:Er; [|discriminate]. cbn in H. injection H as <-.
    constructor.
    + cbn. intros H0. apply (f_equal (@length byte)) in H0. rewrite firstn_length_le in H0 by lia. cbn in H0. lia.
    + eapply IH; [exact Hfs|exact Er|]. intros H0. apply (f_equal (@length byte)) in H0.
      rewrite skipn_length in H0. cbn in H0. lia.
  - injection H as <-. constructor; [exact Hc|constructor].
Qed.

Lemma fragments_total fs lens c : 0 < fs -> exists fr, fragments fs lens c = Some fr.
Proof.
  intros Hfs. unfold fragments. destruct (length c =? sum_nat lens); [eauto|].
  apply rechunk_total; [exact Hfs|lia].
Qed.

Lemma fragments_partition fs lens c fr : fragments fs lens c = Some fr ->
  concat (map fst fr) = c /\ wf_frags fr.
Proof.
  unfold fragments. destruct (length c =? sum_nat lens); intros H.
  - injection H as <-. split; apply reuse_spec.
  - destruct (rechunk_spec _ _ _ _ H) as (W & C & _). auto.
Qed.

Lemma fragments_concat fs lens c fr : fragments fs lens c = Some fr -> concat (map fst fr) = c.
Proof. intros H. apply (fragments_partition _ _ _ _ H). Qed.

(* same length: the original frame boundaries are kept *)
Lemma fragments_keep_lens fs lens c fr : lens <> [] -> length c = sum_nat lens ->
  fragments fs lens c = Some fr -> map (fun df => length (fst df)) fr = lens.
Proof.
  intros Hne Hl. unfold fragments. rewrite (proj2 (Nat.eqb_eq _ _) Hl).
  intros H. injection H as <-. apply reuse_lens; assumption.
Qed.

(* another length: FRAGMENT_SIZE chunks *)
Lemma fragments_rechunk_sizes fs lens c fr : length c <> sum_nat lens ->
  fragments fs lens c = Some fr -> chunk_sizes fs fr.
Proof.
  intros Hl. unfold fragments. rewrite (proj2 (Nat.eqb_neq _ _) Hl). intros H. apply (rechunk_spec _ _ _ _ H).
Qed.

Lemma wire_payload_msg t d f : wire_payload (msg t d f) = payload_as_sent t d.
Proof. unfold msg, payload_as_sent. destruct t; reflexivity. Qed.

Lemma fragmentize_inv fs lens t c evs : fragmentize fs lens t c = Some evs ->
  exists fr, fragments fs lens c = Some fr /\ evs = map (fun df => msg t (fst df) (snd df)) fr.
Proof.
  unfold fragmentize. destruct (fragments fs lens c) as [fr|]; [|discriminate].
  cbn. intros H. injection H as <-. eauto.
Qed.

Lemma wire_of_frags t fr :
  concat (map wire_payload (map (fun df => msg t (fst df) (snd df)) fr))
  = concat (map (fun df => payload_as_sent t (fst df)) fr).
Proof. rewrite map_map. f_equal. apply map_ext. intros df. apply wire_payload_msg. Qed.

(* binary messages: the payloads concatenate to the content, for every content and length list *)
Theorem binary_exact fs lens c evs : fragmentize fs lens false c = Some evs ->
  concat (map wire_payload evs) = c.
Proof.
  intros H. apply fragmentize_inv in H as (fr & Hf & ->). rewrite wire_of_frags.
  rewrite <- (fragments_concat _ _ _ _ Hf). reflexivity.
Qed.

Lemma text_exact_valid_frags fs lens c evs fr : fragments fs lens c = Some fr ->
  fragmentize fs lens true c = Some evs ->
  Forall (fun df => utf8_valid (fst df) = true) fr -> concat (map wire_payload evs) = c.
Proof.
  intros Hf H V. apply fragmentize_inv in H as (fr' & Hf' & ->). rewrite Hf in Hf'. injection Hf' as <-.
  rewrite wire_of_frags. rewrite <- (fragments_concat _ _ _ _ Hf). f_equal.
  apply map_ext_in. intros df Hin. rewrite Forall_forall in V.
  unfold payload_as_sent. apply enc_dec_valid. apply V. exact Hin.
Qed.

Lemma boundaries_valid fs lens c fr : fragments fs lens c = Some fr -> utf8_valid c = true ->
  Forall (fun df => starts_ok (fst df) = true) fr -> Forall (fun df => utf8_valid (fst df) = true) fr.
Proof.
  intros Hf V S. apply (Forall_map fst (fun p => utf8_valid p = true)).
  apply pieces_valid; [rewrite (fragments_concat _ _ _ _ Hf); exact V|].
  apply (Forall_map fst (fun p => starts_ok p = true)). exact S.
Qed.

(* valid content, every cut at a code-point boundary (no fragment starts with a continuation byte) *)
Theorem text_exact_at_boundaries fs lens c evs fr : fragments fs lens c = Some fr ->
  fragmentize fs lens true c = Some evs -> utf8_valid c = true ->
  Forall (fun df => starts_ok (fst df) = true) fr -> concat (map wire_payload evs) = c.
Proof.
  intros Hf H V S. exact (text_exact_valid_frags _ _ _ _ _ Hf H (boundaries_valid _ _ _ _ Hf V S)).
Qed.

(* ... and conversely, if all fragments are sent unchanged, each one is valid and so is the content *)
Theorem text_exact_only_valid fs lens c fr : fragments fs lens c = Some fr ->
  Forall (fun df => payload_as_sent true (fst df) = fst df) fr ->
  Forall (fun df => utf8_valid (fst df) = true) fr /\ utf8_valid c = true.
Proof.
  intros Hf H.
  assert (Forall (fun df => utf8_valid (fst df) = true) fr) as HV.
  { eapply Forall_impl; [|exact H]. intros df. apply sent_unchanged_iff_valid. }
  split; [exact HV|]. rewrite <- (fragments_concat _ _ _ _ Hf). apply concat_valid.
  rewrite Forall_map. exact HV.
Qed.

(* the finding: FRAGMENT_SIZE = 4000, a three-byte character across offset 4000 *)
Definition split_witness : bytes := repeat x61 3999 ++ [xe2; x82; xac; x62].

(* the same for every FRAGMENT_SIZE n + 1 >= 3: n ASCII bytes, then EURO SIGN across the cut *)
Lemma text_split_at n : 2 <= n ->
  let w := repeat x61 n ++ [xe2; x82; xac; x62] in
  utf8_valid w = true /\
  exists evs, fragmentize (S n) [] true w = Some evs /\ concat (map wire_payload evs) <> w.
Proof.
  intros Hn w. split; [unfold w; now rewrite valid_ascii_run|].
  exists [WText (repeat 97%N n ++ [REPL]) true false; WText [REPL; REPL; 98%N] true true]. split.
  - assert (L : @length byte w = S (S (S (S n)))).
    { unfold w. rewrite app_length, repeat_length, Nat.add_comm. reflexivity. }
    assert (E : w = (repeat x61 n ++ [xe2]) ++ [x82; xac; x62]) by (unfold w; now rewrite <- app_assoc).
    assert (L1 : length (repeat x61 n ++ [xe2]) = S n).
    { rewrite app_length, repeat_length, Nat.add_comm. reflexivity. }
    unfold fragmentize, fragments. rewrite L. cbn [sum_nat fold_right Nat.eqb rechunk]. rewrite L.
    replace (S n <? S (S (S (S n)))) with true by (symmetry; apply Nat.ltb_lt; lia).
    rewrite E, firstn_app, skipn_app, L1, Nat.sub_diag, firstn_all2, skipn_all2 by lia.
    cbn [firstn skipn app length]. rewrite app_nil_r.
    replace (S n <? 3) with false by (symmetry; apply Nat.ltb_ge; lia).
    cbn [option_map map fst snd]. unfold msg. rewrite (decode_ascii_run x61) by reflexivity. reflexivity.
  - cbn [map wire_payload concat]. change (repeat 97%N n) with (repeat (bN x61) n).
    rewrite encode_ascii_run by reflexivity. unfold w. rewrite <- app_assoc. intros H.
    apply app_inv_head in H. discriminate H.
Qed.
