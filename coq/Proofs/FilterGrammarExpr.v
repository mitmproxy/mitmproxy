(* Proofs/FilterGrammarExpr.v -- the precedence parser reads back every rendered expression tree inside the guard
   (structural induction, unbounded depth): a specification per context of the renderer, one lemma for the two
   binary levels, then OneOrMore(expr) along the juxtaposition spine and flowfilter.parse. *)
From Coq Require Import List Bool NArith Arith Lia.
From MV Require Import Base.Bytes Gen.FlowFilterAtoms Model.FilterGrammar
  Proofs.FilterGrammarTokens Proofs.FilterGrammarAtoms.
Import ListNotations.

(* the levels at fuel f: base, not-level (N), and-level (A), or-level (O); T in later names is the top level *)
Definition B (f : nat) : bytes -> rs := p_base (parse_expr f).
Definition PN (f : nat) : bytes -> rs := p_not (B f).
Definition PA (f : nat) : bytes -> rs := p_and (B f).
Definition PO (f : nat) : bytes -> rs := p_or (B f).
Lemma parse_expr_S f s : parse_expr (S f) s = PO f s.
Proof. reflexivity. Qed.

Ltac norm := repeat (rewrite <- app_assoc || rewrite <- app_comm_cons).

Lemma op_facts :
  is_ws op_not = false /\ is_ws op_and = false /\ is_ws op_or = false /\ is_ws lpar = false /\ is_ws rpar = false
  /\ is_wordch rpar = false /\ op_not <> lpar /\ op_and <> rpar /\ op_or <> rpar /\ op_and <> op_or.
Proof. repeat split; try reflexivity; neq. Qed.

Lemma p_regex_stop w c r : allws w -> is_ws c = false -> is_wordch c = false -> c <> x22 -> c <> x27 ->
  p_regex (w ++ c :: r) = None.
Proof.
  intros Hw Hs Hc H1 H2. unfold p_regex. rewrite p_word_stop by assumption.
  change quote_chars with [x22; x27]. unfold first_quoted, p_quoted.
  rewrite skip_ws_app by exact Hw. rewrite skip_ws_cons by exact Hs.
  destruct (byte_eqb c x22) eqn:E1; [apply byte_eqb_eq in E1; contradiction |].
  destruct (byte_eqb c x27) eqn:E2; [apply byte_eqb_eq in E2; contradiction |]. reflexivity.
Qed.
Lemma p_atom_lpar w r : allws w -> p_atom (w ++ lpar :: r) = None.
Proof.
  intros Hw. unfold p_atom. rewrite parts_coded.
  rewrite first_part_nontilde; [| exact Hw | reflexivity | neq].
  cbn [first_part p_part]. rewrite p_regex_stop; [reflexivity | exact Hw | reflexivity | reflexivity | neq | neq].
Qed.
Lemma p_code_allws c w : allws w -> p_code c w = None.
Proof. intros Hw. unfold p_code, lit_str. rewrite skip_ws_allws by exact Hw. rewrite code_lit_cons. reflexivity. Qed.
Lemma p_regex_allws w : allws w -> p_regex w = None.
Proof.
  intros Hw. unfold p_regex, p_word. rewrite skip_ws_allws by exact Hw. simpl.
  change quote_chars with [x22; x27]. unfold first_quoted, p_quoted. rewrite skip_ws_allws by exact Hw. reflexivity.
Qed.
Lemma first_part_allws w : allws w -> forall ps, first_part ps w = None.
Proof.
  intros Hw ps. induction ps as [| p ps IH]; [reflexivity |]. cbn [first_part].
  assert (p_part p w = None) as ->; [| exact IH].
  destruct p; unfold p_part; try rewrite p_code_allws by exact Hw; try rewrite p_regex_allws by exact Hw; reflexivity.
Qed.
Lemma parse_expr_allws f w : allws w -> parse_expr (S f) w = Fail.
Proof.
  intros Hw. rewrite parse_expr_S. unfold PO, p_or, p_and, p_bin, p_not.
  cbn [p_not_n]. rewrite lit_allws by exact Hw. unfold B, p_base, p_atom.
  rewrite first_part_allws by exact Hw. rewrite lit_allws by exact Hw. reflexivity.
Qed.

(* Specifications of the precedence levels on a rendered text X, in continuation form: a loop that starts at r0 makes
   ts followed by whatever it makes of rest.  They hold for every fuel above the length, so that callers can pick any. *)
Definition LoopS (op : byte) (sub : bytes -> rs) (r0 : bytes) (ts : list ast) (rest : bytes) : Prop :=
  forall ys r', (forall n, length rest < n -> loop_n op sub n rest = Ok (ys, r')) ->
                forall n, length r0 < n -> loop_n op sub n r0 = Ok (ts ++ ys, r').
Definition SpecN (f : nat) (X : bytes) (m : (atom -> bool) -> bool) (al : list atom) : Prop :=
  forall w rest, allws w -> follow_ok X rest -> length (w ++ X ++ rest) <= f ->
  exists t, (forall n, length (w ++ X ++ rest) < n -> p_not_n (B f) n (w ++ X ++ rest) = Ok (t, rest))
            /\ (forall rho, eval rho t = m rho) /\ atoms t = al.
(* p reads X, in front of any rest that satisfies cond, as one tree with value m and atoms al *)
Definition Reads (f : nat) (p : bytes -> rs) (cond : bytes -> Prop) (X : bytes) (m : (atom -> bool) -> bool)
    (al : list atom) : Prop :=
  forall w rest, allws w -> follow_ok X rest -> cond rest -> length (w ++ X ++ rest) <= f ->
  exists T, p (w ++ X ++ rest) = Ok (T, rest) /\ (forall rho, eval rho T = m rho) /\ atoms T = al.

Lemma N_reads f X m al : SpecN f X m al -> Reads f (PN f) (fun _ => True) X m al.
Proof.
  intros H w rest Hw Hf _ Hl. destruct (H w rest Hw Hf Hl) as [t [Hp R]]. exists t. split; [| exact R].
  unfold PN, p_not. apply Hp. lia.
Qed.
Lemma follow_tail A X rest : X <> [] -> follow_ok (A ++ X) rest -> follow_ok X rest.
Proof. intros Hne H. unfold follow_ok in *. rewrite ends_word_app in H by exact Hne. exact H. Qed.
Lemma loop_stop op sub rest : lit op rest = None -> forall n, length rest < n -> loop_n op sub n rest = Ok ([], rest).
Proof. intros H n Hn. destruct n; [lia |]. cbn [loop_n]. rewrite H. reflexivity. Qed.

(* One level of infix_notation, operand (op operand)*, parsed by p_bin op mk sub; used for the and-level over the
   not-level and for the or-level over the and-level.  stop is what sub needs of the text after its operand. *)
Section Level.
  Variables (f : nat) (op : byte) (mk : list ast -> ast) (sub : bytes -> rs) (stop : bytes -> Prop).
  Variables (fold : (ast -> bool) -> list ast -> bool) (bop : bool -> bool -> bool).
  Hypothesis fold_one : forall g t, fold g [t] = g t.
  Hypothesis fold_app : forall g a b, fold g (a ++ b) = bop (fold g a) (fold g b).
  Hypothesis eval_mk : forall rho l, eval rho (mk l) = fold (eval rho) l.
  Hypothesis atoms_mk : forall l, atoms (mk l) = flat_map atoms l.
  Hypothesis op_nonws : is_ws op = false.

  (* X read at this level and left open at the right: a first operand, then a run of the loop that goes on with
     whatever the loop makes of rest *)
  Definition Open (X : bytes) (m : (atom -> bool) -> bool) (al : list atom) : Prop :=
    forall w rest, allws w -> follow_ok X rest -> stop rest -> length (w ++ X ++ rest) <= f ->
    exists t0 ts r0, sub (w ++ X ++ rest) = Ok (t0, r0) /\ LoopS op sub r0 ts rest
      /\ (forall rho, fold (eval rho) (t0 :: ts) = m rho) /\ flat_map atoms (t0 :: ts) = al.

  Lemma open_of_reads X m al : Reads f sub stop X m al -> Open X m al.
  Proof.
    intros H w rest Hw Hf Hs Hl. destruct (H w rest Hw Hf Hs Hl) as [T [Hp [He Ha]]].
    exists T, [], rest. split; [exact Hp |]. split; [| split].
    - intros ys r' Hy n Hn. simpl. apply Hy. exact Hn.
    - intros rho. rewrite fold_one. apply He.
    - simpl. rewrite app_nil_r. exact Ha.
  Qed.

  (* closed by anything on which sub can stop and that does not go on with op *)
  Lemma reads_of_open (cond : bytes -> Prop) X m al : (forall r, cond r -> stop r /\ lit op r = None) ->
    Open X m al -> Reads f (p_bin op mk sub) cond X m al.
  Proof.
    intros Hc H w rest Hw Hf Hr Hl. destruct (Hc rest Hr) as [Hs Hn]. destruct (H w rest Hw Hf Hs Hl) as [t0 [ts [r0 [Hp [Hloop [He Ha]]]]]].
    exists (match ts with [] => t0 | _ => mk (t0 :: ts) end). split; [| split].
    - unfold p_bin. rewrite Hp.
      rewrite (Hloop [] rest (loop_stop _ _ _ Hn)) by lia. rewrite app_nil_r. destruct ts; reflexivity.
    - intros rho. rewrite <- He. destruct ts; [rewrite fold_one; reflexivity | apply eval_mk].
    - rewrite <- Ha. destruct ts; [simpl; rewrite app_nil_r; reflexivity | apply atoms_mk].
  Qed.

  (* one more operand R after an open L *)
  Lemma open_step L R w1 w2 mL aL mR aR :
    Open L mL aL -> Reads f sub stop R mR aR -> R <> [] -> (forall X, stop (sep L w1 ++ op :: X)) ->
    Open (L ++ sep L w1 ++ op :: ws_bytes w2 ++ R) (fun rho => bop (mL rho) (mR rho)) (aL ++ aR).
  Proof.
    intros HL HR Hne Hst w rest Hw Hf Hs Hl.
    assert (E : w ++ (L ++ sep L w1 ++ op :: ws_bytes w2 ++ R) ++ rest
                = w ++ L ++ (sep L w1 ++ op :: ws_bytes w2 ++ R ++ rest)) by (norm; reflexivity).
    rewrite E in *. clear E.
    destruct (HL w (sep L w1 ++ op :: ws_bytes w2 ++ R ++ rest) Hw (follow_sep _ _ _) (Hst _) Hl)
      as [t0 [ts [r0 [Hp [Hloop [He Hat]]]]]].
    destruct (HR (ws_bytes w2) rest (ws_bytes_allws _)) as [tr [Hpr [Her Hatr]]].
    - assert (E2 : L ++ sep L w1 ++ op :: ws_bytes w2 ++ R = (L ++ sep L w1 ++ op :: ws_bytes w2) ++ R)
        by (norm; reflexivity).
      rewrite E2 in Hf. apply follow_tail in Hf; assumption.
    - exact Hs.
    - rewrite !app_length in Hl. simpl in Hl. rewrite !app_length in *. lia.
    - exists t0, (ts ++ [tr]), r0. split; [exact Hp |]. split; [| split].
      + intros ys r' Hy n Hn. rewrite <- app_assoc. apply Hloop; [| exact Hn].
        intros k Hk. destruct k; [lia |]. cbn [loop_n]. rewrite lit_hit; [| apply sep_allws | exact op_nonws].
        rewrite Hpr. rewrite Hy; [reflexivity |]. rewrite !app_length in Hk. simpl in Hk. rewrite !app_length in Hk. lia.
      + intros rho. change (t0 :: ts ++ [tr]) with ((t0 :: ts) ++ [tr]). rewrite fold_app, He, fold_one, Her. reflexivity.
      + change (t0 :: ts ++ [tr]) with ((t0 :: ts) ++ [tr]). rewrite flat_map_app, Hat. simpl.
        rewrite Hatr, app_nil_r. reflexivity.
  Qed.
End Level.

Definition OpenA (f : nat) := Open f op_and (PN f) (fun _ => True) (@forallb ast).
Definition OpenO (f : nat) := Open f op_or (PA f) (fun r => lit op_and r = None) (@existsb ast).
Lemma forallb_one {A} (g : A -> bool) t : forallb g [t] = g t.
Proof. apply andb_true_r. Qed.
Lemma existsb_one {A} (g : A -> bool) t : existsb g [t] = g t.
Proof. apply orb_false_r. Qed.

Lemma N_to_A f X m al : SpecN f X m al -> OpenA f X m al.
Proof. intros H. apply open_of_reads; [exact (@forallb_one _) | apply N_reads, H]. Qed.
Lemma A_close f X m al : OpenA f X m al -> Reads f (PA f) (fun r => lit op_and r = None) X m al.
Proof.
  intros H. apply (reads_of_open f op_and And (PN f) (fun _ => True) (@forallb ast) (@forallb_one _));
    [reflexivity | reflexivity | intros r Hr; split; [exact I | exact Hr] | exact H].
Qed.
Lemma A_to_O f X m al : OpenA f X m al -> OpenO f X m al.
Proof. intros H. apply open_of_reads; [exact (@existsb_one _) | apply A_close, H]. Qed.
Lemma O_close f X m al :
  OpenO f X m al -> Reads f (PO f) (fun r => lit op_and r = None /\ lit op_or r = None) X m al.
Proof.
  intros H. apply (reads_of_open f op_or Or (PA f) (fun r => lit op_and r = None) (@existsb ast) (@existsb_one _));
    [reflexivity | reflexivity | intros r Hr; exact Hr | exact H].
Qed.

(* what is asked of a text rendered in context ctx (0 operand of |, 1 operand of &, 2 operand of !): the weaker,
   the lower the context *)
Definition Spec (ctx f : nat) (X : bytes) (m : (atom -> bool) -> bool) (al : list atom) : Prop :=
  match ctx with 0 => OpenO f X m al | 1 => OpenA f X m al | _ => SpecN f X m al end.
Lemma spec_weaken c c' f X m al : c <= c' -> Spec c' f X m al -> Spec c f X m al.
Proof.
  intros Hc H. destruct c' as [| [| c']]; destruct c as [| [| c]]; try lia; simpl in *; auto using N_to_A, A_to_O.
Qed.

Lemma paren X m al : (forall f, OpenO f X m al) -> forall a b, allws a -> allws b ->
  forall f, SpecN f (lpar :: a ++ X ++ b ++ [rpar]) m al.
Proof.
  intros HO a b Ha Hb f w rest Hw Hf Hl.
  destruct op_facts as [F1 [F2 [F3 [F4 [F5 [F6 [F7 [F8 [F9 F10]]]]]]]]].
  assert (E : w ++ (lpar :: a ++ X ++ b ++ [rpar]) ++ rest = w ++ lpar :: a ++ X ++ b ++ rpar :: rest).
  { norm. reflexivity. }
  rewrite E in *. clear E.
  destruct f as [| f]; [rewrite app_length in Hl; simpl in Hl; lia |].
  assert (Hl' : length (a ++ X ++ b ++ rpar :: rest) <= f).
  { rewrite app_length in Hl. simpl in Hl. lia. }
  destruct (O_close f X m al (HO f) a (b ++ rpar :: rest) Ha) as [T [Hp [He Hat]]].
  - right. apply safe_ws; [exact ws_not_wordch | exact Hb | exact F6].
  - split; apply lit_miss; assumption.
  - exact Hl'.
  - exists T. split; [| split; assumption].
    intros n Hn. destruct n; [lia |]. cbn [p_not_n].
    rewrite lit_miss; [| exact Hw | exact F4 | exact F7].
    unfold B, p_base. rewrite p_atom_lpar by exact Hw. rewrite lit_hit by assumption.
    rewrite parse_expr_S. rewrite Hp. rewrite lit_hit by assumption. reflexivity.
Qed.

Lemma wrap_spec X m al : (forall f, OpenO f X m al) -> forall ps a b f, SpecN f (wrap ((a, b) :: ps) X) m al.
Proof.
  intros HO ps. induction ps as [| [a' b'] ps IH]; intros a b; (apply paren; [| apply ws_bytes_allws | apply ws_bytes_allws]).
  - exact HO.
  - intros f. apply A_to_O, N_to_A, IH.
Qed.

Definition core (e : expr) (st : style) : bytes :=
  match e with
  | EAtom a => render_atom a st
  | ENot x => op_not :: ws_bytes (w1 st) ++ render x (c1 st) 2
  | EAnd l r => let L := render l (c1 st) 1 in
                L ++ (if juxt st then sep L (w1 st) else sep L (w1 st) ++ op_and :: ws_bytes (w2 st))
                  ++ render r (c2 st) 2
  | EOr l r => let L := render l (c1 st) 0 in
               L ++ sep L (w1 st) ++ op_or :: ws_bytes (w2 st) ++ render r (c2 st) 1
  end.
Lemma render_eq e st ctx :
  render e st ctx = match pars st with
                    | [] => if lvl e <? ctx then lpar :: core e st ++ [rpar] else core e st
                    | ps => wrap ps (core e st)
                    end.
Proof. destruct e; reflexivity. Qed.

(* a construct whose text meets the specification of its own level meets, rendered, that of every context *)
Lemma render_from_core e st m al :
  (forall f, Spec (lvl e) f (core e st) m al) -> forall ctx f, Spec ctx f (render e st ctx) m al.
Proof.
  intros H ctx f. rewrite render_eq.
  assert (HO : forall f, OpenO f (core e st) m al) by (intros f'; apply (spec_weaken 0 (lvl e)); [lia | apply H]).
  destruct (pars st) as [| p ps].
  - destruct (lvl e <? ctx) eqn:L.
    + apply (spec_weaken ctx (S (S ctx))); [lia |].
      (* lpar :: core ++ [rpar] is wrap [([], [])] core *)
      apply (wrap_spec (core e st) m al HO [] [] []).
    + apply Nat.ltb_ge in L. apply (spec_weaken ctx (lvl e)); [exact L | apply H].
  - apply (spec_weaken ctx (S (S ctx))); [lia |]. destruct p as [a b]. apply wrap_spec, HO.
Qed.

Definition headP (d : byte) : Prop := is_ws d = false /\ d <> op_and /\ d <> op_or.
(* a rendering is its core, or starts with a parenthesis *)
Lemma render_cases e st ctx : (exists r, render e st ctx = lpar :: r) \/ render e st ctx = core e st.
Proof.
  rewrite render_eq. destruct (pars st) as [| [a b] ps]; [| left; eexists; reflexivity].
  destruct (lvl e <? ctx); [left; eexists; reflexivity | right; reflexivity].
Qed.
Lemma render_head_from_core e st ctx : (exists d r, core e st = d :: r /\ headP d) ->
  exists d r, render e st ctx = d :: r /\ headP d.
Proof.
  intros H. destruct (render_cases e st ctx) as [[r0 ->] | ->]; [| exact H].
  exists lpar, r0. split; [reflexivity | split; [reflexivity | split; neq]].
Qed.
Lemma render_head e : forall st ctx, quoting_ok e st = true -> exists d r, render e st ctx = d :: r /\ headP d.
Proof.
  induction e as [a | x IH | l IHl r IHr | l IHl r IHr]; intros st ctx Hq; apply render_head_from_core; unfold core;
    simpl in Hq.
  - destruct (render_atom_head a st Hq) as [d [r0 [E [H1 [_ [H3 H4]]]]]]. exists d, r0. unfold headP. tauto.
  - exists op_not. eexists. split; [reflexivity |]. split; [reflexivity | split; neq].
  - (* a binary node starts as its left operand does *)
    apply andb_true_iff in Hq.
    destruct (IHl (c1 st) 1 (proj1 Hq)) as [d [r0 [E H]]]. cbv zeta. rewrite E. exists d. eexists. split; [reflexivity | exact H].
  - apply andb_true_iff in Hq.
    destruct (IHl (c1 st) 0 (proj1 Hq)) as [d [r0 [E H]]]. cbv zeta. rewrite E. exists d. eexists. split; [reflexivity | exact H].
Qed.
Lemma render_nonempty e st ctx : quoting_ok e st = true -> render e st ctx <> [].
Proof. intros Hq. destruct (render_head e st ctx Hq) as [d [r [E _]]]. rewrite E. discriminate. Qed.
Lemma lit_head_miss op w d r X : allws w -> is_ws d = false -> d <> op -> lit op (w ++ (d :: r) ++ X) = None.
Proof. intros Hw Hd Hne. change ((d :: r) ++ X) with (d :: r ++ X). apply lit_miss; [exact Hw | exact Hd | congruence]. Qed.

Lemma main_jfree e : forall st, atoms_ok e = true -> quoting_ok e st = true -> juxt_free e st = true ->
  forall ctx f, Spec ctx f (render e st ctx) (fun rho => evalE rho e) (atomsE e).
Proof.
  destruct op_facts as [F1 [F2 [F3 [F4 [F5 [F6 [F7 [F8 [F9 F10]]]]]]]]].
  induction e as [a | x IH | l IHl r IHr | l IHl r IHr]; intros st Ha Hq Hj; apply render_from_core; intros f;
    unfold core; simpl in Ha, Hq, Hj.
  - intros w rest Hw Hf Hl. exists (Atom (atom_of a)). split; [| split; reflexivity].
    intros n Hn. destruct n; [lia |]. cbn [p_not_n].
    destruct (render_atom_head a st Hq) as [d [r0 [E [H1 [H2 _]]]]].
    assert (lit op_not (w ++ render_atom a st ++ rest) = None) as ->.
    { rewrite E. apply lit_head_miss; assumption. }
    unfold B, p_base. rewrite p_atom_ok by assumption. reflexivity.
  - intros w rest Hw Hf Hl.
    pose proof (render_nonempty x (c1 st) 2 Hq) as Hne.
    assert (E : w ++ (op_not :: ws_bytes (w1 st) ++ render x (c1 st) 2) ++ rest
                = w ++ op_not :: ws_bytes (w1 st) ++ render x (c1 st) 2 ++ rest) by (norm; reflexivity).
    rewrite E in *. clear E.
    destruct (IH (c1 st) Ha Hq Hj 2 f (ws_bytes (w1 st)) rest (ws_bytes_allws _)) as [t [Hp [He Hat]]].
    + apply (follow_tail (op_not :: ws_bytes (w1 st))); assumption.
    + rewrite app_length in Hl. simpl in Hl. lia.
    + exists (Not t). split; [| split].
      * intros n Hn. destruct n; [lia |]. cbn [p_not_n]. rewrite lit_hit by assumption.
        rewrite Hp; [reflexivity |]. rewrite app_length in Hn. simpl in Hn. lia.
      * intros rho. simpl. rewrite He. reflexivity.
      * simpl. exact Hat.
  - apply andb_true_iff in Ha, Hq, Hj. destruct Ha as [Hal Har]. destruct Hq as [Hql Hqr].
    destruct Hj as [Hj Hjr]. apply andb_true_iff in Hj as [Hjx Hjl]. apply negb_true_iff in Hjx.
    rewrite Hjx. cbv zeta. norm.
    apply (open_step f op_and (PN f) (fun _ => True) (@forallb ast) andb (@forallb_one _) (@forallb_app _) F2)
      with (mL := fun rho => evalE rho l) (aL := atomsE l) (mR := fun rho => evalE rho r).
    + apply (IHl (c1 st) Hal Hql Hjl 1 f).
    + apply N_reads, (IHr (c2 st) Har Hqr Hjr 2 f).
    + apply render_nonempty; assumption.
    + intros X. exact I.
  - apply andb_true_iff in Ha, Hq, Hj. destruct Ha as [Hal Har]. destruct Hq as [Hql Hqr]. destruct Hj as [Hjl Hjr].
    cbv zeta.
    apply (open_step f op_or (PA f) (fun r => lit op_and r = None) (@existsb ast) orb (@existsb_one _) (@existsb_app _) F3)
      with (mL := fun rho => evalE rho l) (aL := atomsE l) (mR := fun rho => evalE rho r).
    + apply (IHl (c1 st) Hal Hql Hjl 0 f).
    + apply A_close, (IHr (c2 st) Har Hqr Hjr 1 f).
    + apply render_nonempty; assumption.
    + intros X. apply lit_miss; [apply sep_allws | exact F3 | exact F10].
Qed.

(* top level: OneOrMore(expr) and juxtaposition along the spine *)
Definition SpecT (F : nat) (X : bytes) (m : (atom -> bool) -> bool) (al : list atom) : Prop :=
  forall w rest, allws w -> follow_ok X rest -> lit op_and rest = None -> lit op_or rest = None ->
  length (w ++ X ++ rest) < F ->
  exists ts, ts <> []
    /\ (forall ys r', (forall n, length rest < n -> top_n (parse_expr F) n rest = Ok (ys, r')) ->
                      forall n, length (w ++ X ++ rest) < n -> top_n (parse_expr F) n (w ++ X ++ rest) = Ok (ts ++ ys, r'))
    /\ (forall rho, forallb (eval rho) ts = m rho) /\ flat_map atoms ts = al.

Lemma item_T f X m al : X <> [] -> OpenO f X m al -> SpecT (S f) X m al.
Proof.
  intros HS H w rest Hw Hf Hna Hno Hl.
  destruct (O_close f X m al H w rest Hw Hf (conj Hna Hno)) as [T [Hp [He Ha]]]; [lia |].
  exists [T]. split; [discriminate |]. split; [| split].
  - intros ys r' Hy n Hn. destruct n; [lia |]. cbn [top_n]. rewrite parse_expr_S, Hp.
    rewrite Hy; [reflexivity |]. rewrite !app_length in Hn. destruct X; [congruence | simpl in Hn; lia].
  - intros rho. simpl. rewrite andb_true_r. apply He.
  - simpl. rewrite app_nil_r. exact Ha.
Qed.

Lemma T_app F L R w1 mL aL mR aR : SpecT F L mL aL -> SpecT F R mR aR ->
  (exists d r, R = d :: r /\ headP d) ->
  SpecT F (L ++ sep L w1 ++ R) (fun rho => mL rho && mR rho) (aL ++ aR).
Proof.
  intros HL HR [d [r [E [Hd [Hda Hdo]]]]] w rest Hw Hf Hna Hno Hl.
  assert (Hne : R <> []) by (rewrite E; discriminate).
  assert (Eq : w ++ (L ++ sep L w1 ++ R) ++ rest = w ++ L ++ (sep L w1 ++ R ++ rest)) by (norm; reflexivity).
  rewrite Eq in *. clear Eq.
  destruct (HL w (sep L w1 ++ R ++ rest) Hw (follow_sep _ _ _)) as [tsL [HneL [HtL [HeL HaL]]]].
  { rewrite E. apply lit_head_miss; [apply sep_allws | exact Hd | exact Hda]. }
  { rewrite E. apply lit_head_miss; [apply sep_allws | exact Hd | exact Hdo]. }
  { exact Hl. }
  destruct (HR (sep L w1) rest (sep_allws _ _)) as [tsR [HneR [HtR [HeR HaR]]]].
  { rewrite !app_assoc in Hf. apply follow_tail in Hf; assumption. }
  { exact Hna. } { exact Hno. }
  { rewrite !app_length in Hl. rewrite !app_length. lia. }
  exists (tsL ++ tsR). split; [destruct tsL; [congruence | discriminate] |]. split; [| split].
  - intros ys r' Hy n Hn. rewrite <- app_assoc. apply HtL; [| exact Hn].
    intros k Hk. apply HtR; assumption.
  - intros rho. rewrite forallb_app, HeL, HeR. reflexivity.
  - rewrite flat_map_app, HaL, HaR. reflexivity.
Qed.

Lemma main_spine e : forall st ctx, ctx <= 1 -> atoms_ok e = true -> quoting_ok e st = true -> juxt_top e st = true ->
  forall f, SpecT (S f) (render e st ctx) (fun rho => evalE rho e) (atomsE e).
Proof.
  assert (Item : forall e st ctx, ctx <= 1 -> atoms_ok e = true -> quoting_ok e st = true -> juxt_free e st = true ->
                 forall f, SpecT (S f) (render e st ctx) (fun rho => evalE rho e) (atomsE e)).
  { intros e0 st ctx Hc Ha Hq Hj f. apply item_T; [apply render_nonempty; assumption |].
    apply (spec_weaken 0 ctx); [lia | apply main_jfree; assumption]. }
  induction e as [a | x IH | l IHl r IHr | l IHl r IHr]; intros st ctx Hc Ha Hq Hj f;
    try (apply Item; assumption).
  simpl in Hj. destruct (juxt st) eqn:J; [| apply Item; try assumption; simpl; rewrite J; exact Hj].
  destruct (pars st) as [| p ps] eqn:P; [| discriminate].
  apply andb_true_iff in Hj as [Hjl Hjr].
  simpl in Ha, Hq. apply andb_true_iff in Ha, Hq. destruct Ha as [Hal Har]. destruct Hq as [Hql Hqr].
  rewrite render_eq, P. assert (lvl (EAnd l r) <? ctx = false) as -> by (apply Nat.ltb_ge; simpl; lia).
  unfold core. rewrite J. cbv zeta.
  apply (T_app (S f) (render l (c1 st) 1) (render r (c2 st) 2) (w1 st)
               (fun rho => evalE rho l) (atomsE l) (fun rho => evalE rho r) (atomsE r)).
  - apply IHl; [lia | assumption | assumption | assumption].
  - apply item_T; [apply render_nonempty; assumption |]. apply (spec_weaken 0 2); [lia | apply main_jfree; assumption].
  - apply render_head; assumption.
Qed.

(* the generated grammar has parse_with_tabs (keep_tabs = true): no tab expansion before parsing *)
Lemma pre_id s : pre s = s.
Proof. reflexivity. Qed.

Theorem parse_render e st lead trail : atoms_ok e = true -> quoting_ok e st = true -> juxt_top e st = true ->
  exists t, parse_grammar (render_top e st lead trail) = Ok t
            /\ (forall rho, eval rho t = evalE rho e) /\ atoms t = atomsE e.
Proof.
  intros Ha Hq Hj. unfold render_top, parse_grammar. rewrite pre_id.
  set (s := ws_bytes lead ++ render e st 0 ++ ws_bytes trail).
  destruct (render_head e st 0 Hq) as [d [r [E _]]].
  assert (Hs : s <> []). { unfold s. rewrite E. destruct (ws_bytes lead); discriminate. }
  destruct (main_spine e st 0 (Nat.le_0_l _) Ha Hq Hj (length s) (ws_bytes lead) (ws_bytes trail))
    as [ts [Hne [Ht [He Hat]]]].
  - apply ws_bytes_allws.
  - right. rewrite <- app_nil_r. apply safe_ws; [exact ws_not_wordch | apply ws_bytes_allws | exact I].
  - apply lit_allws, ws_bytes_allws.
  - apply lit_allws, ws_bytes_allws.
  - fold s. lia.
  - fold s in Ht.
    rewrite (Ht [] (ws_bytes trail)); [| | lia].
    + destruct s as [| c s']; [congruence |].
      rewrite skip_ws_allws by apply ws_bytes_allws. rewrite app_nil_r.
      destruct ts as [| x [| y ts']]; [congruence | |].
      * exists x. split; [reflexivity |]. split.
        -- intros rho. rewrite <- He. simpl. rewrite andb_true_r. reflexivity.
        -- rewrite <- Hat. simpl. rewrite app_nil_r. reflexivity.
      * exists (And (x :: y :: ts')). split; [reflexivity |]. split; [intros rho; rewrite <- He; reflexivity | exact Hat].
    + intros n Hn. destruct n; [lia |]. cbn [top_n]. rewrite parse_expr_allws by apply ws_bytes_allws. reflexivity.
Qed.

Lemma all_rex_atoms ok t : all_rex ok t = forallb (fun a => match a with ARex c x => ok c x | _ => true end) (atoms t).
Proof.
  revert t. fix IH 1. intros [a | x | l | l]; simpl.
  - destruct a; simpl; rewrite ?andb_true_r; reflexivity.
  - apply IH.
  - induction l as [| y l IHl]; [reflexivity |]. simpl. rewrite forallb_app, IH, IHl. reflexivity.
  - induction l as [| y l IHl]; [reflexivity |]. simpl. rewrite forallb_app, IH, IHl. reflexivity.
Qed.
