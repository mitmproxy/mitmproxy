(* Proofs/DnsMessageRT.v -- DNSMessage: packed produces header ++ questions ++ records in plain
   wire form and unpack reads it back, provided no compressible-type record data contains a
   byte that looks like a compression pointer. *)
From Coq Require Import List Bool Arith NArith ZArith Lia.
From MV Require Import Base.Bytes Model.DnsNames Model.DnsMessage Proofs.ListFacts Proofs.DnsNamesRT.
Import ListNotations.

(* while a message is read, every cache key lies before the current offset: a name in plain
   form is never answered from the cache *)
Definition keys_lt (c : cache) (n : nat) : Prop := forall k v, In (k, v) c -> k < n.

Lemma keys_lt_lookup c n : keys_lt c n -> lookup n c = None.
Proof.
  induction c as [|[k v] c IH]; intros H; [reflexivity|]. cbn [lookup].
  destruct (k =? n) eqn:E.
  - apply Nat.eqb_eq in E. specialize (H k v (or_introl eq_refl)). lia.
  - apply IH. intros k' v' Hin. apply (H k' v'). right. exact Hin.
Qed.

Lemma unpack_domain_name_at n buf off rest c :
  wf_name n -> keys_lt c off -> skipn off buf = wire_name n ++ rest ->
  exists c', unpack_domain_name buf off c = (Ok (n, off + length (wire_name n)), c')
             /\ keys_lt c' (off + length (wire_name n)).
Proof.
  intros Hn Hc Hs. unfold unpack_domain_name.
  rewrite (unpack_fwc_wire n buf off rest c Hn (keys_lt_lookup _ _ Hc) Hs).
  eexists. split; [reflexivity|].
  pose proof (parts_lt_wire (name_parts n)). unfold wire_name.
  intros k v [E|[E|Hin]]; try (inversion E; subst; lia).
  specialize (Hc k v Hin). lia.
Qed.

Lemma u16be_put' n : (n < 65536)%N -> u16be (Nb (n / 256 mod 256)) (Nb (n mod 256)) = n.
Proof. intros H. exact (u16be_put n H). Qed.

Lemma u32be_put' n : (n < 4294967296)%N ->
  u32be (Nb (n / 16777216 mod 256)) (Nb (n / 65536 mod 256)) (Nb (n / 256 mod 256)) (Nb (n mod 256)) = n.
Proof.
  intros H. unfold u32be. rewrite !bN_Nb by (apply N.mod_lt; lia).
  replace (n / 65536)%N with (n / 256 / 256)%N by (rewrite N.div_div by lia; reflexivity).
  replace (n / 16777216)%N with (n / 256 / 256 / 256)%N by (rewrite !N.div_div by lia; reflexivity).
  rewrite (N.mod_small (n / 256 / 256 / 256) 256)
    by (rewrite !N.div_div by lia; apply N.div_lt_upper_bound; lia).
  (* base-256 digits: lia takes each quotient and remainder as an atom *)
  pose proof (N.div_mod n 256 ltac:(lia)) as D1.
  pose proof (N.div_mod (n / 256) 256 ltac:(lia)) as D2.
  pose proof (N.div_mod (n / 256 / 256) 256 ltac:(lia)) as D3.
  lia.
Qed.

Definition wf_q (q : question) : Prop :=
  wf_name (q_name q) /\ (q_type q < 65536)%N /\ (q_class q < 65536)%N.
Definition wf_rr (r : rr) : Prop :=
  wf_name (r_name r) /\ (r_type r < 65536)%N /\ (r_class r < 65536)%N
  /\ (r_ttl r < 4294967296)%N /\ (N.of_nat (length (r_data r)) < 65536)%N.
Definition no_ptr_byte (d : bytes) : bool := forallb (fun b => negb (is_ptr b)) d.
(* the complement of finding rdata-pointer-lookalike-rewritten *)
Definition rdata_guard (r : rr) : Prop :=
  record_data_can_have_compression (r_type r) = true -> no_ptr_byte (r_data r) = true.
Definition wf_msg (m : message) : Prop :=
  (m_id m < 65536)%N /\ (m_op_code m < 16)%N /\ (m_reserved m < 8)%N /\ (m_rcode m < 16)%N
  /\ (N.of_nat (length (m_questions m)) < 65536)%N /\ (N.of_nat (length (m_answers m)) < 65536)%N
  /\ (N.of_nat (length (m_authorities m)) < 65536)%N /\ (N.of_nat (length (m_additionals m)) < 65536)%N
  /\ Forall wf_q (m_questions m) /\ Forall wf_rr (m_answers m)
  /\ Forall wf_rr (m_authorities m) /\ Forall wf_rr (m_additionals m).
Definition all_rrs (m : message) : list rr := m_answers m ++ m_authorities m ++ m_additionals m.

Definition qwire (q : question) : bytes :=
  wire_name (q_name q) ++ put_u16be (q_type q) ++ put_u16be (q_class q).
Definition rrwire (r : rr) : bytes :=
  wire_name (r_name r) ++ put_u16be (r_type r) ++ put_u16be (r_class r) ++ put_u32be (r_ttl r)
  ++ put_u16be (N.of_nat (length (r_data r))) ++ r_data r.
Definition hdrwire (m : message) : bytes :=
  put_u16be (m_id m) ++ put_u16be (flags_of m)
  ++ put_u16be (N.of_nat (length (m_questions m))) ++ put_u16be (N.of_nat (length (m_answers m)))
  ++ put_u16be (N.of_nat (length (m_authorities m))) ++ put_u16be (N.of_nat (length (m_additionals m))).
Definition msgwire (m : message) : bytes :=
  hdrwire m ++ flat_map qwire (m_questions m) ++ flat_map rrwire (all_rrs m).

Lemma pack_u16_ok n : (n < 65536)%N -> pack_u16 n = Ok (put_u16be n).
Proof. intros H. unfold pack_u16. apply N.ltb_lt in H. rewrite H. reflexivity. Qed.

Lemma pack_question_ok q : wf_q q -> pack_question q = Ok (qwire q).
Proof.
  intros (Hn & Ht & Hc). unfold pack_question, qwire.
  rewrite (pack_ok _ Hn), (pack_u16_ok _ Ht), (pack_u16_ok _ Hc). reflexivity.
Qed.

Lemma pack_rr_ok r : wf_rr r -> pack_rr r = Ok (rrwire r).
Proof.
  intros (Hn & Ht & Hc & Hl & Hd). unfold pack_rr, rrwire.
  rewrite (pack_ok _ Hn), (pack_u16_ok _ Ht), (pack_u16_ok _ Hc). cbn [bind].
  unfold pack_u32. apply N.ltb_lt in Hl. rewrite Hl. cbn [bind].
  rewrite pack_u16_ok by lia. reflexivity.
Qed.

Lemma pack_list_ok {A} (f : A -> result bytes) (w : A -> bytes) l :
  Forall (fun x => f x = Ok (w x)) l -> pack_list f l = Ok (flat_map w l).
Proof. induction 1 as [|x l Hx _ IH]; [reflexivity|]. cbn. rewrite Hx, IH. reflexivity. Qed.

Lemma packed_ok m : wf_msg m -> packed m = Ok (msgwire m).
Proof.
  intros (Hid & Hop & Hres & Hrc & Lq & La & Ln & Lx & Fq & Fa & Fn & Fx).
  unfold packed, pack_header, msgwire, hdrwire.
  rewrite !(proj2 (N.ltb_ge _ _)) by lia.
  rewrite !pack_u16_ok by lia. cbn [bind].
  rewrite (pack_list_ok pack_question qwire).
  2:{ eapply Forall_impl; [|exact Fq]. intros q Hq. apply pack_question_ok, Hq. }
  rewrite (pack_list_ok pack_rr rrwire).
  2:{ eapply Forall_impl; [intros r Hr; apply pack_rr_ok, Hr|].
      unfold all_rrs. rewrite !Forall_app. auto. }
  cbn [bind]. rewrite <- !app_assoc. reflexivity.
Qed.

(* field extraction from the packed flag word *)
Lemma extract (f hi x lo s w : N) : (s <> 0 -> w <> 0 -> f = hi * (s * w) + x * s + lo ->
  lo < s -> x < w -> (f / s) mod w = x)%N.
Proof.
  intros Hs Hw -> Hlo Hx.
  replace (hi * (s * w) + x * s + lo)%N with (lo + (x + hi * w) * s)%N by ring.
  rewrite N.div_add by exact Hs. rewrite (N.div_small lo s Hlo), N.add_0_l.
  rewrite N.mod_add by exact Hw. apply N.mod_small, Hx.
Qed.

(* the flag word over numbers: linear arithmetic, the bits being numbers below 2 *)
Lemma flags_num nq aa tc rd ra op res rc :
  (nq < 2 -> aa < 2 -> tc < 2 -> rd < 2 -> ra < 2 -> op < 16 -> res < 8 -> rc < 16 ->
  let f := nq * 32768 + op * 2048 + aa * 1024 + tc * 512 + rd * 256 + ra * 128 + res * 16 + rc in
  f < 65536 /\ (f / 32768) mod 2 = nq /\ (f / 2048) mod 16 = op
  /\ (f / 1024) mod 2 = aa /\ (f / 512) mod 2 = tc /\ (f / 256) mod 2 = rd
  /\ (f / 128) mod 2 = ra /\ (f / 16) mod 8 = res /\ f mod 16 = rc)%N.
Proof.
  intros Hq Ha Ht Hd Hr Hop Hres Hrc f. subst f. repeat split.
  - lia.
  - apply (extract _ 0 _ (op * 2048 + aa * 1024 + tc * 512 + rd * 256 + ra * 128 + res * 16 + rc) 32768 2); lia.
  - apply (extract _ nq _ (aa * 1024 + tc * 512 + rd * 256 + ra * 128 + res * 16 + rc) 2048 16); lia.
  - apply (extract _ (nq * 16 + op) _ (tc * 512 + rd * 256 + ra * 128 + res * 16 + rc) 1024 2); lia.
  - apply (extract _ (nq * 32 + op * 2 + aa) _ (rd * 256 + ra * 128 + res * 16 + rc) 512 2); lia.
  - apply (extract _ (nq * 64 + op * 4 + aa * 2 + tc) _ (ra * 128 + res * 16 + rc) 256 2); lia.
  - apply (extract _ (nq * 128 + op * 8 + aa * 4 + tc * 2 + rd) _ (res * 16 + rc) 128 2); lia.
  - apply (extract _ (nq * 256 + op * 16 + aa * 8 + tc * 4 + rd * 2 + ra) _ rc 16 8); lia.
  - rewrite <- (N.div_1_r (_ + rc)).
    apply (extract _ (nq * 2048 + op * 128 + aa * 64 + tc * 32 + rd * 16 + ra * 8 + res) _ 0 1 16); lia.
Qed.

Lemma b2n_scale b k : b2n b k = (b2n b 1 * k)%N.
Proof. destruct b; cbn [b2n]; lia. Qed.

Lemma b2n_lt2 b : (b2n b 1 < 2)%N.
Proof. destruct b; reflexivity. Qed.

Lemma bit_b2n f k b : ((f / 2 ^ k) mod 2 = b2n b 1)%N -> bit f k = b.
Proof. intros H. unfold bit. rewrite H. destruct b; reflexivity. Qed.

Lemma flags_fields m : (m_op_code m < 16)%N -> (m_reserved m < 8)%N -> (m_rcode m < 16)%N ->
  (flags_of m < 65536)%N /\ negb (bit (flags_of m) 15) = m_query m
  /\ ((flags_of m / 2048) mod 16 = m_op_code m)%N
  /\ bit (flags_of m) 10 = m_aa m /\ bit (flags_of m) 9 = m_tc m /\ bit (flags_of m) 8 = m_rd m
  /\ bit (flags_of m) 7 = m_ra m
  /\ ((flags_of m / 16) mod 8 = m_reserved m)%N /\ (flags_of m mod 16 = m_rcode m)%N.
Proof.
  intros Hop Hres Hrc. unfold flags_of.
  rewrite (b2n_scale _ 32768), (b2n_scale _ 1024), (b2n_scale _ 512), (b2n_scale _ 256), (b2n_scale _ 128).
  destruct (flags_num _ _ _ _ _ _ _ _ (b2n_lt2 (negb (m_query m))) (b2n_lt2 (m_aa m)) (b2n_lt2 (m_tc m))
              (b2n_lt2 (m_rd m)) (b2n_lt2 (m_ra m)) Hop Hres Hrc)
    as (Fl & B15 & Fop & B10 & B9 & B8 & B7 & Fres & Frc).
  repeat split; try assumption.
  - rewrite (bit_b2n _ 15 (negb (m_query m))) by exact B15. apply negb_involutive.
  - apply (bit_b2n _ 10); exact B10.
  - apply (bit_b2n _ 9); exact B9.
  - apply (bit_b2n _ 8); exact B8.
  - apply (bit_b2n _ 7); exact B7.
Qed.

Lemma unpack_questions_ok qs : Forall wf_q qs -> forall buf off rest c,
  skipn off buf = flat_map qwire qs ++ rest -> keys_lt c off ->
  exists c', unpack_questions (length qs) buf off c
             = Ok (qs, off + length (flat_map qwire qs), c')
             /\ keys_lt c' (off + length (flat_map qwire qs)).
Proof.
  induction 1 as [|q r (Hn & Ht & Hc) _ IH]; intros buf off rest c Hs Hk.
  - exists c. cbn. rewrite Nat.add_0_r. auto.
  - cbn [flat_map length unpack_questions] in *. rewrite <- app_assoc in Hs.
    pose proof (skipn_advance _ _ _ _ Hs) as Hs2.
    assert (E : off + length (wire_name (q_name q)) + 4 = off + length (qwire q))
      by (unfold qwire; rewrite !app_length; cbn [put_u16be length]; lia).
    unfold qwire in Hs. rewrite <- !app_assoc in Hs.
    destruct (unpack_domain_name_at _ _ _ _ _ Hn Hk Hs) as (c1 & U & K1). rewrite U.
    apply skipn_advance in Hs. rewrite Hs, E. cbn [put_u16be app].
    destruct (IH buf _ rest c1 Hs2) as (c2 & U2 & K2).
    { intros k v Hin. specialize (K1 k v Hin). lia. }
    rewrite U2. exists c2. rewrite !u16be_put' by assumption.
    rewrite app_length, Nat.add_assoc. split; [|exact K2]. destruct q; reflexivity.
Qed.

(* record data without pointer-like bytes is left alone *)
Lemma decompress_loop_noptr buf off L more c todo : no_ptr_byte todo = true ->
  forall fuel i d s, skipn (off + i) buf = todo ++ more -> i + length todo = L ->
  length todo < fuel ->
  decompress_loop fuel buf off (off + L) c d i s = (Ok d, c).
Proof.
  induction todo as [|b t IH]; intros Hp fuel i d s Hs Hl Hf;
    (destruct fuel as [|f]; [cbn in Hf; lia|]); cbn [decompress_loop].
  - cbn in Hl. replace (off + L - off) with L by lia.
    destruct (i <? L) eqn:E; [apply Nat.ltb_lt in E; lia|reflexivity].
  - cbn [length] in Hl, Hf. replace (off + L - off) with L by lia.
    destruct (i <? L) eqn:E; [|apply Nat.ltb_ge in E; lia].
    unfold byte_at. rewrite Hs. cbn [app].
    cbn [no_ptr_byte forallb] in Hp. apply andb_true_iff in Hp as [Hb Ht].
    apply negb_true_iff in Hb. rewrite Hb.
    apply IH; [exact Ht| |lia|lia].
    rewrite Nat.add_assoc. change 1 with (length [b]). apply skipn_advance. exact Hs.
Qed.

Lemma decompress_noptr buf off data more c : no_ptr_byte data = true ->
  skipn off buf = data ++ more -> off + length data <= length buf ->
  decompress_from_record_data buf off (off + length data) c = (Ok data, c).
Proof.
  intros Hp Hs Hl. unfold decompress_from_record_data.
  replace (off + length data - off) with (length data) by lia.
  rewrite Hs, firstn_exact.
  apply (decompress_loop_noptr buf off (length data) more c data Hp); [|reflexivity|lia].
  rewrite Nat.add_0_r. exact Hs.
Qed.

Lemma unpack_rrs_ok rs : Forall wf_rr rs -> Forall rdata_guard rs -> forall buf off rest c,
  skipn off buf = flat_map rrwire rs ++ rest -> keys_lt c off ->
  exists c', unpack_rrs (length rs) buf off c
             = Ok (rs, off + length (flat_map rrwire rs), c')
             /\ keys_lt c' (off + length (flat_map rrwire rs)).
Proof.
  induction 1 as [|r rs (Hn & Ht & Hc & Hl & Hd) _ IH]; intros G buf off rest c Hs Hk.
  - exists c. cbn. rewrite Nat.add_0_r. auto.
  - apply Forall_cons_iff in G as [Gr G].
    cbn [flat_map length unpack_rrs] in *. rewrite <- app_assoc in Hs.
    pose proof (skipn_advance _ _ _ _ Hs) as Hs3.
    set (off2 := off + length (wire_name (r_name r)) + 10).
    assert (E : off2 + length (r_data r) = off + length (rrwire r))
      by (unfold rrwire, off2; rewrite !app_length; cbn [put_u16be put_u32be length]; lia).
    unfold rrwire in Hs. rewrite <- !app_assoc in Hs.
    destruct (unpack_domain_name_at _ _ _ _ _ Hn Hk Hs) as (c1 & U & K1). rewrite U.
    apply skipn_advance in Hs. rewrite Hs. cbn [put_u16be put_u32be app].
    rewrite (u16be_put' (N.of_nat (length (r_data r)))) by lia. rewrite Nnat.Nat2N.id.
    rewrite (u16be_put' _ Ht). fold off2.
    assert (Hs2 : skipn off2 buf = r_data r ++ flat_map rrwire rs ++ rest).
    { unfold off2.
      change 10 with (length (put_u16be (r_type r) ++ put_u16be (r_class r) ++ put_u32be (r_ttl r)
                                ++ put_u16be (N.of_nat (length (r_data r))))).
      apply skipn_advance. rewrite <- !app_assoc. exact Hs. }
    assert (Hle : off2 + length (r_data r) <= length buf).
    { apply skipn_le in Hs; [|cbn; discriminate].
      rewrite !app_length in Hs. cbn [put_u16be put_u32be length] in Hs. unfold off2. lia. }
    rewrite (proj2 (Nat.ltb_ge _ _) Hle).
    assert (D : (if record_data_can_have_compression (r_type r)
                 then decompress_from_record_data buf off2 (off2 + length (r_data r)) c1
                 else (Ok (firstn (length (r_data r)) (skipn off2 buf)), c1))
                = (Ok (r_data r), c1)).
    { destruct (record_data_can_have_compression (r_type r)) eqn:Ec.
      - apply (decompress_noptr _ _ _ _ _ (Gr Ec) Hs2 Hle).
      - rewrite Hs2, firstn_exact. reflexivity. }
    rewrite D, E.
    destruct (IH G buf _ rest c1 Hs3) as (c2 & U2 & K2).
    { intros k v Hin. specialize (K1 k v Hin). lia. }
    rewrite U2. exists c2. rewrite (u16be_put' _ Hc), (u32be_put' _ Hl).
    rewrite app_length, Nat.add_assoc. split; [|exact K2]. destruct r; reflexivity.
Qed.

(* a message in plain wire form anywhere in a buffer is read back, with the offset where it ends *)
Theorem unpack_from_msgwire m buf off rest : wf_msg m -> Forall rdata_guard (all_rrs m) ->
  skipn off buf = msgwire m ++ rest ->
  DnsMessage.unpack_from buf off = Ok (off + length (msgwire m), m).
Proof.
  intros (Hid & Hop & Hres & Hrc & Lq & La & Ln & Lx & Fq & Fa & Fn & Fx) G Hs.
  unfold all_rrs in G. rewrite !Forall_app in G. destruct G as (Ga & Gn & Gx).
  destruct (flags_fields m Hop Hres Hrc) as (Fl & B15 & Fop & B10 & B9 & B8 & B7 & Fres & Frc).
  unfold msgwire, all_rrs in *. rewrite !flat_map_app in *. rewrite !app_length.
  change (length (hdrwire m)) with 12. rewrite <- !app_assoc in Hs.
  unfold DnsMessage.unpack_from. rewrite Hs. unfold hdrwire. cbn [put_u16be app].
  rewrite !u16be_put' by lia. rewrite !Nnat.Nat2N.id.
  apply (skipn_advance buf (hdrwire m)) in Hs. change (length (hdrwire m)) with 12 in Hs.
  destruct (unpack_questions_ok _ Fq buf _ _ [] Hs) as (c1 & U1 & K1); [intros k v []|]. rewrite U1.
  apply skipn_advance in Hs.
  destruct (unpack_rrs_ok _ Fa Ga buf _ _ c1 Hs K1) as (c2 & U2 & K2). rewrite U2.
  apply skipn_advance in Hs.
  destruct (unpack_rrs_ok _ Fn Gn buf _ _ c2 Hs K2) as (c3 & U3 & K3). rewrite U3.
  apply skipn_advance in Hs.
  destruct (unpack_rrs_ok _ Fx Gx buf _ _ c3 Hs K3) as (c4 & U4 & K4). rewrite U4.
  rewrite B15, Fop, B10, B9, B8, B7, Fres, Frc, !Nat.add_assoc.
  destruct m; reflexivity.
Qed.

Theorem message_roundtrip m : wf_msg m -> Forall rdata_guard (all_rrs m) ->
  packed m = Ok (msgwire m) /\ DnsMessage.unpack (msgwire m) = Ok m.
Proof.
  intros Hwf G. split; [apply packed_ok, Hwf|]. unfold DnsMessage.unpack.
  rewrite (unpack_from_msgwire m (msgwire m) 0 [] Hwf G (eq_sym (app_nil_r _))).
  cbn [Nat.add]. rewrite Nat.eqb_refl. reflexivity.
Qed.
