(* Proofs/Socks5Inv.v -- state invariant of the Socks5Proxy model for every input:
   no Python exception path (Crashed) is reachable, nothing reaches the child layer
   before acceptance or after a close, there is no destination during the handshake and
   there is one while relaying and whenever a connection was opened (wf_state). *)
From Coq Require Import List Bool Arith NArith Lia.
From MV Require Import Base.Bytes Model.Socks5 Proofs.Socks5Exact Proofs.Socks5Seg.
Import ListNotations.

(* observables while the handshake is still running *)
Definition hs_obs (o : obs) : Prop :=
  closed o = false /\ dest o = None /\ child o = [] /\ opened o = false.

Definition wf_state (s : st) : Prop :=
  let o := snd s in
  match fst s with
  | Greet _ | Auth _ | Connect _ => hs_obs o
  | Relay => closed o = false /\ dest o <> None
  | Done => closed o = true /\ child o = [] /\ (opened o = true -> dest o <> None)
  | Crashed => False
  end.

Lemma hs_send o d : hs_obs o -> hs_obs (send o d).
Proof. destruct o. unfold hs_obs. cbn. tauto. Qed.

Lemma hs_creds o u p : hs_obs o -> hs_obs (set_creds o u p).
Proof. destruct o. unfold hs_obs. cbn. tauto. Qed.

Lemma wf_err o code : hs_obs o -> wf_state (socks_err o code).
Proof.
  destruct o, code; unfold hs_obs, wf_state; cbn; intros (H1 & H2 & H3 & H4); subst;
    repeat split; intros; discriminate.
Qed.

Lemma wf_finish c o h p rest : hs_obs o -> wf_state (connect_finish c o h p rest).
Proof.
  destruct o. unfold hs_obs, wf_state, connect_finish, finish_start. cbn.
  intros (H1 & H2 & H3 & H4). subst.
  destruct (eager c), (open_fails c), rest; cbn; repeat split; intros; discriminate.
Qed.

(* by the shape of the buffer; that an encoded request is decoded (connect_accept) is what rules out the
   exception paths of inet_ntop / struct.unpack *)
Lemma wf_connect c buf o : hs_obs o -> wf_state (state_connect c buf o).
Proof.
  intros Ho. destruct (connect_shape buf) as [W|[(code & R)|(a & hi & lo & t & -> & Hwf)]].
  - rewrite W. exact Ho.
  - rewrite <- (app_nil_r buf), R. apply wf_err, Ho.
  - rewrite connect_accept by exact Hwf. apply wf_finish, Ho.
Qed.

Lemma wf_auth c buf o : hs_obs o -> wf_state (state_auth c buf o).
Proof.
  intros Ho. destruct (auth_shape buf) as [W|(ver & u & p & rest & -> & Hu & Hp)].
  - rewrite W. exact Ho.
  - rewrite auth_step by assumption.
    destruct (authok c u p); [apply wf_connect|apply wf_err]; apply hs_send, hs_creds, Ho.
Qed.

Lemma wf_greet c buf o : hs_obs o -> wf_state (state_greet c buf o).
Proof.
  intros Ho. destruct (greet_shape buf) as [W|[R|(methods & rest & -> & Hl)]].
  - rewrite W. exact Ho.
  - rewrite <- (app_nil_r buf), R. apply wf_err, Ho.
  - rewrite greet_step by exact Hl. destruct (existsb _ methods); [|apply wf_err, Ho].
    unfold next_state. destruct (proxyauth c); [apply wf_auth|apply wf_connect]; apply hs_send, Ho.
Qed.

Theorem run_wf c (segs : list bytes) : wf_state (run c segs).
Proof.
  rewrite segmentation_independent. unfold run. cbn [feed_all fold_left handle_data st0 fst snd app].
  apply wf_greet. unfold hs_obs, obs0. cbn. repeat split.
Qed.
