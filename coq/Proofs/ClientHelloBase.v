(* Proofs/ClientHelloBase.v -- C13: list / reader lemmas shared by the other proof files. *)
From Coq Require Import List Bool Arith NArith Lia ZifyBool.
From MV Require Import Base.Bytes Model.ClientHello Proofs.ListFacts.
Import ListNotations.
Local Open Scope N_scope.

Lemma blen_app a b : blen (a ++ b) = blen a + blen b.
Proof. unfold blen. rewrite app_length. lia. Qed.

Lemma blen_nil : blen [] = 0. Proof. reflexivity. Qed.
Lemma blen_cons c s : blen (c :: s) = 1 + blen s.
Proof. unfold blen. cbn [length]. lia. Qed.

Lemma blen_app_ltb d t n : (blen d <? n) = false -> (blen (d ++ t) <? n) = false.
Proof. rewrite blen_app, !N.ltb_ge. lia. Qed.

Lemma take_app_exact a b n : blen a = n -> take n (a ++ b) = a.
Proof. unfold blen, take. intros <-. rewrite Nat2N.id. apply firstn_exact. Qed.

Lemma drop_app_exact a b n : blen a = n -> drop n (a ++ b) = b.
Proof. unfold blen, drop. intros <-. rewrite Nat2N.id. apply skipn_exact. Qed.

Lemma take_all a n : blen a = n -> take n a = a.
Proof. intros H. rewrite <- (app_nil_r a) at 1. apply take_app_exact, H. Qed.

Lemma drop_all a n : blen a = n -> drop n a = [].
Proof. intros H. rewrite <- (app_nil_r a) at 1. apply drop_app_exact, H. Qed.

Lemma blen_take n s : n <= blen s -> blen (take n s) = n.
Proof. unfold blen, take. intros H. rewrite firstn_length. lia. Qed.

Lemma blen_drop n s : blen (drop n s) = blen s - n.
Proof. unfold blen, drop. rewrite skipn_length. lia. Qed.

Lemma take_drop n s : take n s ++ drop n s = s.
Proof. apply firstn_skipn. Qed.

Lemma take_app_le n a b : n <= blen a -> take n (a ++ b) = take n a.
Proof.
  unfold blen, take. intros H. rewrite firstn_app.
  replace (N.to_nat n - length a)%nat with 0%nat by lia. cbn. apply app_nil_r.
Qed.

Lemma drop_app_le n a b : n <= blen a -> drop n (a ++ b) = drop n a ++ b.
Proof.
  unfold blen, drop. intros H. rewrite skipn_app.
  replace (N.to_nat n - length a)%nat with 0%nat by lia. reflexivity.
Qed.

Lemma at_app_lt i a b : (i < length a)%nat -> at_ i (a ++ b) = at_ i a.
Proof. intros H. unfold at_. apply app_nth1, H. Qed.

Lemma at_take i n s : (i < N.to_nat n)%nat -> at_ i (take n s) = at_ i s.
Proof.
  unfold at_, take. revert i s. induction (N.to_nat n) as [|k IH]; intros i s H; [lia|].
  destruct s as [|c s]; [destruct i; reflexivity|].
  destruct i; cbn; [reflexivity|]. apply IH. lia.
Qed.

Lemma bind_nf {A B} (m : rd A) (f : A -> rd B) :
  m <> NoFuel -> (forall a, f a <> NoFuel) -> bind m f <> NoFuel.
Proof. destruct m as [a| |]; cbn [bind]; [auto | discriminate | contradiction]. Qed.

Lemma read_bytes_app a r n : blen a = n -> read_bytes n (a ++ r) = Ok (a, r).
Proof.
  intros H. unfold read_bytes. rewrite blen_app.
  destruct (blen a + blen r <? n) eqn:E; [lia|].
  rewrite take_app_exact, drop_app_exact by exact H. reflexivity.
Qed.

Lemma read_u1_Nb n r : n < 256 -> read_u1 (Nb n :: r) = Ok (n, r).
Proof. intros H. cbn. rewrite bN_Nb by exact H. reflexivity. Qed.

Lemma put_u16be_shape n : exists a b, put_u16be n = [a; b].
Proof. unfold put_u16be. eauto. Qed.

Lemma read_u2be_put n r : n < 65536 -> read_u2be (put_u16be n ++ r) = Ok (n, r).
Proof.
  intros H. pose proof (u16be_put n H) as P. unfold put_u16be in *. cbn [app read_u2be]. rewrite P. reflexivity.
Qed.

Lemma length_put_u16be n : length (put_u16be n) = 2%nat.
Proof. reflexivity. Qed.

(* many reads back a concatenation of encodings: if item inverts enc on each element (whatever follows) and no
   encoding is empty, the items of concat (map enc xs) are map dec xs *)
Lemma many_concat {A B} (item : reader A) (enc : B -> bytes) (dec : B -> A) (xs : list B) :
  (forall x r, In x xs -> item (enc x ++ r) = Ok (dec x, r)) ->
  (forall x, In x xs -> enc x <> []) ->
  forall fuel, (length (concat (map enc xs)) <= fuel)%nat ->
  many item fuel (concat (map enc xs)) = Ok (map dec xs).
Proof.
  induction xs as [|x xs IH]; intros Hi Hne fuel Hf.
  - destruct fuel; reflexivity.
  - cbn [map concat] in *.
    assert (Hx : enc x <> []) by (apply Hne; left; reflexivity).
    remember (enc x ++ concat (map enc xs)) as s eqn:Es.
    destruct s as [|c s]; [destruct (enc x); [congruence|discriminate]|].
    destruct fuel as [|f]; [cbn in Hf; lia|].
    cbn [many]. rewrite Es. rewrite Hi by (left; reflexivity). cbn [bind].
    rewrite IH.
    + reflexivity.
    + intros; apply Hi; right; assumption.
    + intros; apply Hne; right; assumption.
    + rewrite Es, app_length in Hf.
      destruct (enc x); [congruence|]. cbn in Hf. lia.
Qed.

(* many is given the length of its input as fuel: enough when every item consumes something *)
Definition progress {A} (item : reader A) : Prop :=
  forall s, match item s with
            | Ok (_, r) => (length r < length s)%nat
            | Eof => True
            | NoFuel => False
            end.

Lemma many_total {A} (item : reader A) :
  progress item -> forall fuel s, (length s <= fuel)%nat -> many item fuel s <> NoFuel.
Proof.
  intros P. induction fuel as [|f IH]; intros s Hl; (destruct s as [|c s]; [discriminate|]); [cbn in Hl; lia|].
  cbn [many]. specialize (P (c :: s)).
  destruct (item (c :: s)) as [[a r]| |]; cbn [bind]; [|discriminate|contradiction].
  apply bind_nf; [apply IH; cbn in *; lia | discriminate].
Qed.

Lemma length_drop_le n s : (length (drop n s) <= length s)%nat.
Proof. unfold drop. rewrite skipn_length. lia. Qed.
