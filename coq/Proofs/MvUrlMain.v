(* Proofs/MvUrlMain.v -- Request.query, urlencoded_form and path_components read back what was written (C34):
   urlparse of a text put together by urlunparse returns the parts, whatever was parsed out of ANY path is clean
   enough to be put back, and the encoders produce only bytes that urlparse leaves alone. *)
From Coq Require Import List Bool NArith Lia.
From MV Require Import Base.Bytes Model.MvCommon Model.MvUrl Model.MvViews
  Proofs.ListFacts Proofs.MvCommonLemmas Proofs.MvUrlQuote.
Import ListNotations.

Definition nounsafe (c : byte) : bool := negb (unsafe_url_byte c).
Definition okq (c : byte) : bool := negb (byte_eqb c HASH) && nounsafe c.       (* allowed inside a query *)
Definition okc (c : byte) : bool := negb (byte_eqb c QM) && okq c.              (* allowed before the query *)

Lemma okc_okq s : forallb okc s = true -> forallb okq s = true.
Proof. apply forallb_impl. intros c H. unfold okc in H. apply andb_true_iff in H. tauto. Qed.
Lemma okq_nounsafe s : forallb okq s = true -> forallb nounsafe s = true.
Proof. apply forallb_impl. intros c H. unfold okq in H. apply andb_true_iff in H. tauto. Qed.
Lemma okq_nohash s : forallb okq s = true -> memb HASH s = false.
Proof. intros H. apply (forallb_memb_false okq); [exact H|reflexivity]. Qed.
Lemma okc_noqm s : forallb okc s = true -> memb QM s = false.
Proof. intros H. apply (forallb_memb_false okc); [exact H|reflexivity]. Qed.

Lemma remove_unsafe_id s : forallb nounsafe s = true -> remove_unsafe s = s.
Proof.
  unfold remove_unsafe. induction s as [|x s IH]; intros H; [reflexivity|].
  simpl in H. apply andb_true_iff in H as [H1 H2]. simpl. unfold nounsafe in H1. rewrite H1, IH by exact H2. reflexivity.
Qed.
Lemma remove_unsafe_clean s : forallb nounsafe (remove_unsafe s) = true.
Proof.
  unfold remove_unsafe. rewrite forallb_forall. intros x Hx. apply filter_In in Hx. tauto.
Qed.
Lemma remove_unsafe_app a b : remove_unsafe (a ++ b) = remove_unsafe a ++ remove_unsafe b.
Proof. apply filter_app. Qed.

Lemma rbreak_spec s : match rbreak_slash s with
                      | Some (a, b) => s = a ++ SLASH :: b /\ memb SLASH b = false
                      | None => memb SLASH s = false
                      end.
Proof.
  induction s as [|x s IH]; [reflexivity|]. cbn [rbreak_slash].
  destruct (rbreak_slash s) as [[a b]|].
  - destruct IH as [-> H]. split; [reflexivity|exact H].
  - destruct (byte_eqb x SLASH) eqn:E.
    + apply byte_eqb_eq in E. subst. split; [reflexivity|exact IH].
    + rewrite memb_cons, E. exact IH.
Qed.

Lemma rbreak_none s : memb SLASH s = false -> rbreak_slash s = None.
Proof.
  intros H. pose proof (rbreak_spec s) as S. destruct (rbreak_slash s) as [[a b]|]; [|reflexivity].
  destruct S as [-> _]. rewrite memb_app, memb_cons, byte_eqb_refl, orb_true_r in H. discriminate.
Qed.

Lemma rbreak_app s t : memb SLASH t = false ->
  rbreak_slash (s ++ t) = match rbreak_slash s with Some (a, b) => Some (a, b ++ t) | None => None end.
Proof.
  intros Ht. induction s as [|x s IH]; simpl; [apply rbreak_none, Ht|].
  rewrite IH. destruct (rbreak_slash s) as [[a b]|]; [reflexivity|].
  destruct (byte_eqb x SLASH); reflexivity.
Qed.

(* path and params as urlparse separates them: _splitparams only when a semicolon is present *)
Definition pp (u : bytes) : bytes * bytes := if memb SEMI u then splitparams u else (u, []).

(* params are cut off at a semicolon after the last slash, or not at all *)
Lemma pp_spec u :
  pp u = (u, []) \/ (u = fst (pp u) ++ SEMI :: snd (pp u) /\ memb SLASH (snd (pp u)) = false).
Proof.
  unfold pp. destruct (memb SEMI u); [|left; reflexivity].
  unfold splitparams. pose proof (rbreak_spec u) as S.
  destruct (rbreak_slash u) as [[a b]|].
  - destruct S as [-> Hb]. destruct (break_at SEMI b) as [[b1 b2]|] eqn:E; [right|left; reflexivity].
    apply break_at_spec in E as [-> _]. rewrite memb_app, memb_cons in Hb.
    apply orb_false_iff in Hb as [_ Hb]. apply orb_false_iff in Hb as [_ Hb].
    cbn [fst snd]. rewrite <- app_assoc. auto.
  - destruct (break_at SEMI u) as [[a b]|] eqn:E; [right|left; reflexivity].
    apply break_at_spec in E as [-> _]. rewrite memb_app, memb_cons in S.
    apply orb_false_iff in S as [_ S]. apply orb_false_iff in S as [_ S]. auto.
Qed.

Lemma pp_pieces (P : byte -> bool) u :
  forallb P u = true ->
  forallb P (fst (pp u)) = true /\ forallb P (snd (pp u)) = true /\ memb SLASH (snd (pp u)) = false.
Proof.
  intros H. destruct (pp_spec u) as [->|[E S]]; [auto|].
  rewrite E, forallb_app in H. simpl in H.
  apply andb_true_iff in H as [Ha H]. apply andb_true_iff in H as [_ Hb]. auto.
Qed.

Lemma urlparse_path_cut p :
  urlparse_path p =
  let (u1, frag) := cut HASH (remove_unsafe p) in
  let (u2, query) := cut QM u1 in
  let (path, params) := pp u2 in
  {| p_path := path; p_params := params; p_query := query; p_fragment := frag |}.
Proof. reflexivity. Qed.

(* urlunparse once the params are back in place: X is path or path;params *)
Definition compose (X q frag : bytes) : bytes :=
  let u := if nonempty q then X ++ QM :: q else X in
  if nonempty frag then u ++ HASH :: frag else u.

Lemma urlunparse_compose path params q frag :
  urlunparse_path path params q frag = compose (if nonempty params then path ++ SEMI :: params else path) q frag.
Proof. reflexivity. Qed.

Lemma urlparse_compose X q frag :
  forallb okc X = true -> forallb okq q = true ->
  urlparse_path (compose X q frag)
  = {| p_path := fst (pp X); p_params := snd (pp X); p_query := q; p_fragment := remove_unsafe frag |}.
Proof.
  intros HX Hq. rewrite urlparse_path_cut. unfold compose.
  set (Xq := if nonempty q then X ++ QM :: q else X).
  assert (HXq : forallb okq Xq = true).
  { unfold Xq. destruct (nonempty q); [|apply okc_okq, HX].
    rewrite forallb_app. simpl. rewrite (okc_okq _ HX), Hq. reflexivity. }
  assert (Hf : cut HASH (remove_unsafe (if nonempty frag then Xq ++ HASH :: frag else Xq))
               = (Xq, remove_unsafe frag)).
  { destruct frag as [|f frag]; cbn [nonempty].
    - rewrite remove_unsafe_id by (apply okq_nounsafe, HXq). apply cut_none, okq_nohash, HXq.
    - rewrite remove_unsafe_app, remove_unsafe_id by (apply okq_nounsafe, HXq).
      change (remove_unsafe (HASH :: f :: frag)) with (HASH :: remove_unsafe (f :: frag)).
      apply cut_app, okq_nohash, HXq. }
  rewrite Hf. unfold Xq. rewrite cut_suffix by (apply okc_noqm, HX). destruct (pp X); reflexivity.
Qed.

Lemma urlparse_clean p :
  let r := urlparse_path p in
  forallb okc (p_path r) = true /\ forallb okc (p_params r) = true /\ memb SLASH (p_params r) = false
  /\ forallb okq (p_query r) = true.
Proof.
  rewrite urlparse_path_cut.
  destruct (cut_forallb HASH nounsafe _ (remove_unsafe_clean p)) as [H1 _].
  destruct (cut HASH (remove_unsafe p)) as [u1 frag].
  destruct (cut_forallb QM okq u1 H1) as [H2 Hq]. destruct (cut QM u1) as [u2 query].
  destruct (pp_pieces okc u2 H2) as (Ha & Hb & Hc). destruct (pp u2) as [path params].
  simpl in *. auto.
Qed.

Lemma path_params_okc path params :
  forallb okc path = true -> forallb okc params = true ->
  forallb okc (if nonempty params then path ++ SEMI :: params else path) = true.
Proof.
  intros H1 H2. destruct (nonempty params); [|exact H1].
  rewrite forallb_app. simpl. rewrite H1, H2. reflexivity.
Qed.

Lemma urlencode_okc l : forallb okc (urlencode l) = true.
Proof. apply (forallb_sweep encchar); [vm_compute; reflexivity | apply urlencode_chars]. Qed.

(* Request.query: for EVERY path and EVERY list of pairs, what is assigned is what is read *)
Theorem query_roundtrip p l : get_query (set_query p l) = l.
Proof.
  unfold get_query, set_query. pose proof (urlparse_clean p) as [Hp [Hs [_ _]]].
  rewrite urlunparse_compose. rewrite urlparse_compose.
  - cbn [p_query]. apply url_decode_encode_plain. reflexivity.
  - apply path_params_okc; assumption.
  - rewrite url_encode_plain by reflexivity. apply okc_okq, urlencode_okc.
Qed.

(* the similar_to heuristic loses the pair of two empty strings *)
Lemma form_similar_loses_empty_pair :
  get_urlencoded_form (set_urlencoded_form (Some [x61]) [([], [])]) = [].
Proof. vm_compute. reflexivity. Qed.

(* the path the path_components setter writes *)
Definition NP (comps : list bytes) : bytes := SLASH :: join [SLASH] (map (quote []) comps).

Definition npchar (c : byte) : bool := qchar [] c || byte_eqb c SLASH.

Lemma NP_chars comps : forallb npchar (NP comps) = true.
Proof.
  unfold NP. change (forallb npchar (join [SLASH] (map (quote []) comps)) = true).
  apply forallb_join; [reflexivity|]. intros i Hin. apply in_map_iff in Hin as [c [<- _]].
  apply (forallb_impl (qchar [])); [|apply quote_chars]. intros x H. unfold npchar. rewrite H. reflexivity.
Qed.

Lemma NP_okc comps : forallb okc (NP comps) = true.
Proof. apply (forallb_sweep npchar); [vm_compute; reflexivity | apply NP_chars]. Qed.

Lemma NP_nosemi comps : memb SEMI (NP comps) = false.
Proof. apply (forallb_memb_false npchar); [apply NP_chars|reflexivity]. Qed.

Lemma pp_NP comps params :
  memb SLASH params = false ->
  fst (pp (if nonempty params then NP comps ++ SEMI :: params else NP comps)) = NP comps.
Proof.
  intros Hs. destruct params as [|c params]; simpl nonempty; cbv iota.
  - unfold pp. rewrite NP_nosemi. reflexivity.
  - unfold pp. rewrite memb_app. replace (memb SEMI (SEMI :: c :: params)) with true by reflexivity.
    rewrite orb_true_r. unfold splitparams.
    rewrite rbreak_app by (rewrite memb_cons; exact Hs).
    pose proof (rbreak_spec (NP comps)) as S.
    destruct (rbreak_slash (NP comps)) as [[a b]|].
    + destruct S as [E Hb].
      assert (Hsemi : memb SEMI b = false).
      { pose proof (NP_nosemi comps) as N. rewrite E, memb_app in N. apply orb_false_iff in N as [_ N].
        apply memb_cons_false in N as [_ N]. exact N. }
      rewrite break_at_app by exact Hsemi. simpl. symmetry. exact E.
    + unfold NP, memb in S. simpl in S. discriminate.
Qed.

Lemma quote_noslash s : memb SLASH (quote [] s) = false.
Proof. apply (forallb_memb_false (qchar [])); [apply quote_chars|reflexivity]. Qed.

(* path_components: for EVERY path and every list of NON-EMPTY components *)
Theorem path_components_roundtrip p comps :
  forallb nonempty comps = true -> get_path_components (set_path_components p comps) = comps.
Proof.
  intros Hne. unfold get_path_components, set_path_components.
  pose proof (urlparse_clean p) as [_ [Hs [Hsl Hq]]].
  fold (NP comps). rewrite urlunparse_compose. rewrite urlparse_compose.
  - cbn [p_path]. rewrite pp_NP by exact Hsl. unfold NP. simpl split_char.
    destruct comps as [|c0 comps0] eqn:EC; [reflexivity|]. rewrite <- EC in *.
    rewrite split_join.
    + simpl filter. clear EC. induction comps as [|c t IH]; [reflexivity|].
      simpl in Hne. apply andb_true_iff in Hne as [H1 H2].
      simpl. destruct (quote [] c) eqn:Q.
      { destruct (quote_nonempty [] c); [intros ->; discriminate | exact Q]. }
      cbn [nonempty map]. rewrite <- Q, unquote_quote by reflexivity. f_equal. exact (IH H2).
    + rewrite EC. discriminate.
    + intros i Hi. apply in_map_iff in Hi as [x [<- _]]. apply quote_noslash.
  - apply path_params_okc; [apply NP_okc|exact Hs].
  - exact Hq.
Qed.

(* components read from ANY path are non-empty, so writing them back is stable *)
Lemma unquote_nonempty s : nonempty s = true -> nonempty (unquote s) = true.
Proof.
  destruct s as [|c s]; [discriminate|]. intros _. simpl.
  destruct (byte_eqb c PCT); [|reflexivity].
  destruct s as [|h1 [|h2 s]]; try reflexivity.
  destruct (hexval h1), (hexval h2); reflexivity.
Qed.

Theorem path_components_writeback p :
  get_path_components (set_path_components p (get_path_components p)) = get_path_components p.
Proof.
  apply path_components_roundtrip. unfold get_path_components.
  induction (split_char SLASH (p_path (urlparse_path p))) as [|x t IH]; [reflexivity|].
  simpl. destruct (nonempty x) eqn:E; [|exact IH]. simpl. rewrite unquote_nonempty by exact E. exact IH.
Qed.

(* an empty component cannot be written *)
Lemma path_components_empty_lost :
  get_path_components (set_path_components [SLASH] [[x61]; []; [x62]]) = [[x61]; [x62]].
Proof. vm_compute. reflexivity. Qed.

(* MultiDictView mutators over any lossless getter/setter pair *)
Section ViewOps.
  Variable M : Type.
  Variable get : M -> pairs.
  Variable set : M -> pairs -> M.
  Hypothesis roundtrip : forall m l, get (set m l) = l.

  Lemma view_op_spec m o :
    get (view_op get set m o) = match apply_op o (get m) with Some f => f | None => get m end.
  Proof. unfold view_op. destruct (apply_op o (get m)); [apply roundtrip | reflexivity]. Qed.
End ViewOps.

Theorem query_view_ops p o :
  get_query (view_op get_query set_query p o)
  = match apply_op o (get_query p) with Some f => f | None => get_query p end.
Proof.
  exact (view_op_spec bytes get_query set_query query_roundtrip p o).
Qed.
