(* Proofs/Pexp.v -- interval reasoning over ALL natural numbers.
   A pexp is a boolean combination of closed-interval membership tests.  Such a predicate is
   constant between consecutive breakpoints (interval starts, and successors of interval ends):
   [eval_sim].  Hence the cells between consecutive breakpoints on which it holds, up to a bound,
   are exactly where it holds up to that bound, and none is empty: [true_intervals_spec], for every
   predicate and bound.  C22 rests on that theorem alone (Proofs/BlockC22.v); it says nothing about
   the intervals being maximal or disjoint.
   [valid_sound] is the soundness of the model's reflective check [valid] (a predicate that holds at 0
   and at every breakpoint holds everywhere); no property uses the check, the theorem is what makes it
   usable. *)
From Coq Require Import NArith List Bool Lia ZifyBool.
From MV Require Import Model.Ipaddr Model.Pexp.
Import ListNotations.
Open Scope N_scope.

Definition sim (l : list N) (a b : N) : Prop := forall c, In c l -> (c <=? a) = (c <=? b).

Lemma sim_app : forall l1 l2 a b, sim (l1 ++ l2) a b -> sim l1 a b /\ sim l2 a b.
Proof.
  intros l1 l2 a b H; split; intros c Hc; apply H; apply in_or_app; [left|right]; exact Hc.
Qed.

Lemma eval_sim : forall p a b, sim (bps p) a b -> eval p a = eval p b.
Proof.
  induction p as [| |nt|p IH|p IHp q IHq|p IHp q IHq]; intros a b H; cbn [eval bps] in *.
  - reflexivity.
  - reflexivity.
  - (* membership is decided by the side of the two breakpoints: a <= snd nt iff not succ (snd nt) <= a *)
    pose proof (H (fst nt) (or_introl eq_refl)) as H1.
    pose proof (H (N.succ (snd nt)) (or_intror (or_introl eq_refl))) as H2.
    unfold in_net. lia.
  - f_equal. apply IH. exact H.
  - apply sim_app in H. destruct H as [H1 H2]. rewrite (IHp a b H1), (IHq a b H2). reflexivity.
  - apply sim_app in H. destruct H as [H1 H2]. rewrite (IHp a b H1), (IHq a b H2). reflexivity.
Qed.

(* every a has a representative among 0 and the breakpoints: the largest breakpoint <= a
   (r <= a is what the induction needs when a breakpoint above a is added) *)
Lemma rep_exists : forall l a, exists r, In r (0 :: l) /\ r <= a /\ sim l a r.
Proof.
  induction l as [|c l IH]; intros a.
  - exists 0. split; [left; reflexivity|]. split; [lia|]. intros c [].
  - destruct (IH a) as [r [Hin [Hle Hsim]]].
    destruct ((c <=? a) && (r <? c)) eqn:E.
    + exists c. split; [right; left; reflexivity|]. split; [lia|].
      intros d [<-|Hd]; [lia|]. specialize (Hsim d Hd). lia.
    + exists r. split; [destruct Hin as [Hin|Hin]; [left|right; right]; exact Hin|].
      split; [exact Hle|]. intros d [<-|Hd]; [lia|exact (Hsim d Hd)].
Qed.

Theorem valid_sound : forall p, valid p = true -> forall a, eval p a = true.
Proof.
  intros p H a. unfold valid in H. rewrite forallb_forall in H.
  destruct (rep_exists (bps p) a) as [r [Hin [_ Hsim]]].
  rewrite (eval_sim p a r Hsim). apply H. exact Hin.
Qed.

Lemma eval_por_tbl : forall t a, eval (por_tbl t) a = in_nets a t.
Proof. induction t as [|n t IH]; intros a; cbn [por_tbl eval in_nets existsb]; [reflexivity|]. rewrite IH. reflexivity. Qed.

Lemma in_nets_cons : forall a c l, in_nets a (c :: l) = in_net a c || in_nets a l.
Proof. reflexivity. Qed.

Fixpoint sorted (l : list N) : Prop :=
  match l with [] => True | x :: t => (forall z, In z t -> x < z) /\ sorted t end.

Lemma insert_In : forall x l z, In z (insert x l) <-> z = x \/ In z l.
Proof.
  intros x l z. induction l as [|y t IH]; cbn [insert In]; [intuition congruence|].
  destruct (x <? y); [cbn [In]; intuition congruence|]. destruct (x =? y) eqn:E; cbn [In].
  - apply N.eqb_eq in E. intuition congruence.
  - rewrite IH. tauto.
Qed.

Lemma insert_sorted : forall x l, sorted l -> sorted (insert x l).
Proof.
  intros x l. induction l as [|y t IH]; cbn [insert]; [cbn; tauto|]. intros [Hy Hs].
  destruct (x <? y) eqn:E1; [|destruct (x =? y) eqn:E2].
  - split; [|split; assumption]. intros z [<-|Hz]; [|specialize (Hy z Hz)]; lia.
  - split; assumption.
  - split; [|exact (IH Hs)]. intros z Hz. apply insert_In in Hz.
    destruct Hz as [->|Hz]; [lia|exact (Hy z Hz)].
Qed.

Lemma sort_dedup_spec : forall l, sorted (sort_dedup l) /\ forall z, In z (sort_dedup l) <-> In z l.
Proof.
  induction l as [|x l [Hs Hin]]; cbn [sort_dedup fold_right]; [split; [exact I|tauto]|].
  split; [apply insert_sorted; exact Hs|]. intros z. fold (sort_dedup l).
  rewrite insert_In, Hin. cbn [In]. intuition congruence.
Qed.

Definition wf_net (c : net) : Prop := fst c <= snd c.

Lemma cells_cons : forall x y t maxv,
  cells (x :: y :: t) maxv = if maxv <? x then [] else (x, N.min (N.pred y) maxv) :: cells (y :: t) maxv.
Proof. reflexivity. Qed.

(* the cells of a sorted list x :: L partition [x, maxv]; p is constant on each when every
   breakpoint of p above x is in L *)
Lemma cells_spec : forall p maxv L x, sorted (x :: L) ->
  (forall c, In c (bps p) -> c <= x \/ In c L) ->
  Forall wf_net (cells (x :: L) maxv)
  /\ forall a, in_nets a (filter (fun c => eval p (fst c)) (cells (x :: L) maxv))
               = (x <=? a) && (a <=? maxv) && eval p a.
Proof.
  intros p maxv. induction L as [|y t IH]; intros x [Hx Hs] Hbp; [cbn [cells]|rewrite cells_cons];
    (destruct (maxv <? x) eqn:E; [split; [constructor|intros a; cbn [filter in_nets existsb]; lia]|]).
  - (* one cell [x, maxv], no breakpoint above x *)
    split; [repeat constructor; unfold wf_net; cbn; lia|]. intros a.
    assert (Ea : x <= a -> eval p a = eval p x).
    { intros Hxa. apply eval_sim. intros c Hc. destruct (Hbp c Hc) as [H|[]]. lia. }
    cbn [filter fst]. destruct (eval p x) eqn:Ex; cbn [in_nets existsb]; unfold in_net; cbn [fst snd]; lia.
  - (* first cell [x, y-1], no breakpoint strictly between x and y; the others start at y *)
    pose proof (Hx y (or_introl eq_refl)) as Hxy.
    assert (Hbp' : forall c, In c (bps p) -> c <= y \/ In c t).
    { intros c Hc. destruct (Hbp c Hc) as [H|[<-|H]]; [left; lia|left; lia|right; exact H]. }
    destruct (IH y Hs Hbp') as [Hw He].
    split; [constructor; [unfold wf_net; cbn; lia|exact Hw]|]. intros a. specialize (He a).
    assert (Ea : x <= a -> a < y -> eval p a = eval p x).
    { intros Hxa Hay. apply eval_sim. intros c Hc. destruct (Hbp c Hc) as [H|[<-|H]]; [lia|lia|].
      pose proof (proj1 Hs c H). lia. }
    cbn [filter fst].
    destruct (eval p x) eqn:Ex; [rewrite in_nets_cons; unfold in_net at 1; cbn [fst snd]|]; rewrite He; lia.
Qed.

Lemma merge_spec : forall l, Forall wf_net l ->
  Forall wf_net (merge l) /\ forall a, in_nets a (merge l) = in_nets a l.
Proof.
  unfold wf_net. induction l as [|c t IH]; intros H; cbn [merge]; [split; [constructor|reflexivity]|].
  inversion H as [|? ? Hc Ht]; subst. destruct (IH Ht) as [Hw He]. clear IH.
  destruct (merge t) as [|b r].
  - split; [repeat constructor; exact Hc|]. intros a. rewrite !in_nets_cons, <- (He a). reflexivity.
  - inversion Hw as [|? ? Hb Hr]; subst. destruct (N.succ (snd c) =? fst b) eqn:E.
    + split; [constructor; [cbn [fst snd]; lia|exact Hr]|]. intros a.
      rewrite (in_nets_cons a c t), <- (He a), !in_nets_cons. unfold in_net. cbn [fst snd]. lia.
    + split; [constructor; assumption|]. intros a. rewrite (in_nets_cons a c t), <- (He a). reflexivity.
Qed.

Theorem true_intervals_spec : forall p maxv,
  Forall wf_net (true_intervals p maxv)
  /\ forall a, in_nets a (true_intervals p maxv) = (a <=? maxv) && eval p a.
Proof.
  intros p maxv. unfold true_intervals.
  destruct (sort_dedup_spec (0 :: bps p)) as [Hs Hin].
  (* the sorted list holds 0, so it starts with 0 *)
  destruct (sort_dedup (0 :: bps p)) as [|x L]; [destruct (proj2 (Hin 0) (or_introl eq_refl))|].
  assert (Hx : x = 0).
  { destruct (proj2 (Hin 0) (or_introl eq_refl)) as [H|H]; [exact H|]. pose proof (proj1 Hs 0 H). lia. }
  subst x.
  destruct (cells_spec p maxv L 0 Hs) as [Hw He].
  { intros c Hc. destruct (proj2 (Hin c) (or_intror Hc)) as [<-|H]; [left; lia|right; exact H]. }
  destruct (merge_spec (filter (fun c => eval p (fst c)) (cells (0 :: L) maxv))) as [Hw' He'].
  { apply Forall_forall. intros c Hc. apply filter_In in Hc. rewrite Forall_forall in Hw. apply Hw, Hc. }
  split; [exact Hw'|]. intros a. rewrite He', He. destruct a; reflexivity.
Qed.
