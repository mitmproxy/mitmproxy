(* Proofs/DnsLayerC27.v -- what Props/C27.v needs beyond the three files before it: SERVFAIL after
   every error hook, the resolver addon, several clients at once, and the concrete witnesses. *)
From Coq Require Import List Bool Arith NArith.
From MV Require Import Base.Bytes Model.DnsLayer Proofs.DnsLayerSeg Proofs.DnsLayerInv.
Import ListNotations.

Lemma step_servfail unpack c s e : servfail_ok (ctcp c) (snd (step unpack c s e)).
Proof.
  unfold step. destruct (s_crashed s); [exact I|]. destruct (s_phase s); [|exact I].
  destruct e as [fc d|fc].
  - destruct (unpack_message unpack c s fc d); try exact I.
    apply handle_msgs_struct.
  - cbn [snd]. destruct fc; [destruct (s_srv s)|]; exact I.
Qed.

Lemma run_servfail unpack c : forall es s, servfail_ok (ctcp c) (snd (run unpack c s es)).
Proof.
  apply (run_ind unpack c (fun _ p => servfail_ok (ctcp c) (snd p))).
  - intros s. exact I.
  - intros s s1 o1 s2 o2. apply servfail_ok_app.
  - apply step_servfail.
Qed.

(* both replies made from a query start, on the wire, with its id (ids are 16 bit) *)
Lemma wire_id i tail : (i < 65536)%N ->
  exists h l rest, put_u16be i ++ tail = h :: l :: rest /\ u16be h l = i.
Proof. intros H. eexists _, _, _. split; [reflexivity | exact (u16be_put i H)]. Qed.

Lemma question_partial : forall unpack c script conn es,
  let r := run unpack c (init script conn) es in
  (forall k ord rs e, ~ In (OHook k ord None rs e) (snd r)) ->
  (forall m, In m (s_sm (fst r)) -> forall q, In q (s_cq (fst r)) -> m_id q = m_id m -> m_qs q = m_qs m) ->
  forall data, In (OSend true data) (snd r) ->
  exists m, data = pack_message m (ctcp c) /\
    (addon_msg script m \/ exists q, In q (s_cq (fst r)) /\ m_id q = m_id m /\ m_qs q = m_qs m).
Proof.
  intros unpack c script conn es r Hno Hecho data Hin.
  destruct (proj2 (reply_partial unpack c script conn es Hno) data Hin) as (m & Hd & [Ha|(q & Q1 & Q2 & Q3)]).
  - exists m. split; [exact Hd | left; exact Ha].
  - exists m. split; [exact Hd|]. right. exists q. split; [exact Q1|]. split; [exact Q2|].
    destruct Q3 as [Q3|Q3]; [subst m; reflexivity | apply Hecho; assumption].
Qed.

Lemma handle_request_resolved c s i f m rc n an rest :
  f_resp f = None -> f_err f = false -> s_script s = AResolve rc n an :: ANone :: rest ->
  snd (handle_request c s i f m) =
    [OHook HReq (f_ord f) (Some m) None false;
     OHook HResp (f_ord f) (Some m) (Some (resolved m rc n an)) false;
     OSend true (pack_message (resolved m rc n an) (ctcp c))].
Proof.
  intros Hn He Hs. unfold handle_request, handle_response, pop_act, hook_of. rewrite Hs.
  cbn. rewrite Hn, He. reflexivity.
Qed.

Lemma resolver_reply_own_query : forall c s m rc n an rest,
  fix_fresh c = true -> s_crashed s = false ->
  s_script s = AResolve rc n an :: ANone :: rest ->
  exists ord,
  snd (handle_msg c true s m) =
    [OHook HReq ord (Some m) None false;
     OHook HResp ord (Some m) (Some (resolved m rc n an)) false;
     OSend true (pack_message (resolved m rc n an) (ctcp c))].
Proof.
  intros c s m rc n an rest Hf Hc Hs. unfold handle_msg. rewrite Hc, Hf. cbn [andb].
  destruct (find_flow (m_id m) (s_flows s)) as [f|]; [destruct (answered f) eqn:Ea|].
  - exists (s_next s).
    apply (handle_request_resolved c (snd (new_flow (retire (note_msg s true m) f))) _
             (mkFlow (s_next s) None None false true) m rc n an rest);
      [reflexivity | reflexivity | exact Hs].
  - exists (f_ord f). unfold answered in Ea. destruct (f_resp f) eqn:Er; [discriminate|].
    apply (handle_request_resolved c (note_msg s true m) _ f m rc n an rest Er Ea Hs).
  - exists (s_next s).
    apply (handle_request_resolved c (snd (new_flow (note_msg s true m))) _
             (mkFlow (s_next s) None None false true) m rc n an rest);
      [reflexivity | reflexivity | exact Hs].
Qed.

Lemma nth_error_set_nth_eq {A} (x : A) : forall l i s, nth_error l i = Some s -> nth_error (set_nth i x l) i = Some x.
Proof.
  induction l as [|y l IH]; intros [|i] s H; cbn in *; try discriminate; [reflexivity|].
  eapply IH. exact H.
Qed.

Lemma nth_error_set_nth_neq {A} (x : A) : forall l i j, i <> j -> nth_error (set_nth j x l) i = nth_error l i.
Proof.
  induction l as [|y l IH]; intros i j H; [destruct j; reflexivity|].
  destruct j as [|j]; destruct i as [|i]; cbn; try reflexivity; try congruence.
  apply IH. congruence.
Qed.

Lemma proj_outs_app i a b : proj_outs i (a ++ b) = proj_outs i a ++ proj_outs i b.
Proof. unfold proj_outs. rewrite filter_app, map_app. reflexivity. Qed.

Lemma proj_outs_tag i j (o : list out) :
  proj_outs i (map (fun x => (j, x)) o) = if Nat.eqb j i then o else [].
Proof.
  unfold proj_outs. induction o as [|x o IH]; cbn [map filter fst]; [destruct (Nat.eqb j i); reflexivity|].
  destruct (Nat.eqb j i) eqn:E; cbn [map snd]; [rewrite IH; reflexivity | exact IH].
Qed.

Lemma sys_run_proj unpack c : forall es ss i s,
  nth_error ss i = Some s ->
  nth_error (fst (sys_run unpack c ss es)) i = Some (fst (run unpack c s (proj_events i es)))
  /\ proj_outs i (snd (sys_run unpack c ss es)) = snd (run unpack c s (proj_events i es)).
Proof.
  induction es as [|[j e] es IH]; intros ss i s Hs; [split; [exact Hs | reflexivity]|].
  cbn [sys_run]. unfold proj_events. cbn [filter fst].
  destruct (Nat.eqb j i) eqn:E.
  - apply Nat.eqb_eq in E. subst j. rewrite Hs. cbn [map snd run].
    destruct (step unpack c s e) as [s1 o1].
    destruct (IH (set_nth i s1 ss) i s1 (nth_error_set_nth_eq s1 ss i s Hs)) as [I1 I2].
    fold (proj_events i es) in *.
    destruct (sys_run unpack c (set_nth i s1 ss) es) as [ss2 o2].
    destruct (run unpack c s1 (proj_events i es)) as [s2 o3]. cbn [fst snd] in *.
    split; [exact I1|]. rewrite proj_outs_app, proj_outs_tag, Nat.eqb_refl, I2. reflexivity.
  - apply Nat.eqb_neq in E. fold (proj_events i es).
    destruct (nth_error ss j) as [sj|]; [|apply IH; exact Hs].
    destruct (step unpack c sj e) as [s1 o1].
    assert (Hs' : nth_error (set_nth j s1 ss) i = Some s)
      by (rewrite nth_error_set_nth_neq; [exact Hs | congruence]).
    destruct (IH (set_nth j s1 ss) i s Hs') as [I1 I2].
    destruct (sys_run unpack c (set_nth j s1 ss) es) as [ss2 o2]. cbn [fst snd] in *.
    split; [exact I1|]. rewrite proj_outs_app, proj_outs_tag.
    destruct (Nat.eqb j i) eqn:E2; [apply Nat.eqb_eq in E2; congruence|]. exact I2.
Qed.

Lemma in_proj_outs i o os : In (i, o) os -> In o (proj_outs i os).
Proof.
  intros H. unfold proj_outs. apply in_map_iff. exists (i, o). split; [reflexivity|].
  apply filter_In. split; [exact H | apply Nat.eqb_refl].
Qed.

Lemma concurrent_replies : forall unpack c inits es i script conn,
  fix_drop c = true ->
  nth_error inits i = Some (script, conn) ->
  let r := sys_run unpack c (map (fun p => init (fst p) (snd p)) inits) es in
  exists si, nth_error (fst r) i = Some si /\
  forall data, In (i, OSend true data) (snd r) -> answers_query c script (s_cq si) (s_sm si) data.
Proof.
  intros unpack c inits es i script conn Hd Hi r.
  assert (Hs : nth_error (map (fun p => init (fst p) (snd p)) inits) i = Some (init script conn))
    by (rewrite nth_error_map, Hi; reflexivity).
  destruct (sys_run_proj unpack c es _ i _ Hs) as [P1 P2]. fold r in P1, P2.
  exists (fst (run unpack c (init script conn) (proj_events i es))). split; [exact P1|].
  intros data Hin. apply in_proj_outs in Hin. rewrite P2 in Hin.
  exact (proj2 (reply_fixed unpack c script conn (proj_events i es) Hd) data Hin).
Qed.

(* test messages: the packed form is a one-byte tag which wunpack decodes back; q = query, r = reply, the digit is
   the id, the question section is "a" (x61) or, for the b variants, "b" (x62) *)
Definition q1 := mkMsg 1 true 0 true 1 [x61] [x01].
Definition q1b := mkMsg 1 true 0 true 1 [x62] [x02].
Definition r1 := mkMsg 1 false 0 true 1 [x61] [x03].
Definition r2 := mkMsg 2 false 0 true 1 [x61] [x04].
Definition r1b := mkMsg 1 false 0 true 1 [x62] [x05].
Definition wunpack (b : bytes) : ures :=
  match b with
  | [x01] => UOk q1 | [x02] => UOk q1b | [x03] => UOk r1 | [x04] => UOk r2 | [x05] => UOk r1b
  | _ => UStruct
  end.
Definition cu := mkCfg false false true false false.   (* UDP, fix_fresh = fix_drop = false *)
Definition ct := mkCfg true true true false false.     (* TCP, fix_fresh = fix_drop = false *)

(* client query id 1, upstream datagram id 2 *)
Lemma reply_refuted :
  exists unpack c script conn es,
    fix_drop c = false /\
    let r := run unpack c (init script conn) es in
    (exists ord rs e, In (OHook HResp ord None rs e) (snd r))
    /\ exists data, In (OSend true data) (snd r)
         /\ ~ answers_query c script (s_cq (fst r)) (s_sm (fst r)) data.
Proof.
  exists wunpack, cu, [], [true], [EData true [x01]; EData false [x04]].
  split; [reflexivity|]. cbv zeta.
  (* the run is evaluated once; what follows reads its value *)
  let v := eval vm_compute in (run wunpack cu (init [] [true]) [EData true [x01]; EData false [x04]]) in
  replace (run wunpack cu (init [] [true]) [EData true [x01]; EData false [x04]]) with v by (vm_compute; reflexivity).
  cbn [fst snd s_cq s_sm]. split.
  - exists 1, (Some r2), false. cbn. auto 10.
  - exists [x04]. split; [cbn; auto 10|].
    intros (m & Hd & [Ha|(q & [<-|[]] & Hid & [->|[<-|[]]])]).
    + destruct Ha as [[]|(rc & n & an & q & [] & _)].
    + discriminate Hd.
    + discriminate Hid.
Qed.

(* query id 1 (question a), reply id 1 whose question is b *)
Lemma question_refuted :
  exists unpack c script conn es m,
    let r := run unpack c (init script conn) es in
    (forall k ord rs e, ~ In (OHook k ord None rs e) (snd r))
    /\ In (OSend true (pack_message m (ctcp c))) (snd r) /\ In m (s_sm (fst r))
    /\ forall q, In q (s_cq (fst r)) -> m_qs q <> m_qs m.
Proof.
  exists wunpack, cu, [], [true], [EData true [x01]; EData false [x05]], r1b.
  cbv zeta. split; [|split; [|split]].
  - intros k ord rs e H. vm_compute in H.
    repeat (destruct H as [H|H]; [discriminate|]). exact H.
  - vm_compute. auto 10.
  - vm_compute. auto.
  - intros q Hq. vm_compute in Hq. destruct Hq as [Hq|[]]. subst q. vm_compute. discriminate.
Qed.

(* query id 1 question a, its reply, then query id 1 question b: answered from the old reply *)
Lemma stale_refuted :
  exists unpack c script conn es data,
    fix_fresh c = false /\
    let s := fst (run unpack c (init script conn) es) in
    ~ resp_hooks_from (s_script s) (snd (step unpack c s (EData true data))).
Proof.
  exists wunpack, cu, [], [true], [EData true [x01]; EData false [x03]], [x02].
  split; [reflexivity|]. cbv zeta. intros H.
  destruct (H 0 (Some q1b) (Some r1) false) as (r & _ & Hin).
  - vm_compute. auto.
  - destruct Hin as [Hin|(rc & n & an & q & Hin & _)]; vm_compute in Hin; exact Hin.
Qed.

(* the hypotheses of C27_segmentation_partial on a stream of two frames cut inside the length prefix and inside a
   frame (conjuncts 1-5), and those of C27_reply_answers_query_partial on a query and its reply (6-7) *)
Lemma nonvacuous :
  let chunks := [[x00]; [x01; x01; x00]; [x01; x02]] in
  let s := init [] [true] in
  working s /\ ctcp ct = true
  /\ unpack_tcp wunpack (buf_of s true ++ concat chunks) = ROk [q1; q1b] []
  /\ run wunpack ct s (map (EData true) chunks) = run wunpack ct s [EData true (concat chunks)]
  /\ length (snd (run wunpack ct s (map (EData true) chunks))) = 5
  /\ (forall k ord rs e, ~ In (OHook k ord None rs e) (snd (run wunpack cu s [EData true [x01]; EData false [x03]])))
  /\ In (OSend true [x03]) (snd (run wunpack cu s [EData true [x01]; EData false [x03]])).
Proof.
  cbv zeta. split; [split; reflexivity|]. split; [reflexivity|]. split; [reflexivity|].
  split; [vm_compute; reflexivity|]. split; [vm_compute; reflexivity|]. split.
  - intros k ord rs e H. vm_compute in H. repeat (destruct H as [H|H]; [discriminate|]). exact H.
  - vm_compute. auto 10.
Qed.
