(* Proofs/UrlLemmas.v -- list-level facts about the string helpers of Model/Url.v *)
From Coq Require Import List Bool NArith Lia.
From MV Require Import Base.Bytes Model.Url Proofs.ListFacts.
Import ListNotations.

Lemma is_nil_true {A} (l : list A) : is_nil l = true <-> l = [].
Proof. destruct l; simpl; split; intros; congruence. Qed.
Lemma is_nil_false {A} (l : list A) : is_nil l = false <-> l <> [].
Proof. destruct l; simpl; split; intros; congruence. Qed.

Lemma mem_app c a b : mem c (a ++ b) = mem c a || mem c b.
Proof. unfold mem. apply existsb_app. Qed.
Lemma mem_cons c x a : mem c (x :: a) = byte_eqb c x || mem c a.
Proof. reflexivity. Qed.
Lemma all_ascii_app a b : all_ascii (a ++ b) = all_ascii a && all_ascii b.
Proof. unfold all_ascii. apply forallb_app. Qed.

Lemma mem_false_forallb c a : mem c a = false <-> forallb (fun x => negb (byte_eqb x c)) a = true.
Proof.
  induction a as [|x a IH]; simpl; [tauto|].
  rewrite orb_false_iff, andb_true_iff, IH, negb_true_iff, (byte_eqb_sym c x). tauto.
Qed.

Lemma partition_notin c a : mem c a = false -> partition c a = (a, false, []).
Proof.
  induction a as [|x a IH]; simpl; intros H; [reflexivity|].
  apply orb_false_iff in H as [H1 H2]. rewrite byte_eqb_sym, H1, (IH H2). reflexivity.
Qed.

Lemma partition_app c a b : mem c a = false -> partition c (a ++ c :: b) = (a, true, b).
Proof.
  induction a as [|x a IH]; simpl; intros H.
  - rewrite byte_eqb_refl. reflexivity.
  - apply orb_false_iff in H as [H1 H2]. rewrite byte_eqb_sym, H1, (IH H2). reflexivity.
Qed.

Lemma partition_spec c s a f b :
  partition c s = (a, f, b) ->
  mem c a = false /\ s = a ++ (if f then c :: b else []) /\ (f = false -> b = []).
Proof.
  revert a f b. induction s as [|x s IH]; simpl; intros a f b H.
  - inversion H; subst. auto.
  - destruct (byte_eqb x c) eqn:E.
    + inversion H; subst. apply byte_eqb_eq in E. subst. repeat split. discriminate.
    + destruct (partition c s) as [[a' f'] b'] eqn:P. inversion H; subst.
      destruct (IH _ _ _ eq_refl) as (M & -> & B). simpl. rewrite byte_eqb_sym, E. auto.
Qed.

Lemma partition_forallb (P : byte -> bool) c s a f b :
  partition c s = (a, f, b) -> forallb P s = true -> forallb P a = true /\ forallb P b = true.
Proof.
  intros E H. destruct (partition_spec _ _ _ _ _ E) as (_ & -> & B).
  rewrite forallb_app in H. apply andb_true_iff in H as [Ha Hb]. split; [exact Ha|].
  destruct f; [apply andb_true_iff in Hb; tauto | rewrite B; reflexivity].
Qed.

Lemma partition_mem d c s a f b :
  partition c s = (a, f, b) -> mem d s = false -> mem d a = false /\ mem d b = false.
Proof. rewrite !mem_false_forallb. apply partition_forallb. Qed.

Lemma rpartition_notin c a : mem c a = false -> rpartition c a = ([], false, a).
Proof.
  induction a as [|x a IH]; simpl; intros H; [reflexivity|].
  apply orb_false_iff in H as [H1 H2]. rewrite (IH H2), byte_eqb_sym, H1. reflexivity.
Qed.

Lemma rpartition_app c a b : mem c b = false -> rpartition c (a ++ c :: b) = (a, true, b).
Proof.
  intros H. induction a as [|x a IH]; simpl.
  - rewrite (rpartition_notin _ _ H), byte_eqb_refl. reflexivity.
  - rewrite IH. reflexivity.
Qed.

Lemma rpartition_spec c s a f b :
  rpartition c s = (a, f, b) ->
  mem c b = false /\ (if f then s = a ++ c :: b else s = b /\ a = []).
Proof.
  revert a f b. induction s as [|x s IH]; simpl; intros a f b H.
  - inversion H; subst. simpl. auto.
  - destruct (rpartition c s) as [[a' f'] b'] eqn:P.
    destruct (IH _ _ _ eq_refl) as [M S]. destruct f'.
    + inversion H; subst. split; [exact M | reflexivity].
    + destruct S as [-> ->]. destruct (byte_eqb x c) eqn:E; inversion H; subst.
      * apply byte_eqb_eq in E. subst. split; [exact M | reflexivity].
      * split; [simpl; rewrite byte_eqb_sym, E; exact M | auto].
Qed.

Lemma span_app p a b :
  forallb p a = true -> match b with [] => True | x :: _ => p x = false end ->
  span p (a ++ b) = (a, b).
Proof.
  intros Ha Hb. induction a as [|x a IH]; simpl in *.
  - destruct b as [|y b]; simpl; [reflexivity | rewrite Hb; reflexivity].
  - apply andb_true_iff in Ha as [H1 H2]. rewrite H1, (IH H2). reflexivity.
Qed.

Lemma span_cons (P : byte -> bool) x t :
  P x = true -> span P (x :: t) = (x :: fst (span P t), snd (span P t)).
Proof. intros H. simpl. rewrite H. destruct (span P t). reflexivity. Qed.

Lemma span_all p a : forallb p a = true -> span p a = (a, []).
Proof. intros H. rewrite <- (app_nil_r a) at 1. apply span_app; simpl; auto. Qed.

Lemma span_spec p s a b :
  span p s = (a, b) -> s = a ++ b /\ forallb p a = true /\ match b with [] => True | x :: _ => p x = false end.
Proof.
  revert a b. induction s as [|x s IH]; simpl; intros a b H.
  - inversion H; subst. simpl. auto.
  - destruct (p x) eqn:E.
    + destruct (span p s) as [a' b'] eqn:S. inversion H; subst.
      destruct (IH _ _ eq_refl) as (-> & F & T). simpl. rewrite E, F. auto.
    + inversion H; subst. simpl. auto.
Qed.

Lemma filter_id {A} (p : A -> bool) l : forallb p l = true -> filter p l = l.
Proof.
  induction l as [|x l IH]; simpl; intros H; [reflexivity|].
  apply andb_true_iff in H as [H1 H2]. rewrite H1, (IH H2). reflexivity.
Qed.

Lemma forallb_filter {A} (p : A -> bool) l : forallb p (filter p l) = true.
Proof. exact (ListFacts.forallb_filter p l). Qed.

Lemma forallb_filter_other {A} (p q : A -> bool) l : forallb q l = true -> forallb q (filter p l) = true.
Proof.
  induction l as [|x l IH]; simpl; intros H; [reflexivity|].
  apply andb_true_iff in H as [H1 H2]. destruct (p x); simpl; [rewrite H1|]; auto.
Qed.

Lemma lower_app a b : lower (a ++ b) = lower a ++ lower b.
Proof. exact (Bytes.lower_app a b). Qed.

Lemma to_lower_idem b : to_lower (to_lower b) = to_lower b.
Proof. exact (Bytes.to_lower_idem b). Qed.
