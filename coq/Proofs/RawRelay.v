(* Proofs/RawRelay.v -- invariant principle for Model.RawRelay (an invariant over state, logical queue and
   trace that survives handle, resume and enqueueing survives every run; an event that reaches an idle
   layer is handled as if queued and drained) and the two universal theorems proved with it:
   exact relaying (sent chunks = recorded contents) and end-once.
   In the RawRelay files T_k stands for item (k) of Props/C29.v and I_k for the invariant behind it
   (I1 exactness, I2 end-once, I6 item (2b), I4/I7 no loss (4) for UDP/TCP, I5 no late send (5);
   item (3), the half-close step, needs none). *)
From Coq Require Import List Bool.
From MV Require Import Base.Bytes Model.RawRelay.
Import ListNotations.

(* The environment touches nothing but the two connections. *)
Lemma env_arrive_view st e : exists cl sv, env_arrive st e = set_server (set_client st cl) sv.
Proof.
  destruct st as [c p w q cl sv f x ec es], e as [|f0 d|f0|fc d|a err]; simpl; try (exists cl, sv; reflexivity).
  destruct (pr c), f0; simpl;
    [exists (mkConn false (can_write cl)), sv | exists cl, (mkConn false (can_write sv)) | exists CLOSED, sv | exists cl, CLOSED];
    reflexivity.
Qed.

Lemma waiting_env_arrive st e : waiting (env_arrive st e) = waiting st.
Proof. destruct (env_arrive_view st e) as (cl & sv & ->). reflexivity. Qed.
Lemma queue_env_arrive st e : queue (env_arrive st e) = queue st.
Proof. destruct (env_arrive_view st e) as (cl & sv & ->). reflexivity. Qed.
Lemma crashed_env_arrive st e : crashed (env_arrive st e) = crashed st.
Proof. destruct (env_arrive_view st e) as (cl & sv & ->). reflexivity. Qed.
Lemma ph_env_arrive st e : ph (env_arrive st e) = ph st.
Proof. destruct (env_arrive_view st e) as (cl & sv & ->). reflexivity. Qed.

(* e is the close of Y (shared by the invariants of RawRelayEnd.v and RawRelayTcpLoss.v) *)
Definition closed_from (Y : side) (e : event) : bool := match e with EClosed f => side_eqb f Y | _ => false end.

(* split_run destructs the first test it finds in H, wherever it stands.  On an unfolded [handle] or [resume]
   dispatch on the phase / wait point and the event first: otherwise a test inside one branch is split before the
   dispatching match, which then survives in both halves, and the case tree becomes the product of the tests of
   all branches instead of their sum. *)
Ltac split_run H :=
  repeat match type of H with
  | context [if ?b then _ else _] => destruct b eqn:?
  | context [match ?x with _ => _ end] => destruct x eqn:?
  end.

Ltac unfold_layer :=
  unfold handle, resume, start, start_open, start_open_done, start_fail_close, relay_data, relay_data_hooked,
    relay_closed, close_if_open, end_flow, end_hooked, yield, on_fl, mark_unreadable, set_eof, eof_of in *.

Lemma handle_frame st e st' o : handle st e = (st', o) -> queue st' = queue st.
Proof.
  intros H. unfold handle in H. destruct (ph st), e; simpl in H.
  all: unfold_layer; split_run H; inversion H; subst; clear H; simpl; auto;
    unfold env_cmd, set_conn; simpl;
    repeat match goal with |- context [if ?b then _ else _] => destruct b end;
    repeat match goal with |- context [match ?x with Client => _ | Server => _ end] => destruct x end; simpl; auto.
Qed.

Lemma resume_frame st a err st' o :
  resume st a err = (st', o) -> queue st' = queue st /\ crashed st' = crashed st.
Proof.
  intros H. unfold_layer. split_run H; inversion H; subst; clear H; simpl; auto.
Qed.

Lemma sends_app to a b : sends to (a ++ b) = sends to a ++ sends to b.
Proof.
  induction a as [|c a IH]; simpl; [reflexivity|].
  destruct c; simpl; auto. destruct (side_eqb to0 to); simpl; rewrite IH; reflexivity.
Qed.

(* start in closed form: it marks the peers that cannot send (TCP only; the server only if it is
   connected already) and then either yields the start hook or goes on to start_open. *)
Definition unreadable st (s : side) : bool :=
  match pr (cf st) with TCP => negb (can_read (conn_of st s)) | UDP => false end.
Definition marked st : state :=
  mkState (cf st) (ph st) (wait st) (queue st) (client st) (server st) (fl st) (crashed st)
          (eof_c st || unreadable st Client)
          (eof_s st || server_open (cf st) && unreadable st Server).

Lemma start_eq st :
  start st = if has_flow st then (set_wait (marked st) WStartHook, [StartHook]) else start_open (marked st).
Proof.
  destruct st as [[p i so u] h w q [cr cw] [sr sw] f x ec es].
  destruct p, so, cr, sr, ec, es; reflexivity.
Qed.

Lemma eof_marked st Y : eof_of (marked st) Y = true -> eof_of st Y = true \/ can_read (conn_of st Y) = false.
Proof.
  unfold marked, unreadable. destruct Y; simpl; intros A; apply orb_true_iff in A as [A|A]; auto; right.
  - destruct (pr (cf st)); [apply negb_true_iff; exact A | discriminate].
  - apply andb_true_iff in A as [_ A]. destruct (pr (cf st)); [apply negb_true_iff; exact A | discriminate].
Qed.

(* an event that arrives while the layer is idle is handled at once: the same as queueing it and draining *)
Lemma handled_at_once (I : state -> list event -> list cmd -> Prop) st e out st' o :
  (forall st e q out st' o,
     I st (e :: q) out -> waiting st = false -> crashed st = false -> handle st e = (st', o) -> I st' q (out ++ o)) ->
  I (env_arrive st e) [e] out -> waiting st = false -> crashed st = false ->
  handle (env_arrive st e) e = (st', o) -> I st' [] (out ++ o).
Proof.
  intros I_handle HI Hw Hc Hh.
  eapply I_handle; [exact HI | rewrite waiting_env_arrive; exact Hw | rewrite crashed_env_arrive; exact Hc | exact Hh].
Qed.

(* I st q out: q is the logical event queue;
   G st e: what the environment may deliver in state st (True for the universal theorems).
   In I_resume a0 is the action carried by the delivered reply (what G speaks of) and a what the policy
   made of it (what resume sees), as in arrive. *)
Definition not_reply (e : event) : Prop := match e with EReply _ _ => False | _ => True end.

Section Inv.
  Variable pol : policy.
  Variable G : state -> event -> Prop.
  Variable I : state -> list event -> list cmd -> Prop.
  Hypothesis I_handle : forall st e q out st' o,
    I st (e :: q) out -> waiting st = false -> crashed st = false -> handle st e = (st', o) -> I st' q (out ++ o).
  (* queueable st e: e may join the queue even while the layer is idle; handling it at once is then
     queueing and draining it, and only the other events need a direct case *)
  Variable queueable : state -> event -> bool.
  Hypothesis I_direct : forall st e out st' o,
    G st e -> not_reply e -> queueable st e = false -> I st [] out -> waiting st = false -> crashed st = false ->
    handle (env_arrive st e) e = (st', o) -> I st' [] (out ++ o).
  Hypothesis I_enqueue : forall st q out e,
    G st e -> not_reply e -> waiting st = true \/ queueable st e = true -> crashed st = false ->
    I st q out -> I (env_arrive st e) (q ++ [e]) out.
  Hypothesis I_resume : forall st q out a a0 err st' o,
    G st (EReply a0 err) -> I st q out -> waiting st = true -> crashed st = false ->
    resume st a err = (st', o) -> I st' q (out ++ o).
  Hypothesis I_queue : forall st q out q', I st q out -> I (set_queue st q') q out.

  Definition Inv st out := I st (queue st) out /\ (waiting st = false -> crashed st = false -> queue st = []).

  Lemma I_drain : forall q st out st' o,
    I st q out -> waiting st = false -> crashed st = false -> drain st q = (st', o) -> Inv st' (out ++ o).
  Proof.
    induction q as [|e q IH]; intros st out st' o HI Hw Hc H; simpl in H.
    - inversion H; subst. rewrite app_nil_r. split; [apply I_queue; exact HI | reflexivity].
    - destruct (handle st e) as [st1 o1] eqn:Hh.
      pose proof (I_handle _ _ _ _ _ _ HI Hw Hc Hh) as HI1.
      destruct (waiting st1 || crashed st1) eqn:Hwc.
      + inversion H; subst. split; [apply I_queue; exact HI1|].
        simpl. intros A B. change (waiting st1 = false) in A. change (crashed st1 = false) in B.
        rewrite A, B in Hwc. discriminate.
      + apply orb_false_iff in Hwc as [A B].
        destruct (drain st1 q) as [st2 o2] eqn:Hd. inversion H; subst.
        rewrite app_assoc. eapply IH; eauto.
  Qed.

  Lemma I_step st out e st' o : G st e -> Inv st out -> arrive pol st e = (st', o) -> Inv st' (out ++ o).
  Proof.
    intros HG [HI HS] H. unfold arrive in H.
    destruct (crashed st) eqn:Hc; [inversion H; subst; rewrite app_nil_r; split; [exact HI|]; intros _ B; congruence|].
    assert (Hgen : forall e0, G st e0 -> not_reply e0 ->
       (let st0 := env_arrive st e0 in if waiting st0 then (set_queue st0 (queue st0 ++ [e0]), []) else handle st0 e0) = (st', o) ->
       Inv st' (out ++ o)).
    { intros e0 HG0 He0 H0. cbv zeta in H0.
      rewrite waiting_env_arrive in H0. destruct (waiting st) eqn:Hw.
      - pose proof (I_enqueue _ _ _ e0 HG0 He0 (or_introl Hw) Hc HI) as HA.
        inversion H0; subst. rewrite app_nil_r, queue_env_arrive. split; [apply I_queue; exact HA|].
        simpl. intros A. change (waiting (env_arrive st e0) = false) in A. rewrite waiting_env_arrive in A. congruence.
      - rewrite (HS eq_refl eq_refl) in HI.
        assert (Hq : queue st' = []).
        { rewrite (handle_frame _ _ _ _ H0), queue_env_arrive. apply HS; reflexivity. }
        split; [rewrite Hq | intros _ _; exact Hq].
        destruct (queueable st e0) eqn:EQ; [|eapply I_direct; eauto].
        exact (handled_at_once I st e0 out st' o I_handle (I_enqueue st [] out e0 HG0 He0 (or_intror EQ) Hc HI) Hw Hc H0). }
    destruct e as [|f d|f|fc d|a err];
      [exact (Hgen EStart HG Logic.I H) | exact (Hgen (EData f d) HG Logic.I H) | exact (Hgen (EClosed f) HG Logic.I H)
      | exact (Hgen (EInject fc d) HG Logic.I H) |].
    destruct (waiting st) eqn:Hw.
    - destruct (resume st (pol (messages (fl st)) a) err) as [st1 o1] eqn:Hr.
      pose proof (I_resume _ _ _ _ _ _ _ _ HG HI Hw Hc Hr) as HI1.
      apply resume_frame in Hr as (Hq & Hcr).
      destruct (waiting st1) eqn:Hw1.
      + inversion H; subst. split; [rewrite Hq; exact HI1 | congruence].
      + destruct (drain st1 (queue st1)) as [st2 o2] eqn:Hd. inversion H; subst.
        rewrite app_assoc.
        refine (I_drain (queue st1) st1 (out ++ o1) _ _ _ Hw1 _ Hd); [rewrite Hq; exact HI1 | congruence].
    - inversion H; subst. rewrite app_nil_r. split; [assumption | intros _ _; apply HS; reflexivity].
  Qed.

  Fixpoint guarded (st : state) (evs : list event) : Prop :=
    match evs with
    | [] => True
    | e :: r => G st e /\ guarded (fst (arrive pol st e)) r
    end.

  Lemma I_run : forall evs st out st' o,
    guarded st evs -> Inv st out -> run pol st evs = (st', o) -> Inv st' (out ++ o).
  Proof.
    induction evs as [|e evs IH]; intros st out st' o HG HI H; simpl in H.
    - inversion H; subst. rewrite app_nil_r. exact HI.
    - destruct HG as [HG1 HG2].
      destruct (arrive pol st e) as [st1 o1] eqn:Ha. destruct (run pol st1 evs) as [st2 o2] eqn:Hr.
      inversion H; subst. rewrite app_assoc. eapply IH; [exact HG2 | eapply I_step; eauto | exact Hr].
  Qed.
End Inv.

Definition Gtrue : state -> event -> Prop := fun _ _ => True.
Lemma guarded_true pol evs : forall st, guarded pol Gtrue st evs.
Proof. induction evs as [|e evs IH]; intros st; simpl; auto. split; [exact Logic.I | apply IH]. Qed.

(* unguarded instance: every event is queueable *)
Section InvU.
  Variable pol : policy.
  Variable I : state -> list event -> list cmd -> Prop.
  Hypothesis I_handle : forall st e q out st' o,
    I st (e :: q) out -> waiting st = false -> crashed st = false -> handle st e = (st', o) -> I st' q (out ++ o).
  Hypothesis I_resume : forall st q out a err st' o,
    I st q out -> waiting st = true -> crashed st = false -> resume st a err = (st', o) -> I st' q (out ++ o).
  Hypothesis I_arrive : forall st q out e,
    not_reply e -> crashed st = false -> I st q out -> I (env_arrive st e) (q ++ [e]) out.
  Hypothesis I_queue : forall st q out q', I st q out -> I (set_queue st q') q out.

  Lemma I_run_u : forall evs st out st' o,
    Inv I st out -> run pol st evs = (st', o) -> Inv I st' (out ++ o).
  Proof.
    intros evs st out st' o HI H.
    refine (I_run pol Gtrue I I_handle (fun _ _ => true) _ _ _ I_queue evs st out st' o (guarded_true pol evs st) HI H).
    - intros s e ou s' o' _ _ HQ. discriminate HQ.
    - intros s q ou e _ He _ Hc HI0. apply I_arrive; assumption.
    - intros s q ou a _ err s' o' _ HI0 Hw Hc Hr. eapply I_resume; eauto.
  Qed.
End InvU.

(* T1: exact relaying.  rec_of fc (messages f) is Model.RawRelay.recorded fc f, by definition. *)
Definition rec_of (fc : bool) (ms : list (bool * bytes)) : list bytes :=
  map snd (filter (fun m => Bool.eqb (fst m) fc) (rev ms)).
(* messages whose hook has completed (the newest one is still with the addon while wait = WMsgHook) *)
Definition sent_msgs st : list (bool * bytes) :=
  match wait st with WMsgHook _ => tl (messages (fl st)) | _ => messages (fl st) end.
Definition pend_ok st : Prop :=
  match wait st with
  | WMsgHook to => match messages (fl st) with (fc, _) :: _ => to = side_of (negb fc) | [] => False end
  | _ => True
  end.
(* I1 and I2 below do not read the queue; the argument is there for the principle *)
Definition I1 st (q : list event) (out : list cmd) : Prop :=
  ignore (cf st) = false /\ pend_ok st /\ forall fc, sends (side_of (negb fc)) out = rec_of fc (sent_msgs st).

Lemma rec_of_cons fc m ms :
  rec_of fc (m :: ms) = rec_of fc ms ++ (if Bool.eqb (fst m) fc then [snd m] else []).
Proof.
  unfold rec_of. simpl. rewrite filter_app, map_app. simpl. destruct (Bool.eqb (fst m) fc); reflexivity.
Qed.

Lemma messages_apply_kill f a : messages (apply_kill f a) = messages f.
Proof. unfold apply_kill. destruct (kill a && killable f); reflexivity. Qed.

Ltac decide_has_flow Hi := unfold has_flow in *; try rewrite Hi in *; simpl negb in *; cbv iota in *.

Lemma I1_handle st e q out st' o :
  I1 st (e :: q) out -> waiting st = false -> crashed st = false -> handle st e = (st', o) -> I1 st' q (out ++ o).
Proof.
  intros (Hi & Hp & Hs) Hw _ H. unfold waiting in Hw. destruct (wait st) eqn:Ew; try discriminate.
  unfold I1, sent_msgs, pend_ok in *. rewrite Ew in *.
  unfold handle in H. destruct (ph st), e; simpl in H.
  all: unfold_layer; unfold env_cmd, set_conn in *; decide_has_flow Hi.
  all: split_run H; inversion H; subst; clear H; simpl; rewrite ?Ew.
  all: split; [exact Hi|].
  all: split; [try exact Logic.I; try (destruct from; reflexivity); try (destruct from_client; reflexivity)|].
  all: intros fc'; rewrite ?sends_app; simpl; rewrite ?app_nil_r; try apply Hs.
Qed.

Lemma I1_resume st q out a err st' o :
  I1 st q out -> waiting st = true -> crashed st = false -> resume st a err = (st', o) -> I1 st' q (out ++ o).
Proof.
  intros (Hi & Hp & Hs) _ _ H.
  unfold I1, sent_msgs, pend_ok in *.
  unfold resume in H. destruct (wait st) eqn:Ew.
  5: { (* message hook: the edited content is what is sent and what stays recorded *)
    unfold_layer. inversion H; subst; clear H. simpl.
    split; [assumption|split; [exact Logic.I|]]. intros fc'.
    rewrite sends_app, messages_apply_kill. specialize (Hs fc').
    destruct (messages (fl st)) as [|[fc c0] ms] eqn:Em; [contradiction|]. simpl in Hs. subst to.
    unfold last_content, apply_edit. rewrite messages_apply_kill, Em. simpl.
    destruct (edit a) as [c|]; simpl; rewrite ?Em; rewrite rec_of_cons, Hs; simpl;
      destruct fc, fc'; reflexivity. }
  all: unfold_layer; unfold env_cmd, set_conn in *; decide_has_flow Hi.
  all: split_run H; inversion H; subst; clear H; simpl; rewrite ?Ew.
  all: split; [exact Hi|split; [exact Logic.I|]].
  all: intros fc'; rewrite ?sends_app, ?messages_apply_kill; simpl; rewrite ?app_nil_r; apply Hs.
Qed.

Lemma I1_arrive st q out e :
  not_reply e -> crashed st = false -> I1 st q out -> I1 (env_arrive st e) (q ++ [e]) out.
Proof.
  intros _ _ H. destruct (env_arrive_view st e) as (cl & sv & ->). exact H.
Qed.

Lemma I1_init c : ignore c = false -> Inv I1 (init c) [].
Proof.
  intros Hi. split; [|reflexivity]. split; [exact Hi|]. split; [exact Logic.I|]. intros fc. reflexivity.
Qed.

Lemma exact_relay_full pol c evs :
  ignore c = false ->
  let '(st, out) := run pol (init c) evs in
  forall from_client : bool,
    sends (side_of (negb from_client)) out = rec_of from_client (sent_msgs st) /\
    ((forall to, wait st <> WMsgHook to) ->
     sends (side_of (negb from_client)) out = recorded from_client (fl st)).
Proof.
  intros Hi. destruct (run pol (init c) evs) as [st out] eqn:H.
  pose proof (I_run_u pol I1 I1_handle I1_resume I1_arrive (fun _ _ _ _ h => h) evs _ _ _ _ (I1_init c Hi) H)
    as [(_ & _ & Hs) _].
  intros fc. split; [apply Hs|].
  intros Hw. rewrite Hs. unfold sent_msgs. destruct (wait st) eqn:Ew; try reflexivity.
  exfalso. apply (Hw to). reflexivity.
Qed.

(* T2: exactly one end/error hook, nothing relayed after it *)
Definition is_end (c : cmd) : bool := match c with EndHook | ErrorHook => true | _ => false end.
Definition is_relay (c : cmd) : bool :=
  match c with SendData _ _ | MessageHook | StartHook => true | _ => false end.
(* Some b: the trace is fine and b tells whether the end/error hook has fired; None: a second end/error
   hook, or a SendData / message hook / start hook after it *)
Fixpoint end_once (ended : bool) (out : list cmd) : option bool :=
  match out with
  | [] => Some ended
  | c :: r => if is_end c then (if ended then None else end_once true r)
              else if is_relay c && ended then None else end_once ended r
  end.
Definition wait_ph_ok st : Prop :=
  match wait st with
  | NoWait => True
  | WStartHook | WOpen | WErrorHook => ph st = PStart
  | WMsgHook _ => ph st = PRelay
  | WEndHook => ph st = PDone
  end.
Definition ended st : bool :=
  has_flow st && match ph st, wait st with PDone, _ => true | _, WErrorHook => true | _, _ => false end.
Definition I2 st (q : list event) (out : list cmd) : Prop :=
  wait_ph_ok st /\ end_once false out = Some (ended st).

Lemma end_once_app b o1 o2 :
  end_once b (o1 ++ o2) = match end_once b o1 with Some b' => end_once b' o2 | None => None end.
Proof.
  revert b; induction o1 as [|c o1 IH]; intros b; simpl; [reflexivity|].
  destruct (is_end c); [destruct b; [reflexivity|apply IH]|].
  destruct (is_relay c && b); [reflexivity|apply IH].
Qed.

Ltac rewrite_ignore :=
  repeat match goal with
  | H : negb (ignore _) = _ |- _ => rewrite H
  | H : ignore _ = _ |- _ => rewrite H
  end; simpl; auto.

Lemma I2_handle st e q out st' o :
  I2 st (e :: q) out -> waiting st = false -> crashed st = false -> handle st e = (st', o) -> I2 st' q (out ++ o).
Proof.
  intros (Hp & He) Hw _ H. unfold waiting in Hw. destruct (wait st) eqn:Ew; try discriminate. clear Hw Hp.
  unfold I2. rewrite end_once_app, He. clear He.
  unfold handle in H.
  destruct (ph st) eqn:Eph; destruct e as [|f d|f|fc d|a err]; simpl in H.
  all: unfold_layer; unfold env_cmd, set_conn, has_flow in *.
  all: split_run H; inversion H; subst; clear H.
  all: unfold wait_ph_ok, ended, has_flow; simpl in *; rewrite ?Ew, ?Eph; simpl.
  all: rewrite_ignore.
Qed.

Lemma I2_resume st q out a err st' o :
  I2 st q out -> waiting st = true -> crashed st = false -> resume st a err = (st', o) -> I2 st' q (out ++ o).
Proof.
  intros (Hp & He) _ _ H.
  unfold I2. rewrite end_once_app, He. clear He.
  unfold resume in H. unfold wait_ph_ok in Hp.
  destruct (wait st) eqn:Ew.
  all: unfold_layer; unfold env_cmd, set_conn, has_flow in *.
  all: split_run H; inversion H; subst; clear H.
  all: unfold wait_ph_ok, ended, has_flow; simpl in *; rewrite ?Ew, ?Hp; simpl.
  all: rewrite_ignore.
  (* left: the message hook with ignore (cf st) undecided; ended is has_flow && false on both sides *)
  rewrite andb_false_r. auto.
Qed.

Lemma I2_arrive st q out e :
  not_reply e -> crashed st = false -> I2 st q out -> I2 (env_arrive st e) (q ++ [e]) out.
Proof.
  intros _ _ H. destruct (env_arrive_view st e) as (cl & sv & ->). exact H.
Qed.

Lemma end_once_run pol c evs :
  let '(st, out) := run pol (init c) evs in
  end_once false out = Some (ended st) /\ wait_ph_ok st.
Proof.
  destruct (run pol (init c) evs) as [st out] eqn:H.
  assert (H0 : Inv I2 (init c) []).
  { split; [|reflexivity]. split; [exact Logic.I|]. unfold ended, has_flow. simpl. rewrite andb_false_r. reflexivity. }
  pose proof (I_run_u pol I2 I2_handle I2_resume I2_arrive (fun _ _ _ _ h => h) evs _ _ _ _ H0 H) as [(Hp & He) _].
  split; assumption.
Qed.

