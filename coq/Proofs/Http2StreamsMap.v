(* Proofs/Http2StreamsMap.v -- the stream-id mapping and the stream queue of Http2Client._handle_event (C05),
   proved for the generic wrapper cl_event over ANY wrapped connection that satisfies the hyper-h2 contract
   (get_next_available_stream_id exceeds every id used so far).  Invariants by induction on the replay fuel, then
   induction over histories. *)
From Coq Require Import List Bool NArith ZArith Lia.
From MV Require Import Base.Bytes Model.Http2Streams Proofs.ListFacts.
Import ListNotations.
Open Scope N_scope.

(* case analysis on the first call of [do x <- r; k] in a hypothesis that says the whole succeeded: the result of
   that call is named a (a0, ... at later uses), its equation E (E0, ...) *)
Ltac dres H :=
  match type of H with
  | bind ?r _ = Ok _ => let E := fresh "E" in destruct r eqn:E; cbn [bind] in H; [|discriminate|discriminate]
  end.

Section DictLemmas.
  Context {V : Type}.
  Implicit Types (d : list (N * V)).

  Lemma dget_dset k k' v d : dget k' (dset k v d) = if k' =? k then Some v else dget k' d.
  Proof. induction d as [|[k2 v2] t IH]; cbn; [reflexivity|].
    destruct (N.eqb_spec k k2) as [->|Hn]; cbn; [now destruct (k' =? k2)|].
    rewrite IH. destruct (N.eqb_spec k' k2) as [->|]; [|reflexivity]. destruct (N.eqb_spec k2 k); [congruence|reflexivity]. Qed.

  Lemma dget_dset_same k v d : dget k (dset k v d) = Some v.
  Proof. now rewrite dget_dset, N.eqb_refl. Qed.

  Lemma dget_dset_other k k' v d : k <> k' -> dget k' (dset k v d) = dget k' d.
  Proof. intros Hn. rewrite dget_dset. destruct (N.eqb_spec k' k); [congruence|reflexivity]. Qed.

  Lemma dget_none_keys k d : dget k d = None <-> ~ In k (dkeys d).
  Proof. induction d as [|[k' v'] t IH]; cbn; [tauto|].
    destruct (k =? k') eqn:E.
    - apply N.eqb_eq in E; subst. split; [discriminate|intros H; exfalso; apply H; now left].
    - apply N.eqb_neq in E. rewrite IH. split; [intros H [H1|H1]; [congruence|tauto]|tauto]. Qed.

  Lemma dget_some_in k v d : dget k d = Some v -> In (k, v) d.
  Proof. induction d as [|[k' v'] t IH]; cbn; [discriminate|].
    destruct (k =? k') eqn:E; [apply N.eqb_eq in E; subst; intros [= ->]; now left|intros H; right; auto]. Qed.

  Lemma dkeys_dset_new k v d : dget k d = None -> dkeys (dset k v d) = dkeys d ++ [k].
  Proof. induction d as [|[k' v'] t IH]; cbn; [reflexivity|].
    destruct (k =? k') eqn:E; [discriminate|]. intros H. cbn. f_equal. exact (IH H). Qed.

  Lemma dkeys_dset_old k v v0 d : dget k d = Some v0 -> dkeys (dset k v d) = dkeys d.
  Proof. induction d as [|[k' v'] t IH]; cbn; [discriminate|].
    destruct (k =? k') eqn:E; cbn; [apply N.eqb_eq in E; now subst|]. intros H. f_equal. exact (IH H). Qed.

  Lemma in_dset k v k' v' d : In (k', v') (dset k v d) -> (k' = k /\ v' = v) \/ In (k', v') d.
  Proof. induction d as [|[k2 v2] t IH]; cbn.
    - intros [[= <- <-]|[]]; now left.
    - destruct (k =? k2) eqn:E; cbn.
      + intros [[= <- <-]|H]; [now left|right; now right].
      + intros [H|H]; [right; now left|]. destruct (IH H); [now left|right; now right]. Qed.

  Lemma existsb_dkeys k d : existsb (N.eqb k) (dkeys d) = dmem k d.
  Proof. unfold dmem. induction d as [|[k' v'] t IH]; cbn; [reflexivity|]. destruct (k =? k'); [reflexivity|exact IH]. Qed.

  Lemma dmem_true k d : dmem k d = true <-> dget k d <> None.
  Proof. unfold dmem. destruct (dget k d); split; congruence. Qed.
  Lemma dmem_false k d : dmem k d = false <-> dget k d = None.
  Proof. unfold dmem. destruct (dget k d); split; congruence. Qed.

  Lemma dget_ddel_other k k' d : k <> k' -> dget k' (ddel k d) = dget k' d.
  Proof. intros Hn. induction d as [|[k2 v2] t IH]; [reflexivity|]. cbn. destruct (k =? k2) eqn:E.
    - apply N.eqb_eq in E; subst k2. destruct (k' =? k) eqn:E2; [apply N.eqb_eq in E2; congruence|reflexivity].
    - cbn. destruct (k' =? k2); [reflexivity|exact IH]. Qed.
  Lemma dkeys_ddel_incl k d x : In x (dkeys (ddel k d)) -> In x (dkeys d).
  Proof. induction d as [|[k2 v2] t IH]; [tauto|]. cbn. destruct (k =? k2); cbn; tauto. Qed.
  Lemma nodup_ddel k d : NoDup (dkeys d) -> NoDup (dkeys (ddel k d)).
  Proof. induction d as [|[k2 v2] t IH]; [auto|]. cbn. intros H. inversion H; subst. destruct (k =? k2); [assumption|].
    cbn. constructor; [intros X; apply dkeys_ddel_incl in X; contradiction|auto]. Qed.
  Lemma dget_ddel_same k d : NoDup (dkeys d) -> dget k (ddel k d) = None.
  Proof. induction d as [|[k2 v2] t IH]; [reflexivity|]. cbn. intros H. inversion H; subst. destruct (k =? k2) eqn:E.
    - apply N.eqb_eq in E; subst k2. now apply dget_none_keys.
    - cbn. rewrite E. auto. Qed.
End DictLemmas.

Lemma bij_dset (o t : list (N * N)) k j :
  (forall c i, dget c o = Some i <-> dget i t = Some c) -> dget k o = None -> dget j t = None ->
  forall c i, dget c (dset k j o) = Some i <-> dget i (dset j k t) = Some c.
Proof.
  intros B Hk Hj c i. destruct (N.eq_dec c k) as [->|Hck].
  - rewrite dget_dset_same. split.
    + intros [= <-]. apply dget_dset_same.
    + intros Hi. destruct (N.eq_dec i j) as [->|Hij]; [reflexivity|].
      rewrite dget_dset_other in Hi by congruence. apply B in Hi. congruence.
  - rewrite dget_dset_other by congruence. destruct (N.eq_dec i j) as [->|Hij].
    + rewrite dget_dset_same. split; [|congruence]. intros Hc. apply B in Hc. congruence.
    + rewrite dget_dset_other by congruence. apply B.
Qed.

Definition is_hdr (e : hev) : bool := match e with EHeaders _ _ _ => true | _ => false end.

Lemma hev_sid_set e s : hev_sid (hev_set_sid e s) = s.
Proof. now destruct e. Qed.
Lemma is_hdr_set e s : is_hdr e = true -> exists t es, hev_set_sid e s = EHeaders s t es.
Proof. destruct e; try discriminate. intros _. now eexists _, _. Qed.

(* arrival order: client stream ids in order of their first HttpEvent *)
Definition add_first (k : N) (l : list N) : list N := if existsb (N.eqb k) l then l else l ++ [k].
Definition arr_step (acc : list N) (i : input) : list N :=
  match i with IHttp e => add_first (hev_sid e) acc | _ => acc end.
Definition arrivals (h : list input) : list N := fold_left arr_step h [].

Lemma arrivals_snoc h i : arrivals (h ++ [i]) = arr_step (arrivals h) i.
Proof. unfold arrivals. now rewrite fold_left_app. Qed.

Lemma nodup_snoc (k : N) l : NoDup l -> ~ In k l -> NoDup (l ++ [k]).
Proof. induction l as [|a t IH]; cbn; intros H Hn; [constructor; [tauto|constructor]|].
  inversion H; subst. constructor.
  - rewrite in_app_iff. cbn. intros [H1|[H1|[]]]; [tauto|subst; tauto].
  - apply IH; tauto. Qed.

Lemma arrivals_nodup h : NoDup (arrivals h).
Proof. induction h as [|i h IH] using rev_ind; [constructor|].
  rewrite arrivals_snoc. destruct i; cbn; try exact IH.
  unfold add_first. destruct (existsb (N.eqb (hev_sid e)) (arrivals h)) eqn:E; [exact IH|].
  apply nodup_snoc; [exact IH|]. rewrite <- (existsb_eqb_In _ N.eqb_eq). congruence. Qed.

Fixpoint sids (h : list input) : list N :=
  match h with [] => [] | IHttp e :: t => hev_sid e :: sids t | _ :: t => sids t end.

Lemma wf_first_snoc h : forall seen i,
  wf_first seen (h ++ [i]) = true ->
  wf_first seen h = true /\
  (forall e, i = IHttp e -> ~ In (hev_sid e) seen -> ~ In (hev_sid e) (sids h) -> is_hdr e = true).
Proof.
  induction h as [|a t IH]; intros seen i H.
  - cbn in *. split; [reflexivity|]. intros e -> Hs _. cbn in H.
    destruct (existsb (N.eqb (hev_sid e)) seen) eqn:E; [apply (existsb_eqb_In _ N.eqb_eq) in E; tauto|]. now destruct e.
  - cbn [app] in H. destruct a; cbn [wf_first sids] in *; try (apply IH; exact H).
    destruct (existsb (N.eqb (hev_sid e)) seen) eqn:E.
    + destruct (IH _ _ H) as [H1 H2]. split; [exact H1|]. intros e' -> Hs Hn. apply (H2 e' eq_refl Hs). cbn in Hn. tauto.
    + destruct e; try discriminate. destruct (IH _ _ H) as [H1 H2]. split; [exact H1|].
      intros e' -> Hs Hn. apply (H2 e' eq_refl); cbn in *; tauto. Qed.

Lemma arrivals_sids h k : In k (arrivals h) <-> In k (sids h).
Proof. revert k. induction h as [|i h IH] using rev_ind; intros k; [cbn; tauto|].
  rewrite arrivals_snoc.
  assert (Hs : forall l i, sids (l ++ [i]) = sids l ++ sids [i]).
  { induction l as [|a t IHl]; intros; [reflexivity|]. cbn [app]. destruct a; cbn [sids]; rewrite ?IHl; reflexivity. }
  rewrite Hs, in_app_iff. destruct i; cbn; rewrite ?(IH k); try tauto.
  unfold add_first. destruct (existsb (N.eqb (hev_sid e)) (arrivals h)) eqn:E.
  - apply (existsb_eqb_In _ N.eqb_eq) in E. rewrite IH in E. rewrite IH. split; [tauto|intros [H|[H|[]]]; [tauto|now subst]].
  - rewrite in_app_iff. cbn. rewrite IH. tauto. Qed.

Section Wrapper.
  Variable C : Type.
  Variable inner : C -> input -> res (C * list out).
  Variable has_free : C -> bool.
  Variable next_id : C -> N.
  Variable is_dead : C -> bool.
  Variable fq : bool.

  Notation client := (client C).
  Notation cl_event := (cl_event C inner has_free next_id is_dead fq).
  Notation cl_step := (cl_step C inner has_free next_id is_dead fq).
  Notation replay_with := (replay_with C).

  Definition alive (s : client) : Prop := is_dead (cc s) = false.
  (* the client streams the wrapper holds: opened ones in opening order, then waiting ones in queue order *)
  Definition L (s : client) : list N := dkeys (our s) ++ dkeys (queue s).
  (* nobody waits while there is capacity *)
  Definition Q (s : client) : Prop := queue s = [] \/ has_free (cc s) = false.

  Lemma existsb_L k s : existsb (N.eqb k) (L s) = dmem k (our s) || dmem k (queue s).
  Proof. unfold L. now rewrite existsb_app, !existsb_dkeys. Qed.

  Definition enq (e : hev) (q : list (N * list hev)) : list hev :=
    match dget (hev_sid e) q with Some l => l ++ [e] | None => [e] end.

  (* the tail of _handle_event: fail or resume queued streams *)
  Definition tail (f : nat) (s2 : client) (o2 : list out) : res (client * list out) :=
    match queue s2 with
    | (qsid, evs) :: rest =>
        if fq && is_dead (cc s2) then
          Ok (mkCl (cc s2) (our s2) (their s2) [], o2 ++ map (fun p => ORecv (EErr (fst p) 2 [] true)) (queue s2))
        else if has_free (cc s2) then
          do r3 <- replay_with (cl_event f) (mkCl (cc s2) (our s2) (their s2) rest) evs;
          Ok (fst r3, o2 ++ snd r3)
        else Ok (s2, o2)
    | [] => Ok (s2, o2)
    end.

  Definition run_inner (f : nat) (s1 : client) (i1 : input) : res (client * list out) :=
    do r <- inner (cc s1) i1;
    let '(c2, o) := r in
    do o2 <- relabel_all (their s1) o;
    tail f (mkCl c2 (our s1) (their s1) (queue s1)) o2.

  Lemma cl_event_unfold f s i :
    cl_event (S f) s i =
    if is_dead (cc s) then Ok (s, [])
    else match i with
         | IHttp e =>
             match dget (hev_sid e) (our s) with
             | Some ours => run_inner f s (IHttp (hev_set_sid e ours))
             | None =>
                 if negb (has_free (cc s)) then
                   Ok (mkCl (cc s) (our s) (their s) (dset (hev_sid e) (enq e (queue s)) (queue s)), [])
                 else
                   let ours := next_id (cc s) in
                   run_inner f (mkCl (cc s) (dset (hev_sid e) ours (our s)) (dset ours (hev_sid e) (their s)) (queue s))
                             (IHttp (hev_set_sid e ours))
             end
         | _ => run_inner f s i
         end.
  Proof.
    cbn [Http2Streams.cl_event]. destruct (is_dead (cc s)); [reflexivity|].
    destruct i; try reflexivity.
    destruct (dget (hev_sid e) (our s)); [reflexivity|].
    destruct (has_free (cc s)); reflexivity.
  Qed.

  Variable hi : C -> N.                      (* highest stream id used so far *)
  Variable Cinv : C -> Prop.                 (* an invariant of the wrapped connection *)
  Hypothesis next_id_fresh : forall c, hi c < next_id c.
  Hypothesis inner_mono : forall c i c' o, Cinv c -> inner c i = Ok (c', o) -> Cinv c' /\ hi c <= hi c'.
  Hypothesis inner_headers : forall c j t es c' o,
    Cinv c -> hi c < j -> inner c (IHttp (EHeaders j t es)) = Ok (c', o) -> j <= hi c'.

  Record qinv (s : client) : Prop := mkQ {
    q_ne : forall k l, In (k, l) (queue s) -> l <> [];
    q_ks : forall k l e, In (k, l) (queue s) -> In e l -> hev_sid e = k;
    q_dj : forall k, In k (dkeys (queue s)) -> dget k (our s) = None;
    q_nd : NoDup (dkeys (queue s)) }.

  Record binv (s : client) : Prop := mkBI {
    b_bij : forall c j, dget c (our s) = Some j <-> dget j (their s) = Some c;
    b_hi : forall j c, dget j (their s) = Some c -> j <= hi (cc s);
    b_ci : Cinv (cc s);
    b_fh : forall k l, In (k, l) (queue s) -> exists e r, l = e :: r /\ is_hdr e = true }.

  (* wf_first for one input: the first event of a stream that is neither opened nor waiting is RequestHeaders *)
  Definition hdr_pre (s : client) (i : input) : Prop :=
    forall e, i = IHttp e -> dget (hev_sid e) (our s) = None -> ~ In (hev_sid e) (dkeys (queue s)) -> is_hdr e = true.
  (* a stream that this input opens is not waiting.  At a step it follows from Q; while a queue head is replayed Q
     fails (capacity and a non-empty queue) but the replayed stream has just left the queue *)
  Definition apre (s : client) (i : input) : Prop :=
    forall e, i = IHttp e -> dget (hev_sid e) (our s) = None -> has_free (cc s) = true -> ~ In (hev_sid e) (dkeys (queue s)).

  Lemma Q_apre s i : Q s -> apre s i.
  Proof. intros HQ e _ _ Hf. destruct HQ as [HQ|HQ]; [rewrite HQ; cbn; tauto|congruence]. Qed.

  Definition Lspec (s : client) (i : input) (s' : client) : Prop :=
    match i with
    | IHttp e =>
        let k := hev_sid e in
        L s' = if dmem k (our s) then L s
               else if has_free (cc s) then dkeys (our s) ++ k :: dkeys (queue s)
               else if dmem k (queue s) then L s else L s ++ [k]
    | _ => L s' = L s
    end.

  (* what a successful call guarantees, in this order: the queue invariant; entries of `our` stay; what became of
     the client id of the input if it was unmapped; on a live connection Q and the change of L; the map invariant,
     if it held and the input respects hdr_pre *)
  Definition post (s : client) (i : input) (s' : client) : Prop :=
    qinv s' /\
    (forall k v, dget k (our s) = Some v -> dget k (our s') = Some v) /\
    (forall e, i = IHttp e -> dget (hev_sid e) (our s) = None ->
       dget (hev_sid e) (our s') = if has_free (cc s) && negb (is_dead (cc s)) then Some (next_id (cc s)) else None) /\
    (alive s' -> Q s' /\ Lspec s i s') /\
    (binv s -> hdr_pre s i -> binv s').

  Definition good (f : nat) : Prop :=
    forall s i s' o, cl_event f s i = Ok (s', o) -> qinv s -> apre s i -> post s i s'.

  Lemma dead_absorbs f s i s' o : is_dead (cc s) = true -> cl_event f s i = Ok (s', o) -> s' = s.
  Proof. destruct f; [discriminate|]. rewrite cl_event_unfold. intros ->. now intros [= <- _]. Qed.

  Lemma replay_keeps (P : client -> Prop) g : (forall s e s' o, g s (IHttp e) = Ok (s', o) -> P s -> P s') ->
    forall evs s s' o, replay_with g s evs = Ok (s', o) -> P s -> P s'.
  Proof. intros Hg. induction evs as [|e t IH]; intros s s' o H Hp; cbn in H; [now injection H as <- _|].
    dres H. dres H. injection H as <- _. destruct a, a0. eapply IH; eauto. Qed.

  Lemma replay_dead f s : is_dead (cc s) = true -> forall evs s' o, replay_with (cl_event f) s evs = Ok (s', o) -> s' = s.
  Proof. intros Ed evs s' o H. apply (replay_keeps (fun x => x = s) (cl_event f)) in H; [exact H| |reflexivity].
    intros x e x' o' Hx ->. exact (dead_absorbs _ _ _ _ _ Ed Hx). Qed.

  (* replaying the events of one client stream k: either k is mapped already, or there is capacity and the first
     event opens it *)
  Lemma replay_good f (G : good f) k : forall evs s s' o,
    replay_with (cl_event f) s evs = Ok (s', o) -> qinv s -> (forall e, In e evs -> hev_sid e = k) ->
    dmem k (our s) = true \/ (has_free (cc s) = true /\ ~ In k (dkeys (queue s))) ->
    qinv s' /\
    (forall k0 v, dget k0 (our s) = Some v -> dget k0 (our s') = Some v) /\
    (alive s' -> evs <> [] ->
       Q s' /\ L s' = if dmem k (our s) then L s else dkeys (our s) ++ k :: dkeys (queue s)) /\
    (binv s -> (dmem k (our s) = false -> exists e r, evs = e :: r /\ is_hdr e = true) -> binv s').
  Proof.
    induction evs as [|e t IH]; intros s s' o H Hq Hk HP.
    - cbn in H. injection H as <- _. split; [exact Hq|]. split; [auto|]. split; [intros _ Hn; now destruct Hn|auto].
    - destruct (is_dead (cc s)) eqn:Ed.
      { rewrite (replay_dead _ _ Ed _ _ _ H). split; [exact Hq|]. split; [auto|]. split; [unfold alive; congruence|auto]. }
      cbn in H. destruct (cl_event f s (IHttp e)) as [[s1 o1]| |] eqn:E1; cbn in H; try discriminate.
      destruct (replay_with (cl_event f) s1 t) as [[s2 o2]| |] eqn:E2; cbn in H; try discriminate.
      injection H as <- _.
      pose proof (Hk e (or_introl eq_refl)) as Hke.
      assert (Hap : apre s (IHttp e)).
      { intros e0 [= <-] Hn _. rewrite Hke in *. destruct HP as [Hm|[_ Hnq]]; [apply dmem_true in Hm; congruence|exact Hnq]. }
      destruct (G _ _ _ _ E1 Hq Hap) as (Hq1 & Hg1 & He1 & Ha1 & Hb1).
      specialize (He1 e eq_refl). rewrite Hke, Ed in He1.
      assert (Hm1 : dmem k (our s1) = true).
      { apply dmem_true. destruct (dget k (our s)) eqn:Eg; [rewrite (Hg1 _ _ Eg); discriminate|]. rewrite (He1 eq_refl).
        destruct HP as [Hm|[Hf _]]; [apply dmem_true in Hm; congruence|]. rewrite Hf. discriminate. }
      destruct (IH _ _ _ E2 Hq1 (fun e0 H0 => Hk e0 (or_intror H0)) (or_introl Hm1)) as (Hq2 & Hg2 & Ha2 & Hb2).
      split; [exact Hq2|]. split; [intros k0 v Hg; apply Hg2, Hg1, Hg|]. split.
      + intros Hal _. destruct (is_dead (cc s1)) eqn:Ed1.
        { rewrite (replay_dead _ _ Ed1 _ _ _ E2) in Hal. unfold alive in Hal. congruence. }
        destruct (Ha1 Ed1) as [HQ1 HL1]. cbn in HL1. rewrite Hke in HL1.
        assert (HL : L s1 = if dmem k (our s) then L s else dkeys (our s) ++ k :: dkeys (queue s)).
        { destruct (dmem k (our s)); [exact HL1|]. destruct HP as [Hm|[Hf _]]; [discriminate|]. now rewrite Hf in HL1. }
        destruct t as [|e0 t']; [cbn in E2; injection E2 as <- _; now split|].
        destruct (Ha2 Hal) as [HQ2 HL2]; [discriminate|]. rewrite Hm1 in HL2. split; [exact HQ2|congruence].
      + intros Hb Hh. apply Hb2; [|congruence]. apply Hb1; [exact Hb|]. intros e0 [= <-] Hn _.
        destruct Hh as (e' & r & [= <- <-] & He'); [apply dmem_false; now rewrite <- Hke|exact He'].
  Qed.

  Lemma tail_good f (G : good f) s2 o2 s' o :
    tail f s2 o2 = Ok (s', o) -> qinv s2 ->
    qinv s' /\
    (forall k v, dget k (our s2) = Some v -> dget k (our s') = Some v) /\
    (alive s' -> Q s' /\ L s' = L s2) /\
    (binv s2 -> binv s').
  Proof.
    unfold tail. intros H Hq. destruct (queue s2) as [|[qsid evs] rest] eqn:Eq.
    - injection H as <- _. split; [exact Hq|]. split; [auto|]. split; [|auto]. intros _. split; [now left|reflexivity].
    - destruct (fq && is_dead (cc s2)) eqn:Efq.
      + injection H as <- _. apply andb_true_iff in Efq as [_ Ed].
        split; [constructor; cbn; intros; try tauto; constructor|].
        split; [auto|]. split; [unfold alive; cbn; congruence|].
        intros [B1 B2 B3 B4]. constructor; cbn; auto. intros ? ? [].
      + destruct (has_free (cc s2)) eqn:Ef.
        2:{ injection H as <- _. split; [exact Hq|]. split; [auto|]. split; [|auto]. intros _. split; [now right|reflexivity]. }
        (* the head of the queue leaves it and its events are replayed; the first one opens the stream *)
        set (s3 := mkCl (cc s2) (our s2) (their s2) rest) in *.
        destruct (replay_with (cl_event f) s3 evs) as [[s4 o4]| |] eqn:Er; cbn in H; try discriminate.
        injection H as <- _.
        destruct Hq as [Qne Qks Qdj Qnd]. rewrite Eq in *. cbn in Qnd. inversion Qnd as [|? ? Hnin Hnd]; subst.
        assert (Hq3 : qinv s3).
        { constructor; cbn; intros.
          - eapply Qne; right; eauto.
          - eapply Qks; [right|]; eauto.
          - apply Qdj. now right.
          - exact Hnd. }
        assert (Hdm : dmem qsid (our s2) = false) by (apply dmem_false, Qdj; now left).
        destruct (replay_good f G qsid evs s3 s4 o4 Er Hq3) as (A & B & D & E);
          [intros e He; eapply Qks; [now left|exact He]|right; now split|].
        split; [exact A|]. split; [exact B|]. split.
        * intros Hal. destruct (D Hal) as [HQ HL]; [intros ->; eapply Qne; [now left|reflexivity]|].
          split; [exact HQ|]. rewrite HL. cbn [our s3]. rewrite Hdm. unfold L. now rewrite Eq.
        * intros [B1 B2 B3 B4]. apply E.
          -- constructor; cbn; auto. intros k l Hin. apply (B4 k l). rewrite Eq. now right.
          -- intros _. destruct (B4 qsid evs) as (e' & r & -> & Hh); [rewrite Eq; now left|]. now exists e', r.
  Qed.

  Lemma run_inner_good f (G : good f) s1 i1 s' o :
    run_inner f s1 i1 = Ok (s', o) -> qinv s1 ->
    qinv s' /\
    (forall k v, dget k (our s1) = Some v -> dget k (our s') = Some v) /\
    (alive s' -> Q s' /\ L s' = L s1) /\
    exists c2 o1, inner (cc s1) i1 = Ok (c2, o1) /\ (binv (mkCl c2 (our s1) (their s1) (queue s1)) -> binv s').
  Proof.
    unfold run_inner. intros H Hq.
    destruct (inner (cc s1) i1) as [[c2 o1]| |] eqn:Ei; cbn in H; try discriminate.
    destruct (relabel_all (their s1) o1) as [o2| |]; cbn in H; try discriminate.
    assert (Hq2 : qinv (mkCl c2 (our s1) (their s1) (queue s1))) by (destruct Hq; constructor; auto).
    destruct (tail_good f G _ _ _ _ H Hq2) as (A & B & D & E).
    split; [exact A|]. split; [exact B|]. split; [exact D|]. now exists c2, o1.
  Qed.

  Lemma all_good : forall f, good f.
  Proof.
    induction f as [|f G]; [intros s i s' o H; discriminate|].
    intros s i s' o H Hq Hap. rewrite cl_event_unfold in H.
    destruct (is_dead (cc s)) eqn:Ed.
    { injection H as <- _. unfold post. split; [exact Hq|]. split; [auto|].
      split; [intros e _ Hn; now rewrite Ed, andb_false_r|]. split; [unfold alive; congruence|auto]. }
    (* an input that needs no new mapping is handed to the wrapped connection as it is *)
    assert (Same : forall i1, (forall e, i = IHttp e -> dmem (hev_sid e) (our s) = true) ->
                   run_inner f s i1 = Ok (s', o) -> post s i s').
    { intros i1 Hm Hr. destruct (run_inner_good f G _ _ _ _ Hr Hq) as (A & B & D & c2 & o1 & Ei & E).
      split; [exact A|]. split; [exact B|]. split; [intros e He Hn; apply Hm, dmem_true in He; congruence|]. split.
      - intros Hal. destruct (D Hal) as [D1 D2]. split; [exact D1|]. destruct i; try exact D2. cbn. now rewrite (Hm e eq_refl).
      - intros [B1 B2 B3 B4] _. apply E. destruct (inner_mono _ _ _ _ B3 Ei) as [M1 M2].
        constructor; cbn; auto. intros j c Hj. specialize (B2 j c Hj). lia. }
    destruct i as [|e|l|]; try (eapply Same; [now intros e0 [=]|exact H]).
    destruct (dget (hev_sid e) (our s)) as [ours|] eqn:Eo.
    { eapply Same; [intros e0 [= <-]; unfold dmem; now rewrite Eo|exact H]. }
    destruct (has_free (cc s)) eqn:Ef; cbn [negb] in H.
    - set (k := hev_sid e) in *. set (ours := next_id (cc s)) in *.
      set (s1 := mkCl (cc s) (dset k ours (our s)) (dset ours k (their s)) (queue s)) in *.
      assert (Hnq : ~ In k (dkeys (queue s))) by (apply (Hap e eq_refl Eo Ef)).
      assert (Hq1 : qinv s1).
      { destruct Hq as [Qne Qks Qdj Qnd]. constructor; cbn; auto. intros k0 Hin.
        rewrite dget_dset_other; [auto|]. intros ->. tauto. }
      destruct (run_inner_good f G _ _ _ _ H Hq1) as (A & B & D & c2 & o1 & Ei & E).
      assert (Hgrow : forall k0 v, dget k0 (our s) = Some v -> dget k0 (our s1) = Some v).
      { intros k0 v Hg. cbn. rewrite dget_dset_other; [exact Hg|]. intros ->. congruence. }
      split; [exact A|]. split; [intros k0 v Hg; apply B, Hgrow, Hg|]. split.
      { intros e0 [= <-] _. rewrite Ef, Ed. apply B, dget_dset_same. }
      split.
      + intros Hal. destruct (D Hal) as [D1 D2]. split; [exact D1|]. cbn. fold k.
        assert (Hdm : dmem k (our s) = false) by (now apply dmem_false). rewrite Hdm, Ef, D2.
        unfold L, s1. cbn [our queue]. rewrite (dkeys_dset_new _ _ _ Eo), <- app_assoc. reflexivity.
      + (* the id handed out is above every id in use, and the headers sent on it raise the highest id to it *)
        intros [B1 B2 B3 B4] Hh. apply E.
        destruct (inner_mono _ _ _ _ B3 Ei) as [M1 M2].
        pose proof (next_id_fresh (cc s)) as Hfr. fold ours in Hfr.
        destruct (is_hdr_set e ours (Hh e eq_refl Eo Hnq)) as (t0 & es0 & Ehs). rewrite Ehs in Ei.
        pose proof (inner_headers _ _ _ _ _ _ B3 Hfr Ei) as Hle.
        assert (Hnt : dget ours (their s) = None).
        { destruct (dget ours (their s)) eqn:Et; [|reflexivity]. specialize (B2 _ _ Et). lia. }
        constructor; cbn; auto.
        * now apply bij_dset.
        * intros j c. destruct (N.eq_dec j ours) as [->|Hjo]; [intros _; exact Hle|].
          rewrite dget_dset_other by congruence. intros Hj. specialize (B2 _ _ Hj). lia.
    - injection H as <- _. set (k := hev_sid e) in *.
      destruct Hq as [Qne Qks Qdj Qnd].
      unfold post. split.
      { constructor; cbn [queue our cc their].
        - intros k0 l Hin. apply in_dset in Hin as [[-> ->]|Hin]; [|eauto].
          unfold enq. fold k. destruct (dget k (queue s)); [destruct l; discriminate|discriminate].
        - intros k0 l e0 Hin He0. apply in_dset in Hin as [[-> ->]|Hin]; [|eauto].
          unfold enq in He0. fold k in He0. destruct (dget k (queue s)) as [l0|] eqn:Eg.
          + apply in_app_iff in He0 as [He0|[<-|[]]]; [|reflexivity]. eapply Qks; [apply dget_some_in; eauto|exact He0].
          + destruct He0 as [<-|[]]. reflexivity.
        - intros k0 Hin. destruct (dget k (queue s)) as [l0|] eqn:Eg.
          + rewrite (dkeys_dset_old _ _ _ _ Eg) in Hin. auto.
          + rewrite (dkeys_dset_new _ _ _ Eg) in Hin. apply in_app_iff in Hin as [Hin|[<-|[]]]; auto.
        - destruct (dget k (queue s)) as [l0|] eqn:Eg.
          + now rewrite (dkeys_dset_old _ _ _ _ Eg).
          + rewrite (dkeys_dset_new _ _ _ Eg). apply nodup_snoc; [exact Qnd|]. now apply dget_none_keys. }
      split; [auto|]. split; [intros e0 [= <-] Hn; now rewrite Ef|]. split.
      + intros _. split; [now right|]. unfold Lspec. fold k.
        assert (Hdm : dmem k (our s) = false) by (now apply dmem_false). rewrite Hdm, Ef.
        unfold L. cbn [our queue]. unfold dmem. destruct (dget k (queue s)) as [l0|] eqn:Eg.
        * now rewrite (dkeys_dset_old _ _ _ _ Eg).
        * rewrite (dkeys_dset_new _ _ _ Eg). now rewrite app_assoc.
      + intros [B1 B2 B3 B4] Hh. constructor; cbn; auto.
        intros k0 l Hin. apply in_dset in Hin as [[-> ->]|Hin]; [|eauto].
        unfold enq. fold k. destruct (dget k (queue s)) as [l0|] eqn:Eg.
        * destruct (B4 k l0 (dget_some_in _ _ _ Eg)) as (e' & r & -> & Hh'). now exists e', (r ++ [e]).
        * exists e, []. split; [reflexivity|]. apply (Hh e eq_refl Eo). now apply dget_none_keys.
Qed.

  (* with the queue-failing wrapper (fq): once the connection is gone nothing is left waiting *)
  Definition Dq (s : client) : Prop := fq = true -> is_dead (cc s) = true -> queue s = [].

  Lemma cl_event_Dq : forall f s i s' o, cl_event f s i = Ok (s', o) -> Dq s -> Dq s'.
  Proof.
    induction f as [|f IH]; intros s i s' o H Hd; [discriminate|]. rewrite cl_event_unfold in H.
    destruct (is_dead (cc s)) eqn:Ed; [now injection H as <- _|].
    assert (R : forall s1 i1, is_dead (cc s1) = false -> run_inner f s1 i1 = Ok (s', o) -> Dq s').
    { intros s1 i1 Ed1 Hr. unfold run_inner in Hr.
      destruct (inner (cc s1) i1) as [[c2 o1]| |]; cbn in Hr; try discriminate.
      destruct (relabel_all (their s1) o1) as [o2| |]; cbn in Hr; try discriminate.
      unfold tail in Hr. cbn [queue cc our their] in Hr. destruct (queue s1) as [|[qsid evs] rest] eqn:Eq.
      - injection Hr as <- _. intros _ _. reflexivity.
      - destruct (fq && is_dead c2) eqn:Efq; [injection Hr as <- _; intros _ _; reflexivity|].
        destruct (has_free c2).
        + destruct (replay_with (cl_event f) (mkCl c2 (our s1) (their s1) rest) evs) as [[s4 o4]| |] eqn:Er; cbn in Hr; try discriminate.
          injection Hr as <- _. eapply (replay_keeps Dq _ (fun s0 e0 => IH s0 (IHttp e0))); [exact Er|]. intros Hf Hdd. cbn in Hdd. rewrite Hf, Hdd in Efq. discriminate.
        + injection Hr as <- _. intros Hf Hdd. cbn in Hdd. rewrite Hf, Hdd in Efq. discriminate. }
    destruct i as [|e|l|]; try exact (R _ _ Ed H).
    destruct (dget (hev_sid e) (our s)); [exact (R _ _ Ed H)|].
    destruct (negb (has_free (cc s))); [injection H as <- _; intros _ Hdd; cbn in Hdd; congruence|].
    exact (R (mkCl (cc s) (dset (hev_sid e) (next_id (cc s)) (our s)) (dset (next_id (cc s)) (hev_sid e) (their s)) (queue s)) _ Ed H).
  Qed.

  Variable c0 : C.
  Hypothesis c0_inv : Cinv c0.

  Inductive reach : client -> list input -> Prop :=
  | reach_init : reach (mkCl c0 [] [] []) []
  | reach_step s h i s' o : reach s h -> cl_step s i = Ok (s', o) -> reach s' (h ++ [i]).

  Lemma reach_inv s h : reach s h ->
    qinv s /\ (alive s -> Q s /\ L s = arrivals h) /\ (wf_first [] h = true -> binv s).
  Proof.
    induction 1 as [|s h i s' o Hr IH Hs].
    - split; [constructor; cbn; intros; try tauto; constructor|]. split.
      + intros _. split; [now left|reflexivity].
      + intros _. constructor; cbn; try discriminate; auto. intros; split; discriminate. intros ? ? [].
    - destruct IH as (Hq & Ha & Hb). unfold Http2Streams.cl_step in Hs.
      destruct (is_dead (cc s)) eqn:Ed.
      { pose proof (dead_absorbs _ _ _ _ _ Ed Hs) as ->. split; [exact Hq|]. split; [unfold alive; congruence|].
        intros Hw. apply Hb. now destruct (wf_first_snoc _ _ _ Hw). }
      destruct (Ha Ed) as [HQ HL].
      destruct (all_good _ _ _ _ _ Hs Hq (Q_apre s i HQ)) as (Hq' & _ & _ & Ha' & Hb').
      split; [exact Hq'|]. split.
      + intros Hal. destruct (Ha' Hal) as [HQ' HL']. split; [exact HQ'|].
        rewrite arrivals_snoc. destruct i as [|e|l|]; cbn [arr_step]; unfold Lspec in HL'; try congruence.
        rewrite HL', <- HL. unfold add_first. rewrite existsb_L.
        destruct (dmem (hev_sid e) (our s)); [reflexivity|]. cbn [orb].
        destruct (has_free (cc s)) eqn:Ef; [|now destruct (dmem (hev_sid e) (queue s))].
        destruct HQ as [HQ|HQ]; [|congruence]. unfold L. rewrite HQ. cbn. now rewrite app_nil_r.
      + intros Hw. destruct (wf_first_snoc _ _ _ Hw) as [Hw1 Hw2]. apply Hb'; [auto|].
        intros e -> Hn Hnq. apply (Hw2 e eq_refl); [tauto|]. rewrite <- arrivals_sids, <- HL.
        unfold L. rewrite in_app_iff. apply dget_none_keys in Hn. tauto.
  Qed.

  (* the theorems behind C05 (1) and (3), for any wrapped connection that satisfies the contract *)
  Theorem map_bijective s h : reach s h -> wf_first [] h = true ->
    forall c j, dget c (our s) = Some j <-> dget j (their s) = Some c.
  Proof. intros Hr Hw. destruct (reach_inv _ _ Hr) as (_ & _ & Hb). exact (b_bij _ (Hb Hw)). Qed.

  Theorem map_ids_fresh s h : reach s h -> wf_first [] h = true ->
    forall j c, dget j (their s) = Some c -> j < next_id (cc s).
  Proof. intros Hr Hw j c Hj. destruct (reach_inv _ _ Hr) as (_ & _ & Hb).
    pose proof (b_hi _ (Hb Hw) _ _ Hj). pose proof (next_id_fresh (cc s)). lia. Qed.

  Theorem map_fifo s h : reach s h -> alive s ->
    dkeys (our s) ++ dkeys (queue s) = arrivals h /\ NoDup (arrivals h) /\ (queue s = [] \/ has_free (cc s) = false).
  Proof. intros Hr Ha. destruct (reach_inv _ _ Hr) as (_ & H & _). destruct (H Ha) as [HQ HL].
    split; [exact HL|]. split; [apply arrivals_nodup|exact HQ]. Qed.

  Theorem map_dead_queue_empty s h : reach s h -> fq = true -> is_dead (cc s) = true -> queue s = [].
  Proof. induction 1 as [|s h i s' o Hr IH Hs]; [reflexivity|]. apply (cl_event_Dq _ _ _ _ _ Hs). exact IH. Qed.

  Theorem map_open_needs_capacity s h e s' o : reach s h -> cl_step s (IHttp e) = Ok (s', o) ->
    dget (hev_sid e) (our s) = None -> dmem (hev_sid e) (our s') = true ->
    has_free (cc s) = true /\ dget (hev_sid e) (our s') = Some (next_id (cc s)).
  Proof. intros Hr Hs Hn Hm. destruct (reach_inv _ _ Hr) as (Hq & Ha & _).
    destruct (is_dead (cc s)) eqn:Ed.
    { pose proof (dead_absorbs _ _ _ _ _ Ed Hs) as ->. apply dmem_true in Hm. congruence. }
    destruct (Ha Ed) as [HQ _].
    destruct (all_good _ _ _ _ _ Hs Hq (Q_apre _ _ HQ)) as (_ & _ & Halloc & _). specialize (Halloc e eq_refl Hn).
    rewrite Ed in Halloc. apply dmem_true in Hm. destruct (has_free (cc s)); [now split|contradiction]. Qed.

  Theorem map_queue_wellformed s h : reach s h -> qinv s.
  Proof. intros Hr. now destruct (reach_inv _ _ Hr). Qed.
End Wrapper.
