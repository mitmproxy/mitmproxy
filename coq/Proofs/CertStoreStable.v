(* Proofs/CertStoreStable.v -- repeated requests for the same names get the same entry while
   it is cached (T3), with the exact guard for the empty-name truthiness finding. *)
From Coq Require Import List Bool Arith Lia.
From MV Require Import Base.Bytes Model.CertStore Proofs.CertStoreInv.
Import ListNotations.

Lemma lookup_first_app a b c :
  lookup_first (a ++ b) c = match lookup_first a c with Some x => Some x | None => lookup_first b c end.
Proof.
  induction a as [|k r IH]; simpl; [reflexivity|]. destruct (dict_get k c); [reflexivity | exact IH].
Qed.

Lemma lookup_first_ext keys c c' :
  (forall k, In k keys -> dict_get k c' = dict_get k c) -> lookup_first keys c' = lookup_first keys c.
Proof.
  induction keys as [|k r IH]; simpl; intros H; [reflexivity|].
  rewrite (H k (or_introl eq_refl)). destruct (dict_get k c); [reflexivity|].
  apply IH. intros k' Hk'. apply H. right. exact Hk'.
Qed.

Section Stable.
Variable cap : nat.
Variable truthy : bool.

(* what a generation does to the dict: set the key, then possibly drop one old generated entry *)
Lemma generate_certs st cn sans st' e :
  Inv cap st -> generate cap st cn sans = Some (st', e) ->
  let c' := dict_set (KGen cn sans) e (certs st) in
  certs st' = c'
  \/ (exists c s, certs st' = dict_filter_ne (EGen (next_gen st - cap) c s) c') /\ cap <= next_gen st.
Proof.
  intros I H. unfold generate in H. destruct (dummy_cert_ok cn); [|discriminate].
  injection H as <- <-. cbv zeta. pose proof (Inv_push cap st cn sans I) as P. cbv zeta in P.
  destruct (expire_cases cap (mkStore (dict_set (KGen cn sans) (EGen (next_gen st) cn sans) (certs st)) (expire_queue st)
                                      (S (next_gen st))) (EGen (next_gen st) cn sans))
    as [[_ ->]|[L (d & q' & Q & ->)]]; cbn [certs expire_queue] in *; [left; reflexivity | right].
  (* the dropped head is the oldest of the cap + 1 queued entries, whose numbers are consecutive *)
  rewrite Q in P. destruct (inv_q_gen _ _ P d (or_introl eq_refl)) as (i & c & s & ->).
  pose proof (inv_q_ids _ _ P) as Hi. pose proof (inv_q_cap _ _ P) as Hc. pose proof (inv_q_next _ _ P) as Hn.
  apply (f_equal (@length _)) in Q. rewrite app_length in Q.
  cbn [expire_queue next_gen length map seq gid] in *. injection Hi as Hi _.
  split; [exists c, s; replace (next_gen st - cap) with i by lia; reflexivity | lia].
Qed.

Lemma generate_custom_get st cn sans st' e n :
  Inv cap st -> generate cap st cn sans = Some (st', e) ->
  dict_get (KCustom n) (certs st') = dict_get (KCustom n) (certs st).
Proof.
  intros I H. destruct (generate_certs _ _ _ _ _ I H) as [C|[[c [s C]] _]]; rewrite C.
  - apply dict_get_set_other. discriminate.
  - rewrite dict_get_filter_same; [apply dict_get_set_other; discriminate|].
    intros e0 Hin. apply dict_set_in in Hin as [[Hk _]|Hin]; [discriminate|].
    destruct (inv_custom _ _ I _ _ Hin) as [i ->]. discriminate.
Qed.

Lemma generate_keeps st cn sans st' e K e0 :
  Inv cap st -> generate cap st cn sans = Some (st', e) ->
  dict_get K (dict_set (KGen cn sans) e (certs st)) = Some e0 ->
  S (next_gen st) - gid e0 <= cap ->
  dict_get K (certs st') = Some e0.
Proof.
  intros I H G Hc. destruct (generate_certs _ _ _ _ _ I H) as [C|[[c [s C]] Hn]]; rewrite C; [exact G|].
  apply dict_get_filter; [exact G|]. intros ->. cbn [gid] in Hc. lia.
Qed.

Lemma get_cert_cases st cn sans st' e :
  get_cert truthy cap st cn sans = Some (st', e) -> st' = st \/ generate cap st cn sans = Some (st', e).
Proof.
  unfold get_cert. destruct (lookup_first _ _) as [[k e0]|]; [|intros H; right; exact H].
  destruct (negb truthy || truthy_key k); intros H; [left; congruence | right; exact H].
Qed.

Lemma get_cert_custom_get st cn sans st' e n :
  Inv cap st -> get_cert truthy cap st cn sans = Some (st', e) ->
  dict_get (KCustom n) (certs st') = dict_get (KCustom n) (certs st).
Proof.
  intros I H. apply get_cert_cases in H as [->|H]; [reflexivity|]. eapply generate_custom_get; eauto.
Qed.

Lemma next_mono_step st o : Inv cap st -> next_gen st <= next_gen (fst (step truthy cap st o)).
Proof.
  intros I. destruct o as [i cn alt names|cn sans]; simpl; [lia|].
  destruct (get_cert truthy cap st cn sans) as [[st' e]|] eqn:G; simpl; [|lia].
  eapply get_cert_spec; eauto.
Qed.

Lemma next_mono_run ops st : Inv cap st -> next_gen st <= next_gen (run truthy cap ops st).
Proof.
  revert st. induction ops as [|o r IH]; intros st I; simpl; [lia|].
  etransitivity; [apply (next_mono_step st o I)|]. apply IH, Inv_step, I.
Qed.

Variable cn : option name.
Variable sans : list san.

Definition custom_lookup (st : store) : option (key * entry) :=
  lookup_first (map KCustom (potential_names cn sans)) (certs st).

(* the finding: the first registered wildcard form of the request is the empty string *)
Definition empty_hit (st : store) : Prop := exists e, custom_lookup st = Some (KCustom [], e).

(* a custom registration that (re)binds one of the names the request looks up *)
Definition op_touches (o : op) : Prop :=
  match o with
  | AddCert _ c alt names => exists n, In n (registered_names c alt names) /\ In n (potential_names cn sans)
  | GetCert _ _ => False
  end.

Definition no_touch (ops : list op) : Prop := Forall (fun o => ~ op_touches o) ops.

Lemma get_cert_decomp st :
  get_cert truthy cap st cn sans =
  match custom_lookup st with
  | Some (k, e) => if negb truthy || truthy_key k then Some (st, e) else generate cap st cn sans
  | None => match dict_get (KGen cn sans) (certs st) with
            | Some e => Some (st, e)
            | None => generate cap st cn sans
            end
  end.
Proof.
  unfold get_cert, potential_keys, custom_lookup. rewrite lookup_first_app.
  destruct (lookup_first (map KCustom _) _) as [[k e]|]; [reflexivity|].
  simpl. destruct (dict_get (KGen cn sans) (certs st)); [|reflexivity].
  simpl. rewrite orb_true_r. reflexivity.
Qed.

Lemma custom_lookup_step st o :
  Inv cap st -> ~ op_touches o -> custom_lookup (fst (step truthy cap st o)) = custom_lookup st.
Proof.
  intros I Hn. unfold custom_lookup. apply lookup_first_ext. intros k Hk.
  apply in_map_iff in Hk as [n [<- Hin]].
  destruct o as [i c alt names|c s]; simpl.
  - destruct (add_cert_spec st i c alt names (inv_keys _ _ I)) as [_ [_ [G _]]]. apply G.
    intros n' Hn' E. inversion E; subst n'. apply Hn. simpl. exists n. split; assumption.
  - destruct (get_cert truthy cap st c s) as [[st' e]|] eqn:G; simpl; [|reflexivity].
    eapply get_cert_custom_get; eauto.
Qed.

Lemma custom_lookup_run ops st :
  Inv cap st -> no_touch ops -> custom_lookup (run truthy cap ops st) = custom_lookup st.
Proof.
  revert st. induction ops as [|o r IH]; intros st I H; simpl; [reflexivity|].
  inversion H as [|? ? Ho Hr]; subst.
  rewrite IH; [apply custom_lookup_step; assumption | apply Inv_step, I | exact Hr].
Qed.

Lemma keep_step st o e :
  Inv cap st -> custom_lookup st = None -> dict_get (KGen cn sans) (certs st) = Some e ->
  next_gen (fst (step truthy cap st o)) - gid e <= cap -> ~ op_touches o ->
  dict_get (KGen cn sans) (certs (fst (step truthy cap st o))) = Some e.
Proof.
  intros I CL G Hc Hn. destruct o as [i c alt names|c s]; simpl in *.
  - destruct (add_cert_spec st i c alt names (inv_keys _ _ I)) as [_ [_ [A _]]].
    rewrite A; [exact G | intros n _; discriminate].
  - destruct (key_eqb (KGen c s) (KGen cn sans)) eqn:E.
    + apply key_eqb_eq in E. inversion E; subst c s.
      rewrite get_cert_decomp, CL, G. simpl. exact G.
    + assert (NE : KGen cn sans <> KGen c s).
      { intros E'. rewrite E', key_eqb_refl in E. discriminate. }
      destruct (get_cert truthy cap st c s) as [[st' e']|] eqn:GC; simpl in *; [|exact G].
      destruct (get_cert_cases _ _ _ _ _ GC) as [->|Hg]; [exact G|].
      destruct (generate_spec _ _ _ _ _ _ I Hg) as [_ [_ Hnx]].
      eapply generate_keeps; eauto.
      * rewrite dict_get_set_other; [exact G | exact NE].
      * rewrite Hnx in Hc. exact Hc.
Qed.

Lemma keep_run ops st e :
  Inv cap st -> custom_lookup st = None -> dict_get (KGen cn sans) (certs st) = Some e ->
  next_gen (run truthy cap ops st) - gid e <= cap -> no_touch ops ->
  dict_get (KGen cn sans) (certs (run truthy cap ops st)) = Some e.
Proof.
  revert st. induction ops as [|o r IH]; intros st I CL G Hc H; simpl in *; [exact G|].
  inversion H as [|? ? Ho Hr]; subst.
  assert (I1 := Inv_step cap truthy st o I).
  apply IH; try assumption.
  - rewrite custom_lookup_step; assumption.
  - apply keep_step; try assumption.
    pose proof (next_mono_run r _ I1). lia.
Qed.

(* A request that returned e returns e again, store unchanged, after any calls [mid] that do not re-register
   one of its potential names, if (only for the [if name:] test) its first registered potential name was not the
   empty string, and if e, when generated, is still among the cap entries generated last.  Custom hit: the
   lookup is untouched by mid; cached or fresh generated entry: Keep carries it through mid. *)
Theorem stable pre mid st1 e :
  let st0 := run truthy cap pre empty_store in
  get_cert truthy cap st0 cn sans = Some (st1, e) ->
  let st2 := run truthy cap mid st1 in
  no_touch mid ->
  (truthy = true -> ~ empty_hit st0) ->
  (forall i c s, e = EGen i c s -> next_gen st2 - i <= cap) ->
  get_cert truthy cap st2 cn sans = Some (st2, e).
Proof.
  intros st0 H1 st2 NT Guard Fresh.
  assert (I0 : Inv cap st0) by apply Inv_reachable.
  assert (I1 : Inv cap st1) by (eapply get_cert_spec; eauto).
  assert (CL1 : custom_lookup st1 = custom_lookup st0).
  { pose proof (custom_lookup_step st0 (GetCert cn sans) I0 (fun F => F)) as S.
    cbn [step] in S. rewrite H1 in S. exact S. }
  assert (CL2 : custom_lookup st2 = custom_lookup st0).
  { unfold st2. rewrite custom_lookup_run; assumption. }
  rewrite get_cert_decomp in H1. rewrite get_cert_decomp, CL2.
  destruct (custom_lookup st0) as [[k ec]|] eqn:CL.
  - destruct (negb truthy || truthy_key k) eqn:T.
    + inversion H1; subst. reflexivity.
    + exfalso. apply orb_false_iff in T as [T1 T2]. apply negb_false_iff in T1.
      apply (Guard T1). unfold custom_lookup in CL.
      destruct (lookup_first_some _ _ _ _ CL) as [Hin _].
      apply in_map_iff in Hin as [n [Hk _]]. subst k. simpl in T2. destruct n; [|discriminate].
      exists ec. exact CL.
  - assert (Keep : forall sA, Inv cap sA -> custom_lookup sA = None ->
                   dict_get (KGen cn sans) (certs sA) = Some e ->
                   run truthy cap mid sA = st2 -> dict_get (KGen cn sans) (certs st2) = Some e).
    { intros sA IA CA GA <-. apply keep_run; try assumption.
      destruct (inv_gen _ _ IA _ _ _ (dict_get_in _ _ _ GA)) as [[i Hi] _].
      rewrite Hi. simpl. apply (Fresh i cn sans Hi). }
    destruct (dict_get (KGen cn sans) (certs st0)) as [e1|] eqn:G.
    + inversion H1; subst st1 e1. rewrite (Keep st0 I0 CL G eq_refl). reflexivity.
    + destruct (generate_spec _ _ _ _ _ _ I0 H1) as [_ [He Hnx]].
      assert (G1 : dict_get (KGen cn sans) (certs st1) = Some e).
      { apply (generate_keeps st0 cn sans st1 e (KGen cn sans) e I0 H1 (dict_get_set_same _ _ _)).
        rewrite He. cbn [gid]. pose proof (next_mono_run mid _ I1) as M. fold st2 in M.
        pose proof (Fresh _ _ _ He). lia. }
      rewrite (Keep st1 I1 CL1 G1 eq_refl). reflexivity.
Qed.

End Stable.
