(* Proofs/Http1Regex.v -- the derivative matcher on the shapes validate.py uses, and the two generated patterns
   (_valid_header_name, _valid_content_length[_str]) characterised for every input string. *)
From Coq Require Import List Bool NArith ZArith Lia.
From MV Require Import Base.Bytes Model.Http1Msg Model.BodySizePrelude Gen.BodySize Model.Rfc9112.
Import ListNotations.

Lemma re_lang_emp s : re_lang REmp s = false.
Proof. induction s; simpl; auto. Qed.

Lemma re_lang_seq_emp r s : re_lang (RSeq REmp r) s = false.
Proof. induction s; simpl; auto. Qed.

Lemma re_lang_alt a b s : re_lang (RAlt a b) s = re_lang a s || re_lang b s.
Proof. revert a b; induction s as [|x s IH]; intros; simpl; auto. Qed.

Lemma re_lang_eps s : re_lang REps s = match s with [] => true | _ => false end.
Proof. destruct s; simpl; auto using re_lang_emp. Qed.

Lemma re_lang_seq_eps r s : re_lang (RSeq REps r) s = re_lang r s.
Proof.
  destruct s as [|x s]; simpl; auto.
  rewrite re_lang_alt, re_lang_seq_emp. reflexivity.
Qed.

Lemma re_lang_cls_seq c r s :
  re_lang (RSeq (RCls c) r) s = match s with [] => false | x :: s' => in_cls c x && re_lang r s' end.
Proof.
  destruct s as [|x s]; simpl; auto.
  destruct (in_cls c x); simpl; [apply re_lang_seq_eps | apply re_lang_seq_emp].
Qed.

Lemma re_lang_cls c s : re_lang (RCls c) s = match s with [x] => in_cls c x | _ => false end.
Proof.
  destruct s as [|x s]; simpl; auto.
  destruct (in_cls c x); [rewrite re_lang_eps | rewrite re_lang_emp]; destruct s; auto.
Qed.

Lemma re_lang_star_cls c s : re_lang (RStar (RCls c)) s = forallb (in_cls c) s.
Proof.
  induction s as [|x s IH]; simpl; auto.
  destruct (in_cls c x); simpl; [rewrite re_lang_seq_eps; exact IH | apply re_lang_seq_emp].
Qed.

Lemma re_lang_plus_cls c s :
  re_lang (RPlus (RCls c)) s = match s with [] => false | _ => forallb (in_cls c) s end.
Proof.
  unfold RPlus. rewrite re_lang_cls_seq. destruct s; auto. simpl. rewrite re_lang_star_cls. reflexivity.
Qed.

(* dollar: without a final LF the anchored match is plain membership *)
Lemma drop_final_lf_none s : existsb (byte_eqb LF) s = false -> drop_final_lf s = None.
Proof.
  intros H. unfold drop_final_lf. destruct (rev s) as [|x r] eqn:E; auto.
  destruct (byte_eqb x LF) eqn:Ex; auto.
  apply byte_eqb_eq in Ex; subst x.
  assert (In LF s) by (apply in_rev; rewrite E; left; reflexivity).
  assert (existsb (byte_eqb LF) s = true) by (apply existsb_exists; exists LF; split; auto using byte_eqb_refl).
  congruence.
Qed.

Lemma re_match_anchored_nolf r s : existsb (byte_eqb LF) s = false -> re_match_anchored r s = re_lang r s.
Proof. intros H. unfold re_match_anchored. rewrite (drop_final_lf_none _ H). apply orb_false_r. Qed.

Definition name_cls : cls := match _valid_header_name with RSeq (RCls c) _ => c | _ => [] end.

Lemma valid_header_name_shape : _valid_header_name = RPlus (RCls name_cls).
Proof. reflexivity. Qed.

(* the byte classes of the generated patterns that are not plain ranges, in one pass over the bytes *)
Lemma cls_bytes b : in_cls name_cls b = is_tchar b /\ in_cls [(48%N, 48%N)] b = byte_eqb b x30.
Proof.
  assert (H : forall b, Bool.eqb (in_cls name_cls b) (is_tchar b) && Bool.eqb (in_cls [(48%N, 48%N)] b) (byte_eqb b x30) = true)
    by (apply forall_bytes; vm_compute; reflexivity).
  specialize (H b). apply andb_true_iff in H as [A B]. split; apply eqb_prop; assumption.
Qed.
Lemma name_cls_tchar b : in_cls name_cls b = is_tchar b.
Proof. apply cls_bytes. Qed.
Lemma cls_zero b : in_cls [(48%N, 48%N)] b = byte_eqb b x30.
Proof. apply cls_bytes. Qed.

Lemma forallb_ext_eq {A} (f g : A -> bool) l : (forall x, f x = g x) -> forallb f l = forallb g l.
Proof. intros H; induction l; simpl; congruence. Qed.

Lemma valid_name_token n :
  existsb (byte_eqb LF) n = false -> re_match_anchored _valid_header_name n = is_token n.
Proof.
  intros H. rewrite (re_match_anchored_nolf _ _ H), valid_header_name_shape, re_lang_plus_cls.
  unfold is_token. destruct n; auto. apply forallb_ext_eq, name_cls_tchar.
Qed.

Definition nonzero_digit (b : byte) : bool := (49 <=? bN b)%N && (bN b <=? 57)%N.
Definition canon_dec (s : bytes) : bool :=
  match s with
  | [] => false
  | x :: s' => (byte_eqb x x30 && match s' with [] => true | _ => false end) || (nonzero_digit x && forallb is_digit s')
  end.

Lemma cls_digit b : in_cls [(48%N, 57%N)] b = is_digit b.
Proof. unfold in_cls, is_digit; simpl. apply orb_false_r. Qed.
Lemma cls_nz b : in_cls [(49%N, 57%N)] b = nonzero_digit b.
Proof. unfold in_cls, nonzero_digit; simpl. apply orb_false_r. Qed.
Lemma cl_lang_bytes s : re_lang _valid_content_length s = canon_dec s.
Proof.
  unfold _valid_content_length. rewrite re_lang_alt, re_lang_cls, re_lang_cls_seq.
  destruct s as [|x s]; auto. simpl canon_dec.
  rewrite re_lang_star_cls, cls_nz, (forallb_ext_eq _ _ s cls_digit).
  destruct s as [|b s]; [rewrite cls_zero | ]; simpl.
  - destruct (byte_eqb x x30), (nonzero_digit x); reflexivity.
  - rewrite andb_false_r. reflexivity.
Qed.

(* the two generated patterns are the same expression *)
Lemma cl_lang_str s : re_lang _valid_content_length_str s = canon_dec s.
Proof. exact (cl_lang_bytes s). Qed.

Lemma canon_dec_digits s : canon_dec s = true -> s <> [] /\ forallb is_digit s = true.
Proof.
  destruct s as [|x s]; simpl; [discriminate|]. intros H. split; [discriminate|].
  apply orb_true_iff in H as [H|H]; apply andb_true_iff in H as [H1 H2].
  - apply byte_eqb_eq in H1; subst x. destruct s; [reflexivity | discriminate].
  - rewrite H2, andb_true_r. unfold nonzero_digit in H1. unfold is_digit.
    apply andb_true_iff in H1 as [A B]. rewrite B, andb_true_r. apply N.leb_le in A. apply N.leb_le. lia.
Qed.
