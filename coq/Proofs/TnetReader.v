(* Proofs/TnetReader.v -- totality of the reader on arbitrary bytes: which exception classes
   pop/load can raise, no fuel exhaustion, strict consumption, and the resulting
   characterisation of how FlowReader.stream can end. *)
From Coq Require Import List Bool Arith NArith ZArith Lia.
From MV Require Import Base.Bytes Model.Tnet Proofs.TnetBase.
Import ListNotations.

Lemma find_colon_len data pre rest :
  find_colon data = Some (pre, rest) -> length data = (length pre + 1 + length rest)%nat.
Proof.
  revert pre rest. induction data as [|c r IH]; intros pre rest; cbn [find_colon]; [discriminate|].
  destruct (byte_eqb c x3a).
  - intros E. injection E as <- <-. cbn [length]. lia.
  - destruct (find_colon r) as [[a b]|] eqn:E1; [|discriminate].
    intros E. injection E as <- <-. specialize (IH _ _ eq_refl). cbn [length]. lia.
Qed.

Lemma split_len data z rest : split data = Some (z, rest) -> (length rest + 1 <= length data)%nat.
Proof.
  unfold split. destruct (find_colon data) as [[pre r]|] eqn:E; [|discriminate].
  destruct (py_int pre); [|discriminate]. intros H. injection H as _ <-.
  apply find_colon_len in E. lia.
Qed.

Lemma pop_slices_len len data p ty rem :
  pop_slices len data = Some (p, ty, rem) ->
  (length p + 1 <= length data)%nat /\ (length rem <= length data)%nat.
Proof.
  unfold pop_slices. cbv zeta.
  set (idx := if (len <? 0)%Z then (Z.of_nat (length data) + len)%Z else len).
  destruct ((idx <? 0)%Z || (Z.of_nat (length data) <=? idx)%Z) eqn:E; [discriminate|].
  apply orb_false_iff in E. destruct E as [E1 E2]. apply Z.ltb_ge in E1. apply Z.leb_gt in E2.
  destruct (skipn (Z.to_nat idx) data) as [|t r] eqn:Es; [discriminate|].
  intros H. injection H as <- <- <-. split.
  - rewrite firstn_length. lia.
  - change (match data with [] => [] | _ :: l => skipn (Z.to_nat idx) l end) with (skipn (S (Z.to_nat idx)) data).
    destruct (len =? -1)%Z; [lia|]. rewrite skipn_length. lia.
Qed.

Section Reader.
  Variable pyfloat : bytes -> option (bytes * option Z).

  (* r is not fuel exhaustion; a result satisfies P, an exception is of a class in A *)
  Definition res_ok {T} (A : pyexc -> Prop) (P : T -> Prop) (r : res T) : Prop :=
    match r with Ok a => P a | Exc e => A e | OutOfFuel => False end.

  (* popf behaves on inputs of at most m bytes and consumes at least one byte *)
  Definition popok (A : pyexc -> Prop) (m : nat) (popf : bytes -> res (tv * bytes)) : Prop :=
    forall data, (length data <= m)%nat ->
      res_ok A (fun vr => (length (snd vr) < length data)%nat) (popf data).

  Lemma list_loop_ok A m popf : popok A m popf ->
    forall n data, (length data <= n)%nat -> (length data <= m)%nat ->
      res_ok A (fun _ => True) (list_loop popf n data).
  Proof.
    intros Hp. induction n as [|n IH]; intros data Hn Hm; destruct data as [|c r]; try exact I;
      [cbn [length] in Hn; lia|].
    cbn [list_loop]. specialize (Hp (c :: r) Hm).
    destruct (popf (c :: r)) as [[item rest]| e |]; [|exact Hp|exact Hp]. cbn [res_ok snd] in Hp.
    specialize (IH rest ltac:(cbn [length] in *; lia) ltac:(lia)).
    revert IH. destruct (list_loop popf n rest); trivial.
  Qed.

  Lemma dict_loop_ok A m popf : popok A m popf -> A TypeError ->
    forall n data d, (length data <= n)%nat -> (length data <= m)%nat ->
      res_ok A (fun _ => True) (dict_loop pyfloat popf n data d).
  Proof.
    intros Hp HT. induction n as [|n IH]; intros data d Hn Hm; destruct data as [|c r]; try exact I;
      [cbn [length] in Hn; lia|].
    cbn [dict_loop]. pose proof (Hp (c :: r) Hm) as R.
    destruct (popf (c :: r)) as [[key data1]| e |]; [|exact R|exact R]. cbn [res_ok snd] in R.
    pose proof (Hp data1 ltac:(lia)) as R1.
    destruct (popf data1) as [[val data2]| e |]; [|exact R1|exact R1]. cbn [res_ok snd] in R1.
    unfold dict_set. destruct (hashable key); [apply IH; cbn [length] in *; lia | exact HT].
  Qed.

  Lemma parse_with_ok A m popf ty data : popok A m popf -> A ValueError -> A TypeError ->
    (length data <= m)%nat -> res_ok A (fun _ => True) (parse_with pyfloat popf ty data).
  Proof.
    intros Hp HV HT Hm. unfold parse_with.
    destruct (byte_eqb ty x2c); [exact I|].
    destruct (byte_eqb ty x3b); [destruct (utf8_valid data); [exact I | exact HV]|].
    destruct (byte_eqb ty x23); [destruct (py_int data); [exact I | exact HV]|].
    destruct (byte_eqb ty x5e); [destruct (pyfloat data) as [[r o]|]; [exact I | exact HV]|].
    destruct (byte_eqb ty x21).
    { destruct (bytes_eqb data s_true); [exact I|]. destruct (bytes_eqb data s_false); [exact I | exact HV]. }
    destruct (byte_eqb ty x7e); [destruct data; [exact I | exact HV]|].
    destruct (byte_eqb ty x5d).
    { pose proof (list_loop_ok A m popf Hp (length data) data (le_n _) Hm) as R.
      revert R. destruct (list_loop popf (length data) data); trivial. }
    destruct (byte_eqb ty x7d); [|exact HV].
    pose proof (dict_loop_ok A m popf Hp HT (length data) data [] (le_n _) Hm) as R.
    revert R. destruct (dict_loop pyfloat popf (length data) data []); trivial.
  Qed.

  (* every pop frame consumes at least two bytes ("0:" and a tag), so an input of fewer than
     2 * d bytes cannot exhaust d frames *)
  Lemma pop_ok (A : pyexc -> Prop) : A ValueError -> A TypeError ->
    forall d m, (A RecursionError \/ (m + 1 <= 2 * d)%nat) -> popok A m (pop pyfloat d).
  Proof.
    intros HV HT. induction d as [|d IH]; intros m HR data Hm; cbn [pop].
    - destruct HR as [HR|HR]; [exact HR|lia].
    - destruct (split data) as [[len data1]|] eqn:Es; [|exact HV]. apply split_len in Es.
      destruct (pop_slices len data1) as [[[p ty] rem]|] eqn:Ep; [|exact HV].
      apply pop_slices_len in Ep. destruct Ep as [Ep1 Ep2].
      assert (Hok : popok A (m - 2) (pop pyfloat d)) by (apply IH; destruct HR; [left; auto|right; lia]).
      pose proof (parse_with_ok A (m - 2) (pop pyfloat d) ty p Hok HV HT ltac:(lia)) as R. revert R.
      destruct (parse_with pyfloat (pop pyfloat d) ty p); cbn [res_ok snd]; [lia | trivial ..].
  Qed.

  Definition pop_class (e : pyexc) : Prop := e = ValueError \/ e = TypeError \/ e = RecursionError.
  Definition load_class (e : pyexc) : Prop :=
    e = ValueError \/ e = TypeError \/ e = IndexError \/ e = RecursionError.

  Lemma pop_res_ok depth data :
    res_ok pop_class (fun vr => (length (snd vr) < length data)%nat) (pop pyfloat depth data).
  Proof. apply (pop_ok pop_class) with (m := length data); unfold pop_class; auto. Qed.

  Lemma pop_exceptions depth data e : pop pyfloat depth data = Exc e -> pop_class e.
  Proof. intros H. pose proof (pop_res_ok depth data) as R. rewrite H in R. exact R. Qed.

  Lemma pop_no_fuel depth data : pop pyfloat depth data <> OutOfFuel.
  Proof. intros H. pose proof (pop_res_ok depth data) as R. rewrite H in R. exact R. Qed.

  Lemma read_len_shrinks file : forall cnt ds rest,
    read_len file cnt = Some (ds, rest) -> (length rest < length file)%nat.
  Proof.
    induction file as [|c r IH]; intros cnt ds rest; cbn [read_len]; [discriminate|].
    destruct (is_digit c).
    - destruct (12 <? S cnt)%nat; [discriminate|].
      destruct (read_len r (S cnt)) as [[ds0 rest0]|] eqn:E; [|discriminate].
      intros H. injection H as _ <-. apply IH in E. cbn [length]. lia.
    - destruct (byte_eqb c x3a); [|discriminate]. intros H. injection H as _ <-. cbn [length]. lia.
  Qed.

  Lemma dropN_len n (l : bytes) : (length (dropN n l) <= length l)%nat.
  Proof. unfold dropN. rewrite skipn_length. lia. Qed.
  Lemma takeN_len n (l : bytes) : (length (takeN n l) <= length l)%nat.
  Proof. unfold takeN. rewrite firstn_length. lia. Qed.

  (* the same for load on the rest of a file: never out of fuel, a value leaves a shorter rest *)
  Definition load_ok (A : pyexc -> Prop) (file : bytes) (r : load_result) : Prop :=
    match r with
    | LValue _ rest => (length rest < length file)%nat | LEof => True | LExc e => A e | LFuel => False
    end.

  (* RecursionError needs a file longer than twice the stack budget *)
  Lemma load_total (A : pyexc -> Prop) depth file : A ValueError -> A TypeError -> A IndexError ->
    (A RecursionError \/ (length file <= 2 * depth)%nat) -> load_ok A file (load pyfloat depth file).
  Proof.
    intros HV HT HI HR. unfold load. destruct file as [|c0 f0]; [exact I|]. set (file := c0 :: f0) in *.
    destruct (read_len file 0) as [[[|d0 ds] rest]|] eqn:Er; [exact HV | | exact HV].
    apply read_len_shrinks in Er. set (n := digits_val (d0 :: ds)).
    pose proof (dropN_len n rest) as Hd. pose proof (takeN_len n rest) as Ht.
    destruct (dropN n rest) as [|ty rest2]; [exact HI|]. cbn [length] in Hd.
    assert (Hok : popok A (length (takeN n rest)) (pop pyfloat depth))
      by (apply pop_ok; auto; destruct HR; [left; auto | right; lia]).
    pose proof (parse_with_ok A _ _ ty (takeN n rest) Hok HV HT (le_n _)) as R. revert R.
    unfold parse. destruct (parse_with pyfloat (pop pyfloat depth) ty (takeN n rest)); cbn [load_ok]; [lia | trivial ..].
  Qed.

  Variables outer inner : pyexc -> bool.
  Variable from_state : tv -> option pyexc.

  Lemma handle_inner_cases e :
    handle_inner outer inner e = ReadError
    \/ handle_inner outer inner e = Other e /\ inner e = false /\ outer e = false.
  Proof. unfold handle_inner. destruct (inner e), (outer e); auto. Qed.

  (* the generator ends with an exception e that no handler names: raised by load (C is the set of
     classes load can raise on the files in question), or passed by the inner handler too and
     raised by from_state or for a value that is not a dict *)
  Definition escapes (C : pyexc -> Prop) (fin : final) : Prop :=
    exists e, fin = Other e /\ outer e = false
      /\ (C e \/ inner e = false /\ (e = ValueError \/ exists v, from_state v = Some e)).

  Lemma stream_loop_outcomes depth (C : pyexc -> Prop) : forall n file,
    (length file < n)%nat ->
    (forall f, (length f <= length file)%nat -> load_ok C f (load pyfloat depth f)) ->
    let fin := snd (stream_loop pyfloat outer inner from_state depth n file) in
    fin = Clean \/ fin = ReadError \/ escapes C fin.
  Proof.
    induction n as [|n IH]; intros file Hn HL; [lia|]. cbn [stream_loop].
    pose proof (HL file (le_n _)) as L. destruct (load pyfloat depth file) as [v rest| |e|]; cbn [load_ok] in L.
    - destruct (is_dict v); [destruct (from_state v) as [e|] eqn:Ef|]; cbn [snd].
      + destruct (handle_inner_cases e) as [->|(-> & Hi & Ho)]; [auto|]. right; right. exists e. eauto 8.
      + apply IH; [lia|]. intros f Hf. apply HL. lia.
      + destruct (handle_inner_cases ValueError) as [->|(-> & Hi & Ho)]; [auto|].
        right; right. exists ValueError. auto 8.
    - auto.
    - cbn [snd]. destruct (outer e) eqn:Ho; [auto|]. right; right. exists e. auto.
    - contradiction.
  Qed.

  Theorem stream_outcomes depth (C : pyexc -> Prop) file :
    (forall f, (length f <= length file)%nat -> load_ok C f (load pyfloat depth f)) ->
    let fin := snd (stream pyfloat outer inner from_state depth file) in
    fin = Clean \/ fin = ReadError \/ fin = HarBranch \/ escapes C fin.
  Proof.
    intros HL. unfold stream. destruct (starts_with bom_brace file || starts_with [x7b] file); cbn [snd]; [auto|].
    destruct (stream_loop_outcomes depth C (S (length file)) file (Nat.lt_succ_diag_r _) HL) as [H|[H|H]]; auto.
  Qed.

  (* nothing escapes when the outer handler names what load raises on these files and one of the
     two handlers names what from_state raises and the ValueError for a value that is not a dict *)
  Theorem stream_total depth file :
    (forall f, (length f <= length file)%nat -> load_ok (fun e => outer e = true) f (load pyfloat depth f)) ->
    (forall e, e = ValueError \/ (exists v, from_state v = Some e) -> inner e = true \/ outer e = true) ->
    let fin := snd (stream pyfloat outer inner from_state depth file) in
    fin = Clean \/ fin = ReadError \/ fin = HarBranch.
  Proof.
    intros HL Hin.
    destruct (stream_outcomes depth _ file HL) as [H|[H|[H|(e & _ & Ho & [Hc|[Hi He]])]]]; auto; exfalso.
    - congruence.
    - destruct (Hin e He); congruence.
  Qed.

  (* an empty file or one that starts with a digit is not taken for a HAR file *)
  Lemma stream_not_har depth file : match file with [] => True | c :: _ => is_digit c = true end ->
    stream pyfloat outer inner from_state depth file
    = stream_loop pyfloat outer inner from_state depth (S (length file)) file.
  Proof.
    destruct file as [|c r]; [reflexivity|]. intros Hc. unfold stream, bom_brace. cbn [starts_with].
    now rewrite (proj2 (digit_neq c x7b Hc eq_refl)), (proj2 (digit_neq c xef Hc eq_refl)).
  Qed.

  (* every value reported as read was produced by load from the file and accepted by from_state *)
  Lemma stream_loop_values depth : forall n file v,
    In v (fst (stream_loop pyfloat outer inner from_state depth n file)) ->
    is_dict v = true /\ from_state v = None.
  Proof.
    induction n as [|n IH]; intros file v; cbn [stream_loop]; [intros []|].
    destruct (load pyfloat depth file) as [v0 rest| |e|]; cbn [fst]; try (intros []).
    destruct (is_dict v0) eqn:Ed; [|intros []].
    destruct (from_state v0) eqn:Ef; cbn [fst]; [intros []|].
    intros [<-|H]; [auto|]. eapply IH; eauto.
  Qed.
End Reader.
