(* Proofs/Http1Roundtrip.v -- the reference parser reads an assembled request head back as that head, for heads
   satisfying Inv_req (names are tokens, values free of CR / LF / NUL and of OWS at the ends, start line lexically
   valid), under every recipient option.  head_wire is the part that does not depend on the start line. *)
From Coq Require Import List Bool NArith ZArith Lia.
From MV Require Import Base.Bytes Model.Http1Msg Model.Rfc9112 Proofs.Http1Lines.
Import ListNotations.

(* the classes of the grammar: tchar within VCHAR / obs-text, and that away from the line and space characters;
   one pass over the bytes for both *)
Lemma grammar_classes b :
  (is_tchar b = true -> is_vchar_obs b = true)
  /\ (is_vchar_obs b = true -> is_cr_or_nul b = false /\ byte_eqb rLF b = false /\ is_ows b = false).
Proof.
  assert (H : forall b, implb (is_tchar b) (is_vchar_obs b)
                        && implb (is_vchar_obs b) (negb (is_cr_or_nul b) && negb (byte_eqb rLF b) && negb (is_ows b)) = true)
    by (apply forall_bytes; vm_compute; reflexivity).
  specialize (H b). apply andb_true_iff in H as [T V]. split; intros E.
  - rewrite E in T. exact T.
  - rewrite E in V. cbn [implb] in V. apply andb_true_iff in V as [V C]. apply andb_true_iff in V as [A B].
    repeat split; apply negb_true_iff; assumption.
Qed.
Lemma tchar_vchar b : is_tchar b = true -> is_vchar_obs b = true.
Proof. apply grammar_classes. Qed.
Lemma vchar_ok b : is_vchar_obs b = true -> is_cr_or_nul b = false /\ byte_eqb rLF b = false /\ is_ows b = false.
Proof. apply grammar_classes. Qed.
Lemma tchar_ok b : is_tchar b = true ->
  is_ows b = false /\ is_cr_or_nul b = false /\ byte_eqb rLF b = false /\ is_vchar_obs b = true.
Proof. intros T. pose proof (tchar_vchar b T) as V. destruct (vchar_ok b V) as (A & B & C). auto. Qed.
Lemma digit_vchar b : is_digit b = true -> is_vchar_obs b = true.
Proof. intros D. apply tchar_vchar. unfold is_tchar. rewrite D. reflexivity. Qed.

Lemma vchars_clean t : forallb is_vchar_obs t = true -> clean t = true.
Proof. apply forallb_clean. intros c T. destruct (vchar_ok c T) as (A & B & _). auto. Qed.
Lemma token_clean n : is_token n = true -> clean n = true.
Proof.
  unfold is_token. destruct n as [|n0 n]; [discriminate|]. apply forallb_clean.
  intros c T. destruct (tchar_ok c T) as (_ & A & B & _). auto.
Qed.
Lemma digits_clean s : forallb is_digit s = true -> clean s = true.
Proof. apply forallb_clean. intros c D. destruct (vchar_ok c (digit_vchar c D)) as (A & B & _). auto. Qed.

Definition field_inv (f : header) : Prop :=
  is_token (fst f) = true /\ clean (snd f) = true /\ trim_ows (snd f) = snd f.
Definition field_line (f : header) : bytes := fst f ++ [COLON; SP] ++ snd f.

Lemma headers_bytes_wire hs : headers_bytes hs = wire (map field_line hs).
Proof.
  induction hs as [|[n v] hs IH]; simpl; auto. rewrite IH. unfold field_line. simpl.
  rewrite <- !app_assoc. reflexivity.
Qed.

Lemma field_line_props f : field_inv f ->
  clean (field_line f) = true /\ no_lf (field_line f) = true /\ field_line f <> []
  /\ (exists c r, field_line f = c :: r /\ is_ows c = false) /\ parse_field_line (field_line f) = Some f.
Proof.
  destruct f as [n v]. unfold field_inv, field_line. simpl. intros (T & C & W).
  assert (Cl : clean (n ++ COLON :: SP :: v) = true).
  { rewrite clean_app, (token_clean _ T). change (COLON :: SP :: v) with ([COLON; SP] ++ v). rewrite clean_app, C. reflexivity. }
  split; [exact Cl|]. split; [unfold clean in Cl; apply andb_true_iff in Cl as [_ X]; exact X|].
  unfold is_token in T. destruct n as [|c n]; [discriminate|].
  split; [discriminate|]. split.
  - exists c, (n ++ COLON :: SP :: v). split; auto. simpl in T. apply andb_true_iff in T as [T _]. apply (tchar_ok c T).
  - unfold parse_field_line.
    rewrite (span_all is_tchar (c :: n) (COLON :: SP :: v) T eq_refl).
    change (byte_eqb COLON x3a) with true. cbv iota.
    unfold trim_ows. change (ltrim_ows (SP :: v)) with (ltrim_ows v). fold (trim_ows v). rewrite W. reflexivity.
Qed.

Lemma parse_fields_lines o hs : Forall field_inv hs -> forall acc,
  parse_fields o (map field_line hs) acc = Some (rev acc ++ hs).
Proof.
  induction 1 as [|f hs Hf _ IH]; intros acc; simpl.
  - rewrite app_nil_r. reflexivity.
  - destruct (field_line_props f Hf) as (_ & _ & _ & (c & r & E & Hc) & P).
    rewrite E, Hc, <- E, P, IH. simpl. rewrite <- app_assoc. reflexivity.
Qed.

(* a head on the wire: a clean non-empty start line, the field lines, the empty line.  The reference parser
   splits it into these lines again and reads the fields back; what it makes of the start line is the caller's *)
Lemma head_wire o l0 hs rest : clean l0 = true -> l0 <> [] -> Forall field_inv hs ->
  exists raws, head_lines ((l0 ++ CRLF ++ headers_bytes hs ++ CRLF) ++ rest) [] = Some (raws, [rCR], rest)
    /\ clean_lines o raws = Some (l0 :: map field_line hs)
    /\ parse_fields o (map field_line hs) [] = Some hs.
Proof.
  intros C0 N0 F. exists (map (fun l => l ++ [rCR]) (l0 :: map field_line hs)).
  assert (A : forallb clean (map field_line hs) = true
              /\ forallb (fun l => no_lf l && match l with [] => false | _ => true end) (map field_line hs) = true).
  { induction F as [|f hs Hf _ [I1 I2]]; [split; reflexivity|].
    destruct (field_line_props f Hf) as (C & L & NE & _).
    cbn [map forallb]. rewrite C, L, I1, I2. destruct (field_line f); [congruence|]. split; reflexivity. }
  destruct A as [A1 A2]. split; [|split].
  - rewrite headers_bytes_wire. change CRLF with [rCR; rLF].
    replace ((l0 ++ [rCR; rLF] ++ wire (map field_line hs) ++ [rCR; rLF]) ++ rest)
      with (wire (l0 :: map field_line hs) ++ [rCR; rLF] ++ rest)
      by (cbn [wire]; rewrite <- !app_assoc; reflexivity).
    apply head_lines_wire. cbn [forallb]. rewrite A2, andb_true_r. apply andb_true_iff in C0 as [_ ->].
    destruct l0; [congruence | reflexivity].
  - apply clean_lines_wire. cbn [forallb]. rewrite C0. exact A1.
  - apply (parse_fields_lines o hs F []).
Qed.

Definition req_target (r : request_head) : bytes :=
  if bytes_eqb (upper (rq_method r)) CONNECT then rq_authority r
  else match rq_authority r with
       | _ :: _ => rq_scheme r ++ [x3a; x2f; x2f] ++ rq_authority r ++ rq_path r
       | [] => rq_path r
       end.

Record Inv_req (r : request_head) : Prop := {
  ir_method : is_token (rq_method r) = true;
  ir_target : req_target r <> [] /\ forallb is_vchar_obs (req_target r) = true;
  ir_version : is_http_version (rq_version r) = true;
  ir_fields : Forall field_inv (rq_headers r) }.

Lemma assemble_request_line_eq r : _assemble_request_line r = rq_method r ++ [SP] ++ req_target r ++ [SP] ++ rq_version r.
Proof.
  unfold _assemble_request_line, req_target. destruct (bytes_eqb (upper (rq_method r)) CONNECT); auto.
  destruct (rq_authority r); auto. rewrite <- !app_assoc. reflexivity.
Qed.

Lemma version_clean v : is_http_version v = true -> clean v = true.
Proof.
  unfold is_http_version. destruct v as [|h [|t1 [|t2 [|p [|sl [|a [|dot [|b [|]]]]]]]]]; try discriminate.
  intros H. apply andb_true_iff in H as [H B]. apply andb_true_iff in H as [H D]. apply andb_true_iff in H as [H A].
  apply bytes_eqb_eq in H. injection H as -> -> -> -> ->. apply byte_eqb_eq in D. subst dot.
  apply vchars_clean. cbn [forallb]. rewrite (digit_vchar a A), (digit_vchar b B). reflexivity.
Qed.

Lemma request_line_props r : Inv_req r ->
  clean (_assemble_request_line r) = true /\ _assemble_request_line r <> []
  /\ parse_request_line (_assemble_request_line r) = Some (rq_method r, req_target r, rq_version r).
Proof.
  intros [M [Tn T] V _]. rewrite assemble_request_line_eq.
  split; [|split].
  - rewrite !clean_app, (token_clean _ M), (vchars_clean _ T), (version_clean _ V). reflexivity.
  - unfold is_token in M. destruct (rq_method r); [discriminate|discriminate].
  - unfold parse_request_line.
    assert (M' : forallb is_tchar (rq_method r) = true) by (unfold is_token in M; destruct (rq_method r); [discriminate|exact M]).
    rewrite (span_all is_tchar (rq_method r) ([SP] ++ req_target r ++ [SP] ++ rq_version r) M' eq_refl).
    unfold is_token in M. destruct (rq_method r) as [|m0 ms]; [discriminate|].
    cbn [app]. change (byte_eqb SP rSP) with true. cbv iota.
    rewrite (span_all is_vchar_obs (req_target r) (SP :: rq_version r) T eq_refl).
    destruct (req_target r) as [|t0 ts]; [congruence|].
    change (byte_eqb SP rSP) with true. rewrite V. reflexivity.
Qed.

Theorem head_roundtrip_request o r rest : Inv_req r ->
  parse_request_head o (assemble_request_head r ++ rest)
  = POk (rq_method r, req_target r, rq_version r, rq_headers r, rest).
Proof.
  intros I. destruct (request_line_props r I) as (C0 & N0 & P0).
  unfold assemble_request_head, parse_request_head.
  destruct (head_wire o _ _ rest C0 N0 (ir_fields r I)) as (raws & -> & -> & ->).
  change (clean_line o [rCR]) with (Some (@nil byte)). rewrite P0. reflexivity.
Qed.
