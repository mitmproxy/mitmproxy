(* Proofs/BlockC22.v -- C22: the refusal decision of the generated model Gen/Block.v
   (Block.client_connected + CPython ipaddress tables) against the IANA registries (Model/Iana.v).
   All statements quantify over every address; the tables of the difference are computed by the
   interval procedure of Model/Pexp.v, which Proofs/Pexp.v proves exact (true_intervals_spec). *)
From Coq Require Import NArith List Bool Lia ZifyBool String.
From MV Require Import Model.Ipaddr Model.Iana Gen.Block Model.Pexp Model.BlockDiff Proofs.Pexp.
Import ListNotations.
Open Scope N_scope.

Lemma isinstance_LocalMode_spec : forall m, isinstance_LocalMode m = spec_local m.
Proof. destruct m; reflexivity. Qed.

(* the shift/mask test is the interval ::ffff:0:0/96, the mask is a subtraction *)
Lemma ipv4_mapped_spec : forall n,
  IPv6Address_ipv4_mapped n = if in_net n mapped_range then Some (n - mapped_base) else None.
Proof.
  intros n. unfold IPv6Address_ipv4_mapped, in_net, mapped_range, mapped_base, max_v4. cbn [fst snd].
  rewrite N.shiftr_div_pow2. change 4294967295 with (N.ones 32). rewrite N.land_ones.
  change (2 ^ 32) with 4294967296.
  pose proof (N.div_mod n 4294967296 ltac:(lia)) as Hdm.
  pose proof (N.mod_lt n 4294967296 ltac:(lia)) as Hlt.
  set (q := n / 4294967296) in *. set (r := n mod 4294967296) in *.
  destruct (q =? 65535) eqn:Eq; cbn [negb];
  destruct (0xffff00000000 <=? n) eqn:E1; destruct (n <=? 0xffff00000000 + N.ones 32) eqn:E2; cbn [andb];
  change (N.ones 32) with 4294967295 in *; try (exfalso; lia); try reflexivity.
  f_equal. lia.
Qed.

(* the decision as a boolean formula of its six inputs.  Both branches of the hook are the
   same code, run on the peer the address denotes: the embedded IPv4 address for an IPv4-mapped one *)
Definition refusedF (loop local bp bg priv glob : bool) : bool :=
  negb (loop || local) && ((bp && priv) || (bg && glob)).

Lemma refused_effective : forall bp bg m a,
  refused bp bg m a =
  refusedF (ip_is_loopback (effective a)) (spec_local m) bp bg (ip_is_private (effective a)) (ip_is_global (effective a)).
Proof.
  intros bp bg m a.
  assert (E : or_else (ip_ipv4_mapped a) a = effective a).
  { destruct a as [n|n]; [reflexivity|]. cbn [ip_ipv4_mapped effective]. rewrite ipv4_mapped_spec.
    destruct (in_net n mapped_range); reflexivity. }
  rewrite <- E, <- isinstance_LocalMode_spec. unfold refused, client_connected, refusedF.
  destruct a as [n|n]; cbn [ip_is_v6 ip_ipv4_mapped or_else];
  destruct (ip_is_loopback _ || isinstance_LocalMode m), (bp && ip_is_private _), (bg && ip_is_global _); reflexivity.
Qed.

Lemma effective_wf : forall a, ip_wf a = true -> ip_wf (effective a) = true.
Proof.
  intros [n|n] H; [exact H|]. cbn [effective]. destruct (in_net n mapped_range) eqn:Em; [|exact H].
  unfold in_net, mapped_range, mapped_base, ip_wf, max_v4 in *. cbn [fst snd] in Em. lia.
Qed.

(* the classes of the model (M_) and of the registry (S_) as interval expressions *)
Lemma M_loop4_ok : forall a, IPv4Address_is_loopback a = eval M_loop4 a.
Proof. reflexivity. Qed.
Lemma M_priv4_ok : forall a, IPv4Address_is_private a = eval M_priv4 a.
Proof. intros. unfold M_priv4. rewrite eval_por_tbl. reflexivity. Qed.
Lemma M_glob4_ok : forall a, IPv4Address_is_global a = eval M_glob4 a.
Proof. intros. unfold IPv4Address_is_global, M_glob4. cbn [eval]. rewrite M_priv4_ok. reflexivity. Qed.
Lemma M_loop6_ok : forall a, IPv6Address_is_loopback a = eval M_loop6 a.
Proof.
  intros. unfold IPv6Address_is_loopback, M_loop6, eval, in_net. cbn [fst snd]. lia.
Qed.
Lemma M_priv6_ok : forall a, in_net a mapped_range = false -> IPv6Address_is_private a = eval M_priv6 a.
Proof. intros a H. unfold IPv6Address_is_private, M_priv6. rewrite ipv4_mapped_spec, H, eval_por_tbl. reflexivity. Qed.
Lemma M_glob6_ok : forall a, in_net a mapped_range = false -> IPv6Address_is_global a = eval M_glob6 a.
Proof. intros a H. unfold IPv6Address_is_global, M_glob6. cbn [eval]. rewrite (M_priv6_ok a H). reflexivity. Qed.

Lemma eval_reach_pexp : forall t accp acc a, eval accp a = acc ->
  eval (reach_pexp t accp) a = fold_left (fun acc e => if in_net a (fst e) then snd e else acc) t acc.
Proof.
  induction t as [|e t IH]; intros accp acc a H; cbn [reach_pexp fold_left]; [exact H|].
  apply IH. cbn [eval]. rewrite H. destruct (in_net a (fst e)), (snd e), acc; reflexivity.
Qed.

Lemma S_glob4_ok : forall a, spec_global4 a = eval S_glob4 a.
Proof. intros. symmetry. apply eval_reach_pexp. reflexivity. Qed.
Lemma S_priv4_ok : forall a, spec_private4 a = eval S_priv4 a.
Proof. intros. unfold spec_private4, S_priv4. cbn [eval]. rewrite <- S_glob4_ok. reflexivity. Qed.
Lemma S_glob6_ok : forall a, spec_global6 a = eval S_glob6 a.
Proof. intros. symmetry. apply eval_reach_pexp. reflexivity. Qed.
Lemma S_priv6_ok : forall a, spec_private6 a = eval S_priv6 a.
Proof. intros. unfold spec_private6, S_priv6. cbn [eval]. rewrite <- S_glob6_ok. reflexivity. Qed.

(* the registry tables are listed general -> specific: a later entry never strictly contains an
   earlier one, and overlapping entries are nested (so last match = most specific match) *)
Definition nested_or_disjoint (early late : net) : bool :=
  (snd early <? fst late) || (snd late <? fst early) || ((fst early <=? fst late) && (snd late <=? snd early)).
Fixpoint ordered (t : list entry) : bool :=
  match t with [] => true | e :: r => forallb (fun l => nested_or_disjoint (fst e) (fst l)) r && ordered r end.
Lemma iana_tables_ordered : ordered iana_v4 = true /\ ordered iana_v6 = true.
Proof. split; vm_compute; reflexivity. Qed.

(* For a non-local mode the two decisions differ for some option setting iff
   one of the two guarded classes differs: bad_b is Bad (Model/BlockDiff.v) on truth values *)
Definition bad_b (ml mp mg sl sp sg : bool) : bool :=
  xorb (negb ml && mp) (negb sl && sp) || xorb (negb ml && mg) (negb sl && sg).

Lemma refusedF_agree : forall l1 l2 local bp bg p1 p2 g1 g2,
  bad_b l1 p1 g1 l2 p2 g2 = false -> refusedF l1 local bp bg p1 g1 = refusedF l2 local bp bg p2 g2.
Proof. intros l1 l2 local bp bg p1 p2 g1 g2; destruct l1, l2, local, bp, bg, p1, p2, g1, g2; cbn; intros H; try reflexivity; discriminate. Qed.

Lemma refusedF_differ : forall l1 l2 p1 p2 g1 g2,
  bad_b l1 p1 g1 l2 p2 g2 = true -> exists bp bg, refusedF l1 false bp bg p1 g1 <> refusedF l2 false bp bg p2 g2.
Proof.
  intros l1 l2 p1 p2 g1 g2 H. unfold bad_b in H.
  destruct (xorb (negb l1 && p1) (negb l2 && p2)) eqn:E.
  - exists true, false. revert E. destruct l1, l2, p1, p2, g1, g2; cbn; intros; discriminate.
  - exists false, true. revert E H. destruct l1, l2, p1, p2, g1, g2; cbn; intros; discriminate.
Qed.

Lemma eval_Bad : forall Ml Mp Mg Sl Sp Sg a,
  eval (Bad Ml Mp Mg Sl Sp Sg) a = bad_b (eval Ml a) (eval Mp a) (eval Mg a) (eval Sl a) (eval Sp a) (eval Sg a).
Proof.
  intros. unfold Bad, PXor, bad_b. cbn [eval].
  destruct (eval Ml a), (eval Mp a), (eval Mg a), (eval Sl a), (eval Sp a), (eval Sg a); reflexivity.
Qed.

Lemma in_net_upto : forall a m, in_net a (0, m) = (a <=? m).
Proof. intros a m. destruct a; reflexivity. Qed.

(* the computed tables are exactly the addresses where Bad holds (Bad4 and Bad6 are false beyond the
   family's last address) *)
Lemma diff4_exact : forall a, in_nets a diff4 = eval Bad4 a.
Proof.
  intros a. unfold diff4. rewrite (proj2 (true_intervals_spec Bad4 max_v4)).
  unfold Bad4, dom4. cbn [eval]. rewrite in_net_upto. lia.
Qed.

Lemma diff6_exact : forall a, in_nets a diff6 = eval Bad6 a.
Proof.
  intros a. unfold diff6. rewrite (proj2 (true_intervals_spec Bad6 max_v6)).
  unfold Bad6, dom6. cbn [eval]. rewrite in_net_upto. lia.
Qed.

(* in terms of the six classes: where a family's table differs *)
Definition class4 (n : N) : bool :=
  (n <=? max_v4) && bad_b (IPv4Address_is_loopback n) (IPv4Address_is_private n) (IPv4Address_is_global n)
                          (spec_loopback4 n) (spec_private4 n) (spec_global4 n).
Definition class6 (n : N) : bool :=
  (n <=? max_v6) && bad_b (IPv6Address_is_loopback n) (IPv6Address_is_private n) (IPv6Address_is_global n)
                          (spec_loopback6 n) (spec_private6 n) (spec_global6 n).

Lemma diff4_class : forall n, in_nets n diff4 = class4 n.
Proof.
  intros n. unfold class4. rewrite diff4_exact, M_loop4_ok, M_priv4_ok, M_glob4_ok, S_priv4_ok, S_glob4_ok.
  unfold Bad4. cbn [eval]. rewrite eval_Bad. f_equal. destruct n; reflexivity.
Qed.

Lemma diff6_class : forall n, in_net n mapped_range = false -> in_nets n diff6 = class6 n.
Proof.
  intros n Hm. unfold class6.
  rewrite diff6_exact, M_loop6_ok, (M_priv6_ok n Hm), (M_glob6_ok n Hm), S_priv6_ok, S_glob6_ok.
  unfold Bad6, dom6. cbn [eval]. rewrite eval_Bad, Hm, andb_true_r. f_equal. destruct n; reflexivity.
Qed.

Lemma in_diff_class : forall a,
  in_diff a =
  ip_wf (effective a) && bad_b (ip_is_loopback (effective a)) (ip_is_private (effective a)) (ip_is_global (effective a))
                               (spec_loopback a) (spec_private a) (spec_global a).
Proof.
  intros a. unfold in_diff, spec_loopback, spec_private, spec_global.
  destruct a as [n|n]; cbn [effective]; [apply diff4_class|].
  destruct (in_net n mapped_range) eqn:Em; [apply diff4_class|apply diff6_class; exact Em].
Qed.

Theorem partial : forall bp bg m a, ip_wf a = true -> in_diff a = false ->
  refused bp bg m a = spec_refused bp bg (spec_local m) a.
Proof.
  intros bp bg m a Hwf Hd. rewrite in_diff_class, (effective_wf a Hwf) in Hd.
  rewrite refused_effective. apply refusedF_agree. exact Hd.
Qed.

Theorem difference_exact : forall a, in_diff a = true ->
  exists bp bg, refused bp bg RegularMode a <> spec_refused bp bg false a.
Proof.
  intros a Hd. rewrite in_diff_class in Hd. apply andb_prop in Hd. destruct Hd as [_ Hd].
  destruct (refusedF_differ _ _ _ _ _ _ Hd) as [bp [bg H]].
  exists bp, bg. rewrite refused_effective. exact H.
Qed.

(* loopback peers and local-redirect mode are never refused, on the whole address space
   (no exclusion of the difference) *)
Theorem exempt : forall bp bg m a,
  spec_loopback a = true \/ m = LocalMode -> client_connected bp bg m a = None.
Proof.
  intros bp bg m a H.
  assert (El : ip_is_loopback (effective a) = spec_loopback a).
  { unfold spec_loopback. destruct (effective a) as [n|n]; [reflexivity|apply M_loop6_ok]. }
  pose proof (refused_effective bp bg m a) as R. rewrite El in R. unfold refused, refusedF in R.
  replace (spec_loopback a || spec_local m) with true in R
    by (destruct H as [H|H]; [rewrite H|subst m; rewrite orb_true_r]; reflexivity).
  destruct (client_connected bp bg m a); [discriminate|reflexivity].
Qed.

(* a refused connection is closed and no protocol processing is started (shape of handle_client) *)
Theorem refused_before_processing : forall bp bg m a,
  refused bp bg m a = true ->
  ~ In StartEvent (handle_client_after_hook (refused bp bg m a))
  /\ ~ In HandleConnection (handle_client_after_hook (refused bp bg m a))
  /\ In CloseWriter (handle_client_after_hook (refused bp bg m a)).
Proof.
  intros bp bg m a H. rewrite H. cbn.
  split; [|split]; [intros [F|[]]; discriminate | intros [F|[]]; discriminate | left; reflexivity].
Qed.

Definition witness4 : N := match diff4 with (lo, _) :: _ => lo | [] => 0 end.
Definition witness6 : N := match diff6 with (lo, _) :: _ => lo | [] => 0 end.

Lemma in_nets_nonempty : forall a t, in_nets a t = true -> t <> [].
Proof. intros a t H E. subst t. discriminate. Qed.

(* A difference begins at a bound of a table of one of the two sides.  Searching those bounds with the
   class formulas finds an address of each computed table without evaluating the table: sorting its
   five hundred bounds takes the checker's lazy machine seconds, at every check, and a literal address
   would break when Gen/Block.v is regenerated from other CPython tables. *)
Definition bounds (t : list net) : list N := flat_map (fun nt => [fst nt; N.succ (snd nt)]) t.

Lemma diff_nonempty : diff4 <> [] /\ diff6 <> [].
Proof.
  assert (H : existsb class4 (bounds (IPv4_private_networks ++ map fst iana_v4))
              && existsb (fun n => negb (in_net n mapped_range) && class6 n)
                         (bounds (IPv6_private_networks ++ map fst iana_v6)) = true)
    by (vm_compute; reflexivity).
  apply andb_prop in H. destruct H as [H4 H6].
  apply existsb_exists in H4. destruct H4 as [n4 [_ H4]].
  apply existsb_exists in H6. destruct H6 as [n6 [_ H6]].
  apply andb_prop in H6. destruct H6 as [Hm H6]. apply negb_true_iff in Hm.
  rewrite <- diff4_class in H4. rewrite <- (diff6_class n6 Hm) in H6.
  split; [exact (in_nets_nonempty n4 diff4 H4)|exact (in_nets_nonempty n6 diff6 H6)].
Qed.

(* the first bound of a computed table lies in it: no computed interval is empty *)
Lemma first_bound_in : forall t, Forall wf_net t -> t <> [] ->
  in_nets (match t with (lo, _) :: _ => lo | [] => 0 end) t = true.
Proof.
  intros [|[lo hi] t] Hw Hne; [contradiction|]. inversion Hw as [|? ? Hc _]; subst.
  rewrite in_nets_cons. unfold in_net, wf_net in *. cbn [fst snd] in *. lia.
Qed.

Lemma witness4_in : in_nets witness4 diff4 = true.
Proof. exact (first_bound_in diff4 (proj1 (true_intervals_spec Bad4 max_v4)) (proj1 diff_nonempty)). Qed.
Lemma witness6_in : in_nets witness6 diff6 = true.
Proof. exact (first_bound_in diff6 (proj1 (true_intervals_spec Bad6 max_v6)) (proj2 diff_nonempty)). Qed.

Lemma effective_mapped : forall n, n <= max_v4 -> effective (IPv6 (mapped_base + n)) = IPv4 n.
Proof.
  intros n Hn. cbn [effective].
  assert (E : in_net (mapped_base + n) mapped_range = true).
  { apply andb_true_intro. split; apply N.leb_le; [apply N.le_add_r|apply N.add_le_mono_l; exact Hn]. }
  rewrite E, N.add_comm, N.add_sub. reflexivity.
Qed.

(* an address of the IPv4 table is in the difference in both its notations, one of the IPv6 table
   (which holds no IPv4-mapped address) as it is *)
Lemma in_diff_of_v4 : forall n, in_nets n diff4 = true ->
  in_diff (IPv4 n) = true /\ in_diff (IPv6 (mapped_base + n)) = true.
Proof.
  intros n H. split; [exact H|].
  assert (Hn : n <= max_v4).
  { rewrite diff4_class in H. apply andb_prop in H. apply N.leb_le, H. }
  unfold in_diff. rewrite (effective_mapped n Hn). exact H.
Qed.

Lemma in_diff_of_v6 : forall n, in_nets n diff6 = true -> in_diff (IPv6 n) = true.
Proof.
  intros n H. unfold in_diff. cbn [effective].
  destruct (in_net n mapped_range) eqn:Em; [|exact H].
  rewrite diff6_exact in H. unfold Bad6, dom6 in H. cbn [eval] in H.
  rewrite Em, andb_false_r in H. discriminate.
Qed.

Theorem refuted : exists bp bg m a, ip_wf a = true /\ refused bp bg m a <> spec_refused bp bg (spec_local m) a.
Proof.
  destruct (in_diff_of_v4 _ witness4_in) as [Hd _]. pose proof Hd as Hwf.
  rewrite in_diff_class in Hwf. apply andb_prop in Hwf. destruct Hwf as [Hwf _].
  destruct (difference_exact _ Hd) as [bp [bg H]].
  exists bp, bg, RegularMode, (IPv4 witness4). split; [exact Hwf|exact H].
Qed.

Theorem refuted_v6_and_mapped :
  (exists bp bg, refused bp bg RegularMode (IPv6 witness6) <> spec_refused bp bg false (IPv6 witness6))
  /\ (exists bp bg, refused bp bg RegularMode (IPv6 (mapped_base + witness4)) <> spec_refused bp bg false (IPv6 (mapped_base + witness4))).
Proof.
  split; apply difference_exact;
    [exact (in_diff_of_v6 _ witness6_in)|exact (proj2 (in_diff_of_v4 _ witness4_in))].
Qed.

(* non-vacuity: the hypotheses of [partial] hold for addresses of every class, and both outcomes occur *)
Theorem nonvacuous :
  (* 8.8.8.8, also written ::ffff:8.8.8.8 : outside the difference, refused by block_global *)
  ip_wf (IPv4 134744072) = true /\ in_diff (IPv4 134744072) = false /\ refused false true RegularMode (IPv4 134744072) = true
  /\ in_diff (IPv6 (mapped_base + 134744072)) = false /\ refused false true Socks5Mode (IPv6 (mapped_base + 134744072)) = true
  (* 10.0.0.1 : private; refused only by block_private *)
  /\ in_diff (IPv4 167772161) = false /\ refused false true RegularMode (IPv4 167772161) = false
  /\ refused true false RegularMode (IPv4 167772161) = true
  (* local mode and loopback are exempt *)
  /\ refused true true LocalMode (IPv4 134744072) = false /\ refused true true RegularMode (IPv6 1) = false
  /\ diff4 <> [] /\ diff6 <> [].
Proof.
  (* in_diff is evaluated through its class formula, on the tables of the model and the registry,
     not on the computed difference (see diff_nonempty) *)
  split; [vm_compute; reflexivity|].
  split; [rewrite in_diff_class; vm_compute; reflexivity|].
  split; [vm_compute; reflexivity|].
  split; [rewrite in_diff_class; vm_compute; reflexivity|].
  split; [vm_compute; reflexivity|].
  split; [rewrite in_diff_class; vm_compute; reflexivity|].
  do 4 (split; [vm_compute; reflexivity|]).
  exact diff_nonempty.
Qed.

(* The verdict on a connection is a function of the current options and of that
   connection alone, whatever was served before on the same addon instance. *)
Theorem history_stateless : forall st h,
  run_history st h = map (fun c => client_connected (c_bp c) (c_bg c) (c_mode c) (c_addr c)) h.
Proof.
  intros st h. revert st. induction h as [|c r IH]; intros st; cbn [run_history map]; [reflexivity|].
  unfold hook_step. rewrite IH. reflexivity.
Qed.

Lemma Forall2_map : forall (A B : Type) (P : A -> B -> Prop) (f : A -> B) (h : list A),
  (forall c, P c (f c)) -> Forall2 P h (map f h).
Proof. intros A B P f h H. induction h as [|c r IH]; cbn [map]; constructor; [apply H|exact IH]. Qed.

Theorem history_partial : forall st h,
  Forall2 (fun c e => ip_wf (c_addr c) = true -> in_diff (c_addr c) = false ->
                      is_some e = spec_refused (c_bp c) (c_bg c) (spec_local (c_mode c)) (c_addr c))
          h (run_history st h).
Proof. intros st h. rewrite history_stateless. apply Forall2_map. intros c. apply partial. Qed.

Theorem history_exempt : forall st h,
  Forall2 (fun c e => spec_loopback (c_addr c) = true \/ c_mode c = LocalMode -> e = None) h (run_history st h).
Proof. intros st h. rewrite history_stateless. apply Forall2_map. intros c. apply exempt. Qed.
