(* Proofs/Http1Lower.v -- ASCII lower-casing commutes with the list reading of the reference parser. *)
From Coq Require Import List Bool NArith ZArith Lia.
From MV Require Import Base.Bytes Model.Rfc9112.
Import ListNotations.

(* what the list reading looks at in a byte is the same after lower-casing it; one pass over the bytes for all of it *)
Lemma low_classes b :
  is_ows (to_lower b) = is_ows b /\ byte_eqb (to_lower b) x2c = byte_eqb b x2c
  /\ byte_eqb (to_lower b) x3b = byte_eqb b x3b /\ is_tchar (to_lower b) = is_tchar b.
Proof.
  assert (H : forall b, Bool.eqb (is_ows (to_lower b)) (is_ows b) && Bool.eqb (byte_eqb (to_lower b) x2c) (byte_eqb b x2c)
                        && Bool.eqb (byte_eqb (to_lower b) x3b) (byte_eqb b x3b) && Bool.eqb (is_tchar (to_lower b)) (is_tchar b) = true)
    by (apply forall_bytes; vm_compute; reflexivity).
  specialize (H b). repeat (apply andb_true_iff in H as [H ?]).
  repeat split; apply eqb_prop; assumption.
Qed.
Lemma low_ows b : is_ows (to_lower b) = is_ows b.
Proof. apply low_classes. Qed.
Lemma low_comma b : byte_eqb (to_lower b) x2c = byte_eqb b x2c.
Proof. apply low_classes. Qed.
Lemma low_semi b : byte_eqb (to_lower b) x3b = byte_eqb b x3b.
Proof. apply low_classes. Qed.
Lemma low_tchar b : is_tchar (to_lower b) = is_tchar b.
Proof. apply low_classes. Qed.

Lemma lower_app a b : lower (a ++ b) = lower a ++ lower b.
Proof. exact (Bytes.lower_app a b). Qed.

Lemma split_comma_lower s : forall cur, split_comma (lower s) (lower cur) = map lower (split_comma s cur).
Proof.
  induction s as [|x s IH]; intros cur; simpl.
  - rewrite lower_rev. reflexivity.
  - rewrite low_comma. destruct (byte_eqb x x2c).
    + simpl. rewrite lower_rev. f_equal. apply (IH []).
    + apply (IH (x :: cur)).
Qed.

Lemma ltrim_lower s : ltrim_ows (lower s) = lower (ltrim_ows s).
Proof. induction s as [|x s IH]; simpl; auto. rewrite low_ows. destruct (is_ows x); auto. Qed.
Lemma rtrim_lower s : rtrim_ows (lower s) = lower (rtrim_ows s).
Proof.
  induction s as [|x s IH]; simpl; auto. rewrite IH, low_ows.
  destruct (rtrim_ows s); simpl; auto. destruct (is_ows x); auto.
Qed.
Lemma trim_lower s : trim_ows (lower s) = lower (trim_ows s).
Proof. unfold trim_ows. rewrite ltrim_lower, rtrim_lower. reflexivity. Qed.

Lemma span_tchar_lower s : span is_tchar (lower s) = (lower (fst (span is_tchar s)), lower (snd (span is_tchar s))).
Proof.
  induction s as [|x s IH]; simpl; auto. rewrite low_tchar. destruct (is_tchar x); simpl; auto.
  change (map to_lower s) with (lower s). rewrite IH. destruct (span is_tchar s); reflexivity.
Qed.

Lemma coding_name_lower e : coding_name (lower e) = coding_name e.
Proof.
  unfold coding_name. rewrite span_tchar_lower. destruct (span is_tchar e) as [n r]. cbn [fst snd].
  rewrite lower_idem, ltrim_lower.
  destruct n as [|c n]; [reflexivity|].
  destruct (ltrim_ows r) as [|d r']; simpl; auto.
  rewrite low_semi. reflexivity.
Qed.

Lemma coding_names_lower es : coding_names (map lower es) = coding_names es.
Proof. induction es as [|e es IH]; simpl; auto. rewrite coding_name_lower, IH. reflexivity. Qed.

Definition nonempty_b (e : bytes) : bool := match e with [] => false | _ => true end.
Lemma filter_ne_lower es : filter nonempty_b (map lower es) = map lower (filter nonempty_b es).
Proof. induction es as [|e es IH]; simpl; auto. destruct e; simpl; rewrite IH; reflexivity. Qed.

Lemma list_elements_single v : list_elements [v] = filter nonempty_b (map trim_ows (split_comma v [])).
Proof. unfold list_elements. simpl. rewrite app_nil_r. reflexivity. Qed.

Lemma coding_names_elements_lower v :
  coding_names (list_elements [lower v]) = coding_names (list_elements [v]).
Proof.
  rewrite !list_elements_single.
  change (split_comma (lower v) []) with (split_comma (lower v) (lower [])).
  rewrite split_comma_lower, map_map.
  rewrite (map_ext (fun x => trim_ows (lower x)) (fun x => lower (trim_ows x))) by (intros; apply trim_lower).
  rewrite <- map_map, filter_ne_lower. apply coding_names_lower.
Qed.
