(* Proofs/MsgTextParse.v -- the Content-Type rewritten by the UTF-8 fallback of set_text always
   parses back with charset = utf-8:  header_charset (fallback_ctype ct) = Some utf-8, for every ct. *)
From Coq Require Import String.
From Coq Require Import List Bool NArith.
From MV Require Import Base.Bytes Model.MsgText.
Import ListNotations.

Lemma notin_cons c x (a : bytes) : ~ In c (x :: a) <-> byte_eqb x c = false /\ ~ In c a.
Proof.
  rewrite byte_eqb_neq. split.
  - intros H. split; [intros -> | intros Hi]; apply H; [left; reflexivity | right; exact Hi].
  - intros [Hx Ha] [E | Hi]; [exact (Hx E) | exact (Ha Hi)].
Qed.

Lemma split1_notin c a : ~ In c a -> split1 c a = (a, None).
Proof.
  induction a as [|x a IH]; intros H; cbn [split1]; [reflexivity|].
  apply notin_cons in H as [-> Ha]. rewrite (IH Ha). reflexivity.
Qed.

Lemma split1_app c a b : ~ In c a -> split1 c (a ++ c :: b) = (a, Some b).
Proof.
  induction a as [|x a IH]; intros H; cbn [split1 app].
  - rewrite byte_eqb_refl. reflexivity.
  - apply notin_cons in H as [-> Ha]. rewrite (IH Ha). reflexivity.
Qed.

Lemma split1_spec c s a ob : split1 c s = (a, ob) ->
  ~ In c a /\ match ob with Some b => s = a ++ c :: b | None => s = a end.
Proof.
  revert a ob. induction s as [|x s IH]; intros a ob H; cbn [split1] in H.
  - injection H as <- <-. split; [intros [] | reflexivity].
  - destruct (byte_eqb x c) eqn:E.
    + injection H as <- <-. apply byte_eqb_eq in E. subst. split; [intros [] | reflexivity].
    + destruct (split1 c s) as [a' b'] eqn:Es. injection H as <- <-.
      destruct (IH a' b' eq_refl) as [Hn Hs]. split; [apply notin_cons; split; assumption|].
      destruct b'; cbn [app]; congruence.
Qed.

Lemma split_on_notin c a : ~ In c a -> split_on c a = [a].
Proof.
  induction a as [|x a IH]; intros H; cbn [split_on]; [reflexivity|].
  apply notin_cons in H as [-> Ha]. rewrite (IH Ha). reflexivity.
Qed.

Lemma split_on_app c a r : ~ In c a -> split_on c (a ++ c :: r) = a :: split_on c r.
Proof.
  induction a as [|x a IH]; intros H; cbn [split_on app].
  - rewrite byte_eqb_refl. reflexivity.
  - apply notin_cons in H as [-> Ha]. rewrite (IH Ha). reflexivity.
Qed.

Lemma split_on_pieces c s : Forall (fun p => ~ In c p) (split_on c s).
Proof.
  induction s as [|x s IH]; cbn [split_on].
  - constructor; [intros [] | constructor].
  - destruct (byte_eqb x c) eqn:E.
    + constructor; [intros [] | exact IH].
    + destruct (split_on c s) as [|h t].
      * constructor; [apply notin_cons; split; [exact E | intros []] | constructor].
      * inversion IH as [|? ? Hh Ht]; subst. constructor; [apply notin_cons; split; assumption | exact Ht].
Qed.

Lemma lstrip_In x s : In x (lstrip s) -> In x s.
Proof.
  induction s as [|y s IH]; cbn [lstrip]; [intros []|].
  destruct (is_ws y); intros H; [right; apply IH; exact H | exact H].
Qed.

Lemma rstrip_In x s : In x (rstrip s) -> In x s.
Proof.
  induction s as [|y s IH]; cbn [rstrip]; [intros []|].
  destruct (rstrip s) as [|r0 r] eqn:E.
  - destruct (is_ws y); [intros [] | intros [H | []]; left; exact H].
  - intros [H | H]; [left; exact H | right; apply IH; exact H].
Qed.

Lemma strip_In x s : In x (strip s) -> In x s.
Proof. unfold strip. intros H. apply lstrip_In, rstrip_In, H. Qed.

Lemma rstrip_cons_nonws x s : is_ws x = false -> rstrip (x :: s) = x :: rstrip s.
Proof. intros H. cbn [rstrip]. destruct (rstrip s); [rewrite H|]; reflexivity. Qed.

(* one step of rstrip, kept folded: [cbn] would also unfold the inner call *)
Lemma rstrip_cons x s : rstrip (x :: s)
  = match rstrip s with [] => if is_ws x then [] else [x] | r => x :: r end.
Proof. reflexivity. Qed.

Lemma rstrip_idem s : rstrip (rstrip s) = rstrip s.
Proof.
  induction s as [|x s IH]; [reflexivity|]. rewrite rstrip_cons.
  destruct (rstrip s) as [|r0 r] eqn:E.
  - destruct (is_ws x) eqn:W; [reflexivity|]. cbn [rstrip]. rewrite W. reflexivity.
  - rewrite rstrip_cons, IH. reflexivity.
Qed.

Lemma lstrip_head s : match lstrip s with [] => True | x :: _ => is_ws x = false end.
Proof.
  induction s as [|y s IH]; cbn [lstrip]; [exact I|].
  destruct (is_ws y) eqn:W; [exact IH | exact W].
Qed.

Lemma strip_idem s : strip (strip s) = strip s.
Proof.
  unfold strip. pose proof (lstrip_head s) as H. destruct (lstrip s) as [|x l]; [reflexivity|].
  rewrite (rstrip_cons_nonws x l H). cbn [lstrip]. rewrite H.
  rewrite <- (rstrip_cons_nonws x l H). apply rstrip_idem.
Qed.

Definition keys (d : dict) : list bytes := map fst d.

Lemma dict_get_set_same d k v : dict_get (dict_set d k v) k = Some v.
Proof.
  induction d as [|[k' v'] d IH]; cbn [dict_set dict_get].
  - rewrite bytes_eqb_refl. reflexivity.
  - destruct (bytes_eqb k' k) eqn:E; cbn [dict_get]; rewrite E; [reflexivity | exact IH].
Qed.

Lemma dict_set_notin d k v : ~ In k (keys d) -> dict_set d k v = d ++ [(k, v)].
Proof.
  induction d as [|[k' v'] d IH]; intros H; cbn [dict_set app]; [reflexivity|].
  destruct (bytes_eqb k' k) eqn:E.
  - apply bytes_eqb_eq in E. subst. destruct H. left. reflexivity.
  - rewrite IH; [reflexivity|]. intros Hi. apply H. right. exact Hi.
Qed.

Lemma in_keys_dict_set d k v x : In x (keys (dict_set d k v)) -> x = k \/ In x (keys d).
Proof.
  induction d as [|[k' v'] d IH]; cbn [dict_set]; [intros [<- | []]; left; reflexivity|].
  destruct (bytes_eqb k' k); cbn [keys map fst]; [right; assumption|].
  intros [<- | H]; [right; left; reflexivity | destruct (IH H); [left | right; right]; assumption].
Qed.

Lemma dict_set_nodup d k v : NoDup (keys d) -> NoDup (keys (dict_set d k v)).
Proof.
  induction d as [|[k' v'] d IH]; cbn [dict_set keys map fst]; intros H.
  - constructor; [intros [] | constructor].
  - destruct (bytes_eqb k' k) eqn:E; [exact H|]. inversion H as [|? ? Hk Hd]; subst.
    cbn [keys map fst]. constructor; [|exact (IH Hd)].
    intros Hi. apply in_keys_dict_set in Hi as [-> | Hi]; [rewrite bytes_eqb_refl in E; discriminate | exact (Hk Hi)].
Qed.

Lemma dict_set_Forall (P : bytes * bytes -> Prop) d k v :
  (forall k0 v0, P (k0, v0) -> P (k0, v)) -> P (k, v) -> Forall P d -> Forall P (dict_set d k v).
Proof.
  intros Hrep Hkv. induction 1 as [|[k' v'] d Hp Hd IH]; cbn [dict_set].
  - constructor; [exact Hkv | constructor].
  - destruct (bytes_eqb k' k) eqn:E.
    + apply bytes_eqb_eq in E. subst k'. constructor; [exact Hkv | exact Hd].
    + constructor; [exact Hp | exact IH].
Qed.

Definition setp (acc : dict) (p : bytes * bytes) : dict := dict_set acc (fst p) (snd p).

Lemma fold_setp d : forall acc, NoDup (keys (acc ++ d)) -> fold_left setp d acc = acc ++ d.
Proof.
  induction d as [|[k v] d IH]; intros acc H; cbn [fold_left]; [symmetry; apply app_nil_r|].
  unfold setp at 2. cbn [fst snd]. rewrite dict_set_notin.
  - rewrite IH; rewrite <- app_assoc; [reflexivity | exact H].
  - unfold keys in H. rewrite map_app in H. apply NoDup_remove_2 in H.
    intros Hi. apply H, in_or_app. left. exact Hi.
Qed.

(* what parse_content_type guarantees of its parameter dictionary, and what re-parsing needs *)
Definition wf_entry (p : bytes * bytes) : Prop :=
  ~ In semi (fst p) /\ ~ In eqs (fst p) /\ strip (fst p) = fst p
  /\ ~ In semi (snd p) /\ strip (snd p) = snd p.

Definition wf_dict (d : dict) : Prop := Forall wf_entry d /\ NoDup (keys d).

Lemma wf_dict_set d k v : wf_dict d -> wf_entry (k, v) -> wf_dict (dict_set d k v).
Proof.
  intros [HF HN] Hkv. split; [|apply dict_set_nodup; exact HN].
  apply dict_set_Forall; [|exact Hkv | exact HF].
  intros k0 v0 (Ksemi & Keq & Kstrip & _ & _). destruct Hkv as (_ & _ & _ & Vsemi & Vstrip). cbn [fst snd] in *.
  repeat split; assumption.
Qed.

Lemma add_clause_wf d i : ~ In semi i -> wf_dict d -> wf_dict (add_clause d i).
Proof.
  intros Hi Hd. unfold add_clause. destruct (split1 eqs i) as [k [v|]] eqn:E; [|exact Hd].
  destruct (split1_spec _ _ _ _ E) as [Hk Hs]. apply wf_dict_set; [exact Hd|].
  assert (Hks : ~ In semi k) by (intros H; apply Hi; rewrite Hs; apply in_or_app; left; exact H).
  assert (Hvs : ~ In semi v) by (intros H; apply Hi; rewrite Hs; apply in_or_app; right; right; exact H).
  unfold wf_entry. cbn [fst snd]. repeat split.
  - intros H. apply Hks, (strip_In _ _ H).
  - intros H. apply Hk, (strip_In _ _ H).
  - apply strip_idem.
  - intros H. apply Hvs, (strip_In _ _ H).
  - apply strip_idem.
Qed.

Lemma fold_add_clause_wf l : Forall (fun p => ~ In semi p) l -> forall d, wf_dict d ->
  wf_dict (fold_left add_clause l d).
Proof.
  induction 1 as [|i l Hi Hl IH]; intros d Hd; cbn [fold_left]; [exact Hd|].
  apply IH, add_clause_wf; assumption.
Qed.

(* lowering only ever produces a new byte that is a lower-case letter *)
Lemma to_lower_not (c : byte) : is_lower c = false -> forall y, to_lower y = c -> y = c.
Proof.
  intros Hc y Hy.
  pose proof (forall_bytes (fun y => implb (is_upper y) (is_lower (to_lower y))) ltac:(vm_compute; reflexivity) y) as H.
  cbv beta in H. destruct (is_upper y) eqn:U.
  - rewrite Hy, Hc in H. discriminate H.
  - unfold to_lower in Hy. rewrite U in Hy. exact Hy.
Qed.

Lemma lower_notin c s : is_lower c = false -> ~ In c s -> ~ In c (lower s).
Proof.
  intros Hc Hn Hi. unfold lower in Hi. apply in_map_iff in Hi as (y & Hy & Hin).
  apply (to_lower_not c Hc) in Hy. subst. exact (Hn Hin).
Qed.

Lemma parse_wf c t st d : parse_content_type c = Some (t, st, d) ->
  ~ In semi t /\ ~ In slash t /\ ~ In semi st /\ wf_dict d.
Proof.
  unfold parse_content_type. destruct (split1 semi c) as [p0 rest] eqn:E0.
  destruct (split1 slash p0) as [t0 [st0|]] eqn:E1; [|discriminate].
  intros H. injection H as <- <- <-.
  destruct (split1_spec _ _ _ _ E0) as [Hp0 _]. destruct (split1_spec _ _ _ _ E1) as [Ht0 Hs].
  assert (A : ~ In semi t0) by (intros H; apply Hp0; rewrite Hs; apply in_or_app; left; exact H).
  assert (Hst0 : ~ In semi st0) by (intros H; apply Hp0; rewrite Hs; apply in_or_app; right; right; exact H).
  split; [|split; [|split]]; try (apply lower_notin; [reflexivity | assumption]).
  destruct rest as [r|]; [|split; constructor].
  apply fold_add_clause_wf; [apply split_on_pieces | split; constructor].
Qed.

(* re-parsing an assembled content type: each clause " k=v" sets k to v again *)
Definition sp_kv (p : bytes * bytes) : bytes := x20 :: kv p.

Lemma kv_nosemi p : wf_entry p -> ~ In semi (sp_kv p).
Proof.
  intros (A & _ & _ & D & _). unfold sp_kv, kv. intros [H | H]; [discriminate H|].
  apply in_app_or in H as [H | H]; [exact (A H)|].
  cbn [app] in H. destruct H as [H | H]; [discriminate H | exact (D H)].
Qed.

Lemma split_join d : d <> [] -> Forall wf_entry d ->
  split_on semi (x20 :: join (B "; ") (map kv d)) = map sp_kv d.
Proof.
  intros Hne HF. induction HF as [|p d Hp Hd IH]; [contradiction|].
  destruct d as [|q d'].
  - cbn [map join]. apply (split_on_notin semi (sp_kv p)). apply kv_nosemi, Hp.
  - change (map sp_kv (p :: q :: d')) with (sp_kv p :: map sp_kv (q :: d')). rewrite <- IH by discriminate.
    exact (split_on_app semi (sp_kv p) (x20 :: join (B "; ") (map kv (q :: d'))) (kv_nosemi p Hp)).
Qed.

Lemma add_clause_sp_kv acc p : wf_entry p -> add_clause acc (sp_kv p) = setp acc p.
Proof.
  intros (_ & Keq & Hks & _ & Hvs). unfold add_clause, sp_kv, kv.
  change (x20 :: fst p ++ [eqs] ++ snd p) with ((x20 :: fst p) ++ eqs :: snd p).
  rewrite split1_app.
  - change (strip (x20 :: fst p)) with (strip (fst p)). rewrite Hks, Hvs. reflexivity.
  - intros [H | H]; [discriminate H | exact (Keq H)].
Qed.

Lemma fold_add_clause_sp_kv d : Forall wf_entry d -> forall acc,
  fold_left add_clause (map sp_kv d) acc = fold_left setp d acc.
Proof.
  induction 1 as [|p d Hp Hd IH]; intros acc; cbn [map fold_left]; [reflexivity|].
  rewrite add_clause_sp_kv by exact Hp. apply IH.
Qed.

Lemma parse_assemble t st d : ~ In semi t -> ~ In slash t -> ~ In semi st ->
  d <> [] -> wf_dict d ->
  parse_content_type (assemble_content_type t st d) = Some (lower t, lower st, d).
Proof.
  intros Ht Hsl Hst Hne [HF HN]. unfold parse_content_type, assemble_content_type.
  destruct d as [|p0 d0] eqn:Ed; [contradiction|]. rewrite <- Ed in *.
  change (t ++ [slash] ++ st ++ B "; " ++ join (B "; ") (map kv d))
    with (t ++ [slash] ++ st ++ semi :: x20 :: join (B "; ") (map kv d)).
  replace (t ++ [slash] ++ st ++ semi :: x20 :: join (B "; ") (map kv d))
    with ((t ++ slash :: st) ++ semi :: (x20 :: join (B "; ") (map kv d)))
    by (rewrite <- app_assoc; reflexivity).
  rewrite split1_app.
  2:{ intros H. apply in_app_or in H as [H | [H | H]]; [exact (Ht H) | discriminate H | exact (Hst H)]. }
  rewrite (split1_app slash t st Hsl), (split_join d Hne HF), fold_add_clause_sp_kv by exact HF.
  rewrite (fold_setp d [] HN). reflexivity.
Qed.

Theorem fallback_charset ct : header_charset (fallback_ctype ct) = Some (B "utf-8").
Proof.
  unfold fallback_ctype. destruct (parse_content_type ct) as [[[t st] d]|] eqn:E; [|vm_compute; reflexivity].
  destruct (parse_wf _ _ _ _ E) as (Ht & Hsl & Hst & Hd).
  unfold header_charset. rewrite parse_assemble; try assumption.
  - apply dict_get_set_same.
  - destruct d as [|[k' v'] d']; cbn [dict_set]; [discriminate|]. destruct (bytes_eqb k' (B "charset")); discriminate.
  - apply wf_dict_set; [exact Hd|]. unfold wf_entry. cbn [fst snd].
    repeat split; try (vm_compute; reflexivity);
      intros H; vm_compute in H; repeat (destruct H as [H | H]; [discriminate H|]); exact H.
Qed.
