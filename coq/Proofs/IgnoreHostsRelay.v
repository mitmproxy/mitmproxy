(* Proofs/IgnoreHostsRelay.v -- C19.  NextLayer + TCPLayer(ignore=True): for EVERY configuration and EVERY
   event list, the payloads sent to one peer are exactly the payloads that arrived from the other peer, chunk
   by chunk and in order, including those buffered before the decision; nothing else is ever sent. *)
From Coq Require Import List Bool NArith Lia.
From MV Require Import Base.Bytes Model.ClientHello Model.IgnoreHosts.
Import ListNotations.

Lemma data_of_app fc a b : data_of fc (a ++ b) = data_of fc a ++ data_of fc b.
Proof. unfold data_of. apply flat_map_app. Qed.
Lemma sent_app ts a b : sent ts (a ++ b) = sent ts a ++ sent ts b.
Proof. unfold sent. apply flat_map_app. Qed.

(* the layer part of the state; env_arrive and env_cmd only touch the connection part *)
Definition same_layer (s s' : st) : Prop := ph s' = ph s /\ nl_events s' = nl_events s /\ tq s' = tq s.

Lemma env_arrive_layer s e : same_layer s (env_arrive s e).
Proof. destruct e as [fc d|[|]|[|]]; repeat split. Qed.
Lemma env_cmd_layer s c : same_layer s (env_cmd s c).
Proof. destruct c as [| |ts d| |[|]|[|]]; repeat split. Qed.
Lemma env_cmds_layer o : forall s, same_layer s (fold_left env_cmd o s).
Proof.
  induction o as [|c o IH]; intros s; [repeat split|].
  destruct (IH (env_cmd s c)) as (A & B & C). destruct (env_cmd_layer s c) as (A' & B' & C').
  cbn [fold_left]. unfold same_layer. rewrite A, B, C. auto.
Qed.

Lemma relay_one_sent s fc e : sent fc (snd (relay_one s e)) = data_of fc [e].
Proof.
  destruct e as [f d|f|ok]; cbn [relay_one]; [reflexivity| |reflexivity].
  destruct (negb (c_rd s || s_rd s)); [|reflexivity].
  destruct (s_rd s || s_wr s), (c_rd s || c_wr s); reflexivity.
Qed.

Lemma relay_one_phase s e : fst (relay_one s e) = PRelay \/ fst (relay_one s e) = PDone.
Proof. destruct e as [f d|f|ok]; cbn [relay_one]; auto. destruct (negb (c_rd s || s_rd s)); auto. Qed.

Lemma relay_many_spec s fc : forall l p o,
  relay_many s PRelay l = (p, o) ->
  (p = PRelay /\ sent fc o = data_of fc l) \/
  (p = PDone /\ exists rest, data_of fc l = sent fc o ++ rest).
Proof.
  induction l as [|e l IH]; intros p o H.
  - injection H as <- <-. left. auto.
  - cbn [relay_many] in H.
    pose proof (relay_one_sent s fc e) as S1. pose proof (relay_one_phase s e) as P1.
    destruct (relay_one s e) as [p1 o1]. cbn [fst snd] in *.
    destruct (relay_many s p1 l) as [p2 o2] eqn:R2. injection H as <- <-.
    change (e :: l) with ([e] ++ l). rewrite sent_app, data_of_app, S1.
    destruct P1 as [-> | ->].
    + destruct (IH _ _ R2) as [[-> E]|[-> [rest E]]].
      * left. rewrite E. auto.
      * right. split; [reflexivity|]. exists rest. rewrite E, app_assoc. reflexivity.
    + assert (R : relay_many s PDone l = (PDone, [])) by (destruct l; reflexivity).
      rewrite R in R2. injection R2 as <- <-. right. split; [reflexivity|].
      exists (data_of fc l). change (sent fc []) with (@nil bytes). rewrite app_nil_r. reflexivity.
Qed.

Section Relay.
  Variable pat : Type.
  Variable re_search : pat -> bytes -> bool.
  Variable ace_ok : bytes -> bool.
  Variable c : cfg pat.
  Notation layer_step := (layer_step re_search ace_ok c).
  Notation step := (step re_search ace_ok c).
  Notation run := (run re_search ace_ok c).

  (* A = payloads that have arrived from one peer, Snt = payloads sent to the other *)
  Definition inv (fc : bool) (s : st) (A Snt : list bytes) : Prop :=
    match ph s with
    | PUndecided => Snt = [] /\ tq s = [] /\ A = data_of fc (nl_events s)
    | PWaitOpen => Snt = [] /\ nl_events s = [] /\ A = data_of fc (tq s)
    | PRelay => A = Snt /\ nl_events s = [] /\ tq s = []
    | PDone => exists rest, A = Snt ++ rest
    | POther => Snt = []
    end.

  (* the buffered events go through relay_messages when the relaying layer starts *)
  Lemma inv_relay_many fc s evs p o :
    relay_many s PRelay evs = (p, o) -> inv fc (set_ph s p [] []) (data_of fc evs) (sent fc o).
  Proof.
    intros R. unfold inv. cbn [ph set_ph nl_events tq].
    destruct (relay_many_spec s fc _ _ _ R) as [[-> E]|[-> [rest E]]]; [auto | exists rest; exact E].
  Qed.

  Lemma layer_step_inv fc s e s' o A Snt :
    inv fc s A Snt -> layer_step s e = (s', o) ->
    inv fc s' (A ++ data_of fc [e]) (Snt ++ sent fc o).
  Proof.
    intros I H. unfold inv in I. unfold IgnoreHosts.layer_step in H.
    destruct (ph s) eqn:P.
    - (* undecided: the event is buffered; a decision to ignore starts the relaying layer *)
      destruct I as [-> [Q ->]]. rewrite <- data_of_app.
      assert (B : forall o, sent fc o = [] ->
                  inv fc (set_ph s PUndecided (nl_events s ++ [e]) []) (data_of fc (nl_events s ++ [e])) ([] ++ sent fc o))
        by (intros o0 ->; unfold inv; cbn [ph set_ph nl_events tq]; auto).
      destruct e as [f d|[|]|ok]; try (injection H as <- <-; apply B; reflexivity).
      destruct (ignore_connection re_search ace_ok c _ _) as [|[|] hs].
      + injection H as <- <-. apply B. reflexivity.
      + destruct (s_started s).
        * destruct (relay_many s PRelay (nl_events s ++ [EData f d])) as [p o'] eqn:R.
          injection H as <- <-. exact (inv_relay_many fc s _ p o' R).
        * injection H as <- <-. unfold inv. cbn [ph set_ph nl_events tq]. auto.
      + injection H as <- <-. reflexivity.
    - (* waiting for the server connection: the event is queued, or the queue is relayed *)
      destruct I as [-> [Q ->]]. rewrite <- data_of_app.
      destruct e as [f d|f|[|]]; try (injection H as <- <-; unfold inv; cbn [ph set_ph nl_events tq]; auto).
      + destruct (relay_many s PRelay (tq s)) as [p o'] eqn:R. injection H as <- <-.
        rewrite data_of_app, app_nil_r. exact (inv_relay_many fc s _ p o' R).
      + unfold inv. cbn [ph set_ph]. exists (data_of fc (tq s ++ [EOpened false])). reflexivity.
    - (* relaying *)
      destruct I as [-> [Q1 Q2]].
      pose proof (relay_one_sent s fc e) as S1. pose proof (relay_one_phase s e) as P1.
      destruct (relay_one s e) as [p o']. injection H as <- <-. unfold inv. cbn [fst snd ph set_ph nl_events tq] in *.
      rewrite S1. destruct P1 as [-> | ->]; [auto | exists []; rewrite app_nil_r; reflexivity].
    - (* done *)
      injection H as <- <-. change (sent fc []) with (@nil bytes). rewrite app_nil_r.
      unfold inv. rewrite P. destruct I as [rest ->].
      exists (rest ++ data_of fc [e]). rewrite app_assoc. reflexivity.
    - injection H as <- <-. change (sent fc []) with (@nil bytes). rewrite app_nil_r.
      unfold inv. rewrite P. exact I.
  Qed.

  Lemma inv_env fc s s' A Snt : same_layer s s' -> inv fc s A Snt -> inv fc s' A Snt.
  Proof. unfold inv. intros (-> & -> & ->). auto. Qed.

  Lemma step_inv fc s e s' o A Snt :
    inv fc s A Snt -> step s e = (s', o) -> inv fc s' (A ++ data_of fc [e]) (Snt ++ sent fc o).
  Proof.
    intros I H. unfold IgnoreHosts.step in H.
    destruct (layer_step (env_arrive s e) e) as [s1 o1] eqn:L. injection H as <- <-.
    apply (inv_env fc s1 _ _ _ (env_cmds_layer o1 s1)).
    apply (layer_step_inv fc (env_arrive s e) e s1 o1 A Snt); [|exact L].
    apply (inv_env fc s _ _ _ (env_arrive_layer s e)). exact I.
  Qed.

  Lemma run_inv fc : forall l s s' o A Snt,
    inv fc s A Snt -> run s l = (s', o) -> inv fc s' (A ++ data_of fc l) (Snt ++ sent fc o).
  Proof.
    induction l as [|e l IH]; intros s s' o A Snt I H.
    - injection H as <- <-. simpl. rewrite !app_nil_r. exact I.
    - cbn [IgnoreHosts.run] in H.
      destruct (step s e) as [s1 o1] eqn:E1. destruct (run s1 l) as [s2 o2] eqn:E2. injection H as <- <-.
      change (e :: l) with ([e] ++ l). rewrite data_of_app, sent_app, !app_assoc.
      apply (IH s1 s2 o2); [|exact E2]. apply (step_inv fc s e s1 o1); assumption.
  Qed.

  Lemma inv_init fc so : inv fc (init so) [] [].
  Proof. unfold inv. simpl. auto. Qed.

  Theorem relay_exact (so : bool) (l : list ev) (fc : bool) :
    let '(s, o) := run (init so) l in
    (ph s = PRelay -> sent fc o = data_of fc l) /\
    (ph s = PUndecided \/ ph s = PWaitOpen ->
       sent fc o = [] /\ data_of fc l = data_of fc (nl_events s ++ tq s)) /\
    (ph s = PDone -> exists rest, data_of fc l = sent fc o ++ rest) /\
    (ph s = POther -> sent fc o = []).
  Proof.
    destruct (run (init so) l) as [s o] eqn:R.
    pose proof (run_inv fc l (init so) s o [] [] (inv_init fc so) R) as I. simpl in I.
    unfold inv in I. split; [|split; [|split]].
    - intros P. rewrite P in I. destruct I as [E _]. auto.
    - intros [P|P]; rewrite P in I; destruct I as [E [Q D]];
        (split; [exact E | rewrite Q, D, ?app_nil_r; reflexivity]).
    - intros P. rewrite P in I. exact I.
    - intros P. rewrite P in I. exact I.
  Qed.

  Lemma data_of_map fc segs : data_of fc (map (EData true) segs) = if fc then segs else [].
  Proof.
    induction segs as [|x segs IH]; [destruct fc; reflexivity|].
    change (map (EData true) (x :: segs)) with ([EData true x] ++ map (EData true) segs).
    rewrite data_of_app, IH. destruct fc; reflexivity.
  Qed.

  Lemma relay_many_data s f : forall l, fst (relay_many s PRelay (map (EData f) l)) = PRelay.
  Proof.
    induction l as [|d l IH]; [reflexivity|]. cbn [map relay_many relay_one].
    destruct (relay_many s PRelay (map (EData f) l)). exact IH.
  Qed.

  Lemma step_data_ph s f d : ph s <> PUndecided -> ph (fst (step s (EData f d))) = ph s.
  Proof.
    intros N. unfold IgnoreHosts.step. cbn [env_arrive]. unfold IgnoreHosts.layer_step.
    destruct (ph s) eqn:P; try contradiction; cbn [relay_one]; simpl; try exact P; reflexivity.
  Qed.

  Lemma run_data_ph : forall segs s, ph s <> PUndecided -> ph (fst (run s (map (EData true) segs))) = ph s.
  Proof.
    induction segs as [|x segs IH]; intros s N; [reflexivity|].
    cbn [map IgnoreHosts.run]. pose proof (step_data_ph s true x N) as E.
    destruct (step s (EData true x)) as [s1 o1]. simpl in E.
    assert (N1 : ph s1 <> PUndecided) by (rewrite E; exact N).
    specialize (IH s1 N1). destruct (run s1 (map (EData true) segs)) as [s2 o2]. simpl in *. congruence.
  Qed.

  Lemma run_cons_fst s e l : fst (run s (e :: l)) = fst (run (fst (step s e)) l).
  Proof.
    cbn [IgnoreHosts.run]. destruct (step s e) as [s1 o1]. cbn [fst]. destruct (run s1 l) as [s2 o2]. reflexivity.
  Qed.

  Lemma step_undecided_data s pre x :
    ph s = PUndecided -> nl_events s = map (EData true) pre ->
    let s1 := fst (step s (EData true x)) in
    match ignore_connection re_search ace_ok c (concat pre ++ x) [] with
    | NeedsMore => ph s1 = PUndecided /\ nl_events s1 = map (EData true) (pre ++ [x])
                   /\ s_started s1 = s_started s
    | Decided true _ => ph s1 = if s_started s then PRelay else PWaitOpen
    | Decided false _ => ph s1 = POther
    end.
  Proof.
    intros P E. unfold IgnoreHosts.step. cbn [env_arrive]. unfold IgnoreHosts.layer_step. rewrite P, E.
    change [EData true x] with (map (EData true) [x]). rewrite <- map_app, !data_of_map.
    rewrite concat_app. cbn [concat]. rewrite app_nil_r.
    destruct (ignore_connection re_search ace_ok c (concat pre ++ x) []) as [|[|] hs] eqn:D.
    - cbn [fold_left env_cmd fst ph tq nl_events set_ph s_started]. auto.
    - destruct (s_started s) eqn:SS; [|reflexivity].
      pose proof (relay_many_data s true (pre ++ [x])) as R.
      destruct (relay_many s PRelay (map (EData true) (pre ++ [x]))) as [p o']. simpl in R. subst p.
      cbn [fst]. apply (env_cmds_layer (CAsk :: o') (set_ph s PRelay [] [])).
    - reflexivity.
  Qed.

  Lemma run_first_decision : forall segs s pre,
    ph s = PUndecided -> nl_events s = map (EData true) pre ->
    match first_decision re_search ace_ok c (concat pre) segs with
    | NeedsMore => ph (fst (run s (map (EData true) segs))) = PUndecided
    | Decided true _ => ph (fst (run s (map (EData true) segs))) = if s_started s then PRelay else PWaitOpen
    | Decided false _ => ph (fst (run s (map (EData true) segs))) = POther
    end.
  Proof.
    induction segs as [|x segs IH]; intros s pre P E; [exact P|].
    cbn [map IgnoreHosts.first_decision]. rewrite !run_cons_fst.
    pose proof (step_undecided_data s pre x P E) as K. cbn zeta in K.
    destruct (ignore_connection re_search ace_ok c (concat pre ++ x) []) as [|[|] hs] eqn:D.
    - destruct K as [P1 [E1 S1]].
      specialize (IH _ (pre ++ [x]) P1 E1). rewrite concat_app, S1 in IH. cbn [concat] in IH.
      rewrite app_nil_r in IH. exact IH.
    - rewrite run_data_ph; [exact K | rewrite K; destruct (s_started s); discriminate].
    - rewrite run_data_ph; [exact K | rewrite K; discriminate].
  Qed.

  Theorem ignored_first_flight_forwarded (segs : list bytes) hs :
    first_decision re_search ace_ok c [] segs = Decided true hs ->
    let '(s, o) := run (init true) (map (EData true) segs) in
    ph s = PRelay /\ sent true o = segs /\ sent false o = [].
  Proof.
    intros D. pose proof (run_first_decision segs (init true) [] eq_refl eq_refl) as K.
    simpl concat in K. rewrite D in K. simpl in K.
    pose proof (relay_exact true (map (EData true) segs) true) as T1.
    pose proof (relay_exact true (map (EData true) segs) false) as T2.
    destruct (run (init true) (map (EData true) segs)) as [s o]. simpl in K.
    destruct T1 as [T1 _]. destruct T2 as [T2 _].
    rewrite (T1 K), (T2 K), !data_of_map. auto.
  Qed.
End Relay.
