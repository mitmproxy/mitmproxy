(* Proofs/Http1Lines.v -- the line layer of the reference parser on CRLF-terminated lines: what a clean line is,
   and how lines, heads and chunk-size lines written with CRLF are read back. *)
From Coq Require Import List Bool NArith ZArith Lia.
From MV Require Import Base.Bytes Model.Rfc9112.
Import ListNotations.

Definition no_lf (l : bytes) : bool := negb (existsb (byte_eqb rLF) l).
Definition clean (l : bytes) : bool := negb (existsb is_cr_or_nul l) && no_lf l.

Lemma clean_cons x l : clean (x :: l) = negb (is_cr_or_nul x) && negb (byte_eqb rLF x) && clean l.
Proof.
  unfold clean, no_lf. cbn [existsb]. rewrite !negb_orb.
  destruct (is_cr_or_nul x), (byte_eqb rLF x), (existsb is_cr_or_nul l); reflexivity.
Qed.

Lemma clean_In l c : clean l = true -> In c l -> is_cr_or_nul c = false /\ byte_eqb rLF c = false.
Proof.
  induction l as [|x l IH]; intros C H; [contradiction|].
  rewrite clean_cons in C. apply andb_true_iff in C as [C1 C2]. destruct H as [->|H]; [|auto].
  apply andb_true_iff in C1 as [A B]. split; apply negb_true_iff; assumption.
Qed.

Lemma clean_app (a c : bytes) : clean (a ++ c) = clean a && clean c.
Proof.
  unfold clean, no_lf. rewrite !existsb_app, !negb_orb.
  destruct (existsb is_cr_or_nul a), (existsb is_cr_or_nul c), (existsb (byte_eqb rLF) a), (existsb (byte_eqb rLF) c); reflexivity.
Qed.

Lemma forallb_clean p s : (forall b, p b = true -> is_cr_or_nul b = false /\ byte_eqb rLF b = false) ->
  forallb p s = true -> clean s = true.
Proof.
  intros Hp. unfold clean, no_lf. induction s as [|x s IH]; simpl; auto. intros H. apply andb_true_iff in H as [A B0].
  destruct (Hp _ A) as [P Q]. rewrite P, Q. apply IH, B0.
Qed.

Lemma read_raw_line_app l rest : no_lf l = true ->
  read_raw_line (l ++ [rCR; rLF] ++ rest) = Some (l ++ [rCR], rest).
Proof.
  unfold no_lf. induction l as [|x l IH]; simpl; intros H; auto.
  apply negb_true_iff in H. apply orb_false_iff in H as [A B].
  assert (byte_eqb x rLF = false).
  { destruct (byte_eqb x rLF) eqn:E; auto. apply byte_eqb_eq in E; subst. discriminate. }
  rewrite H. simpl in IH. rewrite IH; auto. apply negb_true_iff, B.
Qed.

Lemma strip_cr_app l : strip_cr (l ++ [rCR]) = Some l.
Proof.
  induction l as [|x l IH]; simpl; auto.
  rewrite IH. destruct (l ++ [rCR]) eqn:E; auto. destruct l; discriminate.
Qed.

Lemma clean_line_crlf o l : clean l = true -> clean_line o (l ++ [rCR]) = Some l.
Proof.
  unfold clean, clean_line. intros H. apply andb_true_iff in H as [A _]. apply negb_true_iff in A.
  rewrite strip_cr_app, A. reflexivity.
Qed.

Lemma read_line_crlf o l rest : clean l = true -> read_line o (l ++ [rCR; rLF] ++ rest) = Some (Some l, rest).
Proof.
  intros H. unfold read_line. rewrite read_raw_line_app.
  - rewrite clean_line_crlf; auto.
  - unfold clean in H. apply andb_true_iff in H as [_ B]. exact B.
Qed.

Lemma head_lines_line l s cur : no_lf l = true ->
  head_lines (l ++ s) cur = head_lines s (rev l ++ cur).
Proof.
  unfold no_lf. revert cur. induction l as [|x l IH]; intros cur H; simpl; auto.
  simpl in H. apply negb_true_iff in H. apply orb_false_iff in H as [A B].
  assert (E : byte_eqb x rLF = false).
  { destruct (byte_eqb x rLF) eqn:E; auto. apply byte_eqb_eq in E; subst. discriminate. }
  rewrite E, IH by (apply negb_true_iff, B). rewrite <- app_assoc. reflexivity.
Qed.

Fixpoint wire (ls : list bytes) : bytes :=
  match ls with [] => [] | l :: ls' => l ++ [rCR; rLF] ++ wire ls' end.

Lemma head_lines_wire ls rest :
  forallb (fun l => no_lf l && match l with [] => false | _ => true end) ls = true ->
  head_lines (wire ls ++ [rCR; rLF] ++ rest) [] = Some (map (fun l => l ++ [rCR]) ls, [rCR], rest).
Proof.
  induction ls as [|l ls IH]; intros H.
  - reflexivity.
  - simpl in H. apply andb_true_iff in H as [A B]. apply andb_true_iff in A as [A1 A2].
    cbn [wire]. rewrite <- !app_assoc. rewrite head_lines_line by assumption.
    cbn [app head_lines]. change (byte_eqb rCR rLF) with false. cbv iota.
    cbn [head_lines]. change (byte_eqb rLF rLF) with true. cbv iota.
    assert (Hb : is_blank_raw (rev (rCR :: rev l ++ [])) = false).
    { rewrite app_nil_r. simpl. rewrite rev_involutive. destruct l as [|x [|y l]]; try discriminate; reflexivity. }
    rewrite Hb. specialize (IH B). cbn [app] in IH. rewrite IH.
    rewrite app_nil_r. simpl rev. rewrite rev_involutive. reflexivity.
Qed.

Lemma clean_lines_wire o ls : forallb clean ls = true -> clean_lines o (map (fun l => l ++ [rCR]) ls) = Some ls.
Proof.
  induction ls as [|l ls IH]; simpl; auto. intros H. apply andb_true_iff in H as [A B].
  rewrite clean_line_crlf, IH; auto.
Qed.

Lemma span_all p s rest : forallb p s = true -> (match rest with [] => true | c :: _ => negb (p c) end) = true ->
  span p (s ++ rest) = (s, rest).
Proof.
  induction s as [|x s IH]; simpl; intros H R.
  - destruct rest as [|c r]; auto. simpl. apply negb_true_iff in R. rewrite R. reflexivity.
  - apply andb_true_iff in H as [A B]. rewrite A, IH; auto.
Qed.
