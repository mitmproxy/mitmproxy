(* Proofs/EncodingC31.v -- histories: the cache invariant holds after any sequence of calls, so the
   state-level statements of EncodingCache.v / EncodingMsg.v apply to [run h]. *)
From Coq Require Import List Bool NArith.
From MV Require Import Base.Bytes Model.Encoding Proofs.EncodingCache Proofs.EncodingMsg.
Import ListNotations.

Section Hist.
Variable C : codecs.
Variable lenient : bool.

Lemma inv_step st c : contract C -> Inv C st -> Inv C (step C lenient st c).
Proof.
  intros K I. destruct c; cbn [step].
  - apply inv_decode; assumption.
  - apply inv_encode; assumption.
  - apply inv_set_content; assumption.
  - apply inv_get_content; assumption.
  - apply inv_msg_decode; assumption.
  - apply inv_msg_encode; assumption.
Qed.

Lemma inv_run_from h : forall st, contract C -> Inv C st -> Inv C (run_from C lenient st h).
Proof.
  induction h as [| c h IH]; intros st K I; [exact I |].
  cbn [run_from fold_left]. apply IH; [exact K | apply inv_step; assumption].
Qed.

Lemma inv_run h : contract C -> Inv C (run C lenient h).
Proof. intros K. apply inv_run_from; [exact K | exact Logic.I]. Qed.

(* set_get_roundtrip with histories before the assignment and before the read *)
Lemma hist_set_get_roundtrip (h h2 : list call) (m : msg) (v : bytes) o m' st' (strict : bool) :
  contract C ->
  supported (lower (coding_of m)) = true ->
  set_content C lenient (run C lenient h) m (Some v) = (o, m', st') ->
  o = Done /\ m_ce m' = m_ce m /\ m_te m' = m_te m
  /\ (exists e, m_raw m' = Some e /\ pure_decode C (lower (coding_of m)) s_strict e = PBytes v)
  /\ fst (get_content C lenient (run_from C lenient st' h2) m' strict) = GBytes v.
Proof.
  intros K S E. pose proof (inv_run h K) as I.
  destruct (set_get_roundtrip C lenient _ m v o m' st' K I S E) as (A & B & T & D & G).
  repeat split; try assumption. apply G. apply inv_run_from; [exact K |].
  pose proof (inv_set_content C lenient _ m (Some v) K I) as J. rewrite E in J. exact J.
Qed.

End Hist.
