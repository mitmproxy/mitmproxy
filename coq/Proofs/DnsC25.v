(* Proofs/DnsC25.v -- boolean checkers for the well-formedness predicates (so concrete
   witnesses are discharged by vm_compute) and the messages and buffers that Props/C25.v evaluates. *)
From Coq Require Import List Bool Arith NArith.
From MV Require Import Base.Bytes Model.DnsNames Model.DnsMessage Proofs.DnsNamesRT Proofs.DnsMessageRT.
Import ListNotations.

Definition wf_labelb (p : name) : bool :=
  match p with [] => false | _ => true end && (length p <? 64) && forallb is_ascii p && negb (has_ace p).
Definition wf_nameb (n : name) : bool := forallb wf_labelb (name_parts n).
Definition wf_qb (q : question) : bool :=
  wf_nameb (q_name q) && (q_type q <? 65536)%N && (q_class q <? 65536)%N.
Definition wf_rrb (r : rr) : bool :=
  wf_nameb (r_name r) && (r_type r <? 65536)%N && (r_class r <? 65536)%N
  && (r_ttl r <? 4294967296)%N && (N.of_nat (length (r_data r)) <? 65536)%N.
Definition rdata_guardb (r : rr) : bool :=
  negb (record_data_can_have_compression (r_type r)) || no_ptr_byte (r_data r).
Definition wf_msgb (m : message) : bool :=
  (m_id m <? 65536)%N && (m_op_code m <? 16)%N && (m_reserved m <? 8)%N && (m_rcode m <? 16)%N
  && (N.of_nat (length (m_questions m)) <? 65536)%N && (N.of_nat (length (m_answers m)) <? 65536)%N
  && (N.of_nat (length (m_authorities m)) <? 65536)%N && (N.of_nat (length (m_additionals m)) <? 65536)%N
  && forallb wf_qb (m_questions m) && forallb wf_rrb (m_answers m)
  && forallb wf_rrb (m_authorities m) && forallb wf_rrb (m_additionals m).

Lemma forallb_Forall {A} (f : A -> bool) (P : A -> Prop) l :
  (forall x, f x = true -> P x) -> forallb f l = true -> Forall P l.
Proof.
  intros H Hl. rewrite forallb_forall in Hl. apply Forall_forall. intros x Hx. apply H, Hl, Hx.
Qed.

Lemma wf_labelb_ok p : wf_labelb p = true -> wf_label p.
Proof.
  unfold wf_labelb, wf_label. intros H. repeat (apply andb_true_iff in H as [H ?]).
  repeat split; [destruct p; discriminate | apply Nat.ltb_lt; assumption | assumption
                | apply negb_true_iff; assumption].
Qed.

Lemma wf_nameb_ok n : wf_nameb n = true -> wf_name n.
Proof. apply forallb_Forall, wf_labelb_ok. Qed.

Lemma wf_qb_ok q : wf_qb q = true -> wf_q q.
Proof.
  unfold wf_qb, wf_q. intros H. repeat (apply andb_true_iff in H as [H ?]).
  repeat split; try (apply N.ltb_lt; assumption). apply wf_nameb_ok, H.
Qed.

Lemma wf_rrb_ok r : wf_rrb r = true -> wf_rr r.
Proof.
  unfold wf_rrb, wf_rr. intros H. repeat (apply andb_true_iff in H as [H ?]).
  repeat split; try (apply N.ltb_lt; assumption). apply wf_nameb_ok, H.
Qed.

Lemma rdata_guardb_ok r : rdata_guardb r = true -> rdata_guard r.
Proof.
  unfold rdata_guardb, rdata_guard. intros H Hc. rewrite Hc in H. exact H.
Qed.

Lemma wf_msgb_ok m : wf_msgb m = true -> wf_msg m.
Proof.
  unfold wf_msgb, wf_msg. intros H. repeat (apply andb_true_iff in H as [H ?]).
  repeat split; try (apply N.ltb_lt; assumption); eauto using forallb_Forall, wf_qb_ok, wf_rrb_ok.
Qed.

Definition example_com : name :=
  [x65;x78;x61;x6d;x70;x6c;x65;x2e;x63;x6f;x6d].

(* TXT data 02 c0 0c: a two-byte character-string that looks like a pointer to offset 12 *)
Definition txt_msg : message :=
  mkMsg 1 false 0 false false true true 0 0
    [mkQ example_com 16 1] [mkRR example_com 16 1 5 [x02; xc0; x0c]] [] [].

(* a message with a compressible-type record that satisfies the guard *)
Definition good_msg : message :=
  mkMsg 4660 false 0 true false true true 0 3
    [mkQ example_com 15 1]
    [mkRR example_com 15 1 300 [x00; x0a; x04; x6d; x61; x69; x6c; x00];
     mkRR example_com 1 1 4294967295 [xc0; x0c; xff; x01]] [] [mkRR [] 41 4096 0 []].

(* two questions: the root name at offset 12 and 03 www c0 0c at offset 17; TXT data c0 11 points at the
   second and decodes to the name www. with a trailing dot, which pack rejects *)
Definition value_error_buf : bytes :=
  [x00;x01;x81;x80;x00;x02;x00;x01;x00;x00;x00;x00;x00;x00;x01;x00;x01;x03;x77;x77;x77;xc0;x0c;
   x00;x01;x00;x01;x00;x00;x10;x00;x01;x00;x00;x00;x05;x00;x03;x02;xc0;x11].

(* the first question (offset 12) is a forward pointer c0 12; after re-encoding the offsets move and TXT
   data c0 13 hits a name *)
Definition reencode_buf : bytes :=
  [x00;x01;x81;x80;x00;x02;x00;x01;x00;x00;x00;x00;xc0;x12;x00;x01;x00;x01;x01;x61;x00;x00;x01;
   x00;x01;x00;x00;x10;x00;x01;x00;x00;x00;x05;x00;x03;x02;xc0;x13].

(* a question whose name 03 www c0 0c ends in a pointer to the root label: decodes to www. (trailing dot) *)
Definition not_packable_buf : bytes :=
  [x00;x01;x81;x80;x00;x02;x00;x00;x00;x00;x00;x00;x00;x00;x01;x00;x01;x03;x77;x77;x77;xc0;x0c;
   x00;x01;x00;x01].
