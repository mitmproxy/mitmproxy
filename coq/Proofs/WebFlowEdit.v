(* Proofs/WebFlowEdit.v -- C47: what FlowHandler.put leaves behind when it accepts or refuses, the
   vocabulary of invalid documents (invalid_document and its parts) with the proof that every variant
   refuses them, and the sample flow with the witnesses against the code as found. *)
From Coq Require Import Strings.String.
From Coq Require Import List Bool NArith ZArith.
From MV Require Import Base.Bytes Model.WebFlowEdit.
Import ListNotations.

(* the except clause catches e (vx: every exception; else only APIError), and what it restores is the
   flow as it was (vb: a snapshot; else flow.revert(), right only if this edit made the backup) *)
Definition guard (vx vb : bool) (f : flow) (e : exn) : Prop :=
  (vx = true \/ e = EApi) /\ (vb = true \/ f_backup f = None).

Lemma put_failed_restores : forall vx vb body f f' e,
  put vx vb body f = (f', Failed e) -> guard vx vb f e -> f' = f.
Proof.
  intros vx vb body f f' e H [Hx Hb]. unfold put in H.
  destruct (put_body body (f_cur (backup f))) as [c'|e0 c'|]; try discriminate.
  destruct (vx || is_api e0) eqn:C; inversion H; subst.
  - (* caught: the snapshot, or revert to a backup that backup() has just made *)
    destruct vb; [reflexivity|]. destruct Hb as [Hb|Hb]; [discriminate|].
    destruct f as [cur bk]. cbn in Hb. subst bk. reflexivity.
  - apply orb_false_iff in C as [C1 C2]. destruct Hx as [->| ->]; discriminate.
Qed.

Lemma put_all_or_nothing_repaired : forall body f,
  (exists c', put_body body (f_cur (backup f)) = Ok c'
              /\ put true true body f = (mkFlow c' (f_backup (backup f)), Done))
  \/ (fst (put true true body f) = f /\ snd (put true true body f) <> Done).
Proof.
  intros body f. unfold put.
  destruct (put_body body (f_cur (backup f))) as [c'|e c'|] eqn:E.
  - left. exists c'. split; reflexivity.
  - right. cbn. split; [reflexivity|discriminate].
  - right. cbn. split; [reflexivity|discriminate].
Qed.

Lemma put_outcome_variant_independent : forall vx vb vx' vb' body f,
  snd (put vx vb body f) = snd (put vx' vb' body f).
Proof.
  intros. unfold put.
  destruct (put_body body (f_cur (backup f))) as [c'|e c'|]; cbn; try reflexivity.
  destruct (vx || is_api e), (vx' || is_api e); reflexivity.
Qed.

Lemma put_done_backup : forall vx vb body f f',
  put vx vb body f = (f', Done) ->
  f_backup f' = Some (match f_backup f with Some b => b | None => f_cur f end).
Proof.
  intros vx vb body f f' H. unfold put in H.
  destruct (put_body body (f_cur (backup f))) as [c'|e c'|]; try discriminate.
  - inversion H; subst. destruct f as [cur bk]. destruct bk; reflexivity.
  - destruct (vx || is_api e); discriminate.
Qed.

Lemma put_done_revert : forall vx vb body f f',
  f_backup f = None -> put vx vb body f = (f', Done) -> revert f' = f.
Proof.
  intros vx vb body f f' Hb H. pose proof (put_done_backup _ _ _ _ _ H) as Hk.
  rewrite Hb in Hk. unfold revert. rewrite Hk. destruct f as [cur bk]. cbn in *. subst. reflexivity.
Qed.

Definition never_ok {S : Type} (step : ustr -> jv -> S -> res S) (k : ustr) (v : jv) : Prop :=
  forall s s', step k v s <> Ok s'.

Lemma fold_fields_refuses : forall (S : Type) (step : ustr -> jv -> S -> res S) items k v,
  In (k, v) items -> never_ok step k v -> forall s s', fold_fields step items s <> Ok s'.
Proof.
  intros S step items k v Hin Hbad. induction items as [|[k0 v0] rest IH]; [destruct Hin|].
  intros s s'. cbn [fold_fields].
  destruct Hin as [Heq|Hin].
  - inversion Heq; subst. destruct (step k v s) as [s1|e s1|] eqn:E; try discriminate.
    exfalso. exact (Hbad _ _ E).
  - destruct (step k0 v0 s) as [s1|e s1|]; try discriminate. apply IH. exact Hin.
Qed.

Lemma res_map_ok_inv : forall A B (f : A -> B) r b, res_map f r = Ok b -> exists a, r = Ok a /\ b = f a.
Proof. intros A B f r b H. destruct r; try discriminate. inversion H. eauto. Qed.

(* what the property statement calls invalid, as predicates on the submitted JSON *)
Definition known_request_key (k : ustr) : bool :=
  is_request_str_key k || ustr_eqb k k_port || ustr_eqb k k_headers || ustr_eqb k k_trailers
  || ustr_eqb k k_content.
Definition known_response_key (k : ustr) : bool :=
  ustr_eqb k k_reason || ustr_eqb k k_http_version || ustr_eqb k k_code || ustr_eqb k k_headers
  || ustr_eqb k k_trailers || ustr_eqb k k_content.
Definition known_top_key (a : ustr) : bool :=
  ustr_eqb a k_request || ustr_eqb a k_response || ustr_eqb a k_marked || ustr_eqb a k_comment.

Definition malformed_int (v : jv) : Prop := exists e, py_int v = CErr e.

(* a header pair whose name or value is of the wrong type or cannot be encoded *)
Definition bad_component (a : jv) : Prop := exists e, hdr_bytes a = CErr e.
Definition malformed_entry (h : jv) : Prop :=
  match py_iter h with
  | Some [a; b] => bad_component a \/ (exists key, hdr_bytes a = COk key) /\ bad_component b
  | _ => True
  end.
Definition malformed_header_list (v : jv) : Prop :=
  match py_iter v with
  | None => True
  | Some l => exists h, In h l /\ malformed_entry h
  end.

Definition invalid_request_field (k : ustr) (v : jv) : Prop :=
  known_request_key k = false
  \/ (k = k_port /\ malformed_int v)
  \/ ((k = k_headers \/ k = k_trailers) /\ malformed_header_list v).

Definition invalid_response_field (k : ustr) (v : jv) : Prop :=
  known_response_key k = false
  \/ (k = k_code /\ malformed_int v)
  \/ ((k = k_headers \/ k = k_trailers) /\ malformed_header_list v).

Definition invalid_top (a : ustr) (b : jv) : Prop :=
  known_top_key a = false
  \/ (a = k_request /\
      match b with JDict items => exists k v, In (k, v) items /\ invalid_request_field k v | _ => True end)
  \/ (a = k_response /\
      match b with JDict items => exists k v, In (k, v) items /\ invalid_response_field k v | _ => True end).

Definition invalid_document (body : option jv) : Prop :=
  match body with
  | None => True
  | Some (JDict items) => exists a b, In (a, b) items /\ invalid_top a b
  | Some _ => True
  end.

Lemma add_header_malformed : forall h fields fields', malformed_entry h -> add_header h fields <> Ok fields'.
Proof.
  intros h fields fields' Hm. unfold add_header, malformed_entry in *.
  destruct (py_iter h) as [l|]; [|discriminate].
  destruct l as [|a [|b [|c l]]]; try discriminate.
  destruct Hm as [[e Ha]|[[key Ha] [e Hb]]].
  - rewrite Ha. discriminate.
  - rewrite Ha, Hb. discriminate.
Qed.

Lemma add_headers_malformed : forall l h, In h l -> malformed_entry h ->
  forall fields fields', add_headers l fields <> Ok fields'.
Proof.
  induction l as [|h0 l IH]; intros h Hin Hm fields fields'; [destruct Hin|].
  cbn [add_headers]. destruct Hin as [->|Hin].
  - destruct (add_header h fields) as [f1|e f1|] eqn:E; try discriminate.
    exfalso. exact (add_header_malformed _ _ _ Hm E).
  - destruct (add_header h0 fields) as [f1|e f1|]; try discriminate. eapply IH; eauto.
Qed.

Lemma fill_headers_malformed : forall v fields', malformed_header_list v -> fill_headers v <> Ok fields'.
Proof.
  intros v fields' Hm. unfold fill_headers, malformed_header_list in *.
  destruct (py_iter v) as [l|]; [|discriminate].
  destruct Hm as [h [Hin Hh]]. eapply add_headers_malformed; eauto.
Qed.

(* The two shapes a refused field assignment has.  On a literal key put_request_field and
   put_response_field compute to these shapes, so the lemmas apply up to conversion. *)
Lemma int_refused : forall A v e (ok : Z -> res A) (a a' : A), py_int v = CErr e ->
  match py_int v with COk z => ok z | CErr e => Raise e a | CUn => Unmodelled end <> Ok a'.
Proof. intros A v e ok a a' ->. discriminate. Qed.

Lemma hdrs_refused : forall A (w : msgdata -> A) v m a, malformed_header_list v ->
  res_map w (msg_set_headers v m) <> Ok a /\ res_map w (msg_set_trailers v m) <> Ok a.
Proof.
  intros A w v m a Hm. split; intros H; apply res_map_ok_inv in H as (m' & H & _);
    apply res_map_ok_inv in H as (fs & H & _); exact (fill_headers_malformed _ _ Hm H).
Qed.

Lemma request_field_refused : forall k v, invalid_request_field k v -> never_ok put_request_field k v.
Proof.
  intros k v Hinv r r' H.
  destruct Hinv as [Hunk|[[-> [e He]]|[Hk Hm]]].
  - unfold put_request_field in H. unfold known_request_key in Hunk. repeat rewrite orb_false_iff in Hunk.
    destruct Hunk as [[[[H1 H2] H3] H4] H5]. rewrite H1, H2, H3, H4, H5 in H. discriminate.
  - exact (int_refused _ v e (fun z => set_port z r) r r' He H).
  - destruct Hk as [->| ->]; [exact (proj1 (hdrs_refused _ (q_with_msg r) v _ _ Hm) H)
                            | exact (proj2 (hdrs_refused _ (q_with_msg r) v _ _ Hm) H)].
Qed.

Lemma response_field_refused : forall k v, invalid_response_field k v -> never_ok put_response_field k v.
Proof.
  intros k v Hinv p p' H.
  destruct Hinv as [Hunk|[[-> [e He]]|[Hk Hm]]].
  - unfold put_response_field in H. unfold known_response_key in Hunk. repeat rewrite orb_false_iff in Hunk.
    destruct Hunk as [[[[[H1 H2] H3] H4] H5] H6]. rewrite H1, H2, H3, H4, H5, H6 in H. discriminate.
  - exact (int_refused _ v e (fun z => Ok (mkResp (p_msg p) z (p_reason p))) p p' He H).
  - destruct Hk as [->| ->]; [exact (proj1 (hdrs_refused _ (p_with_msg p) v _ _ Hm) H)
                            | exact (proj2 (hdrs_refused _ (p_with_msg p) v _ _ Hm) H)].
Qed.

(* with flow.response = None no field assignment can succeed at all *)
Lemma response_none_field_refused : forall k v, never_ok put_response_none_field k v.
Proof.
  intros k v u u' H. unfold put_response_none_field in H.
  repeat match type of H with
         | (if ?c then _ else _) = _ => destruct c; try discriminate
         end.
  destruct (py_int v); discriminate.
Qed.

Lemma top_refused : forall a b, invalid_top a b -> never_ok put_top a b.
Proof.
  intros a b Hinv c c' H.
  destruct Hinv as [Hunk|[[-> Hb]|[-> Hb]]].
  - unfold put_top in H. unfold known_top_key in Hunk. repeat rewrite orb_false_iff in Hunk.
    destruct Hunk as [[[H1 H2] H3] H4]. rewrite H1, H2, H3, H4 in H. discriminate.
  - destruct b as [| | | | |items]; try discriminate H.
    destruct Hb as [k [v [Hin Hf]]]. apply (res_map_ok_inv _ _ (c_with_request c)) in H as (r & H & _).
    exact (fold_fields_refuses _ _ _ _ _ Hin (request_field_refused _ _ Hf) _ _ H).
  - destruct b as [| | | | |items]; try discriminate H.
    destruct Hb as [k [v [Hin Hf]]]. change (put_top k_response (JDict items) c) with
      (match c_response c with
       | Some p => res_map (c_with_response c) (fold_fields put_response_field items p)
       | None => res_map (fun _ => c) (fold_fields put_response_none_field items tt)
       end) in H.
    destruct (c_response c) as [p|]; apply res_map_ok_inv in H as (r & H & _).
    + exact (fold_fields_refuses _ _ _ _ _ Hin (response_field_refused _ _ Hf) _ _ H).
    + exact (fold_fields_refuses _ _ _ _ _ Hin (response_none_field_refused _ _) _ _ H).
Qed.

Lemma put_body_refused : forall body c c', invalid_document body -> put_body body c <> Ok c'.
Proof.
  intros body c c' Hinv. unfold put_body, invalid_document in *.
  destruct body as [[| | | | |items]|]; try discriminate.
  destruct Hinv as [a [b [Hin Ht]]].
  exact (fold_fields_refuses _ _ _ _ _ Hin (top_refused _ _ Ht) _ _).
Qed.

Lemma put_invalid_not_done : forall vx vb body f, invalid_document body -> snd (put vx vb body f) <> Done.
Proof.
  intros vx vb body f Hinv. unfold put.
  destruct (put_body body (f_cur (backup f))) as [c'|e c'|] eqn:E.
  - exfalso. exact (put_body_refused _ _ _ Hinv E).
  - destruct (vx || is_api e); cbn; discriminate.
  - cbn. discriminate.
Qed.

(* for the code as found (vx = vb = false) the guard reads: e is APIError and f had no earlier backup *)
Lemma put_invalid_unchanged_partial : forall vx vb body f f' e,
  put vx vb body f = (f', Failed e) -> guard vx vb f e -> f' = f.
Proof. exact put_failed_restores. Qed.

Definition sample_req : request :=
  mkReq (mkMsg (blit "HTTP/1.1") [(blit "header", blit "qvalue"); (blit "content-length", blit "7")] None
               (Some (blit "content")))
        (blit "GET") (blit "http") (lit "address") 22%Z (blit "/path") [].
Definition sample_resp : response :=
  mkResp (mkMsg (blit "HTTP/1.1") [(blit "header-response", blit "svalue"); (blit "content-length", blit "7")] None
                (Some (blit "message")))
         200%Z (blit "OK").
Definition sample_flow : flow := mkFlow (mkCore sample_req (Some sample_resp) (JStr []) (JStr [])) None.

Definition doc_bad_port : jv :=
  JDict [(k_comment, JStr (lit "x")); (k_request, JDict [(k_port, JStr (lit "z"))])].
Definition doc_first : jv := JDict [(k_comment, JStr (lit "first"))].
Definition doc_second_unknown : jv := JDict [(k_comment, JStr (lit "second")); (lit "zz", JInt 1)].
Definition doc_unknown_after_valid : jv :=
  JDict [(k_request, JDict [(k_method, JStr (lit "PATCH")); (lit "foo", JInt 1)])].

Lemma doc_bad_port_invalid : invalid_document (Some doc_bad_port).
Proof.
  cbn. exists k_request, (JDict [(k_port, JStr (lit "z"))]). split; [right; left; reflexivity|].
  right. left. split; [reflexivity|]. exists k_port, (JStr (lit "z")). split; [left; reflexivity|].
  right. left. split; [reflexivity|]. exists EValue. vm_compute. reflexivity.
Qed.

Lemma doc_second_unknown_invalid : invalid_document (Some doc_second_unknown).
Proof.
  cbn. exists (lit "zz"), (JInt 1). split; [right; left; reflexivity|]. left. vm_compute. reflexivity.
Qed.

(* the code as found: an accepted edit followed by a refused one (APIError) loses the accepted edit *)
Lemma refuted_earlier_backup : exists body1 body2 f0 f1 f2,
  f_backup f0 = None /\ put false false body1 f0 = (f1, Done)
  /\ invalid_document body2 /\ put false false body2 f1 = (f2, Failed EApi) /\ f2 = f0 /\ f2 <> f1.
Proof.
  exists (Some doc_first), (Some doc_second_unknown), sample_flow,
         (fst (put false false (Some doc_first) sample_flow)),
         (fst (put false false (Some doc_second_unknown) (fst (put false false (Some doc_first) sample_flow)))).
  split; [reflexivity|]. split; [vm_compute; reflexivity|]. split; [exact doc_second_unknown_invalid|].
  split; [vm_compute; reflexivity|]. split; [vm_compute; reflexivity|]. vm_compute. discriminate.
Qed.

(* hypotheses of the partial theorem are satisfiable on a non-trivial run: the method was already
   assigned when the unknown field raised, and the handler undid it *)
Lemma nonvacuous : exists c',
  put_body (Some doc_unknown_after_valid) (f_cur (backup sample_flow)) = Raise EApi c'
  /\ c' <> f_cur sample_flow
  /\ put false false (Some doc_unknown_after_valid) sample_flow = (sample_flow, Failed EApi)
  /\ guard false false sample_flow EApi
  /\ invalid_document (Some doc_unknown_after_valid).
Proof.
  eexists. split; [vm_compute; reflexivity|].
  split; [vm_compute; discriminate|].
  split; [vm_compute; reflexivity|]. split; [split; right; reflexivity|].
  cbn. eexists _, _. split; [left; reflexivity|]. right. left. split; [reflexivity|].
  exists (lit "foo"), (JInt 1). split; [right; left; reflexivity|]. left. vm_compute. reflexivity.
Qed.
