(* Proofs/WsRelay2.v -- relay_messages, continued: what a close event records, nothing after the close, the
   statement side of the ping/pong relay (ctrl_expected, no_close, pings_of), and the addons and sessions of
   the counterexamples (findings; evaluated in Props/C28.v).  The results about a whole run are in
   Proofs/WsSource.v. *)
From Coq Require Import List Bool Arith NArith.
From MV Require Import Base.Bytes Model.WsUtf8 Model.Websocket Proofs.WsUtf8 Proofs.WsFragment Proofs.WsRelay.
Import ListNotations.

Definition is_close_ev (e : wsevent) : bool := match e with WClose _ _ => true | _ => false end.

(* after the close nothing is handled any more (WebsocketLayer.done) *)
Lemma done_noop fs addon : forall evs s, finished s = true -> run fs addon s evs = (s, []).
Proof.
  induction evs as [|e evs IH]; intros s F; cbn [run]; [reflexivity|].
  unfold handle_event. rewrite F. cbn [orb]. rewrite (IH _ F). reflexivity.
Qed.

Lemma run_app fs addon : forall a b s,
  run fs addon s (a ++ b) =
  let (s1, c1) := run fs addon s a in let (s2, c2) := run fs addon s1 b in (s2, c1 ++ c2).
Proof.
  induction a as [|e a IH]; intros b s; cbn [run app].
  - destruct (run fs addon s b). reflexivity.
  - destruct (handle_event fs addon s e) as [sa ca]. rewrite IH.
    destruct (run fs addon sa a) as [sb cb]. destruct (run fs addon sb b) as [sc cc].
    rewrite app_assoc. reflexivity.
Qed.

Lemma process_event_close fs addon fc inj s code reason st s1 cs :
  process_event fs addon fc inj s (WClose code reason, st) = (s1, cs) -> is_crashed s1 = false ->
  closed s1 = Some (fc, code, reason) /\ finished s1 = true.
Proof.
  unfold process_event. destruct (is_crashed s) eqn:C.
  { intros H. injection H as <- <-. congruence. }
  destruct (close_one false _ _) as [sa ca] eqn:E1. destruct (close_one true _ sa) as [sb cb] eqn:E2.
  intros H NC. injection H as <- <-. cbn in NC.
  destruct (close_one_inv true (WClose code reason) _ _ _ eq_refl eq_refl E2 NC) as (Ca & _ & Clb & _ & _ & _).
  destruct (close_one_inv false (WClose code reason) _ _ _ eq_refl eq_refl E1 Ca) as (_ & _ & Cla & _ & _ & _).
  split; [cbn; rewrite Clb, Cla; reflexivity|reflexivity].
Qed.

(* the pings and pongs that events from fc must put on the wire towards side *)
Definition ctrl_expected (fc side : bool) (evs : list (wsevent * wsstate)) : list wsevent :=
  if Bool.eqb fc (negb side) then filter is_ctrl_ev (map fst evs) else [].

Lemma ctrl_expected_cons fc side e evs :
  ctrl_expected fc side (e :: evs) = ctrl_expected fc side [e] ++ ctrl_expected fc side evs.
Proof.
  unfold ctrl_expected. destruct (Bool.eqb fc (negb side)); [|reflexivity].
  cbn. destruct (is_ctrl_ev (fst e)); reflexivity.
Qed.

Definition no_close (e : levent) : Prop :=
  match e with
  | LData _ evs => Forall (fun e => is_close_ev (fst e) = false) evs
  | LClosed _ => False
  | LInject _ _ _ => True
  end.

Definition pings_of (side : bool) (e : levent) : list wsevent :=
  match e with LData fc evs => ctrl_expected fc side evs | _ => [] end.

(* addons: the hook gets the messages with the new one last (never an empty list: the default of last is
   not used); keep_addon leaves its content, append_addon x appends x to it; neither drops *)
Definition keep_addon : addon_t :=
  fun ms => (m_content (last ms (mkMsg false false [] false false [] [])), false).
Definition append_addon (x : bytes) : addon_t :=
  fun ms => (m_content (last ms (mkMsg false false [] false false [] [])) ++ x, false).

(* 1. the client sends one text message, 3999 a and EURO SIGN; with an addon that appends a byte the 4000-byte
      cut falls inside the character and the message is not delivered with its recorded content *)
Definition split_session : list levent :=
  [LData true [(WText (repeat 97%N 3999 ++ [8364%N]) true true, OPEN)]].

(* 2. a message injected while a fragmented message of the same side is in progress is merged with it:
      client BINARY abc (not final), injected TEXT xyz from the client side, client continuation def (final) *)
Definition inject_session : list levent :=
  [LData true [(WBytes [x61; x62; x63] true false, OPEN)];
   LInject true true [x78; x79; x7a];
   LData true [(WBytes [x64; x65; x66] true true, OPEN)]].
