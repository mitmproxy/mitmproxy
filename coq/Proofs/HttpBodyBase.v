(* Proofs/HttpBodyBase.v -- basic facts about Model/HttpBody.v: the closed form of relay_chunks, the ways
   check_body_size can end and what its streaming branch does, parse_size facts, projections of command lists. *)
From Coq Require Import List Bool NArith ZArith Lia.
From MV Require Import Base.Bytes Model.HttpBody.
Import ListNotations.
Open Scope Z_scope.

Lemma blen_app a b : blen (a ++ b) = blen a + blen b.
Proof. unfold blen. rewrite app_length. lia. Qed.
Lemma blen_nonneg a : 0 <= blen a.
Proof. unfold blen. lia. Qed.
Lemma blen_nil : blen [] = 0.
Proof. reflexivity. Qed.
Lemma nonempty_false b : nonempty b = false -> b = [].
Proof. destruct b; simpl; congruence. Qed.
Lemma nonempty_true_blen b : nonempty b = true -> 0 < blen b.
Proof. destruct b; simpl; [congruence|]. intros _. unfold blen. simpl. lia. Qed.
Lemma blen_pos_nonempty b : 0 < blen b -> nonempty b = true.
Proof. destruct b; simpl; auto. unfold blen. simpl. lia. Qed.

Lemma parse_size_val_truthy o z : parse_size o = PVal z -> opt_truthy o = true.
Proof. destruct o as [[|c t]|]; simpl; auto; vm_compute; congruence. Qed.

Section Facts.
Variable S : Type.
Variable fq fs : S -> bytes -> S * sres.
Variable cfg : config.

Notation st := (st S).
Notation relay_chunks := (relay_chunks S cfg).
Notation handle_event := (handle_event S fq fs cfg).

Lemma st_eta (s : st) :
  s = mkSt (client_state s) (server_state s) (request_body_buf s) (response_body_buf s) (req_framing s)
           (resp_framing s) (req_stream s) (resp_stream s) (fq_st s) (fs_st s) (req_content s) (resp_content s)
           (flow_error s) (flow_live s).
Proof. destruct s; reflexivity. Qed.

Lemma relay_chunks_eq request chunks : forall s,
  relay_chunks request chunks s =
  ((if o_store cfg
    then (if request then set_reqbuf S s (request_body_buf s ++ concat chunks)
          else set_respbuf S s (response_body_buf s ++ concat chunks))
    else s),
   map (fun c => CSend (if request then Server else Client) (MData c)) chunks).
Proof.
  induction chunks as [|c r IH]; intros s.
  - simpl. destruct (o_store cfg); [|reflexivity].
    destruct request; destruct s; simpl; rewrite app_nil_r; reflexivity.
  - cbn [HttpBody.relay_chunks]. rewrite IH. destruct (o_store cfg); [|reflexivity].
    destruct request; destruct s; simpl; rewrite <- app_assoc; reflexivity.
Qed.

Notation start_request_stream := (start_request_stream S cfg).
Notation switch_to_stream := (switch_to_stream S fq fs cfg).
Notation check_body_size := (check_body_size S fq fs cfg).
Notation abort_body := (abort_body S cfg).

Lemma start_request_stream_ok (s : st) :
  c_ok cfg = true -> start_request_stream s = (set_client S s Streaming, [CGetConn; CSend Server (MHeaders false)]).
Proof. intros OK. unfold HttpBody.start_request_stream, make_server_connection. rewrite OK. reflexivity. Qed.

(* The streaming branch of check_body_size.  Early case (nothing buffered yet): the message is only marked. *)
Lemma switch_to_stream_empty (request : bool) (s : st) :
  (if request then request_body_buf s else response_body_buf s) = [] ->
  switch_to_stream request s = Some (if request then set_req_stream S s STrue else set_resp_stream S s STrue, []).
Proof. intros E. unfold HttpBody.switch_to_stream. destruct request; cbn; rewrite E; reflexivity. Qed.

(* Late case: the buffer is cleared, the head is sent, then the buffered bytes as one data event (kept again iff
   store_streamed_bodies).  A request needs the server connection first; if that fails nothing is sent. *)
Lemma switch_to_stream_req (s : st) :
  nonempty (request_body_buf s) = true ->
  switch_to_stream true s =
  let s0 := set_reqbuf S (set_req_stream S s STrue) [] in
  if c_ok cfg
  then Some (let s2 := set_client S s0 Streaming in if o_store cfg then set_reqbuf S s2 (request_body_buf s) else s2,
             [CGetConn; CSend Server (MHeaders false); CSend Server (MData (request_body_buf s))])
  else Some (start_request_stream s0).
Proof.
  intros NE. unfold HttpBody.switch_to_stream. cbn [request_body_buf set_req_stream]. rewrite NE.
  unfold HttpBody.start_request_stream, make_server_connection. destruct (c_ok cfg); [reflexivity|].
  destruct (handle_protocol_error_connect S _) as [s1 c1]. reflexivity.
Qed.

Lemma switch_to_stream_resp (s : st) :
  nonempty (response_body_buf s) = true ->
  switch_to_stream false s =
  Some (let s2 := set_server S (set_respbuf S (set_resp_stream S s STrue) []) Streaming in
        if o_store cfg then set_respbuf S s2 (response_body_buf s) else s2,
        [CSend Client (MHeaders false); CSend Client (MData (response_body_buf s))]).
Proof. intros NE. unfold HttpBody.switch_to_stream. cbn [response_body_buf set_resp_stream]. rewrite NE. reflexivity. Qed.

Definition over (p : psz) (e : Z) : bool := match p with PVal l => l <? e | _ => false end.

(* the size check_body_size looks at: the buffered bytes (late case) or the announced size (early case) *)
Definition expected (request : bool) (s : st) : option Z :=
  if request && nonempty (request_body_buf s) then Some (blen (request_body_buf s))
  else if negb request && nonempty (response_body_buf s) then Some (blen (response_body_buf s))
  else if request then expected_size (req_framing s)
  else match resp_framing s with Some f => expected_size f | None => None end.

(* every way check_body_size can end: no decision; or, for a positive size x, rejected (x above the limit) or
   switched to streaming (x within the limit and above stream_large_bodies) *)
Lemma check_body_size_cases request (s s' : st) b c :
  check_body_size request s = Some (b, s', c) ->
  (b = false /\ s' = s /\ c = []
   /\ (opt_truthy (o_stream cfg) || opt_truthy (o_limit cfg) = true ->
       forall x, expected request s = Some x -> 0 < x ->
       over (parse_size (o_limit cfg)) x = false /\ over (parse_size (o_stream cfg)) x = false))
  \/ (exists x, expected request s = Some x /\ 0 < x /\
      ((b = true /\ (s', c) = abort_body request s /\ over (parse_size (o_limit cfg)) x = true)
       \/ (b = false /\ switch_to_stream request s = Some (s', c)
           /\ over (parse_size (o_limit cfg)) x = false /\ over (parse_size (o_stream cfg)) x = true))).
Proof.
  unfold HttpBody.check_body_size. fold (expected request s).
  destruct (opt_truthy (o_stream cfg) || opt_truthy (o_limit cfg)); cbn [negb].
  2:{ intros [= <- <- <-]. left. repeat split; discriminate. }
  destruct (expected request s) as [x|].
  2:{ intros [= <- <- <-]. left. repeat split; discriminate. }
  destruct (x <=? 0) eqn:E0.
  { intros [= <- <- <-]. left. repeat split; injection H0 as <-; apply Z.leb_le in E0; lia. }
  apply Z.leb_gt in E0.
  destruct (parse_size (o_limit cfg)) as [| |l]; [|discriminate|destruct (l <? x) eqn:OL]; cbn [over].
  2:{ destruct (abort_body request s). intros [= <- <- <-]. right. exists x. auto 10. }
  all: destruct (parse_size (o_stream cfg)) as [| |t]; [|discriminate|destruct (t <? x) eqn:OT]; cbn [over].
  all: try (intros [= <- <- <-]; left; repeat split; injection H0 as <-; reflexivity || assumption).
  all: destruct (switch_to_stream request s) as [[s1 c1]|]; intros [= <- <- <-]; right; exists x; auto 10.
Qed.

End Facts.

(* request message parts sent to the server: head, data, end of message *)
Definition is_server_content (c : cmd) : bool :=
  match c with
  | CSend Server (MHeaders _) | CSend Server (MData _) | CSend Server MEom => true
  | _ => false
  end.
Definition server_content (cs : list cmd) : list cmd := filter is_server_content cs.
(* response message parts sent to the client *)
Definition is_client_content (c : cmd) : bool :=
  match c with
  | CSend Client (MHeaders _) | CSend Client (MData _) | CSend Client MEom => true
  | _ => false
  end.
Definition client_content (cs : list cmd) : list cmd := filter is_client_content cs.

(* payloads of the data events sent to one peer, in order *)
Fixpoint data_to (p : peer) (cs : list cmd) : list bytes :=
  match cs with
  | [] => []
  | CSend q (MData d) :: r =>
      match p, q with
      | Client, Client | Server, Server => d :: data_to p r
      | _, _ => data_to p r
      end
  | _ :: r => data_to p r
  end.

Lemma data_to_app p a b : data_to p (a ++ b) = data_to p a ++ data_to p b.
Proof.
  induction a as [|c a IH]; simpl; auto.
  destruct c; auto. destruct m; auto. destruct p, p0; simpl; rewrite IH; auto.
Qed.
Lemma data_to_map_same p ds : data_to p (map (fun c => CSend p (MData c)) ds) = ds.
Proof. induction ds; simpl; auto. destruct p; rewrite IHds; auto. Qed.
Lemma data_to_map_other p q ds : p <> q -> data_to p (map (fun c => CSend q (MData c)) ds) = [].
Proof. intros H. induction ds; simpl; auto. destruct p, q; auto; congruence. Qed.
Lemma server_content_app a b : server_content (a ++ b) = server_content a ++ server_content b.
Proof. apply filter_app. Qed.
Lemma client_content_app a b : client_content (a ++ b) = client_content a ++ client_content b.
Proof. apply filter_app. Qed.
