(* Proofs/ConnHandlerSem.v -- per-address concurrency bound: for every address a,
   semaphore value + tasks inside the async-with body + woken waiters = 5, in every reachable state;
   hence at most five tasks per address inside the body, and, with the pairing invariant of
   ConnHandlerPair, at most five open writers per address plus the leaked ones. *)
From Coq Require Import List Bool Arith Lia.
From MV Require Import Model.ConnHandler Proofs.ConnHandlerBase Proofs.ConnHandlerPair.
Import ListNotations.

Definition in_region (p : cpc) : bool :=
  match p with
  | PConnecting | PHookErr _ | PHookConnected | PRead | PDrainLock _ | PDrain _ _ | PEvent | PHookDisc _ => true
  | _ => false
  end.
Definition is_woken (p : cpc) : bool := match p with PSem WWoken => true | _ => false end.
Definition wtv (b : nat) (ao : option nat) (p : cpc) : nat :=
  if match ao with Some a => Nat.eqb a b | None => false end && (in_region p || is_woken p) then 1 else 0.
Definition wt (b : nat) (x : conn) : nat := wtv b (c_addr x) (c_pc x).
Fixpoint total (b : nat) (l : list conn) : nat := match l with [] => 0 | x :: l' => wt b x + total b l' end.
Fixpoint totex (b : nat) (l : list conn) (c : nat) : nat :=
  match l with
  | [] => 0
  | x :: l' => match c with O => total b l' | S c' => wt b x + totex b l' c' end
  end.
Definition SS (b : nat) (s : st) : nat := semval s b + total b (conns s).
Definition rest (b c : nat) (s : st) : nat := semval s b + totex b (conns s) c.
Definition Queued (s : st) : Prop := forall a d, In d (semq s a) -> c_addr (getc s d) = Some a.
(* the accounting equation, the queues, and: the client connection exists and has no address *)
Definition SemInv (s : st) : Prop :=
  (forall b, SS b s = 5) /\ Queued s /\ c_addr (getc s 0) = None /\ 0 < length (conns s).

Lemma total_split : forall b l c, c < length l -> total b l = totex b l c + wt b (nth c l dconn).
Proof. induction l; simpl; intros; try lia. destruct c; try lia. rewrite (IHl c) by lia. lia. Qed.
Lemma totex_oob : forall b l c, length l <= c -> totex b l c = total b l.
Proof. induction l; simpl; intros; auto. destruct c; try lia. rewrite IHl by lia. auto. Qed.
Lemma totex_upd_same : forall b l c x, totex b (upd l c x) c = totex b l c.
Proof. induction l; simpl; intros; auto. destruct c; simpl; auto. Qed.
Lemma total_upd : forall b l d x, d < length l -> total b (upd l d x) + wt b (nth d l dconn) = total b l + wt b x.
Proof. induction l; simpl; intros; try lia. destruct d; simpl; try lia. specialize (IHl d x). lia. Qed.
Lemma totex_upd_other : forall b l c d x, d <> c -> d < length l ->
  totex b (upd l d x) c + wt b (nth d l dconn) = totex b l c + wt b x.
Proof.
  induction l; simpl; intros; try lia. destruct d, c; simpl; try lia.
  - pose proof (total_upd b l d x). lia.
  - specialize (IHl c d x). lia.
Qed.

Lemma wt_psoft : forall b x y, psoft x y -> wt b y = wt b x.
Proof.
  unfold psoft, wt. intros b x y (A & P & _). rewrite A. destruct P as [P | [[P P'] | [P P']]]; rewrite P; auto; rewrite P'.
  - unfold wtv. simpl. rewrite !andb_false_r. auto.
  - reflexivity.
Qed.
Lemma wt_isnew : forall b y, isnew y -> wt b y = 0.
Proof. intros b y [a H]. rewrite (wt_psoft _ _ _ H). unfold wt, wtv. simpl. rewrite andb_false_r. auto. Qed.
Lemma total_news : forall b l, Forall isnew l -> total b l = 0.
Proof. induction 1; simpl; auto. rewrite wt_isnew; auto. Qed.
Lemma total_lrel : forall b l l', lrel l l' -> total b l' = total b l.
Proof. induction 1; simpl. apply total_news; auto. rewrite (wt_psoft _ _ _ H). lia. Qed.
Lemma totex_lrel : forall b l l', lrel l l' -> forall c, c < length l -> totex b l' c = totex b l c.
Proof.
  induction 1; simpl; intros; try lia. destruct c.
  - apply total_lrel; auto.
  - rewrite (wt_psoft _ _ _ H), IHlrel by lia. auto.
Qed.

Lemma SS_frame : forall b s s', frame s s' -> SS b s' = SS b s.
Proof. intros b s s' []. unfold SS. rewrite f_semval, (total_lrel _ _ _ f_conns). auto. Qed.
Lemma rest_frame : forall b c s s', frame s s' -> c < length (conns s) -> rest b c s' = rest b c s.
Proof. intros b c s s' [] L. unfold rest. rewrite f_semval, (totex_lrel _ _ _ f_conns); auto. Qed.

Lemma Queued_inrange : forall s a d, Queued s -> In d (semq s a) -> d < length (conns s).
Proof.
  intros s a d Q I. specialize (Q a d I). destruct (Nat.lt_ge_cases d (length (conns s))); auto.
  rewrite getc_oob in Q; auto. discriminate.
Qed.

Lemma addr_frame : forall s s' c, frame s s' -> c < length (conns s) -> c_addr (getc s' c) = c_addr (getc s c).
Proof. intros s s' c F L. apply (frame_getc _ _ c F L). Qed.

Lemma Queued_frame : forall s s', frame s s' -> Queued s -> Queued s'.
Proof.
  intros s s' F Q a d I. rewrite (f_semq _ _ F) in I.
  rewrite (addr_frame _ _ _ F (Queued_inrange _ _ _ Q I)). auto.
Qed.

Lemma SemInv_frame : forall s s', frame s s' -> SemInv s -> SemInv s'.
Proof.
  intros s s' F (J1 & J2 & J3 & J4). pose proof (frame_len _ _ F). repeat split; try lia.
  - intros. rewrite (SS_frame _ _ _ F). auto.
  - eapply Queued_frame; eauto.
  - rewrite (addr_frame _ _ _ F J4). auto.
Qed.

(* RV follows a step of task c through the primitives run_conn is made of: the task stands at p, its
   address is ao, and the semaphore value plus the weights of all OTHER connections plus n, counted
   at the task's own address, is 5: n is what the task itself holds of its semaphore *)
Definition at_addr (b : nat) (ao : option nat) (n : nat) : nat :=
  if match ao with Some a => Nat.eqb a b | None => false end then n else 0.
Definition held (p : cpc) : nat := if in_region p || is_woken p then 1 else 0.

Lemma wtv_at_addr : forall b ao p, wtv b ao p = at_addr b ao (held p).
Proof. intros. unfold wtv, at_addr, held. destruct (match ao with Some a => _ | None => _ end), (_ || _); auto. Qed.

Definition RV (c : nat) (S : st) (p : cpc) (ao : option nat) (n : nat) : Prop :=
  c < length (conns S) /\ c_pc (getc S c) = p /\ c_addr (getc S c) = ao /\
  (forall b, rest b c S + at_addr b ao n = 5) /\ Queued S /\ c_addr (getc S 0) = None.

Lemma sem_rv : forall s c, SemInv s -> c < length (conns s) ->
  RV c s (c_pc (getc s c)) (c_addr (getc s c)) (held (c_pc (getc s c))).
Proof.
  intros s c (J1 & J2 & J3 & _) L. repeat split; auto.
  intros b. rewrite <- wtv_at_addr, <- (J1 b). unfold SS, rest. rewrite (total_split b _ c L). fold (getc s c). unfold wt. lia.
Qed.

Lemma rv_SemInv : forall c S p ao n, RV c S p ao n -> n = held p -> SemInv S.
Proof.
  intros c S p ao n (L & P & Ad & R & Q & Z) ->. repeat split; auto; try lia.
  intros b. rewrite <- (R b), <- wtv_at_addr. unfold SS, rest. rewrite (total_split b _ c L). fold (getc S c). unfold wt.
  rewrite P, Ad. lia.
Qed.

(* a task without address holds nothing *)
Lemma rv_none : forall c S p n m, RV c S p None n -> RV c S p None m.
Proof. intros c S p n m H. exact H. Qed.

Lemma rv_client : forall S p ao n, RV 0 S p ao n -> ao = None.
Proof. intros S p ao n (_ & _ & Ad & _ & _ & Z). congruence. Qed.

Lemma Queued_setc : forall S c x, c_addr x = c_addr (getc S c) -> Queued S -> Queued (setc S c x).
Proof.
  intros S c x A Q a d I. simpl in I. specialize (Q a d I). destruct (Nat.eq_dec c d).
  - subst. destruct (Nat.lt_ge_cases d (length (conns S))).
    + rewrite getc_setc_same; auto. congruence.
    + unfold setc. simpl. unfold getc in *. simpl. rewrite upd_oob; auto.
  - rewrite getc_setc_other; auto.
Qed.

Lemma rv_setc_pc : forall c S p ao n x, RV c S p ao n -> c_addr x = c_addr (getc S c) -> RV c (setc S c x) (c_pc x) ao n.
Proof.
  intros c S p ao n x (L & P & Ad & R & Q & Z) A. unfold RV. rewrite len_setc, getc_setc_same; auto.
  repeat split; auto; try congruence.
  - intros. unfold rest, setc. simpl. rewrite totex_upd_same. apply R.
  - apply Queued_setc; auto.
  - destruct (Nat.eq_dec c 0) as [->|D]; [rewrite getc_setc_same|rewrite getc_setc_other]; auto. congruence.
Qed.
(* wake-up payload, cancellation flag, read / write state, error flag, transports entry, writer *)
Lemma rv_setc_flags : forall c S p ao n x, RV c S p ao n ->
  c_addr x = c_addr (getc S c) -> c_pc x = c_pc (getc S c) -> RV c (setc S c x) p ao n.
Proof.
  intros c S p ao n x H A P. pose proof H as (_ & E & _). rewrite <- E, <- P. exact (rv_setc_pc _ _ _ _ _ _ H A).
Qed.

(* RV reads neither the trace nor the drain lock: the next two hold by conversion *)
Lemma rv_emit : forall c S p ao n e, RV c S p ao n -> RV c (emit S e) p ao n.
Proof. intros. exact H. Qed.
Lemma rv_set_lock : forall c S p ao n b q, RV c S p ao n -> RV c (set_lock S b q) p ao n.
Proof. intros c S p ao n b q H. exact H. Qed.

(* frame steps may cancel a pending waiter: the tracked program counter survives them if it is not one *)
Definition npend (p : cpc) : Prop := p <> PSem WPending /\ p <> PDrainLock WPending.

Lemma rv_frame : forall c S S' p ao n, frame S S' -> RV c S p ao n -> npend p -> RV c S' p ao n.
Proof.
  intros c S S' p ao n F (L & P & Ad & R & Q & Z) NP. pose proof (frame_len _ _ F).
  pose proof (frame_getc _ _ c F L) as (A' & P' & _).
  repeat split; try lia.
  - destruct NP as [NP1 NP2]. destruct P' as [P' | [[P' _] | [P' _]]]; congruence.
  - congruence.
  - intros. rewrite (rest_frame _ _ _ _ F); auto.
  - eapply Queued_frame; eauto.
  - rewrite (addr_frame _ _ _ F); auto. lia.
Qed.

Lemma rv_server_event : forall c S p ao n e, RV c S p ao n -> npend p -> RV c (server_event S e) p ao n.
Proof. intros. eapply rv_frame; eauto using frame_server_event. Qed.
Lemma rv_drain_error : forall c S p ao n d, RV c S p ao n -> npend p -> RV c (drain_error S d) p ao n.
Proof. intros. eapply rv_frame; eauto using frame_drain_error. Qed.
Lemma rv_setc_cong : forall c S p ao n d b, RV c S p ao n -> npend p -> RV c (setc S d (with_cong (getc S d) b)) p ao n.
Proof. intros. eapply rv_frame; eauto. apply frame_setc, psoft_flags. Qed.

Lemma rv_set_sem : forall c S p a n v q m,
  RV c S p (Some a) n -> v + m = semval S a + n -> (forall d, In d q -> d = c \/ In d (semq S a)) ->
  RV c (set_sem S a v q) p (Some a) m.
Proof.
  intros c S p a n v q m (L & P & Ad & R & Q & Z) V Hq. repeat split; auto.
  - intros b. specialize (R b). unfold rest, at_addr in *. simpl. rewrite (Nat.eqb_sym a b) in *.
    destruct (Nat.eqb b a) eqn:E; auto. apply Nat.eqb_eq in E. subst. lia.
  - intros a' d I. simpl in I. change (getc (set_sem S a v q) d) with (getc S d).
    destruct (Nat.eqb a' a) eqn:E.
    + apply Nat.eqb_eq in E. subst. destruct (Hq d I); subst; auto.
    + apply Q; auto.
Qed.

Lemma rv_sem_queue : forall c S p a n q,
  RV c S p (Some a) n -> (forall d, In d q -> d = c \/ In d (semq S a)) ->
  RV c (set_sem S a (semval S a) q) p (Some a) n.
Proof. intros. eapply rv_set_sem; eauto. Qed.
Lemma rv_sem_dec : forall c s p a n,
  RV c s p (Some a) n -> semval s a <> 0 -> RV c (set_sem s a (semval s a - 1) (semq s a)) p (Some a) (S n).
Proof. intros. eapply rv_set_sem; eauto. lia. Qed.

Lemma first_pending_in : forall s q d, first_pending s q = Some d -> In d q.
Proof.
  induction q; simpl; intros; try discriminate.
  destruct (c_pc (getc s a)) eqn:E; auto. destruct w; auto. inversion H; auto.
Qed.

(* another connection d changes, its weight and the semaphore values in balance *)
Lemma rv_other : forall c S S' p ao n d x,
  RV c S p ao n -> conns S' = upd (conns S) d x -> c_addr x = c_addr (getc S d) ->
  d <> c -> d < length (conns S) -> (forall a, semq S' a = semq S a) ->
  (forall b, semval S' b + wt b x = semval S b + wt b (getc S d)) ->
  RV c S' p ao n.
Proof.
  intros c S S' p ao n d x (L & P & Ad & R & Q & Z) C A D Ld Sq Sv.
  assert (G : forall c', c_addr (getc S' c') = c_addr (getc S c') /\ (c' <> d -> getc S' c' = getc S c')).
  { intros c'. unfold getc. rewrite C. destruct (Nat.eq_dec d c') as [<-|N].
    - rewrite nth_upd_same; auto. split; [exact A|congruence].
    - rewrite nth_upd_other; auto. }
  unfold RV. rewrite C, upd_length, (proj2 (G c)), (proj1 (G 0)); auto. repeat split; auto.
  - intros b. rewrite <- (R b). unfold rest. rewrite C.
    pose proof (totex_upd_other b (conns S) c d x D Ld). specialize (Sv b). unfold getc in Sv. lia.
  - intros a e I. rewrite Sq in I. rewrite (proj1 (G e)). auto.
Qed.

Lemma rv_wake_next : forall c S p ao n a,
  RV c S p ao n -> npend p -> 1 <= semval S a -> RV c (wake_next S a) p ao n.
Proof.
  intros c S p ao n a H [NP _] V. unfold wake_next. destruct (first_pending S (semq S a)) as [d|] eqn:E; auto.
  pose proof (first_pending_pc _ _ _ E) as Pd. pose proof (first_pending_in _ _ _ E) as I.
  pose proof H as (_ & P & _ & _ & Q & _).
  eapply (rv_other c S _ p ao n d _ H); try reflexivity.
  - intros ->. congruence.
  - eapply Queued_inrange; eauto.
  - intros b. simpl. destruct (Nat.eqb_spec b a); subst; auto.
  - intros b. unfold wt. simpl. rewrite (Q a d I), Pd. unfold wtv. simpl. rewrite (Nat.eqb_sym a b).
    destruct (Nat.eqb_spec b a); subst; simpl; lia.
Qed.

Lemma rv_sem_release : forall c s p a n, RV c s p (Some a) (S n) -> npend p ->
  RV c (wake_next (set_sem s a (semval s a + 1) (semq s a)) a) p (Some a) n.
Proof.
  intros. apply rv_wake_next; auto; [eapply rv_set_sem; eauto; lia|]. simpl. rewrite Nat.eqb_refl. lia.
Qed.

Lemma rv_release : forall c s p ao n, RV c s p ao (S n) -> npend p -> RV c (release_of s c) p ao n.
Proof.
  intros c s p ao n H NP. unfold release_of, sem_release. pose proof H as (_ & _ & Ad & _). rewrite Ad.
  destruct ao; [apply rv_sem_release; auto|exact H].
Qed.

Lemma rv_goto : forall c S p ao n q, RV c S p ao n -> RV c (goto S c q) q ao n.
Proof. intros. unfold goto. eapply (rv_setc_pc _ _ _ _ _ (with_pc (getc S c) q)); eauto. Qed.
Lemma rv_finish : forall c S p ao n x k, RV c S p ao n -> RV c (finish S c x k) (PDone x) ao n.
Proof.
  intros. unfold finish. apply rv_emit.
  apply (rv_setc_pc c S p ao n (with_wake (with_pc (getc S c) (PDone x)) None false) H eq_refl).
Qed.
Lemma rv_hook_at : forall c S p ao n k q, RV c S p ao n -> RV c (hook_at S c k q) q ao n.
Proof. intros. unfold hook_at. eapply rv_goto. apply rv_emit. eauto. Qed.
Lemma rv_hc_read : forall c S p ao n, RV c S p ao n -> RV c (hc_read S c) PRead ao n.
Proof. intros. unfold hc_read. eapply rv_goto. apply rv_emit. eauto. Qed.
Lemma rv_enter : forall c S p ao n, RV c S p ao n -> RV c (enter_sem_body S c) PConnecting ao n.
Proof. intros. unfold enter_sem_body. eapply rv_goto. apply rv_emit. eauto. Qed.

Lemma rv_wake_first : forall c S p ao n, RV c S p ao n -> npend p -> RV c (wake_first S) p ao n.
Proof.
  intros c S p ao n H [_ NP]. unfold wake_first. destruct (dlockq S) as [|d q]; auto.
  destruct (c_pc (getc S d)) eqn:Pd; auto. destruct w; auto. pose proof H as (_ & P & _).
  eapply (rv_other c S _ p ao n d _ H); try reflexivity.
  - intros ->. congruence.
  - destruct (Nat.lt_ge_cases d (length (conns S))); auto. rewrite getc_oob in Pd; auto. discriminate.
  - intros b. unfold wt. simpl. rewrite Pd. auto.
Qed.
Lemma rv_lock_release : forall c S p ao n, RV c S p ao n -> npend p -> RV c (lock_release S) p ao n.
Proof. intros. unfold lock_release. destruct (dlocked S); auto. apply rv_wake_first; auto. Qed.

Lemma sem_locked_false : forall S a, sem_locked S a = false -> semval S a <> 0.
Proof. unfold sem_locked. intros S a H. apply orb_false_iff in H as [H _]. apply Nat.eqb_neq in H. auto. Qed.
Lemma in_remove1 : forall c q d, In d (remove1 c q) -> d = c \/ In d q.
Proof. induction q; simpl; intros d H; [tauto|]. specialize (IHq d). destruct (Nat.eqb a c); simpl in *; tauto. Qed.
Lemma in_snoc : forall (c : nat) q d, In d (q ++ [c]) -> d = c \/ In d q.
Proof. intros c q d I. apply in_app_or in I as [I|[I|[]]]; auto. Qed.

#[local] Hint Resolve rv_finish rv_hook_at rv_hc_read rv_enter rv_goto rv_release rv_server_event rv_set_lock
  rv_lock_release rv_wake_first rv_drain_error rv_setc_cong rv_wake_next rv_sem_release rv_sem_dec rv_sem_queue
  rv_setc_flags rv_emit sem_locked_false in_remove1 in_snoc : rv.
#[local] Hint Extern 1 (npend _) => split; discriminate : rv.

(* The rules, and the lemmas for their side conditions (semaphore not locked, queue membership), form the
   hint database rv.  fin is the common last step: what the task holds is what its program counter says. *)
Ltac fin := eapply rv_SemInv; [eauto 9 with rv | reflexivity].

Lemma sem_hc_cleanup : forall c S p ao b, RV c S p ao 1 -> SemInv (hc_cleanup S c b).
Proof.
  intros c S p ao b H. unfold hc_cleanup. destruct (Nat.eqb_spec c 0) as [->|D]; [|fin].
  (* the client's own task ends here; it has no address *)
  pose proof (rv_client _ _ _ _ H). subst ao. apply (rv_none 0 S p 1 0) in H. fin.
Qed.

Lemma sem_hc_after_loop : forall c S p ao b, RV c S p ao 1 -> npend p -> SemInv (hc_after_loop S c b).
Proof.
  intros c S p ao b H NP. unfold hc_after_loop.
  match goal with |- context [server_event ?S1 _] =>
    assert (H1 : RV c S1 p ao 1) by (destruct b; auto with rv) end.
  destruct (_ && _); [fin|]. eapply sem_hc_cleanup; eauto with rv.
Qed.

Lemma sem_drain_go : forall c l S p ao, RV c S p ao 1 -> npend p -> SemInv (drain_go S c l).
Proof.
  induction l; simpl; intros S p ao H NP.
  - fin.
  - destruct (c_writer (getc S a)); eauto. destruct (c_broken (getc S a)); eauto with rv.
    destruct (c_cong (getc S a)); eauto. fin.
Qed.
Lemma sem_drain_start : forall c S p ao, RV c S p ao 1 -> npend p -> SemInv (drain_start S c).
Proof.
  intros. unfold drain_start. destruct (lock_free S).
  - eapply sem_drain_go; eauto with rv.
  - destruct (c_cf (getc S c)); fin.
Qed.

#[local] Hint Resolve sem_hc_cleanup sem_hc_after_loop sem_drain_go sem_drain_start : rv.

Lemma sem_run_conn : forall s c, SemInv s -> c < length (conns s) -> SemInv (run_conn s c).
Proof.
  intros s c J L. pose proof (sem_rv s c J L) as H. unfold run_conn.
  destruct (c_pc (getc s c)); unfold held in H; simpl in H; destruct (c_cf (getc s c)); try solve [fin | eauto 9 with rv].
  (* left: the same cases as in ConnHandlerPair.oframe_run_conn *)
  - destruct (Nat.eqb_spec c 0) as [->|D].
    + rewrite (rv_client _ _ _ _ H) in H. apply (rv_none _ _ _ 0 1) in H. fin.
    + destruct (c_addr (getc s c)); fin.
  - match goal with |- context [c_err (getc ?S1 c)] =>
      assert (H1 : RV c S1 PHookConnect (c_addr (getc s c)) 0)
        by (destruct (match c_wk _ with Some _ => _ | None => _ end); auto with rv);
      pose proof H1 as (_ & _ & Ad & _); rewrite Ad; destruct (c_err (getc S1 c)); [fin|] end.
    destruct (c_addr (getc s c)) as [a|]; [|exact J].
    match goal with |- context [sem_locked ?S1 a] => destruct (sem_locked S1 a) eqn:EL end; fin.
  - destruct (c_addr (getc s c)); [|fin]. destruct w; fin.
  - destruct (c_addr (getc s c)); [|fin]. destruct w; try solve [fin].
    match goal with |- context [Nat.ltb 0 ?v] => destruct (Nat.ltb 0 v) eqn:EV end; [apply Nat.ltb_lt in EV|]; fin.
  - destruct (c_wk (getc s c)) as [[| | |[|]|]|]; fin.
  - destruct (c_wk (getc s c)) as [[| |[| |]| |]|]; eauto 9 with rv.
  - destruct w; try solve [fin];
      (match goal with |- context [if dlocked ?S then _ else _] => destruct (dlocked S) end; eauto 9 with rv).
  - destruct w; try solve [fin]; eauto 9 with rv.
  - destruct (c_wk (getc s c)) as [[| | | |[|]]|]; try solve [fin]; eauto 9 with rv.
Qed.

Lemma wt_noaddr : forall b x, c_addr x = None -> wt b x = 0.
Proof. intros. unfold wt, wtv. rewrite H. auto. Qed.

Lemma SemInv_setc0 : forall s x, c_addr x = None -> SemInv s -> SemInv (setc s 0 x).
Proof.
  intros s x A (J1 & J2 & J3 & J4). repeat split.
  - intros b. specialize (J1 b). unfold SS in *. simpl.
    pose proof (total_upd b (conns s) 0 x J4) as T. fold (getc s 0) in T.
    rewrite (wt_noaddr b x A), (wt_noaddr b _ J3) in T. lia.
  - apply Queued_setc; auto. congruence.
  - rewrite getc_setc_same; auto.
  - rewrite len_setc. auto.
Qed.

Lemma sem_run_main : forall s, SemInv s -> SemInv (run_main s).
Proof.
  intros s J. assert (A0 : c_addr (getc s 0) = None) by apply J. unfold run_main. destruct (mainpc s); try exact J.
  - match goal with |- context [client_err ?S1] => set (s1 := S1) end.
    assert (J1 : SemInv s1) by exact J. destruct (client_err s1).
    + apply (SemInv_setc0 s1 (with_io (getc s1 0) false WClosed)); auto.
    + assert (J3 : SemInv (server_event s1 LStart)) by (eapply SemInv_frame; eauto using frame_server_event).
      refine (SemInv_setc0 _ _ _ J3). apply J3.
  - match goal with |- context [existsb c_entry (conns ?S0)] => set (s0 := S0) end.
    assert (J1 : SemInv (cancel_all s0 (length (conns s)) 0)) by (eapply SemInv_frame; [apply frame_cancel_all|exact J]).
    destruct (existsb c_entry (conns s0)); [|exact J]. destruct (waited (conns s0) 0); exact J1.
Qed.

Lemma sem_run_hook : forall s k, SemInv s -> SemInv (run_hook s k).
Proof.
  intros s k J. unfold run_hook. destruct (geth s k); auto.
  exact (SemInv_frame _ _ (frame_server_event s (LHookDone k)) J).
Qed.

Lemma sem_init : forall sc, SemInv (init sc).
Proof. intros. repeat split; auto. intros a d []. Qed.

Lemma sem_reach : forall sc l, SemInv (run (init sc) l).
Proof. apply reach_ind; eauto using sem_init, SemInv_frame, sem_run_main, sem_run_conn, sem_run_hook. Qed.

Theorem sem_invariant : forall sc l b, SS b (run (init sc) l) = 5.
Proof. intros. apply sem_reach. Qed.

(* number of tasks inside the async-with body for address b *)
Definition in_body (b : nat) (x : conn) : bool :=
  match c_addr x with Some a => Nat.eqb a b | None => false end && in_region (c_pc x).
Definition open_count (b : nat) (s : st) : nat := length (filter (in_body b) (conns s)).

Lemma open_le_total : forall b l, length (filter (in_body b) l) <= total b l.
Proof.
  induction l; simpl; auto. unfold in_body at 1. unfold wt at 1, wtv.
  destruct (match c_addr a with Some a0 => Nat.eqb a0 b | None => false end); simpl; try lia.
  destruct (in_region (c_pc a)); simpl; lia.
Qed.

Theorem at_most_five : forall sc l b, open_count b (run (init sc) l) <= 5.
Proof.
  intros. pose proof (sem_invariant sc l b) as H. unfold SS in H. unfold open_count.
  pose proof (open_le_total b (conns (run (init sc) l))). lia.
Qed.

Definition addr_is (b : nat) (x : conn) : bool := match c_addr x with Some a => Nat.eqb a b | None => false end.
Definition openw (b : nat) (x : conn) : bool := addr_is b x && match c_writer x with WOpen => true | _ => false end.
Definition lostw (b : nat) (x : conn) : bool :=
  addr_is b x && match c_pc x with PDone XLostConnectedHook => true | _ => false end.
Definition open_writers (b : nat) (s : st) : nat := length (filter (openw b) (conns s)).
Definition leaked (b : nat) (s : st) : nat := length (filter (lostw b) (conns s)).

Lemma count_split : forall (f g h : conn -> bool) l,
  Forall (fun x => f x = true -> g x = true \/ h x = true) l ->
  length (filter f l) <= length (filter g l) + length (filter h l).
Proof.
  induction 1; simpl; auto. destruct (f x) eqn:F; simpl; [|destruct (g x), (h x); simpl; lia].
  destruct (H eq_refl) as [G | G]; rewrite G; simpl; destruct (g x), (h x); simpl; lia.
Qed.

Lemma wok_open : forall b x, wok x -> openw b x = true -> in_body b x = true \/ lostw b x = true.
Proof.
  unfold wok, openw, in_body, lostw, addr_is. intros b x W H. apply andb_true_iff in H as [A O]. rewrite A. simpl.
  destruct (c_writer x); try discriminate. destruct (c_pc x); simpl in *; auto; try (destruct W; discriminate).
  destruct x0; simpl in *; auto; try discriminate; destruct W; discriminate.
Qed.

Theorem open_writers_bound : forall sc l b,
  let s := run (init sc) l in open_writers b s <= 5 + leaked b s.
Proof.
  intros. pose proof (at_most_five sc l b) as H5. fold s in H5.
  destruct (sem_reach sc l) as (_ & _ & A0 & _). fold s in A0.
  destruct (pairing_invariant sc l) as [I _]. fold s in I.
  unfold open_writers, leaked, open_count in *.
  assert (F : Forall (fun x => openw b x = true -> in_body b x = true \/ lostw b x = true) (conns s)).
  { apply Forall_forall. intros x Hx. destruct (In_nth _ _ dconn Hx) as (i & Li & Ni). destruct i.
    - intros O. unfold openw, addr_is in O. unfold getc in A0. rewrite <- Ni, A0 in O. discriminate.
    - apply wok_open. rewrite <- Ni. apply (I (S i)). lia. }
  pose proof (count_split _ _ _ _ F). lia.
Qed.
