(* Proofs/HttpStreamAbs.v -- finite abstraction of a stream (which blocking yield it is paused at, the two
   state-machine states, the summary of the hooks fired, the ghost flags) and a set-valued abstract interpreter
   a_* mirroring Model/HttpStream.v function by function: wherever the model tests data (buffers, heads, queue,
   options) the abstract function returns both outcomes.  Soundness is proved in Proofs/HttpStreamSound.v. *)
From Coq Require Import List Bool NArith.
From MV Require Import Base.Bytes Model.HttpStream.
Import ListNotations.

Inductive pctag :=
| PNone | PInvReq1 | PInvReq2 | PInvResp | PBsReq1 | PBsReq2 | PBsResp1 | PBsResp2
| PReqHeaders (es : bool) | PConnStreamHdr | PConnStreamLate | PConnConsume
| PReqStream | PReq | PRespHSet | PRespH (es : bool) | PResponse (already : bool)
| PKilled | PPErr (isreq : bool) (af : after) | PConnect.

Definition tag_of (p : option await) : pctag :=
  match p with
  | None => PNone
  | Some k =>
      match k with
      | AwInvReq1 => PInvReq1 | AwInvReq2 => PInvReq2 | AwInvResp => PInvResp
      | AwBsReq1 => PBsReq1 | AwBsReq2 => PBsReq2 | AwBsResp1 => PBsResp1 | AwBsResp2 => PBsResp2
      | AwReqHeaders es => PReqHeaders es
      | AwConnStreamHdr => PConnStreamHdr | AwConnStreamLate _ => PConnStreamLate | AwConnConsume => PConnConsume
      | AwReqStream => PReqStream | AwReq => PReq | AwRespHSet => PRespHSet | AwRespH es => PRespH es
      | AwResponse a => PResponse a | AwKilled => PKilled | AwPErr i _ af => PPErr i af | AwConnect => PConnect
      end
  end.

Record ast := mkAst { x_pc : pctag; x_cs : sst; x_ss : sst; x_m : mstate;
                      x_up : bool; x_ab : bool; x_rqe : bool; x_rqf : bool; x_rsf : bool;
                      x_live : bool; x_rs : bool; x_rq : bool;
                      x_qb : bool (* request_body_buf not empty *); x_pb : bool (* response_body_buf not empty *);
                      x_tun : bool; x_cr : bool; x_ve : bool; x_ws : bool }.
Definition abs (s : stream) : ast :=
  mkAst (tag_of (pc s)) (cs s) (ss s) (msum s) (upstream s) (aborted s) (reqerr_h s) (req_fin s) (resp_fin s)
        (live s) (req_stream s) (is_some (req s)) (negb (isnil (reqbuf s))) (negb (isnil (respbuf s))) (tunnel s) (crashed s) (venv s) (fws s).
Definition sx_pc (v : pctag) (s : ast) : ast := {| x_pc := v; x_cs := x_cs s; x_ss := x_ss s; x_m := x_m s; x_up := x_up s; x_ab := x_ab s; x_rqe := x_rqe s; x_rqf := x_rqf s; x_rsf := x_rsf s; x_live := x_live s; x_rs := x_rs s; x_rq := x_rq s; x_qb := x_qb s; x_pb := x_pb s; x_tun := x_tun s; x_cr := x_cr s; x_ve := x_ve s; x_ws := x_ws s |}.
Definition sx_cs (v : sst) (s : ast) : ast := {| x_pc := x_pc s; x_cs := v; x_ss := x_ss s; x_m := x_m s; x_up := x_up s; x_ab := x_ab s; x_rqe := x_rqe s; x_rqf := x_rqf s; x_rsf := x_rsf s; x_live := x_live s; x_rs := x_rs s; x_rq := x_rq s; x_qb := x_qb s; x_pb := x_pb s; x_tun := x_tun s; x_cr := x_cr s; x_ve := x_ve s; x_ws := x_ws s |}.
Definition sx_ss (v : sst) (s : ast) : ast := {| x_pc := x_pc s; x_cs := x_cs s; x_ss := v; x_m := x_m s; x_up := x_up s; x_ab := x_ab s; x_rqe := x_rqe s; x_rqf := x_rqf s; x_rsf := x_rsf s; x_live := x_live s; x_rs := x_rs s; x_rq := x_rq s; x_qb := x_qb s; x_pb := x_pb s; x_tun := x_tun s; x_cr := x_cr s; x_ve := x_ve s; x_ws := x_ws s |}.
Definition sx_m (v : mstate) (s : ast) : ast := {| x_pc := x_pc s; x_cs := x_cs s; x_ss := x_ss s; x_m := v; x_up := x_up s; x_ab := x_ab s; x_rqe := x_rqe s; x_rqf := x_rqf s; x_rsf := x_rsf s; x_live := x_live s; x_rs := x_rs s; x_rq := x_rq s; x_qb := x_qb s; x_pb := x_pb s; x_tun := x_tun s; x_cr := x_cr s; x_ve := x_ve s; x_ws := x_ws s |}.
Definition sx_up (v : bool) (s : ast) : ast := {| x_pc := x_pc s; x_cs := x_cs s; x_ss := x_ss s; x_m := x_m s; x_up := v; x_ab := x_ab s; x_rqe := x_rqe s; x_rqf := x_rqf s; x_rsf := x_rsf s; x_live := x_live s; x_rs := x_rs s; x_rq := x_rq s; x_qb := x_qb s; x_pb := x_pb s; x_tun := x_tun s; x_cr := x_cr s; x_ve := x_ve s; x_ws := x_ws s |}.
Definition sx_ab (v : bool) (s : ast) : ast := {| x_pc := x_pc s; x_cs := x_cs s; x_ss := x_ss s; x_m := x_m s; x_up := x_up s; x_ab := v; x_rqe := x_rqe s; x_rqf := x_rqf s; x_rsf := x_rsf s; x_live := x_live s; x_rs := x_rs s; x_rq := x_rq s; x_qb := x_qb s; x_pb := x_pb s; x_tun := x_tun s; x_cr := x_cr s; x_ve := x_ve s; x_ws := x_ws s |}.
Definition sx_rqe (v : bool) (s : ast) : ast := {| x_pc := x_pc s; x_cs := x_cs s; x_ss := x_ss s; x_m := x_m s; x_up := x_up s; x_ab := x_ab s; x_rqe := v; x_rqf := x_rqf s; x_rsf := x_rsf s; x_live := x_live s; x_rs := x_rs s; x_rq := x_rq s; x_qb := x_qb s; x_pb := x_pb s; x_tun := x_tun s; x_cr := x_cr s; x_ve := x_ve s; x_ws := x_ws s |}.
Definition sx_rqf (v : bool) (s : ast) : ast := {| x_pc := x_pc s; x_cs := x_cs s; x_ss := x_ss s; x_m := x_m s; x_up := x_up s; x_ab := x_ab s; x_rqe := x_rqe s; x_rqf := v; x_rsf := x_rsf s; x_live := x_live s; x_rs := x_rs s; x_rq := x_rq s; x_qb := x_qb s; x_pb := x_pb s; x_tun := x_tun s; x_cr := x_cr s; x_ve := x_ve s; x_ws := x_ws s |}.
Definition sx_rsf (v : bool) (s : ast) : ast := {| x_pc := x_pc s; x_cs := x_cs s; x_ss := x_ss s; x_m := x_m s; x_up := x_up s; x_ab := x_ab s; x_rqe := x_rqe s; x_rqf := x_rqf s; x_rsf := v; x_live := x_live s; x_rs := x_rs s; x_rq := x_rq s; x_qb := x_qb s; x_pb := x_pb s; x_tun := x_tun s; x_cr := x_cr s; x_ve := x_ve s; x_ws := x_ws s |}.
Definition sx_live (v : bool) (s : ast) : ast := {| x_pc := x_pc s; x_cs := x_cs s; x_ss := x_ss s; x_m := x_m s; x_up := x_up s; x_ab := x_ab s; x_rqe := x_rqe s; x_rqf := x_rqf s; x_rsf := x_rsf s; x_live := v; x_rs := x_rs s; x_rq := x_rq s; x_qb := x_qb s; x_pb := x_pb s; x_tun := x_tun s; x_cr := x_cr s; x_ve := x_ve s; x_ws := x_ws s |}.
Definition sx_rs (v : bool) (s : ast) : ast := {| x_pc := x_pc s; x_cs := x_cs s; x_ss := x_ss s; x_m := x_m s; x_up := x_up s; x_ab := x_ab s; x_rqe := x_rqe s; x_rqf := x_rqf s; x_rsf := x_rsf s; x_live := x_live s; x_rs := v; x_rq := x_rq s; x_qb := x_qb s; x_pb := x_pb s; x_tun := x_tun s; x_cr := x_cr s; x_ve := x_ve s; x_ws := x_ws s |}.
Definition sx_rq (v : bool) (s : ast) : ast := {| x_pc := x_pc s; x_cs := x_cs s; x_ss := x_ss s; x_m := x_m s; x_up := x_up s; x_ab := x_ab s; x_rqe := x_rqe s; x_rqf := x_rqf s; x_rsf := x_rsf s; x_live := x_live s; x_rs := x_rs s; x_rq := v; x_qb := x_qb s; x_pb := x_pb s; x_tun := x_tun s; x_cr := x_cr s; x_ve := x_ve s; x_ws := x_ws s |}.
Definition sx_qb (v : bool) (s : ast) : ast := {| x_pc := x_pc s; x_cs := x_cs s; x_ss := x_ss s; x_m := x_m s; x_up := x_up s; x_ab := x_ab s; x_rqe := x_rqe s; x_rqf := x_rqf s; x_rsf := x_rsf s; x_live := x_live s; x_rs := x_rs s; x_rq := x_rq s; x_qb := v; x_pb := x_pb s; x_tun := x_tun s; x_cr := x_cr s; x_ve := x_ve s; x_ws := x_ws s |}.
Definition sx_pb (v : bool) (s : ast) : ast := {| x_pc := x_pc s; x_cs := x_cs s; x_ss := x_ss s; x_m := x_m s; x_up := x_up s; x_ab := x_ab s; x_rqe := x_rqe s; x_rqf := x_rqf s; x_rsf := x_rsf s; x_live := x_live s; x_rs := x_rs s; x_rq := x_rq s; x_qb := x_qb s; x_pb := v; x_tun := x_tun s; x_cr := x_cr s; x_ve := x_ve s; x_ws := x_ws s |}.
Definition sx_tun (v : bool) (s : ast) : ast := {| x_pc := x_pc s; x_cs := x_cs s; x_ss := x_ss s; x_m := x_m s; x_up := x_up s; x_ab := x_ab s; x_rqe := x_rqe s; x_rqf := x_rqf s; x_rsf := x_rsf s; x_live := x_live s; x_rs := x_rs s; x_rq := x_rq s; x_qb := x_qb s; x_pb := x_pb s; x_tun := v; x_cr := x_cr s; x_ve := x_ve s; x_ws := x_ws s |}.
Definition sx_cr (v : bool) (s : ast) : ast := {| x_pc := x_pc s; x_cs := x_cs s; x_ss := x_ss s; x_m := x_m s; x_up := x_up s; x_ab := x_ab s; x_rqe := x_rqe s; x_rqf := x_rqf s; x_rsf := x_rsf s; x_live := x_live s; x_rs := x_rs s; x_rq := x_rq s; x_qb := x_qb s; x_pb := x_pb s; x_tun := x_tun s; x_cr := v; x_ve := x_ve s; x_ws := x_ws s |}.
Definition sx_ve (v : bool) (s : ast) : ast := {| x_pc := x_pc s; x_cs := x_cs s; x_ss := x_ss s; x_m := x_m s; x_up := x_up s; x_ab := x_ab s; x_rqe := x_rqe s; x_rqf := x_rqf s; x_rsf := x_rsf s; x_live := x_live s; x_rs := x_rs s; x_rq := x_rq s; x_qb := x_qb s; x_pb := x_pb s; x_tun := x_tun s; x_cr := x_cr s; x_ve := v; x_ws := x_ws s |}.
Definition sx_ws (v : bool) (s : ast) : ast := {| x_pc := x_pc s; x_cs := x_cs s; x_ss := x_ss s; x_m := x_m s; x_up := x_up s; x_ab := x_ab s; x_rqe := x_rqe s; x_rqf := x_rqf s; x_rsf := x_rsf s; x_live := x_live s; x_rs := x_rs s; x_rq := x_rq s; x_qb := x_qb s; x_pb := x_pb s; x_tun := x_tun s; x_cr := x_cr s; x_ve := x_ve s; x_ws := v |}.
Definition a_crash (a : ast) : list ast := [sx_cr true a].
Definition a_emit_hook (h : hook) (t : pctag) (a : ast) : ast := sx_pc t (sx_m (mon_step (x_m a) h) a).
Definition a_finish_killed (a : ast) : ast := sx_cs SErrored (sx_ss SErrored (sx_live false a)).
Definition a_check_killed (emit : bool) (a : ast) : list (option ast) :=
  [None; Some (if emit then a_emit_hook HkError PKilled a else a_finish_killed a)].
Definition a_flow_done (a : ast) : list ast :=
  let a1 := if x_ws a then a else sx_live false a in [sx_cr true a1; sx_tun true a1; a1].
Definition a_send_response (already : bool) (a : ast) : list ast :=
  [sx_cr true a; a_emit_hook HkResponse (PResponse already) a; a_emit_hook HkResponse (PResponse already) (sx_ws true a)].
Definition a_send_response_cont (a : ast) : list ast :=
  let a1 := sx_ss SDone a in
  a_finish_killed a1 :: sx_cr true a1 :: (if sst_eqb (x_cs a1) SDone then a_flow_done a1 else [a1]).
Definition a_apply_after (af : after) (a : ast) : ast :=
  match af with
  | AfNone | AfConsume => a
  | AfStreamHdr => sx_ss SWaitRespH (sx_cs SErrored a)
  | AfStreamLate => sx_cs SErrored a
  end.
Definition a_perr_tail (isreq : bool) (af : after) (a : ast) : list ast :=
  [a_apply_after af (a_finish_killed a);
   a_apply_after af (sx_live false (if isreq then a else sx_ss SErrored a))].
Definition a_handle_perr (isreq : bool) (af : after) (a : ast) : list ast :=
  let ss_fin := sst_eqb (x_ss a) SDone || sst_eqb (x_ss a) SErrored in
  let talk := isreq && (sst_eqb (x_cs a) SStreamReq || sst_eqb (x_cs a) SDone) && negb ss_fin in
  let need := negb (sst_eqb (x_cs a) SErrored || ss_fin) in
  let a1 := if talk then sx_ab true (sx_ss SErrored (sx_cs SErrored a)) else a in
  if need then [a_emit_hook HkError (PPErr isreq af) a1] else a_perr_tail isreq af a1.
Definition a_start_request_stream (late : bool) (a : ast) : list ast :=
  [sx_cr true a; sx_pc (if late then PConnStreamLate else PConnStreamHdr) a].
Definition a_resume_conn_stream (late ok : bool) (a : ast) : list ast :=
  if ok then
    let a1 := sx_cs SStreamReq (sx_up true a) in
    if late then [a1; sx_qb true a1] else [sx_ss SWaitRespH a1]
  else a_handle_perr false (if late then AfStreamLate else AfStreamHdr) a.
Definition a_resume_conn_consume (ok : bool) (a : ast) : list ast :=
  if ok then [sx_up true a] else a_handle_perr false AfConsume a.
(* (stop, state) *)
Definition a_cbs_req (a : ast) : list (bool * ast) :=
  (false, a) ::
  (if x_qb a
   then (true, a_emit_hook HkError PBsReq2 a)
        :: map (fun x => (true, x)) (a_start_request_stream true (sx_qb false (sx_rs true a)))
   else [(true, a_emit_hook HkReqHeaders PBsReq1 a); (false, sx_rs true a)]).
Definition a_state_wait_req_headers (inval connect hashost es : bool) (a0 : ast) : list ast :=
  let a := sx_live true (sx_rq true a0) in
  if inval then [a_emit_hook HkReqHeaders PInvReq1 a]
  else if connect then [a_emit_hook HkConnect PConnect (sx_cs SDone a)]
  else if negb hashost then [sx_cs SErrored a]
  else flat_map (fun p : bool * ast => if fst p then [snd p] else [a_emit_hook HkReqHeaders (PReqHeaders es) (snd p)])
                (if es then [(false, a)] else a_cbs_req a).
Definition a_cont_req_headers (es : bool) (a : ast) : list ast :=
  a_emit_hook HkError PKilled a ::
  (if x_rs a && negb es then a_start_request_stream false a else [sx_ss SWaitRespH (sx_cs SConsumeReq a)]).
Inductive aev := AReqHeaders (inval connect hashost es : bool) | AReqData (ne : bool) | AReqEOM | AReqErr
               | ARespHeaders (inval es : bool) | ARespData (ne : bool) | ARespEOM | ARespErr.
Definition a_state_consume_req (e : aev) (a : ast) : list ast :=
  match e with
  | AReqData ne => map snd (a_cbs_req (sx_qb (x_qb a || ne) a))
  | AReqEOM => [a_emit_hook HkRequest PReq (sx_cs SDone (sx_qb false a))]
  | _ => a_crash a
  end.
Definition a_cont_req (a : ast) : list ast :=
  [a_emit_hook HkError PKilled a; a_emit_hook HkRespHeaders PRespHSet a; sx_pc PConnConsume a].
Definition a_state_stream_req (e : aev) (a : ast) : list ast :=
  match e with
  | AReqData ne => [a; sx_qb (x_qb a || ne) a]
  | AReqEOM => [a_emit_hook HkRequest PReqStream a; a_emit_hook HkRequest PReqStream (sx_qb false a)]
  | _ => a_crash a
  end.
Definition a_cont_req_stream (a : ast) : list ast :=
  (if sst_eqb (x_ss a) SDone || sst_eqb (x_ss a) SErrored then a_finish_killed a else a_emit_hook HkError PKilled a) ::
  (let a1 := sx_cs SDone a in if sst_eqb (x_ss a1) SDone then a_flow_done a1 else [a1]).
Definition a_start_response_stream (a : ast) : list ast := [sx_cr true a; sx_ss SStreamResp a].
Definition a_cbs_resp (a : ast) : list (bool * ast) :=
  (false, a) ::
  (if x_pb a
   then (true, a_emit_hook HkError PBsResp2 a)
        :: flat_map (fun x => [(true, x); (true, sx_pb true x)]) (a_start_response_stream (sx_pb false a))
   else [(true, a_emit_hook HkRespHeaders PBsResp1 a)]).
Definition a_state_wait_resp_headers (inval es : bool) (a : ast) : list ast :=
  flat_map (fun p : bool * ast =>
              if fst p then [snd p]
              else if inval then [a_emit_hook HkError PInvResp (snd p)]
              else [a_emit_hook HkRespHeaders (PRespH es) (snd p)])
           (if es then [(false, a)] else a_cbs_resp a).
Definition a_cont_resp_headers (es : bool) (a : ast) : list ast :=
  a_emit_hook HkError PKilled a :: sx_ss SConsumeResp a :: (if es then [] else a_start_response_stream a).
Definition a_state_consume_resp (e : aev) (a : ast) : list ast :=
  match e with
  | ARespData ne => map snd (a_cbs_resp (sx_pb (x_pb a || ne) a))
  | ARespEOM => sx_cr true a :: a_send_response false (sx_pb false a)
  | _ => a_crash a
  end.
Definition a_state_stream_resp (e : aev) (a : ast) : list ast :=
  sx_cr true a ::
  match e with
  | ARespData ne => [a; sx_pb (x_pb a || ne) a]
  | ARespEOM => a_send_response true a ++ a_send_response true (sx_pb false a)
  | _ => a_crash a
  end.
Definition a_cont_connect (a : ast) : list ast := [a_finish_killed a; sx_tun true a].

Definition aev_req_side (e : aev) : bool :=
  match e with AReqHeaders _ _ _ _ | AReqData _ | AReqEOM | AReqErr => true | _ => false end.
Definition aev_first (e : aev) : bool := match e with AReqHeaders _ _ _ _ => true | _ => false end.
Definition a_note_event (e : aev) (a : ast) : ast :=
  let fresh := sst_eqb (x_cs a) SWaitReqH && negb (x_rq a) in
  let bad_env := (fresh && negb (aev_first e)) || (negb fresh && aev_first e)
                 || (negb (aev_req_side e) && negb (x_up a))
                 || (aev_req_side e && x_rqe a)
                 || match e with AReqData false | ARespData false => true | _ => false end in
  let a1 := if bad_env then sx_ve true a else a in
  let a2 := a1 in
  match e with
  | AReqErr => sx_rqf true (sx_rqe true a2)
  | AReqEOM => sx_rqf true a2
  | ARespEOM | ARespErr => sx_rsf true a2
  | _ => a2
  end.
Definition a_run_event (e : aev) (a0 : ast) : list ast :=
  let a := a_note_event e a0 in
  match e with
  | AReqErr => a_handle_perr true AfNone a
  | ARespErr => a_handle_perr false AfNone a
  | AReqHeaders _ _ _ _ | AReqData _ | AReqEOM =>
      match x_cs a with
      | SErrored => [a]
      | SWaitReqH => match e with AReqHeaders i c h es => a_state_wait_req_headers i c h es a | _ => a_crash a end
      | SConsumeReq => a_state_consume_req e a
      | SStreamReq => a_state_stream_req e a
      | _ => a_crash a
      end
  | ARespHeaders _ _ | ARespData _ | ARespEOM =>
      match x_ss a with
      | SErrored => [a]
      | SWaitRespH => match e with ARespHeaders i es => a_state_wait_resp_headers i es a | _ => a_crash a end
      | SConsumeResp => a_state_consume_resp e a
      | SStreamResp => a_state_stream_resp e a
      | _ => a_crash a
      end
  end.
(* continuation after a completed blocking command; ok = the connection attempt succeeded *)
Definition a_resume (t : pctag) (ok : bool) (a : ast) : list ast :=
  match t with
  | PNone => a_crash a
  | PInvReq1 => [a_emit_hook HkError PInvReq2 a]
  | PInvReq2 | PInvResp => [sx_cs SErrored (sx_ss SErrored (sx_live false a))]
  | PBsReq1 => [a_emit_hook HkError PBsReq2 a]
  | PBsReq2 => [sx_live false (sx_cs SErrored a)]
  | PBsResp1 => [a_emit_hook HkError PBsResp2 a]
  | PBsResp2 => [sx_live false (sx_ss SErrored (sx_cs SErrored a))]
  | PReqHeaders es => a_cont_req_headers es a
  | PConnStreamHdr => a_resume_conn_stream false ok a
  | PConnStreamLate => a_resume_conn_stream true ok a
  | PConnConsume => a_resume_conn_consume ok a
  | PReqStream => a_cont_req_stream a
  | PReq => a_cont_req a
  | PRespHSet => a_emit_hook HkError PKilled a :: a_send_response false a
  | PRespH es => a_cont_resp_headers es a
  | PResponse _ => a_send_response_cont a
  | PKilled => [a_finish_killed a]
  | PPErr isreq af => a_perr_tail isreq af a
  | PConnect => a_cont_connect a
  end.
Definition a_apply_act (a : ast) : list ast := [a; sx_live false a; sx_rs true a; sx_rs true (sx_live false a)].

Definition aev_of (o : opts) (e : hev) : aev :=
  match e with
  | EReqHeaders h es => AReqHeaders (o_val o && negb (h_valid h)) (meth_eqb (h_meth h) MConnect) (h_hashost h) es
  | EReqData d => AReqData (negb (isnil d)) | EReqEOM => AReqEOM | EReqErr _ => AReqErr
  | ERespHeaders h es => ARespHeaders (o_val o && negb (h_valid h)) es
  | ERespData d => ARespData (negb (isnil d)) | ERespEOM => ARespEOM | ERespErr _ => ARespErr
  end.
