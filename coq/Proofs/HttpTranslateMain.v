(* Proofs/HttpTranslateMain.v -- C06: the h2 contract facts, decidedness of the model, the upgrade direction
   (format_h2_*_headers read back by parse_h2_*_headers), the values on which Props/C06.v exhibits the known findings
   and the non-vacuity example, and what the written request means. *)
From Coq Require Import List Bool NArith ZArith.
From MV Require Import Base.Bytes Model.Http1Msg Model.Rfc9112 Model.HttpTranslate
  Proofs.DecOfN Proofs.HttpTranslateBase Proofs.HttpTranslateReq Proofs.HttpTranslateResp.
Import ListNotations.

(* the contract: nothing that could end a line survives in any name or value (pseudo-headers included) *)
Theorem h2_validate_no_ctl r t h n v : h2_validate r t h = true -> In (n, v) h ->
  existsb is_bad_value_char v = false
  /\ forallb (fun c => (32 <? bN c)%N && (bN c <? 127)%N) n = true.
Proof.
  intros V I. pose proof (h2_validate_all _ _ _ V) as A. rewrite Forall_forall in A.
  destruct (A _ I) as (N & W & _). cbn [fst snd] in *. split.
  - unfold h2_value_ok in W. destruct v as [|c0 v]; [reflexivity|].
    apply andb_true_iff in W as [W _]. apply andb_true_iff in W as [W _]. apply negb_true_iff in W. exact W.
  - unfold h2_name_ok in N. apply andb_true_iff in N as [N _]. rewrite forallb_forall in *. intros c Hc.
    specialize (N c Hc). unfold h2_name_char_ok in N. apply andb_true_iff in N as [N N3]. apply andb_true_iff in N as [_ N2].
    rewrite N2, N3. reflexivity.
Qed.

(* header blocks accepted by the contract never enter the Transfer-Encoding branch of validate_headers *)
Lemma validated_no_te (fs : headers) : Forall h2_ok fs -> get_all TRANSFER_ENCODING fs = [].
Proof.
  intros F. rewrite get_all_filter. change (lower TRANSFER_ENCODING) with TRANSFER_ENCODING.
  induction F as [|f fs (N & _ & K) _ IH]; [reflexivity|]. cbn [filter].
  unfold name_ci at 1. unfold h2_name_ok in N. apply andb_true_iff in N as [N _]. rewrite (h2_name_lower _ N).
  unfold h2_field_ok in K. apply andb_true_iff in K as [_ K]. apply negb_true_iff in K.
  destruct (bytes_eqb (fst f) TRANSFER_ENCODING) eqn:X; [|exact IH].
  apply bytes_eqb_eq in X. rewrite X in K. discriminate K.
Qed.

Lemma validate_not_te fs : get_all TRANSFER_ENCODING fs = [] -> validate_headers fs <> VTe.
Proof.
  unfold validate_headers. intros E. rewrite E. destruct (negb _); [discriminate|].
  destruct (get_all CONTENT_LENGTH fs) as [|cl [|]]; try discriminate. destruct (valid_content_length cl); discriminate.
Qed.

Theorem down_request_decided pa h body tr : down_request pa h body tr <> OUndecided.
Proof.
  unfold down_request. destruct (h2_validate false false h) eqn:V; [|discriminate]. cbn [negb].
  destruct (h2_expected_length None h); [|discriminate]. destruct (negb _); [discriminate|]. destruct (negb _); [discriminate|].
  destruct (parse_h2_request_headers pa h) as [r|] eqn:P; [|discriminate].
  destruct (parsed_parts _ _ _ (h2_validate_all _ _ _ V) P) as [A _].
  pose proof (validate_not_te _ (validated_no_te _ A)) as K.
  unfold validate_request_transparent. destruct (negb _); [discriminate|]. destruct (bytes_eqb _ _); [discriminate|].
  destruct (validate_headers (hq_fields r)); try congruence; destruct tr; discriminate.
Qed.

Theorem down_response_decided m h body tr : down_response m h body tr <> OUndecided.
Proof.
  unfold down_response. destruct (h2_validate true false h) eqn:V; [|discriminate]. cbn [negb].
  destruct (h2_expected_length (Some m) h); [|discriminate]. destruct (is_informational h); [discriminate|].
  destruct (negb _); [discriminate|]. destruct (negb _); [discriminate|].
  destruct (parse_h2_response_headers h) as [[st fields]|] eqn:P; [|discriminate].
  destruct (parse_resp_spec _ _ _ P) as (q & Eh & _). pose proof (h2_validate_all _ _ _ V) as A.
  rewrite Eh in A. apply Forall_app in A as [_ A]. pose proof (validate_not_te _ (validated_no_te _ A)) as K.
  destruct (validate_headers fields); try congruence; destruct tr; discriminate.
Qed.

(* upgrade direction: an HTTP/1 request formatted for HTTP/2 is read back by parse_h2_request_headers *)
Definition up_fields (authority : bytes) (fields : headers) : headers :=
  match authority, hget N_HOST fields with
  | [], Some _ => normalize_h1_headers (hdel N_HOST fields)
  | _, _ => normalize_h1_headers fields
  end.
Definition up_authority (authority : bytes) (fields : headers) : bytes :=
  match authority, hget N_HOST fields with
  | [], Some hv => hv
  | _, _ => authority
  end.

Fixpoint nodup_names (q : headers) (seen : list bytes) : bool :=
  match q with
  | [] => true
  | (n, _) :: q' => is_pseudo n && negb (mem n seen) && nodup_names q' (seen ++ [n])
  end.

(* a block of distinct pseudo-headers followed by regular fields is split where the regular fields begin *)
Lemma split_prefix (q : headers) : forall (nf acc : headers), nodup_names q (map fst acc) = true ->
  Forall (fun f => is_pseudo (fst f) = false) nf ->
  split_pseudo_headers (q ++ nf) acc = Some (acc ++ q, nf).
Proof.
  induction q as [|[n v] q IH]; intros nf acc D NP.
  - cbn [app]. rewrite app_nil_r. destruct NP as [|[n v] nf P _]; [reflexivity|].
    cbn [split_pseudo_headers]. cbn [fst] in P. rewrite P. reflexivity.
  - cbn [nodup_names] in D. apply andb_true_iff in D as [D D3]. apply andb_true_iff in D as [D1 D2].
    apply negb_true_iff in D2. cbn [app split_pseudo_headers]. rewrite D1, D2.
    etransitivity; [apply IH; [rewrite map_app; exact D3 | exact NP] | rewrite <- app_assoc; reflexivity].
Qed.

(* [oa]: the :authority pseudo-header that is written, if any *)
Lemma parse_formatted pa m s p (oa : option bytes) nf :
  valid_method m = true -> valid_path p = true ->
  match oa with Some (a0 :: a) => pa (a0 :: a) = true | _ => True end ->
  Forall (fun x => is_pseudo (fst x) = false) nf ->
  parse_h2_request_headers pa
    (([(P_METHOD, m); (P_SCHEME, s); (P_PATH, p)] ++ match oa with Some a => [(P_AUTHORITY, a)] | None => [] end) ++ nf)
  = Some (mkH2Req m s (match oa with Some a => a | None => [] end) p nf).
Proof.
  intros VM VP PA NP. unfold parse_h2_request_headers.
  destruct oa as [a|]; rewrite split_prefix by (reflexivity || exact NP); simpl; rewrite VM, VP; [|reflexivity].
  destruct a; [reflexivity|]. simpl. rewrite PA. reflexivity.
Qed.

Theorem format_parse_request pa n m s a p f :
  valid_method m = true -> valid_path p = true ->
  (up_authority a f <> [] -> pa (up_authority a f) = true) ->
  Forall (fun x => is_pseudo (fst x) = false) (up_fields a f) ->
  parse_h2_request_headers pa (format_h2_request_headers n false m s a p f)
  = Some (mkH2Req m s (up_authority a f) p (up_fields a f)).
Proof.
  intros VM VP PA NP. unfold up_fields, up_authority, format_h2_request_headers in *.
  destruct a as [|a0 a]; [destruct (hget N_HOST f) as [hv|]|].
  - apply (parse_formatted pa m s p (Some hv) _ VM VP); [|exact NP]. destruct hv; [exact I|]. apply PA. discriminate.
  - exact (parse_formatted pa m s p None _ VM VP I NP).
  - apply (parse_formatted pa m s p (Some (a0 :: a)) _ VM VP); [|exact NP]. apply PA. discriminate.
Qed.

(* upgrade direction, responses: the status code survives format_h2_response_headers + parse *)
Theorem format_parse_response st f : (0 <= st)%Z ->
  Forall (fun x => is_pseudo (fst x) = false) (normalize_h1_headers f) ->
  parse_h2_response_headers (format_h2_response_headers true false st f) = Some (st, normalize_h1_headers f).
Proof.
  intros R NP. pose proof (dec_of_N_digits (Z.to_N st)) as D. rewrite <- dec_of_Z_nonneg in D by exact R.
  (* normalisation leaves the :status field as it is: its name is lower case and its value has no whitespace *)
  assert (E : format_h2_response_headers true false st f = [(P_STATUS, dec_of_Z st)] ++ normalize_h1_headers f).
  { unfold format_h2_response_headers, normalize_h1_headers. cbn [map filter fst snd].
    change (strip (lower P_STATUS)) with P_STATUS. rewrite (strip_digits _ D). reflexivity. }
  unfold parse_h2_response_headers. rewrite E, split_prefix by (reflexivity || exact NP). simpl. rewrite (py_int_dec st R). reflexivity.
Qed.

(* the values of the witnesses of the known findings (the guards of the two main theorems cannot be dropped) *)
Definition bs (l : list byte) : bytes := l.
Definition W_GET : bytes := [x47;x45;x54].
Definition W_HOST : bytes := [x65;x78;x61;x6d;x70;x6c;x65;x2e;x63;x6f;x6d].
Definition W_REQ (extra : headers) : headers :=
  [(P_METHOD, W_GET); (P_SCHEME, V_HTTP); (P_AUTHORITY, W_HOST); (P_PATH, [x2f])] ++ extra.
Definition strict : ref_opts := mkOpts false false false.

(* request-body-without-content-length: the body of a POST without content-length is written after the head as it is;
   when it looks like a request the reference reader finds two requests *)
Definition W_SMUGGLED : bytes :=
  [x47;x45;x54;x20;x2f;x61;x64;x6d;x69;x6e;x20;x48;x54;x54;x50;x2f;x31;x2e;x31;x0d;x0a;x48;x6f;x73;x74;x3a;x20;x78;x0d;x0a;x0d;x0a].

(* non-vacuity: a POST with two cookies and a body announced by content-length satisfies every hypothesis *)
Definition W_POST : bytes := [x50;x4f;x53;x54].
Definition sample_block : headers :=
  [(P_METHOD, W_POST); (P_SCHEME, V_HTTPS); (P_AUTHORITY, W_HOST); (P_PATH, [x2f;x61]);
   (N_COOKIE, [x61;x3d;x31]); (CONTENT_LENGTH, [x39]); (N_COOKIE, [x62;x3d;x32])].
Definition sample_body : bytes := [x47;x45;x54;x20;x2f;x0d;x0a;x0d;x0a].
Definition W_JOINED : bytes := [x61;x3d;x31;x3b;x20;x62;x3d;x32].

(* what the written request means, in terms of the accepted header block *)
Definition nonempty (b : bytes) : bool := match b with [] => false | _ => true end.

Theorem down_request_semantics pa h body out c :
  down_request pa h body None = OForward out c ->
  exists r, parse_h2_request_headers pa h = Some r /\
    (exists q, h = q ++ hq_fields r /\ Forall (fun x => is_pseudo (fst x) = true) q
       /\ In (P_METHOD, hq_method r) q /\ In (P_SCHEME, hq_scheme r) q /\ In (P_PATH, hq_path r) q
       /\ (hq_authority r = [] \/ In (P_AUTHORITY, hq_authority r) q)) /\
    let fs := h1_fields (strip_r r) in
      field_values N_HOST fs
        = (if negb (hcontains N_HOST_CAP (hq_fields r)) && nonempty (hq_authority r)
           then [hq_authority r] else field_values N_HOST (hq_fields r))
      /\ field_values N_COOKIE fs
        = match get_all N_COOKIE (hq_fields r) with (_ :: _ :: _) as l => [join_semi l] | l => l end
      /\ forall k, k <> N_HOST -> k <> N_COOKIE -> k <> N_EXPECT ->
           filter (name_ci k) fs = filter (name_ci k) (hq_fields r).
Proof.
  intros H. destruct (down_request_forward _ _ _ _ _ H) as (r & _ & _ & _ & _ & P & _ & _).
  exists r. split; [exact P|].
  destruct (parse_req_spec pa h r P) as (q & Eh & Fq & IM & IS & IP & IA & _ & _).
  split; [exists q; repeat split; assumption|]. cbv zeta. rewrite h1_fields_eq. cbn [strip_r hq_fields hq_authority].
  split; [|split].
  - rewrite field_values_filter, join_cookies_other, <- field_values_filter, with_host_host by discriminate.
    unfold hcontains. rewrite get_all_filter, field_values_filter, !strip_expect_filter by discriminate. reflexivity.
  - rewrite join_cookies_cookie, get_all_filter, with_host_other, strip_expect_filter by discriminate. reflexivity.
  - exact (sent_other r).
Qed.
