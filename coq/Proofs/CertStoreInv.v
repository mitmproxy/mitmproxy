(* Proofs/CertStoreInv.v -- reachable-state invariant of the CertStore model, the capacity
   bound and name consistency of served entries. *)
From Coq Require Import List Bool Arith Lia.
From MV Require Import Base.Bytes Model.CertStore Proofs.EqbIff.
Import ListNotations.

Lemma san_eqb_eq a b : san_eqb a b = true <-> a = b.
Proof. destruct a, b; simpl; rewrite ?bytes_eqb_eq; intuition congruence. Qed.

Lemma key_eqb_eq a b : key_eqb a b = true <-> a = b.
Proof.
  destruct a, b; simpl;
    rewrite ?andb_true_iff, ?bytes_eqb_eq, ?(option_eqb_eq _ bytes_eqb_eq), ?(list_eqb_eq _ san_eqb_eq);
    intuition congruence.
Qed.

Lemma entry_eqb_eq a b : entry_eqb a b = true <-> a = b.
Proof.
  destruct a, b; simpl;
    rewrite ?andb_true_iff, ?Nat.eqb_eq, ?(option_eqb_eq _ bytes_eqb_eq), ?(list_eqb_eq _ san_eqb_eq);
    intuition congruence.
Qed.

Lemma key_eqb_refl k : key_eqb k k = true.
Proof. apply key_eqb_eq. reflexivity. Qed.

Lemma key_eqb_neq a b : a <> b -> key_eqb a b = false.
Proof. apply (eqb_false_iff _ key_eqb_eq). Qed.

Lemma entry_eqb_neq a b : a <> b -> entry_eqb a b = false.
Proof. apply (eqb_false_iff _ entry_eqb_eq). Qed.

Lemma dict_get_in k c e : dict_get k c = Some e -> In (k, e) c.
Proof.
  induction c as [|[k0 v0] r IH]; simpl; intros H; [discriminate|].
  destruct (key_eqb k0 k) eqn:E.
  - apply key_eqb_eq in E. inversion H; subst. left. reflexivity.
  - right. apply IH, H.
Qed.

Lemma dict_set_in k v c k' e' :
  In (k', e') (dict_set k v c) -> (k' = k /\ e' = v) \/ In (k', e') c.
Proof.
  induction c as [|[k0 v0] r IH]; simpl; [intros [[= <- <-]|[]]; auto|].
  destruct (key_eqb k0 k) eqn:E; simpl; intros [H|H]; auto.
  - apply key_eqb_eq in E. injection H as <- <-. auto.
  - destruct (IH H); auto.
Qed.

Lemma dict_set_nodup k v c : NoDup (map fst c) -> NoDup (map fst (dict_set k v c)).
Proof.
  induction c as [|[k0 v0] r IH]; simpl; intros H.
  - constructor; [intros [] | constructor].
  - destruct (key_eqb k0 k) eqn:E; simpl.
    + exact H.
    + inversion H as [|? ? Hn Hr]; subst. constructor.
      * intros Hin. apply in_map_iff in Hin as [[k1 e1] [Hk Hin]]. simpl in Hk. subst k1.
        apply dict_set_in in Hin as [[Hk _]|Hin].
        -- subst k0. rewrite key_eqb_refl in E. discriminate.
        -- apply Hn. apply in_map_iff. exists (k0, e1). split; [reflexivity | exact Hin].
      * apply IH, Hr.
Qed.

Lemma dict_get_set_same k v c : dict_get k (dict_set k v c) = Some v.
Proof.
  induction c as [|[k0 v0] r IH]; simpl.
  - rewrite key_eqb_refl. reflexivity.
  - destruct (key_eqb k0 k) eqn:E; simpl; rewrite E; [reflexivity | exact IH].
Qed.

Lemma dict_get_set_other k k' v c : k' <> k -> dict_get k' (dict_set k v c) = dict_get k' c.
Proof.
  intros Hne. induction c as [|[k0 v0] r IH]; simpl.
  - rewrite key_eqb_neq by congruence. reflexivity.
  - destruct (key_eqb k0 k) eqn:E; simpl.
    + apply key_eqb_eq in E. subst k0. rewrite (key_eqb_neq k k') by congruence. reflexivity.
    + rewrite IH. reflexivity.
Qed.

Lemma filter_ne_in d c k e : In (k, e) (dict_filter_ne d c) -> In (k, e) c /\ e <> d.
Proof.
  unfold dict_filter_ne. intros H. apply filter_In in H as [H1 H2]. split; [exact H1|].
  simpl in H2. intros ->. rewrite (proj2 (entry_eqb_eq d d) eq_refl) in H2. discriminate.
Qed.

Lemma filter_nodup_keys (f : key * entry -> bool) c : NoDup (map fst c) -> NoDup (map fst (filter f c)).
Proof.
  induction c as [|[k0 v0] r IH]; simpl; intros H; [constructor|].
  inversion H as [|? ? Hn Hr]; subst.
  destruct (f (k0, v0)); simpl; [constructor|]; try (apply IH, Hr).
  intros Hin. apply Hn. apply in_map_iff in Hin as [x [Hx Hin]]. apply filter_In in Hin as [Hin _].
  apply in_map_iff. exists x. split; assumption.
Qed.

(* the first binding of k survives the filter when its value is not the evicted entry *)
Lemma dict_get_filter k e d c : dict_get k c = Some e -> e <> d -> dict_get k (dict_filter_ne d c) = Some e.
Proof.
  intros H Hne. induction c as [|[k0 v0] r IH]; simpl in *; [discriminate|].
  destruct (key_eqb k0 k) eqn:E.
  - inversion H; subst v0. rewrite (entry_eqb_neq _ _ Hne). simpl. rewrite E. reflexivity.
  - destruct (negb (entry_eqb v0 d)); simpl; [rewrite E|]; apply IH, H.
Qed.

(* a key none of whose bindings is the evicted entry is not affected by the filter *)
Lemma dict_get_filter_same k d c :
  (forall e, In (k, e) c -> e <> d) -> dict_get k (dict_filter_ne d c) = dict_get k c.
Proof.
  induction c as [|[k0 v0] r IH]; simpl; intros H; [reflexivity|].
  destruct (entry_eqb v0 d) eqn:Ed; simpl.
  - apply entry_eqb_eq in Ed. subst v0.
    destruct (key_eqb k0 k) eqn:E.
    + apply key_eqb_eq in E. subst k0. exfalso. apply (H d); [left; reflexivity | reflexivity].
    + apply IH. intros e He. apply H. right. exact He.
  - destruct (key_eqb k0 k); [reflexivity|]. apply IH. intros e He. apply H. right. exact He.
Qed.

(* generation number of an entry, so that "next_gen st - gid e <= cap" reads: e is among the cap entries generated
   last; custom entries never expire, their 0 only makes the condition a bound on next_gen *)
Definition gid (e : entry) : nat := match e with EGen i _ _ => i | ECustom _ => 0 end.

Record Inv (cap : nat) (st : store) : Prop := {
  inv_keys : NoDup (map fst (certs st));
  inv_custom : forall n e, In (KCustom n, e) (certs st) -> exists i, e = ECustom i;
  inv_gen : forall cn sans e, In (KGen cn sans, e) (certs st) ->
            (exists i, e = EGen i cn sans) /\ In e (expire_queue st);
  inv_q_gen : forall e, In e (expire_queue st) -> exists i cn sans, e = EGen i cn sans;
  inv_q_ids : map gid (expire_queue st)
              = seq (next_gen st - length (expire_queue st)) (length (expire_queue st));
  inv_q_next : length (expire_queue st) <= next_gen st;
  inv_q_cap : length (expire_queue st) <= cap }.

Lemma Inv_empty cap : Inv cap empty_store.
Proof.
  constructor; simpl; try (intros; contradiction); try lia; try reflexivity. constructor.
Qed.

(* names registered by one add_cert call *)
Definition registered_names (cn : option name) (alt : list san) (names : list name) : list name :=
  (match cn with Some n => if truthy_name n then [n] else [] | None => [] end)
  ++ map san_str alt ++ names.

(* add_cert binds each of them to the entry, in this order *)
Lemma add_cert_certs st e cn alt names :
  certs (add_cert st e cn alt names)
  = fold_left (fun c n => dict_set (KCustom n) e c) (registered_names cn alt names) (certs st).
Proof.
  assert (M : forall l c, fold_left (fun c s => dict_set (KCustom (san_str s)) e c) l c
                          = fold_left (fun c n => dict_set (KCustom n) e c) (map san_str l) c)
    by (induction l; intros; simpl; auto).
  unfold add_cert, registered_names. cbn [certs]. rewrite !fold_left_app, M.
  destruct cn as [n|]; [destruct (truthy_name n)|]; reflexivity.
Qed.

(* which only writes custom keys with that entry *)
Lemma fold_set_custom (e : entry) (l : list name) c :
  NoDup (map fst c) ->
  NoDup (map fst (fold_left (fun c n => dict_set (KCustom n) e c) l c))
  /\ (forall k e', In (k, e') (fold_left (fun c n => dict_set (KCustom n) e c) l c) ->
        (exists n, k = KCustom n /\ e' = e) \/ In (k, e') c)
  /\ (forall k, (forall n, In n l -> k <> KCustom n) ->
        dict_get k (fold_left (fun c n => dict_set (KCustom n) e c) l c) = dict_get k c).
Proof.
  revert c. induction l as [|x l IH]; intros c Hnd; simpl.
  - split; [exact Hnd|]. split; [intros k e' H; right; exact H | reflexivity].
  - destruct (IH (dict_set (KCustom x) e c) (dict_set_nodup _ _ _ Hnd)) as [I1 [I2 I3]].
    split; [exact I1|]. split.
    + intros k e' H. apply I2 in H as [H|H]; [left; exact H|].
      apply dict_set_in in H as [H|H]; [left; exists x; exact H | right; exact H].
    + intros k Hk. rewrite I3 by (intros y Hy; apply Hk; right; exact Hy).
      apply dict_get_set_other. apply Hk. left. reflexivity.
Qed.

Lemma add_cert_spec st i cn alt names :
  NoDup (map fst (certs st)) ->
  let st' := add_cert st (ECustom i) cn alt names in
  NoDup (map fst (certs st'))
  /\ (forall k e, In (k, e) (certs st') -> (exists n, k = KCustom n /\ e = ECustom i) \/ In (k, e) (certs st))
  /\ (forall k, (forall n, In n (registered_names cn alt names) -> k <> KCustom n) ->
        dict_get k (certs st') = dict_get k (certs st))
  /\ expire_queue st' = expire_queue st /\ next_gen st' = next_gen st.
Proof.
  intros Hnd st'. unfold st'. rewrite add_cert_certs.
  destruct (fold_set_custom (ECustom i) (registered_names cn alt names) (certs st) Hnd) as [N [S G]]. auto.
Qed.

Lemma Inv_add_cert cap st i cn alt names : Inv cap st -> Inv cap (add_cert st (ECustom i) cn alt names).
Proof.
  intros I. destruct (add_cert_spec st i cn alt names (inv_keys _ _ I)) as [N [S [_ [Q X]]]].
  constructor; try (rewrite ?Q, ?X; apply I).
  - exact N.
  - intros n e H. apply S in H as [[n' [_ He]]|H]; [exists i; exact He | eapply inv_custom; eauto].
  - intros c s e H. apply S in H as [[n' [Hk _]]|H]; [discriminate|]. rewrite Q. eapply inv_gen; eauto.
Qed.

(* the three moves of a generation: the new entry is bound and queued, which may take the queue one past
   the capacity; then the head is dropped with every key bound to it, or nothing is *)
Lemma Inv_push cap st cn sans :
  Inv cap st ->
  let e := EGen (next_gen st) cn sans in
  Inv (S cap) (mkStore (dict_set (KGen cn sans) e (certs st)) (expire_queue st ++ [e]) (S (next_gen st))).
Proof.
  intros I e. pose proof (inv_q_next _ _ I) as Hn. pose proof (inv_q_cap _ _ I) as Hc.
  constructor; cbn [certs expire_queue next_gen]; rewrite ?app_length; cbn [length]; try lia.
  - apply dict_set_nodup, I.
  - intros n0 e0 Hin. apply dict_set_in in Hin as [[Hk _]|Hin]; [discriminate|]. eapply inv_custom; eauto.
  - intros c s e0 Hin. rewrite in_app_iff. apply dict_set_in in Hin as [[[= -> ->] ->]|Hin].
    + split; [eexists; reflexivity | right; left; reflexivity].
    + destruct (inv_gen _ _ I _ _ _ Hin) as [A B]. auto.
  - intros x Hx. apply in_app_or in Hx as [Hx|[<-|[]]]; [eapply inv_q_gen; eauto | eexists _, _, _; reflexivity].
  - rewrite Nat.add_1_r, seq_S, map_app, (inv_q_ids _ _ I). f_equal. cbn [map gid e]. f_equal. lia.
Qed.

Lemma Inv_pop cap c d q n :
  Inv (S cap) (mkStore c (d :: q) n) -> Inv cap (mkStore (dict_filter_ne d c) q n).
Proof.
  intros [K C G QG QI QN QC]. cbn [certs expire_queue next_gen length] in *.
  constructor; cbn [certs expire_queue next_gen]; try lia.
  - apply filter_nodup_keys, K.
  - intros n0 e0 Hin. apply filter_ne_in in Hin as [Hin _]. eapply C; eauto.
  - intros cn sans e0 Hin. apply filter_ne_in in Hin as [Hin Hne].
    destruct (G _ _ _ Hin) as [A [B|B]]; [congruence | auto].
  - intros x Hx. apply QG. right. exact Hx.
  - cbn [map seq] in QI. injection QI as _ QI. rewrite QI. f_equal. lia.
Qed.

Lemma Inv_fits cap st : Inv (S cap) st -> length (expire_queue st) <= cap -> Inv cap st.
Proof. intros [] H. constructor; assumption. Qed.

Section WithCap.
Variable cap : nat.

(* expire appends to the queue and, once it is longer than cap, drops its head together with every key bound to it *)
Lemma expire_cases st e :
  (length (expire_queue st) < cap
   /\ expire cap st e = mkStore (certs st) (expire_queue st ++ [e]) (next_gen st))
  \/ (cap <= length (expire_queue st)
      /\ exists d q', expire_queue st ++ [e] = d :: q'
                      /\ expire cap st e = mkStore (dict_filter_ne d (certs st)) q' (next_gen st)).
Proof.
  unfold expire. rewrite app_length. simpl length. destruct (cap <? length (expire_queue st) + 1) eqn:E.
  - apply Nat.ltb_lt in E. right. split; [lia|].
    destruct (expire_queue st ++ [e]) as [|d q'] eqn:Q; [destruct (expire_queue st); discriminate|]. eauto.
  - apply Nat.ltb_ge in E. left. split; [lia | reflexivity].
Qed.

Lemma generate_spec st cn sans st' e :
  Inv cap st -> generate cap st cn sans = Some (st', e) ->
  Inv cap st' /\ e = EGen (next_gen st) cn sans /\ next_gen st' = S (next_gen st).
Proof.
  intros I H. unfold generate in H. destruct (dummy_cert_ok cn); [|discriminate].
  injection H as <- <-. pose proof (Inv_push cap st cn sans I) as P. cbv zeta in P.
  destruct (expire_cases (mkStore (dict_set (KGen cn sans) (EGen (next_gen st) cn sans) (certs st)) (expire_queue st)
                                  (S (next_gen st))) (EGen (next_gen st) cn sans))
    as [[L ->]|[L (d & q' & Q & ->)]]; cbn [certs expire_queue next_gen] in *; (split; [|split; reflexivity]).
  - apply Inv_fits; [exact P|]. cbn [expire_queue]. rewrite app_length. simpl. lia.
  - rewrite Q in P. apply Inv_pop, P.
Qed.

Section WithTruthy.
Variable truthy : bool.

Lemma get_cert_spec st cn sans st' e :
  Inv cap st -> get_cert truthy cap st cn sans = Some (st', e) ->
  Inv cap st' /\ next_gen st <= next_gen st'.
Proof.
  intros I H. unfold get_cert in H.
  destruct (lookup_first _ _) as [[k e0]|].
  - destruct (negb truthy || truthy_key k).
    + inversion H; subst. split; [exact I | lia].
    + apply generate_spec in H as [A [_ B]]; [|exact I]. split; [exact A | lia].
  - apply generate_spec in H as [A [_ B]]; [|exact I]. split; [exact A | lia].
Qed.

Lemma Inv_step st o : Inv cap st -> Inv cap (fst (step truthy cap st o)).
Proof.
  intros I. destruct o as [i cn alt names|cn sans]; simpl.
  - apply Inv_add_cert, I.
  - destruct (get_cert truthy cap st cn sans) as [[st' e]|] eqn:G; simpl; [|exact I].
    eapply get_cert_spec; eauto.
Qed.

Lemma Inv_run ops st : Inv cap st -> Inv cap (run truthy cap ops st).
Proof.
  revert st. induction ops as [|o r IH]; intros st I; simpl; [exact I|]. apply IH, Inv_step, I.
Qed.

Lemma Inv_reachable ops : Inv cap (run truthy cap ops empty_store).
Proof. apply Inv_run, Inv_empty. Qed.

(* a generated entry determines its key, so distinct keys carry distinct entries *)
Lemma gen_entries_nodup c :
  NoDup (map fst c) ->
  (forall cn sans e, In (KGen cn sans, e) c -> exists i, e = EGen i cn sans) ->
  NoDup (map snd (filter (fun kv => is_gen_key (fst kv)) c)).
Proof.
  intros Hnd Hg. apply (filter_nodup_keys (fun kv => is_gen_key (fst kv))) in Hnd.
  apply (NoDup_map_inv (fun e => match e with EGen _ cn sans => KGen cn sans | ECustom _ => KCustom [] end)).
  erewrite map_map, map_ext_in; [exact Hnd|].
  intros [k e] Hin. apply filter_In in Hin as [Hin Hk]. destruct k as [|cn sans]; [discriminate|].
  destruct (Hg _ _ _ Hin) as [i ->]. reflexivity.
Qed.

Lemma bound_inv st : Inv cap st -> gen_count (certs st) <= cap /\ length (expire_queue st) <= cap.
Proof.
  intros I. split; [|apply I]. unfold gen_count.
  rewrite <- (map_length snd). etransitivity; [|apply (inv_q_cap _ _ I)].
  apply NoDup_incl_length.
  - apply gen_entries_nodup; [apply I|]. intros c s e H. apply (inv_gen _ _ I _ _ _ H).
  - intros e He. apply in_map_iff in He as [[k e1] [E Hin]]. simpl in E. subst e1.
    apply filter_In in Hin as [Hin Hk]. simpl in Hk. destruct k as [|c s]; [discriminate|].
    apply (inv_gen _ _ I _ _ _ Hin).
Qed.

Lemma bound ops :
  gen_count (certs (run truthy cap ops empty_store)) <= cap
  /\ length (expire_queue (run truthy cap ops empty_store)) <= cap.
Proof. apply bound_inv, Inv_reachable. Qed.

Definition served_ok (st : store) (cn : option name) (sans : list san) (e : entry) : Prop :=
  (exists n i, In n (potential_names cn sans) /\ e = ECustom i
               /\ dict_get (KCustom n) (certs st) = Some e)
  \/ (exists i, e = EGen i cn sans
                /\ (dict_get (KGen cn sans) (certs st) = Some e \/ i = next_gen st)).

Lemma lookup_first_some keys c k e :
  lookup_first keys c = Some (k, e) -> In k keys /\ dict_get k c = Some e.
Proof.
  induction keys as [|k0 r IH]; simpl; intros H; [discriminate|].
  destruct (dict_get k0 c) eqn:G.
  - inversion H; subst. split; [left; reflexivity | exact G].
  - apply IH in H as [A B]. split; [right; exact A | exact B].
Qed.

Lemma served_inv st cn sans st' e :
  Inv cap st -> get_cert truthy cap st cn sans = Some (st', e) -> served_ok st cn sans e.
Proof.
  intros I H. unfold get_cert in H.
  assert (Gen : forall st1 e1, generate cap st cn sans = Some (st1, e1) -> served_ok st cn sans e1).
  { intros st1 e1 G. apply generate_spec in G as [_ [G _]]; [|exact I].
    right. exists (next_gen st). split; [exact G | right; reflexivity]. }
  destruct (lookup_first _ _) as [[k e0]|] eqn:L; [|eapply Gen; eauto].
  destruct (negb truthy || truthy_key k); [|eapply Gen; eauto].
  inversion H; subst. apply lookup_first_some in L as [Hin Hget].
  unfold potential_keys in Hin. apply in_app_or in Hin as [Hin|[Hin|[]]].
  - apply in_map_iff in Hin as [n [Hk Hn]]. subst k.
    destruct (inv_custom _ _ I _ _ (dict_get_in _ _ _ Hget)) as [i Hi].
    left. exists n, i. split; [exact Hn | split; [exact Hi | exact Hget]].
  - subst k. destruct (inv_gen _ _ I _ _ _ (dict_get_in _ _ _ Hget)) as [[i Hi] _].
    right. exists i. split; [exact Hi | left; exact Hget].
Qed.

Lemma served ops cn sans st' e :
  get_cert truthy cap (run truthy cap ops empty_store) cn sans = Some (st', e) ->
  served_ok (run truthy cap ops empty_store) cn sans e.
Proof. apply served_inv, Inv_reachable. Qed.

End WithTruthy.
End WithCap.
