(* Proofs/ExportDecode.v -- the argument vector assembled by curl_command (repaired variant), read with the curl reference
   of Model/CurlRef.v, gives back the request: method, URL, header lines, --compressed count, --resolve, body. *)
From Coq Require Import List Bool NArith Lia.
From MV Require Import Base.Bytes Model.Http1Msg Model.Sh Model.Export Model.CurlRef Proofs.ShQuote Proofs.ExportSh.
Import ListNotations.

(* the record updates curl_read makes, by name *)
Definition upd_resolve s v := mkSeen (s_resolve s ++ [v]) (s_headers s) (s_compressed s) (s_method s) (s_urls s) (s_data s).
Definition upd_header s v := mkSeen (s_resolve s) (s_headers s ++ [v]) (s_compressed s) (s_method s) (s_urls s) (s_data s).
Definition upd_compressed s := mkSeen (s_resolve s) (s_headers s) (s_compressed s + 1) (s_method s) (s_urls s) (s_data s).
Definition upd_method s v := mkSeen (s_resolve s) (s_headers s) (s_compressed s) (Some v) (s_urls s) (s_data s).
Definition upd_url s v := mkSeen (s_resolve s) (s_headers s) (s_compressed s) (s_method s) (s_urls s ++ [v]) (s_data s).
Definition upd_data s v := mkSeen (s_resolve s) (s_headers s) (s_compressed s) (s_method s) (s_urls s) (s_data s ++ [v]).

Lemma read_compressed r s : curl_read (OPT_COMPRESSED :: r) s = curl_read r (upd_compressed s).
Proof. reflexivity. Qed.
Lemma read_H v r s : curl_read (OPT_H :: v :: r) s = curl_read r (upd_header s v).
Proof. reflexivity. Qed.
Lemma read_X v r s : curl_read (OPT_X :: v :: r) s = curl_read r (upd_method s v).
Proof. reflexivity. Qed.
Lemma read_D v r s : curl_read (OPT_D :: v :: r) s = curl_read r (upd_data s v).
Proof. reflexivity. Qed.
Lemma read_R v r s : curl_read (OPT_RESOLVE :: v :: r) s = curl_read r (upd_resolve s v).
Proof. reflexivity. Qed.

Lemma not_dash_not_opt a : starts_dash a = false ->
  bytes_eqb a OPT_COMPRESSED = false /\ takes_value a = false.
Proof.
  intros D. unfold takes_value.
  assert (K : forall o, starts_dash o = true -> bytes_eqb a o = false).
  { intros o Ho. destruct (bytes_eqb a o) eqn:E; [|reflexivity]. apply bytes_eqb_eq in E. subst a. congruence. }
  rewrite !K by reflexivity. split; reflexivity.
Qed.

Lemma read_url a r s : starts_dash a = false -> curl_read (a :: r) s = curl_read r (upd_url s a).
Proof.
  intros D. destruct (not_dash_not_opt a D) as [A B]. cbn [curl_read]. rewrite A, B, D. reflexivity.
Qed.

Definition add_resolve (l : list bytes) (s : curl_seen) : curl_seen :=
  match l with [_; v] => upd_resolve s v | _ => s end.

Lemma read_resolve preserve addr r rest s :
  curl_read (resolve_args preserve addr r ++ rest) s = curl_read rest (add_resolve (resolve_args preserve addr r) s).
Proof.
  unfold resolve_args. destruct addr as [[|a0 a']|]; try reflexivity.
  destruct (preserve && negb (bytes_eqb (x_pretty_host r) (a0 :: a'))); reflexivity.
Qed.

Definition is_ae (f : header) : bool := bytes_eqb (lower (fst f)) ACCEPT_ENCODING_L.
Definition hdr_acc (s : curl_seen) (f : header) : curl_seen :=
  if is_ae f then upd_compressed s else upd_header s (header_line f).

Lemma read_headers h rest s :
  curl_read (curl_header_args h ++ rest) s = curl_read rest (fold_left hdr_acc h s).
Proof.
  revert s; induction h as [|f h IH]; intros s; [reflexivity|].
  unfold curl_header_args. cbn [flat_map fold_left]. fold (curl_header_args h). rewrite <- app_assoc.
  unfold hdr_acc at 2. unfold is_ae. destruct (bytes_eqb (lower (fst f)) ACCEPT_ENCODING_L).
  - change ([OPT_COMPRESSED] ++ curl_header_args h ++ rest) with (OPT_COMPRESSED :: (curl_header_args h ++ rest)).
    rewrite read_compressed. apply IH.
  - change ([OPT_H; header_line f] ++ curl_header_args h ++ rest)
      with (OPT_H :: header_line f :: (curl_header_args h ++ rest)).
    rewrite read_H. apply IH.
Qed.

Definition add_method (r : xreq) (s : curl_seen) : curl_seen :=
  if negb (bytes_eqb (x_method r) GET)
  then upd_method (if x_has_content r then s else upd_header s CL_ZERO) (x_method r)
  else if x_has_content r then upd_method s GET else s.

Lemma read_method r rest s :
  curl_read (curl_method_args repaired r ++ rest) s = curl_read rest (add_method r s).
Proof.
  unfold curl_method_args, add_method. cbn [fix_get_body repaired andb].
  destruct (negb (bytes_eqb (x_method r) GET)); destruct (x_has_content r); reflexivity.
Qed.

Definition add_body (r : xreq) (s : curl_seen) : curl_seen :=
  match curl_body_args r with [_; b] => upd_data s b | _ => s end.

Lemma read_body_args r s : curl_read (curl_body_args r) s = Some (add_body r s).
Proof.
  unfold add_body, curl_body_args. destruct (x_has_content r); [|reflexivity].
  destruct (x_text r); reflexivity.
Qed.

Definition seen_of preserve addr r h : curl_seen :=
  add_body r (upd_url (add_method r (fold_left hdr_acc h (add_resolve (resolve_args preserve addr r) seen0)))
                      (x_pretty_url r)).

Theorem curl_argv_read preserve addr r h : starts_dash (x_pretty_url r) = false ->
  curl_read (tl (curl_args repaired preserve addr r h ++ curl_body_args r)) seen0 = Some (seen_of preserve addr r h).
Proof.
  intros D. unfold curl_args. cbn [app tl]. rewrite <- !app_assoc.
  rewrite read_resolve, read_headers, read_method.
  change ([x_pretty_url r] ++ curl_body_args r) with (x_pretty_url r :: curl_body_args r).
  rewrite read_url by exact D. apply read_body_args.
Qed.

Lemma fold_hdr h s :
  s_resolve (fold_left hdr_acc h s) = s_resolve s
  /\ s_headers (fold_left hdr_acc h s) = s_headers s ++ map header_line (filter (fun f => negb (is_ae f)) h)
  /\ s_compressed (fold_left hdr_acc h s) = (s_compressed s + N.of_nat (length (filter is_ae h)))%N
  /\ s_method (fold_left hdr_acc h s) = s_method s
  /\ s_urls (fold_left hdr_acc h s) = s_urls s
  /\ s_data (fold_left hdr_acc h s) = s_data s.
Proof.
  revert s; induction h as [|f h IH]; intros s.
  - cbn. rewrite app_nil_r, N.add_0_r. repeat split; reflexivity.
  - cbn [fold_left filter]. destruct (IH (hdr_acc s f)) as (A & B & C & D & E & F).
    rewrite A, B, C, D, E, F. unfold hdr_acc. destruct (is_ae f); cbn.
    + repeat split; try reflexivity. lia.
    + repeat split; try reflexivity. rewrite <- app_assoc. reflexivity.
Qed.

Definition cl_zero_lines (r : xreq) : list bytes :=
  if negb (bytes_eqb (x_method r) GET) && negb (x_has_content r) then [CL_ZERO] else [].
Definition resolve_vals preserve addr r : list bytes :=
  match resolve_args preserve addr r with [_; v] => [v] | _ => [] end.
Definition body_vals (r : xreq) : list bytes :=
  match curl_body_args r with [_; b] => [b] | _ => [] end.

Lemma add_resolve_seen0 l :
  add_resolve l seen0 = mkSeen (match l with [_; v] => [v] | _ => [] end) [] 0 None [] [].
Proof. destruct l as [|a [|v [|x l]]]; reflexivity. Qed.

Theorem seen_of_fields preserve addr r h :
  let s := seen_of preserve addr r h in
  curl_method s = x_method r
  /\ s_urls s = [x_pretty_url r]
  /\ s_headers s = map header_line (filter (fun f => negb (is_ae f)) h) ++ cl_zero_lines r
  /\ s_compressed s = N.of_nat (length (filter is_ae h))
  /\ s_resolve s = resolve_vals preserve addr r
  /\ s_data s = body_vals r.
Proof.
  cbv zeta. unfold seen_of. rewrite add_resolve_seen0.
  set (s1 := mkSeen _ [] 0%N None [] []).
  destruct (fold_hdr h s1) as (A & B & C & D & E & F).
  set (s2 := fold_left hdr_acc h s1) in *. subst s1. cbn [s_resolve s_headers s_compressed s_method s_urls s_data] in *.
  unfold curl_method, add_body, body_vals, cl_zero_lines, add_method, resolve_vals, curl_body_args.
  (* the method: -X unless it is a GET without content, and then there is no -d either *)
  destruct (x_has_content r); [destruct (x_text r)|]; destruct (bytes_eqb (x_method r) GET) eqn:G;
    cbn [negb andb upd_method upd_header upd_url upd_data s_resolve s_headers s_compressed s_method s_urls s_data];
    rewrite ?A, ?B, ?C, ?D, ?E, ?F, ?app_nil_r; try (apply bytes_eqb_eq in G; rewrite G); repeat split; reflexivity.
Qed.

Lemma cut_colon_line k v : existsb (byte_eqb x3a) k = false -> cut_colon (k ++ [x3a] ++ v) = Some (k, v).
Proof.
  induction k as [|c k IH]; intros H.
  - reflexivity.
  - simpl in H. apply orb_false_iff in H as [Hc Hk]. cbn [app cut_colon].
    assert (E : byte_eqb c x3a = false).
    { destruct (byte_eqb c x3a) eqn:E; auto. apply byte_eqb_eq in E. subst c. discriminate. }
    rewrite E. change (k ++ x3a :: v) with (k ++ [x3a] ++ v). rewrite IH by exact Hk. reflexivity.
Qed.

Theorem header_line_read k v : existsb (byte_eqb x3a) k = false ->
  read_header_line (header_line (k, v)) = Some (k, v).
Proof.
  intros H. unfold read_header_line, header_line. cbn [fst snd].
  change (k ++ [x3a; x20] ++ v) with (k ++ [x3a] ++ (x20 :: v)).
  rewrite cut_colon_line by exact H. reflexivity.
Qed.

(* the code before /repo 6ea5203cd: a GET request with a body is sent as POST *)
Definition get_with_body : xreq :=
  mkX GET [x68;x74;x74;x70;x3a;x2f;x2f;x68;x2f] [x68] [x68] 80 [] true (TextOk [x61]).

Lemma original_get_body_refuted :
  exists s, curl_read (tl (curl_args original false None get_with_body [] ++ curl_body_args get_with_body)) seen0 = Some s
            /\ curl_method s = POST /\ x_method get_with_body = GET.
Proof. eexists. split; [vm_compute; reflexivity|]. split; reflexivity. Qed.

(* non-vacuity sample: quotes, a command substitution in URL and header, a control-character body with percent,
   backslash and a trailing dash *)
Definition sample_req : xreq :=
  mkX POST [x68;x74;x74;x70;x3a;x2f;x2f;x68;x2f;x27;x24;x28;x78;x29] [x68] [x68] 80
      [([x78;x2d;x61], [x27;x3b;x20;x60;x78;x60])] true (TextOk [x31;x30;x30;x25;x73;x5c;x6e;x0a;x2d]).
Lemma sample_nonvacuous :
  exists cmd argv, curl_command repaired false None sample_req = XOk cmd
    /\ sh_eval cmd = ShRun argv None
    /\ last argv [] = [x31;x30;x30;x25;x73;x5c;x6e;x0a;x2d]
    /\ existsb (byte_eqb x27) cmd = true.
Proof. eexists. eexists. split; [vm_compute; reflexivity|]. split; [vm_compute; reflexivity|]. split; reflexivity. Qed.
