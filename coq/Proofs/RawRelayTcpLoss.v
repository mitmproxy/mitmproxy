(* Proofs/RawRelayTcpLoss.v -- no-loss theorem for the TCPLayer under the plain transport
   contract [respects false]: ConnectionClosed may be delivered while the layer is paused. *)
From Coq Require Import List Bool Arith Lia.
From MV Require Import Base.Bytes Model.RawRelay Proofs.RawRelay Proofs.RawRelayLoss.
Import ListNotations.

(* closes of Y waiting in q; the events that may stand in the queue *)
Definition cc (Y : side) (q : list event) : nat := length (filter (closed_from Y) q).
Definition qev (e : event) : bool := match e with EData _ _ | EInject _ _ | EClosed _ => true | _ => false end.
(* no chunk from Y is queued behind the close of Y *)
Fixpoint okq (Y : side) (q : list event) : Prop :=
  match q with
  | [] => True
  | e :: r => if closed_from Y e then count_data Y r = 0 else okq Y r
  end.

Lemma cc_app Y a b : cc Y (a ++ b) = cc Y a + cc Y b.
Proof. unfold cc. rewrite filter_app, app_length. reflexivity. Qed.
Lemma cc_cons Y e q : cc Y (e :: q) = (if closed_from Y e then 1 else 0) + cc Y q.
Proof. unfold cc. simpl. destruct (closed_from Y e); reflexivity. Qed.

Lemma okq_nodata Y : forall q, count_data Y q = 0 -> okq Y q.
Proof.
  induction q as [|e q IH]; intros H; simpl; [exact Logic.I|].
  unfold count_data in *. simpl in H. destruct (closed_from Y e).
  - destruct (is_data Y e); simpl in H; [discriminate|exact H].
  - apply IH. destruct (is_data Y e); simpl in H; [discriminate|exact H].
Qed.

Lemma okq_tail Y e q : okq Y (e :: q) -> okq Y q.
Proof. simpl. destruct (closed_from Y e); [apply okq_nodata|auto]. Qed.

Lemma okq_app Y e : forall q, okq Y q -> (is_data Y e = false \/ cc Y q = 0) -> okq Y (q ++ [e]).
Proof.
  induction q as [|x r IH]; intros H D; simpl.
  - destruct (closed_from Y e); reflexivity || exact Logic.I.
  - simpl in H. destruct (closed_from Y x) eqn:Ex.
    + rewrite count_data_app, H. unfold count_data. simpl.
      destruct D as [D|D]; [rewrite D; reflexivity|]. unfold cc in D. simpl in D. rewrite Ex in D. discriminate.
    + apply IH; [exact H|]. destruct D as [D|D]; [left; exact D|right].
      unfold cc in *. simpl in D. rewrite Ex in D. exact D.
Qed.

(* The queue discipline that makes a late close harmless: per side at most one close is queued, none while
   the side is still readable; once the close of Y has been handled nothing of Y is left in the queue; and
   no chunk of Y stands behind the close of Y (okq).  So when the second close is handled and the layer
   becomes done, the queue holds no chunk that would now be dropped.  P7 is the bookkeeping of the phases. *)
Definition S7 st (q : list event) : Prop :=
  forall Y, cc Y q <= 1 /\ (can_read (conn_of st Y) = true -> cc Y q = 0) /\
            (eof_of st Y = true -> can_read (conn_of st Y) = false /\ cc Y q = 0 /\ count_data Y q = 0) /\
            okq Y q.
Definition P7 st (q : list event) : Prop :=
  (ph st = PStart -> waiting st = true \/ q = []) /\
  (ph st = PStart -> eof_c st = false) /\
  (ph st = PStart -> wait st = NoWait -> can_read (client st) = true) /\
  (ph st = PStart -> server_open (cf st) = false ->
     eof_s st = false /\ can_read (server st) = false /\ cc Server q = 0 /\ count_data Server q = 0) /\
  (wait st = WOpen -> server_open (cf st) = false) /\
  (ph st = PDone -> eof_c st = true /\ eof_s st = true).
Definition I7 (X : side) (k : nat) st (q : list event) (out : list cmd) : Prop :=
  pr (cf st) = TCP /\ ignore (cf st) = false /\ wait_ph_ok st /\ crashed st = false /\ wait st <> WErrorHook /\
  forallb qev q = true /\ P7 st q /\ S7 st q /\ k <= mu X st q.
Definition G7 st e : Prop := allowed false st e = true.

Ltac inv7 H := destruct H as (Ht & Hi & Hp & Hc & Hne & Hq & HP & HS & Hk).
Ltac invP HP := destruct HP as (P1 & P2 & P3 & P4 & P5 & P6).

Lemma I7_intro X k st q (out : list cmd) :
  pr (cf st) = TCP -> ignore (cf st) = false -> wait_ph_ok st -> crashed st = false -> wait st <> WErrorHook ->
  forallb qev q = true -> P7 st q -> S7 st q -> k <= mu X st q -> I7 X k st q out.
Proof. unfold I7. intuition. Qed.

(* S7 survives popping the head of the queue when the read bits and eof flags are unchanged *)
Lemma S7_pop st st' e q :
  (forall Y, can_read (conn_of st' Y) = can_read (conn_of st Y)) ->
  (forall Y, eof_of st' Y = eof_of st Y) ->
  S7 st (e :: q) -> S7 st' q.
Proof.
  intros Hr He HS Y. destruct (HS Y) as (A & B & C & D). rewrite Hr, He.
  pose proof (cc_cons Y e q) as Ecc.
  split; [lia|]. split; [intros R; specialize (B R); lia|]. split; [|eapply okq_tail; eauto].
  intros E. destruct (C E) as (C1 & C2 & C3). rewrite count_data_cons in C3. repeat split; [exact C1 | lia | lia].
Qed.

(* ... and popping the close of f when it is handled: by S7 nothing of f is left behind it *)
Lemma S7_pop_close st f q : S7 st (EClosed f :: q) -> S7 (set_eof st f) q.
Proof.
  intros HS. destruct (HS f) as (F1 & F2 & F3 & F4).
  assert (Fcc : cc f q = 0 /\ can_read (conn_of st f) = false /\ count_data f q = 0).
  { assert (cc f (EClosed f :: q) = S (cc f q)) by (rewrite cc_cons; destruct f; reflexivity).
    repeat split; [lia| |].
    - destruct (can_read (conn_of st f)) eqn:E; [|reflexivity]. specialize (F2 eq_refl). lia.
    - simpl in F4. destruct f; simpl in F4; exact F4. }
  destruct Fcc as (Fc & Fr & Fd).
  intros Y. destruct (HS Y) as (A & B & C & D).
  pose proof (cc_cons Y (EClosed f) q) as Ecc.
  destruct f, Y; simpl in *; repeat split; intros; try lia; try tauto;
    try (apply C; assumption); try (apply okq_nodata; assumption);
    try (destruct (B ltac:(assumption)); lia); try (specialize (B ltac:(assumption)); lia);
    try (destruct (C ltac:(assumption)) as (C1 & C2 & C3); unfold count_data in *; simpl in *; auto; lia);
    try (eapply okq_tail; eauto; fail); auto.
Qed.

(* S7 survives closing connections *)
Lemma S7_mono st st' q :
  (forall Y, can_read (conn_of st' Y) = false \/ can_read (conn_of st' Y) = can_read (conn_of st Y)) ->
  (forall Y, eof_of st' Y = eof_of st Y) ->
  S7 st q -> S7 st' q.
Proof.
  intros Hr He HS Y. destruct (HS Y) as (A & B & C & D). rewrite He.
  repeat split; intros; auto.
  - destruct (Hr Y) as [E|E]; [congruence|]. apply B. congruence.
  - destruct (Hr Y) as [E|E]; [exact E|]. rewrite E. apply C; assumption.
  - apply C; assumption.
  - apply C; assumption.
Qed.

Lemma I7_handle X k st e q out st' o :
  I7 X k st (e :: q) out -> waiting st = false -> crashed st = false -> handle st e = (st', o) -> I7 X k st' q (out ++ o).
Proof.
  intros H Hw _ Hh. inv7 H. invP HP.
  unfold waiting in Hw. destruct (wait st) eqn:Ew; try discriminate. clear Hw.
  simpl in Hq. apply andb_true_iff in Hq as [He Hq].
  unfold handle in Hh. destruct (ph st) eqn:Eph.
  - destruct (P1 eq_refl) as [A|A]; [unfold waiting in A; rewrite Ew in A|]; discriminate.
  - destruct e as [|f d|f|fc d|a err]; try discriminate; simpl in Hh.
    1,3: (* EData, EInject: the chunk moves from the queue into the flow *)
      (unfold relay_data, has_flow in Hh; rewrite Hi in Hh; simpl in Hh; inversion Hh; subst; clear Hh;
       apply I7_intro; simpl; auto; try discriminate;
       try (unfold wait_ph_ok; simpl; exact Eph);
       try (match goal with |- P7 _ _ => unfold P7; simpl; rewrite Eph; repeat split; intros; discriminate end);
       try (match goal with |- S7 _ _ => eapply S7_pop; eauto; reflexivity end);
       unfold mu in *; rewrite count_data_cons in Hk; simpl in *; rewrite ?side_eqb_is_client in Hk;
       rewrite len_rec_cons; simpl; lia).
    (* EClosed *)
    unfold relay_closed in Hh. rewrite Ht in Hh.
    pose proof (S7_pop_close st f q HS) as HS'.
    assert (Hmu : k <= mu X (set_eof st f) q).
    { unfold mu, count_data in *. simpl in Hk. destruct f; simpl; exact Hk. }
    unfold close_if_open, end_flow, yield, has_flow, env_cmd, set_conn in Hh.
    destruct f; simpl in Hh; rewrite ?Hi in Hh; simpl in Hh;
      split_run Hh; inversion Hh; subst; clear Hh;
      (apply I7_intro; simpl; auto; try discriminate);
      try (unfold wait_ph_ok; simpl; rewrite ?Ew; auto; fail);
      try (match goal with |- P7 _ _ => unfold P7, waiting; simpl; rewrite ?Eph, ?Ew; repeat split; intros; try discriminate; auto end);
      try (match goal with |- S7 _ _ => eapply S7_mono; [| |exact HS']; intros Y; destruct Y; simpl; auto end).
  - (* PDone: the event is dropped; it is not a chunk from X *)
    destruct (P6 eq_refl) as (D1 & D2).
    assert (Hx : is_data X e = false).
    { destruct (HS X) as (_ & _ & C & _).
      assert (EX : eof_of st X = true) by (destruct X; assumption).
      destruct (C EX) as (_ & _ & C3). unfold count_data in C3. simpl in C3.
      destruct (is_data X e); [discriminate|reflexivity]. }
    destruct e as [|f d|f|fc d|a err]; try discriminate; simpl in Hh; inversion Hh; subst; clear Hh.
    all: apply I7_intro; auto.
    all: try (match goal with |- P7 _ _ => unfold P7, waiting; rewrite ?Eph, ?Ew; repeat split; intros; try discriminate; auto end).
    all: try (match goal with |- S7 _ _ => eapply S7_pop; eauto end).
    all: try (rewrite Ew; discriminate).
    all: unfold mu, count_data in *; simpl in *; rewrite ?Hx in Hk; simpl in Hk; try lia.
Qed.

Lemma S7_push st st' e q :
  S7 st q ->
  (forall Y, eof_of st' Y = eof_of st Y) ->
  (forall Y, closed_from Y e = false -> can_read (conn_of st' Y) = can_read (conn_of st Y)) ->
  (forall Y, closed_from Y e = true -> can_read (conn_of st Y) = true /\ can_read (conn_of st' Y) = false) ->
  (forall Y, is_data Y e = true -> can_read (conn_of st Y) = true) ->
  S7 st' (q ++ [e]).
Proof.
  intros HS He Hn Hcl Hd Y. destruct (HS Y) as (A & B & C & D). rewrite He.
  rewrite cc_app, count_data_app, (cc_cons Y e []), (count_data_cons Y e []).
  change (cc Y []) with 0. change (count_data Y []) with 0. rewrite !Nat.add_0_r.
  destruct (closed_from Y e) eqn:Ec.
  - destruct (Hcl Y Ec) as (R0 & R1). specialize (B R0).
    assert (Ed : is_data Y e = false) by (destruct e; simpl in *; try discriminate; reflexivity).
    rewrite Ed. split; [lia|]. split; [congruence|]. split; [|apply okq_app; auto].
    intros E. destruct (C E) as (C1 & _). congruence.
  - rewrite (Hn Y Ec). split; [lia|]. split; [intros R; specialize (B R); lia|]. split.
    + intros E. destruct (C E) as (C1 & C2 & C3). repeat split; [exact C1 | lia |].
      destruct (is_data Y e) eqn:Ed; [|lia]. specialize (Hd Y Ed). congruence.
    + apply okq_app; auto. destruct (is_data Y e) eqn:Ed; [right|left; reflexivity].
      apply B. apply Hd. exact Ed.
Qed.

Lemma I7_enqueue X k st q out e :
  G7 st e -> not_reply e -> started st = true -> crashed st = false ->
  I7 X k st q out -> I7 X k (env_arrive st e) (q ++ [e]) out.
Proof.
  intros HG He Hst _ H. inv7 H. invP HP. unfold G7, allowed in HG.
  pose proof (started_PStart st Hst) as Hw.
  assert (Hnw : ph st = PStart -> wait st <> NoWait) by (intros A B; specialize (Hw A); unfold waiting in Hw; rewrite B in Hw; discriminate).
  assert (Hrd : forall Y, is_data Y e = true -> can_read (conn_of st Y) = true).
  { intros Y E. destruct e as [|f d|f|fc d|a err]; try discriminate. apply andb_true_iff in HG as [_ Hr].
    simpl in E. destruct f, Y; try discriminate; exact Hr. }
  destruct e as [|f d|f|fc d|a err]; try contradiction; simpl env_arrive; rewrite ?Ht.
  1: { rewrite Hst in HG. discriminate. }
  2: { (* EClosed *)
    apply andb_true_iff in HG as [HG _]. apply andb_true_iff in HG as [_ Hr].
    assert (HS' : S7 (set_conn st f {| can_read := false; can_write := can_write (conn_of st f) |}) (q ++ [EClosed f])).
    { eapply S7_push; eauto.
      - intros Y. destruct f, Y; reflexivity.
      - intros Y E. destruct f, Y; simpl in *; try discriminate; reflexivity.
      - intros Y E. destruct f, Y; simpl in *; try discriminate; auto. }
    apply I7_intro; auto; try (destruct f; assumption).
    + rewrite forallb_app, Hq. reflexivity.
    + unfold P7. destruct f; simpl; (repeat split; intros; auto; try (exfalso; eapply Hnw; eassumption);
        try (apply P4; assumption); try (apply P6; assumption);
        try (destruct (P4 ltac:(assumption) ltac:(assumption)) as (Q1 & Q2 & Q3 & Q4); simpl in Hr;
             try congruence; rewrite ?cc_app, ?count_data_app, ?Q3, ?Q4; reflexivity)).
    + unfold mu in *. rewrite count_data_app. destruct f; simpl; unfold count_data at 2; simpl; lia. }
  (* EData, EInject *)
  all: apply I7_intro; auto;
    [rewrite forallb_app, Hq; reflexivity | | eapply S7_push; eauto; intros Y E; discriminate
    | unfold mu in *; rewrite count_data_app; lia].
  all: unfold P7; repeat split; intros; auto; try (apply P4; assumption); try (apply P6; assumption);
    destruct (P4 ltac:(assumption) ltac:(assumption)) as (_ & B & A & A'); [rewrite cc_app, A; reflexivity|].
  all: rewrite count_data_app, A', count_data_cons.
  all: match goal with |- context [is_data Server ?e] => destruct (is_data Server e) eqn:E; [|reflexivity] end.
  all: pose proof (Hrd Server E) as R; simpl in R; congruence.
Qed.

Lemma I7_resume X k st q out a a0 err st' o :
  G7 st (EReply a0 err) -> I7 X k st q out -> waiting st = true -> crashed st = false ->
  resume st a err = (st', o) -> I7 X k st' q (out ++ o).
Proof.
  intros HG H _ _ Hr. pose proof H as H0. inv7 H. invP HP. unfold G7, allowed in HG.
  unfold wait_ph_ok in Hp. unfold resume in Hr. unfold mu in Hk.
  destruct (wait st) eqn:Ew;
    [inversion Hr; subst; exact H0 | | (* WOpen: err = false by the contract *) destruct err; [discriminate|]; destruct (P4 Hp (P5 eq_refl)) as (Q1 & Q2 & Q3 & Q4)
    | congruence | |].
  all: unfold start_open, start_open_done, mark_unreadable, relay_data_hooked, end_hooked, on_fl in Hr; simpl in Hr;
    rewrite ?Ht in Hr; split_run Hr; inversion Hr; subst; clear Hr.
  all: apply I7_intro; simpl; auto; try discriminate.
  all: try (unfold wait_ph_ok; simpl; auto; fail).
  all: try (unfold mu; simpl; rewrite ?len_rec_edit, ?messages_apply_kill; exact Hk).
  all: try (match goal with |- P7 _ _ =>
              unfold P7, waiting; simpl; rewrite ?Hp; repeat split; intros; auto; try discriminate;
              try (apply P4; assumption); try (apply P6; assumption); apply negb_true_iff; assumption end).
  all: try (match goal with |- S7 _ _ => eapply S7_mono; [| |exact HS]; intros Y; try right; destruct Y; reflexivity end).
  all: intros Y; destruct (HS Y) as (A & B & C & D); destruct Y; simpl in *; repeat split; intros; auto;
    try (apply C; assumption); try congruence.
Qed.

Lemma S7_nil st : (forall Y, eof_of st Y = true -> can_read (conn_of st Y) = false) -> S7 st [].
Proof. intros H Y. unfold cc, count_data. simpl. repeat split; auto. Qed.

Lemma I7_direct X k st e out st' o :
  G7 st e -> not_reply e -> started st = false -> I7 X k st [] out -> waiting st = false -> crashed st = false ->
  handle (env_arrive st e) e = (st', o) -> I7 X k st' [] (out ++ o).
Proof.
  intros HG He Hst H Hw Hcr Hh. pose proof H as H0. inv7 H. invP HP. unfold G7, allowed in HG.
  unfold waiting in Hw. destruct (wait st) eqn:Ew; try discriminate. clear Hw.
  assert (HC : forall Y, eof_of st Y = true -> can_read (conn_of st Y) = false).
  { intros Y A. destruct (HS Y) as (_ & _ & C & _). apply C. exact A. }
  destruct e as [|f d|f|fc d|a err]; try contradiction; rewrite ?Hst in HG; try discriminate.
  simpl env_arrive in Hh.
  unfold started in Hst. rewrite Ew in Hst. destruct (ph st) eqn:Eph; try discriminate.
  specialize (P3 eq_refl eq_refl). specialize (P2 eq_refl).
  unfold handle in Hh. rewrite Eph in Hh.
  unfold start, mark_unreadable, has_flow in Hh. simpl in Hh. rewrite Ht, P3 in Hh. simpl in Hh.
  destruct (server_open (cf st)) eqn:Eso; simpl in Hh; rewrite ?Ht, ?Hi in Hh; simpl in Hh;
    [destruct (can_read (server st)) eqn:Ers; simpl in Hh; rewrite ?Hi in Hh; simpl in Hh|];
    inversion Hh; subst; clear Hh; (apply I7_intro; simpl; auto; try discriminate).
  all: try (unfold wait_ph_ok; simpl; auto; fail).
  all: try (match goal with |- P7 _ _ => unfold P7, waiting; simpl; rewrite ?Eph; repeat split; intros; auto; try discriminate; try congruence;
                                         try (apply P4; assumption);
                                         try (destruct (P4 eq_refl eq_refl) as (? & ? & ? & ?); assumption) end).
  all: try (match goal with |- S7 _ _ => apply S7_nil; intros Y A; destruct Y; simpl in *; auto;
                                         try (apply (HC Client); assumption); try (apply (HC Server); assumption) end).
Qed.

Lemma I7_step pol X k st out e st' o :
  G7 st e -> Inv (I7 X k) st out -> arrive pol st e = (st', o) -> Inv (I7 X k) st' (out ++ o).
Proof.
  (* once the layer has started, every event can be queued; only Start itself has a direct case *)
  apply (I_step pol G7 (I7 X k) (I7_handle X k) (fun s _ => started s)).
  - apply I7_direct.
  - intros s q ou e0 HG He [Hw|Hs]; apply I7_enqueue; auto using waiting_started.
  - apply I7_resume.
  - intros s q ou q' H; exact H.
Qed.

Lemma I7_rebound X k st q out : I7 X k st q out -> I7 X (mu X st q) st q out.
Proof. intros H. inv7 H. apply I7_intro; auto. Qed.

Lemma I7_reads X k st q out :
  I7 X k st q out ->
  k <= mu X st q /\ crashed st = false /\ ignore (cf st) = false /\ (ph st = PDone -> can_read (conn_of st X) = false).
Proof.
  intros H. inv7 H. invP HP. repeat split; auto. intros A. destruct (P6 A) as (D1 & D2).
  destruct (HS X) as (_ & _ & C & _). apply C. destruct X; assumption.
Qed.

Lemma I7_init X c : pr c = TCP -> ignore c = false -> Inv (I7 X 0) (init c) [].
Proof.
  intros Ht Hi. split; [|reflexivity]. apply I7_intro; simpl; auto; try discriminate; try lia.
  - exact Logic.I.
  - unfold P7, waiting, cc, count_data. simpl. repeat split; intros; auto; try discriminate;
      try (match goal with E : server_open c = false |- _ => rewrite E end; reflexivity).
  - intros Y. unfold cc, count_data. simpl. repeat split; auto; destruct Y; discriminate.
Qed.

(* T4 for TCP: under the plain transport contract every chunk received from X is
   recorded in the flow or still waits in the event queue *)
Lemma no_loss_tcp pol c evs X :
  pr c = TCP -> ignore c = false -> respects false pol (init c) evs = true ->
  let '(st, out) := run pol (init c) evs in
  count_data X evs <= length (recorded (is_client X) (fl st)) + count_data X (queue st).
Proof.
  intros Ht Hi. apply (no_loss pol false X (I7 X) (I7_step pol X) (I7_rebound X) (I7_reads X)). apply I7_init; assumption.
Qed.

(* the schedule of finding close-while-paused-drops-data: both closes and a chunk queued behind the start
   hook; the layer propagates the half-close and relays the chunk *)
Definition queued_closes : list event :=
  [EStart; EClosed Client; EData Server [x6c; x61; x74; x65]; EClosed Server;
   EReply keep false; EReply keep false; EReply keep false].
Lemma queued_closes_run :
  let c := mkCfg TCP false true false in
  respects false pol_id (init c) queued_closes = true /\
  let '(st, out) := run pol_id (init c) queued_closes in
  out = [StartHook; HalfClose Server; MessageHook; SendData Client [x6c; x61; x74; x65];
         CloseConnection Client; EndHook] /\
  ph st = PDone /\ wait st = NoWait /\ recorded false (fl st) = [[x6c; x61; x74; x65]].
Proof. vm_compute. repeat split; reflexivity. Qed.
