(* Proofs/FilterGrammarTokens.v -- facts about the generated character tables (256-case sweeps) and the
   token-level functions of Model/FilterGrammar.v. *)
From Coq Require Import List Bool NArith.
From MV Require Import Base.Bytes Gen.FlowFilterAtoms Model.FilterGrammar.
Import ListNotations.

Definition allws (w : bytes) : Prop := forallb is_ws w = true.
(* rest cannot prolong a maximal run of f-characters that ends just before it *)
Definition safe (f : byte -> bool) (rest : bytes) : Prop :=
  match rest with [] => True | c :: _ => f c = false end.
(* what follows a rendered text X does not run into its last token *)
Definition follow_ok (X rest : bytes) : Prop := ends_word X = false \/ safe is_wordch rest.

Lemma contra (x y : bool) : (x = true -> y = true) -> y = false -> x = false.
Proof. destruct x; [| reflexivity]. intros H Hy. rewrite H in Hy by reflexivity. discriminate. Qed.

(* inclusions between the generated character classes, by a sweep over the 256 bytes *)
Lemma ws_not_wordch b : is_ws b = true -> is_wordch b = false.
Proof. intros H. apply negb_true_iff. revert b H. apply byte_imp. vm_compute. reflexivity. Qed.
Lemma we_wordch b : is_we b = true -> is_wordch b = true.
Proof. revert b. apply byte_imp. vm_compute. reflexivity. Qed.
Lemma dig_wordch b : is_dig b = true -> is_wordch b = true.
Proof. revert b. apply byte_imp. vm_compute. reflexivity. Qed.
Lemma wordch_not_ws b : is_wordch b = true -> is_ws b = false.
Proof. intros H. destruct (is_ws b) eqn:E; [| reflexivity]. apply ws_not_wordch in E. congruence. Qed.
Lemma not_wordch_not_we b : is_wordch b = false -> is_we b = false.
Proof. apply contra, we_wordch. Qed.

Lemma code_lit_cons c : code_lit c = x7e :: c.
Proof. reflexivity. Qed.
Definition qgood (q : byte) : Prop := q = x22 \/ q = x27.
Lemma quote_of_cases q : qgood (quote_of q).
Proof. destruct q; [right | left]; reflexivity. Qed.
Lemma wsch_is_ws c : is_ws (wsch_byte c) = true.
Proof. destruct c; reflexivity. Qed.
Lemma ws_bytes_allws w : allws (ws_bytes w).
Proof. unfold allws. induction w as [| c w IH]; [reflexivity |]. simpl. rewrite wsch_is_ws. exact IH. Qed.
Lemma ws1_allws w : allws (ws1 w).
Proof. destruct w; [reflexivity |]. apply (ws_bytes_allws (w :: w0)). Qed.
Lemma sep_allws L w : allws (sep L w).
Proof. unfold sep. destruct (ends_word L); [apply ws1_allws | apply ws_bytes_allws]. Qed.
Lemma allws_app a b : allws a -> allws b -> allws (a ++ b).
Proof. unfold allws. intros. rewrite forallb_app. rewrite H, H0. reflexivity. Qed.

Lemma skip_ws_app w s : allws w -> skip_ws (w ++ s) = skip_ws s.
Proof.
  unfold allws. induction w as [| c w IH]; intros H; [reflexivity |].
  simpl in H. apply andb_true_iff in H as [Hc Hw]. simpl. rewrite Hc. auto.
Qed.
Lemma skip_ws_cons c r : is_ws c = false -> skip_ws (c :: r) = c :: r.
Proof. intros H. simpl. rewrite H. reflexivity. Qed.
Lemma skip_ws_allws w : allws w -> skip_ws w = [].
Proof. intros H. rewrite <- (app_nil_r w). rewrite skip_ws_app by exact H. reflexivity. Qed.
Lemma lit_hit c w r : allws w -> is_ws c = false -> lit c (w ++ c :: r) = Some r.
Proof. intros Hw Hc. unfold lit. rewrite skip_ws_app by exact Hw. rewrite skip_ws_cons by exact Hc. rewrite byte_eqb_refl. reflexivity. Qed.
Lemma lit_miss c d w r : allws w -> is_ws d = false -> c <> d -> lit c (w ++ d :: r) = None.
Proof.
  intros Hw Hd Hne. unfold lit. rewrite skip_ws_app by exact Hw. rewrite skip_ws_cons by exact Hd.
  destruct (byte_eqb c d) eqn:E; [| reflexivity]. apply byte_eqb_eq in E. contradiction.
Qed.
Lemma lit_allws c w : allws w -> lit c w = None.
Proof. intros H. unfold lit. rewrite skip_ws_allws by exact H. reflexivity. Qed.

Lemma span_app f a rest : forallb f a = true -> safe f rest -> span f (a ++ rest) = (a, rest).
Proof.
  induction a as [| c a IH]; intros Ha Hr.
  - simpl. destruct rest as [| d r]; [reflexivity |]. simpl in *. rewrite Hr. reflexivity.
  - simpl in Ha. apply andb_true_iff in Ha as [Hc Ha]. simpl. rewrite Hc. rewrite IH by assumption. reflexivity.
Qed.
Lemma strip_prefix_app p s : strip_prefix p (p ++ s) = Some s.
Proof. induction p as [| a p IH]; [reflexivity |]. simpl. rewrite byte_eqb_refl. exact IH. Qed.

Lemma ends_word_app a b : b <> [] -> ends_word (a ++ b) = ends_word b.
Proof.
  intros Hb. induction a as [| c a IH]; [reflexivity |].
  simpl. destruct (a ++ b) eqn:E.
  - destruct a; destruct b; simpl in E; congruence.
  - exact IH.
Qed.
Lemma ends_word_all b : b <> [] -> forallb is_wordch b = true -> ends_word b = true.
Proof.
  induction b as [| c b IH]; intros Hne H; [congruence |].
  simpl in H. apply andb_true_iff in H as [Hc Hb]. simpl.
  destruct b as [| d b]; [exact Hc |]. apply IH; [discriminate | exact Hb].
Qed.
Lemma ends_word_last a c : ends_word (a ++ [c]) = is_wordch c.
Proof. rewrite ends_word_app by discriminate. reflexivity. Qed.
Lemma follow_safe S rest : ends_word S = true -> follow_ok S rest -> safe is_wordch rest.
Proof. intros H [F | F]; [congruence | exact F]. Qed.
(* white space in front keeps a text safe for every class that contains no white space *)
Lemma safe_ws (f : byte -> bool) w X : (forall b, is_ws b = true -> f b = false) ->
  allws w -> safe f X -> safe f (w ++ X).
Proof.
  intros Hf Hw HX. destruct w as [| d w]; [exact HX |]. apply Hf.
  unfold allws in Hw. simpl in Hw. apply andb_true_iff in Hw. tauto.
Qed.
Lemma follow_sep L w X : follow_ok L (sep L w ++ X).
Proof.
  unfold follow_ok, sep. destruct (ends_word L) eqn:E; [right | left; reflexivity].
  destruct w as [| d w]; simpl; [reflexivity |]. apply ws_not_wordch, wsch_is_ws.
Qed.
