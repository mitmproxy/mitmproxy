(* Proofs/DnsLayerInv.v -- the flow-map invariant of DNSLayer: every flow carries a query the
   client sent under the key id, every stored response is an upstream message with the key id
   or was set by an addon; consequences for hooks and for the bytes sent to the client.
   Also: when a response hook can fire while a client message is handled (stale replay). *)
From Coq Require Import List Bool NArith.
From MV Require Import Base.Bytes Model.DnsLayer Proofs.DnsLayerSeg.
Import ListNotations.

Lemma find_set_flow i j f l :
  find_flow j (set_flow i f l) = if (j =? i)%N then Some f else find_flow j l.
Proof.
  induction l as [|[k g] l IH]; cbn [set_flow find_flow].
  - destruct (j =? i)%N; reflexivity.
  - destruct (N.eqb_spec i k) as [->|Hik]; cbn [find_flow].
    + destruct (j =? k)%N; reflexivity.
    + rewrite IH. destruct (N.eqb_spec j k) as [->|]; [|reflexivity].
      destruct (N.eqb_spec k i); [congruence | reflexivity].
Qed.

Definition kill (f : flow) : flow := mkFlow (f_ord f) (f_req f) (f_resp f) (f_err f) false.

Lemma find_all_dead i l : find_flow i (all_dead l) = option_map kill (find_flow i l).
Proof.
  induction l as [|[k g] l IH]; [reflexivity|].
  cbn [all_dead map find_flow fst snd]. destruct (i =? k)%N; [reflexivity | exact IH].
Qed.

Section Inv.
Variable c : cfg.
Variable A : message -> Prop.          (* the messages addons set as responses *)

Definition resp_ok (sm : list message) (i : N) (r : message) : Prop :=
  A r \/ (In r sm /\ m_id r = i).

Definition req_ok (cq : list message) (i : N) (f : flow) : Prop :=
  match f_req f with
  | Some q => m_id q = i /\ In q cq
  | None => fix_drop c = false
  end.

Definition fl_ok (cq sm : list message) (i : N) (f : flow) : Prop :=
  req_ok cq i f /\ forall r, f_resp f = Some r -> resp_ok sm i r.

Definition act_ok (a : act) : Prop :=
  match a with
  | ASetResp m => A m
  | AResolve rc n an => forall q, A (resolved q rc n an)
  | _ => True
  end.

Definition flows_ok (cq sm : list message) (fl : list (N * flow)) : Prop :=
  forall i f, find_flow i fl = Some f -> fl_ok cq sm i f.

Definition Inv (s : st) : Prop :=
  Forall act_ok (s_script s) /\ flows_ok (s_cq s) (s_sm s) (s_flows s).

(* answers_query below is reply_ok, and carries_query the hook branch of out_good, at A := addon_msg script *)
Definition reply_ok (cq sm : list message) (data : bytes) : Prop :=
  exists m, data = pack_message m (ctcp c) /\
    (A m \/ exists q, In q cq /\ m_id q = m_id m /\ (m = fail q \/ In m sm)).

Definition orphan_hook (ctx : list out) : Prop :=
  exists ord rs e, In (OHook HResp ord None rs e) ctx.

(* what is acceptable in the command trace; [ctx] is the trace a send is part of *)
Definition out_good (cq sm : list message) (ctx : list out) (o : out) : Prop :=
  match o with
  | OHook k _ (Some q) rs _ => In q cq /\ forall r, rs = Some r -> resp_ok sm (m_id q) r
  | OHook k _ None _ _ => fix_drop c = false /\ k = HResp
  | OSend true data => reply_ok cq sm data \/ orphan_hook ctx
  | _ => True
  end.

Definition good (cq sm : list message) (outs : list out) : Prop :=
  Forall (out_good cq sm outs) outs.

Lemma resp_ok_mono sm sm' i r : incl sm sm' -> resp_ok sm i r -> resp_ok sm' i r.
Proof. intros H [Ha|[H1 H2]]; [left; exact Ha | right; split; [apply H; exact H1 | exact H2]]. Qed.

Lemma fl_ok_mono cq cq' sm sm' i f :
  incl cq cq' -> incl sm sm' -> fl_ok cq sm i f -> fl_ok cq' sm' i f.
Proof.
  intros Hc Hs [H1 H2]. split.
  - unfold req_ok in *. destruct (f_req f); [destruct H1; split; [assumption | apply Hc; assumption] | exact H1].
  - intros r Hr. eapply resp_ok_mono; [exact Hs | apply H2; exact Hr].
Qed.

Lemma out_good_mono cq cq' sm sm' ctx ctx' o :
  incl cq cq' -> incl sm sm' -> incl ctx ctx' ->
  out_good cq sm ctx o -> out_good cq' sm' ctx' o.
Proof.
  intros Hc Hs Hx. destruct o as [k ord rq rs e| |tc d| |]; cbn; try (intros; exact I).
  - destruct rq as [q|]; [|auto].
    intros [H1 H2]. split; [apply Hc; exact H1|].
    intros r Hr. eapply resp_ok_mono; [exact Hs | apply H2; exact Hr].
  - destruct tc; [|auto]. intros [H|H].
    + left. destruct H as (m & Hd & [Ha|(q & Q1 & Q2 & Q3)]); exists m; (split; [exact Hd|]).
      * left; exact Ha.
      * right. exists q. split; [apply Hc; exact Q1|]. split; [exact Q2|].
        destruct Q3 as [Q3|Q3]; [left; exact Q3 | right; apply Hs; exact Q3].
    + right. destruct H as (ord & rs & e & H). exists ord, rs, e. apply Hx. exact H.
Qed.

Lemma good_app cq cq' sm sm' a b :
  incl cq cq' -> incl sm sm' -> good cq sm a -> good cq' sm' b -> good cq' sm' (a ++ b).
Proof.
  intros Hc Hs Ha Hb. apply Forall_app. split; (eapply Forall_impl; [|eassumption]); intros o;
    apply out_good_mono; auto using incl_refl, incl_appl, incl_appr.
Qed.

Lemma act_ok_hd sc : Forall act_ok sc -> Forall act_ok (tl sc) /\ act_ok (hd ANone sc).
Proof. intros [|a sc' Ha Hsc]; [split; [constructor | exact I] | split; assumption]. Qed.

Lemma apply_act_ok cq sm i a f :
  act_ok a -> fl_ok cq sm i f -> fl_ok cq sm i (apply_act a f).
Proof.
  intros Ha [H1 H2]. split.
  - unfold req_ok. rewrite apply_act_req. exact H1.
  - destruct a; cbn [apply_act]; try exact H2.
    + intros r [= <-]. left. exact Ha.
    + intros r [=].
    + destruct (f_req f) as [q|]; [|exact H2]. intros r [= <-]. left. apply Ha.
Qed.

Lemma flows_ok_put cq sm fl i f :
  flows_ok cq sm fl -> fl_ok cq sm i f -> flows_ok cq sm (set_flow i f fl).
Proof.
  intros H Hf j g Hj. rewrite find_set_flow in Hj. destruct (N.eqb_spec j i) as [->|].
  - injection Hj as <-. exact Hf.
  - apply H. exact Hj.
Qed.

(* a handler keeps the invariant, leaves the ghost lists of extracted messages as they are (cq, sm), and its
   commands are good *)
Definition post (cq sm : list message) (p : st * list out) : Prop :=
  Inv (fst p) /\ s_cq (fst p) = cq /\ s_sm (fst p) = sm /\ good cq sm (snd p).

Definition any_ctx_good (cq sm : list message) (pre : list out) : Prop :=
  Forall (fun h => forall ctx, out_good cq sm ctx h) pre.

Lemma post_pre cq sm p pre :
  any_ctx_good cq sm pre -> post cq sm p -> post cq sm (fst p, pre ++ snd p).
Proof.
  intros Hpre (H1 & H2 & H3 & H4). split; [exact H1|]. split; [exact H2|]. split; [exact H3|].
  apply (good_app cq cq sm sm); [apply incl_refl | apply incl_refl | | exact H4].
  eapply Forall_impl; [|exact Hpre]. intros h Hh. apply Hh.
Qed.

Lemma handle_response_inv s i f m :
  Inv s -> req_ok (s_cq s) i f -> resp_ok (s_sm s) i m ->
  post (s_cq s) (s_sm s) (handle_response c s i f m).
Proof.
  intros [Hs Hf] Hq Hm. unfold handle_response. rewrite pop_act_eq.
  destruct (act_ok_hd _ Hs) as [P4 P5].
  set (f1 := mkFlow (f_ord f) (f_req f) (Some m) (f_err f) (f_live f)).
  assert (F1 : fl_ok (s_cq s) (s_sm s) i f1).
  { split; [exact Hq|]. intros r [= <-]. exact Hm. }
  pose proof (apply_act_ok _ _ _ _ _ P5 F1) as F2.
  split; [|split; [reflexivity|split; [reflexivity|]]].
  - split; [exact P4|]. apply flows_ok_put; assumption.
  - cbn [snd].
    assert (Hh : forall ctx, out_good (s_cq s) (s_sm s) ctx (hook_of HResp f1)).
    { intros ctx. unfold hook_of. cbn [f_req f_resp f1 out_good]. unfold req_ok in Hq.
      destruct (f_req f) as [q|]; [|split; [exact Hq | reflexivity]].
      destruct Hq as [Q1 Q2]. split; [exact Q2|].
      intros r [= <-]. rewrite Q1. exact Hm. }
    destruct (f_resp (apply_act _ f1)) as [r|] eqn:Er; [|repeat constructor; apply Hh].
    constructor; [apply Hh|]. constructor; [|constructor].
    cbn [out_good]. destruct F2 as [_ F2]. specialize (F2 r Er).
    unfold req_ok in Hq. destruct (f_req f) as [q|] eqn:Eq.
    + left. exists r. split; [reflexivity|].
      destruct F2 as [Fa|[Fi Fd]]; [left; exact Fa|].
      right. exists q. destruct Hq as [Q1 Q2]. split; [exact Q2|]. split; [congruence|]. right. exact Fi.
    + right. exists (f_ord f), (Some m), (f_err f). left. reflexivity.
Qed.

Lemma handle_error_inv s i f q :
  Inv s -> f_req f = Some q -> m_id q = i -> In q (s_cq s) ->
  (forall r, f_resp f = Some r -> resp_ok (s_sm s) i r) ->
  post (s_cq s) (s_sm s) (handle_error c s i f).
Proof.
  intros [Hs Hf] Hq Hi Hin Hr. unfold handle_error. rewrite pop_act_eq.
  destruct (act_ok_hd _ Hs) as [P4 P5].
  set (f1 := mkFlow (f_ord f) (f_req f) (f_resp f) true (f_live f)).
  assert (F1 : fl_ok (s_cq s) (s_sm s) i f1).
  { split; [unfold req_ok; cbn; rewrite Hq; auto | exact Hr]. }
  pose proof (apply_act_ok _ _ _ _ _ P5 F1) as F2.
  rewrite apply_act_req. cbn [f_req f1]. rewrite Hq.
  split; [|split; [reflexivity|split; [reflexivity|]]].
  - split; [exact P4|]. apply flows_ok_put; assumption.
  - constructor; [|constructor; [|constructor]].
    + unfold hook_of. cbn [f_req f_resp f1 out_good]. rewrite Hq. split; [exact Hin|].
      intros r Er. rewrite Hi. apply Hr. exact Er.
    + cbn [out_good]. left. exists (fail q). split; [reflexivity|]. right. exists q.
      split; [exact Hin|]. split; [reflexivity|]. left. reflexivity.
Qed.

Lemma handle_request_inv s i f m :
  Inv s -> In m (s_cq s) -> m_id m = i ->
  (forall r, f_resp f = Some r -> resp_ok (s_sm s) i r) ->
  post (s_cq s) (s_sm s) (handle_request c s i f m).
Proof.
  intros [Hs Hf] Hin Hi Hr. unfold handle_request. rewrite pop_act_eq.
  destruct (act_ok_hd _ Hs) as [P4 P5].
  set (s1 := with_script s _).
  set (f1 := mkFlow (f_ord f) (Some m) (f_resp f) (f_err f) (f_live f)).
  assert (F1 : fl_ok (s_cq s) (s_sm s) i f1).
  { split; [unfold req_ok; cbn; auto | exact Hr]. }
  pose proof (apply_act_ok _ _ _ _ _ P5 F1) as F2.
  set (f2 := apply_act _ f1) in *.
  assert (I1 : forall b cn, Inv (with_srv s1 b cn)) by (intros; split; [exact P4 | exact Hf]).
  assert (Hh : forall ctx, out_good (s_cq s) (s_sm s) ctx (hook_of HReq f1)).
  { intros ctx. unfold hook_of. cbn [f_req f_resp f1 out_good]. split; [exact Hin|].
    intros r Er. rewrite Hi. apply Hr. exact Er. }
  assert (H1 : any_ctx_good (s_cq s) (s_sm s) [hook_of HReq f1])
    by (constructor; [exact Hh | constructor]).
  assert (H2 : any_ctx_good (s_cq s) (s_sm s) [hook_of HReq f1; OOpen])
    by (constructor; [exact Hh | constructor; [intros; exact I | constructor]]).
  assert (Herr : forall b cn, post (s_cq s) (s_sm s) (handle_error c (with_srv s1 b cn) i f2))
    by (intros; apply (handle_error_inv _ i f2 m (I1 b cn) (apply_act_req _ f1) Hi Hin), F2).
  assert (Hfwd : forall b cn pre, any_ctx_good (s_cq s) (s_sm s) pre -> post (s_cq s) (s_sm s)
            (put_flow (with_srv s1 b cn) i f2, pre ++ [OSend false (pack_message m (stcp c))])).
  { intros b cn pre Hpre. apply (post_pre _ _ (_, _) _ Hpre).
    split; [|split; [reflexivity|split; [reflexivity|]]].
    - split; [exact P4|]. apply flows_ok_put; assumption.
    - constructor; [exact I | constructor]. }
  (* after the request hook, and OpenConnection if upstream is not connected: the response path, the error
     path, or the query goes upstream; s1 itself is with_srv s1 (s_srv s) (s_conn s) *)
  destruct (f_resp f2) as [r|] eqn:Er.
  { rewrite let_pair. apply (post_pre _ _ _ _ H1), (handle_response_inv s1 i f2 r (I1 _ _)); apply F2. exact Er. }
  destruct (f_err f2).
  { rewrite let_pair. apply (post_pre _ _ _ _ H1), (Herr (s_srv s) (s_conn s)). }
  destruct (negb (has_addr c)).
  { rewrite let_pair. apply (post_pre _ _ _ _ H1), (Herr (s_srv s) (s_conn s)). }
  destruct (s_srv s1).
  { apply (Hfwd (s_srv s) (s_conn s) _ H1). }
  destruct (s_conn s1) as [|[|] cn].
  - rewrite let_pair. apply (post_pre _ _ _ _ H2), (Herr (s_srv s) (s_conn s)).
  - apply (Hfwd true cn _ H2).
  - rewrite let_pair. apply (post_pre _ _ _ _ H2), (Herr false cn).
Qed.

Definition post_ext (s : st) (p : st * list out) : Prop :=
  Inv (fst p) /\ incl (s_cq s) (s_cq (fst p)) /\ incl (s_sm s) (s_sm (fst p))
  /\ good (s_cq (fst p)) (s_sm (fst p)) (snd p).

Lemma post_to_ext s cq sm p :
  incl (s_cq s) cq -> incl (s_sm s) sm -> post cq sm p -> post_ext s p.
Proof. intros H1 H2 (A1 & A2 & A3 & A4). unfold post_ext. rewrite A2, A3. auto. Qed.

Lemma post_ext_nil s : Inv s -> post_ext s (s, []).
Proof. intros H. split; [exact H|]. split; [apply incl_refl|]. split; [apply incl_refl | constructor]. Qed.

Lemma Inv_note s fc m : Inv s -> Inv (note_msg s fc m).
Proof.
  intros [H1 H2]. split; [exact H1|]. intros i f Hf.
  eapply fl_ok_mono; [| |apply H2; exact Hf]; destruct fc; try apply incl_refl; apply incl_tl, incl_refl.
Qed.

(* new_flow and retire change neither the script nor the map nor the ghost lists, so the
   invariant of the state they start from is, by computation, that of the state they return *)
Lemma handle_msg_inv fc s m : Inv s -> post_ext s (handle_msg c fc s m).
Proof.
  intros HI. unfold handle_msg.
  destruct (s_crashed s); [apply post_ext_nil; exact HI|].
  pose proof (Inv_note s fc m HI) as HN.
  assert (C1 : incl (s_cq s) (s_cq (note_msg s fc m)))
    by (cbn; destruct fc; [apply incl_tl|]; apply incl_refl).
  assert (S1 : incl (s_sm s) (s_sm (note_msg s fc m)))
    by (cbn; destruct fc; [|apply incl_tl]; apply incl_refl).
  assert (Hm : resp_ok (m :: s_sm s) (m_id m) m) by (right; split; [left|]; reflexivity).
  destruct (find_flow (m_id m) (s_flows s)) as [f|] eqn:Ef; destruct fc.
  - destruct (fix_fresh c && answered f).
    + apply (post_to_ext s _ _ _ C1 S1), (handle_request_inv (snd (new_flow (retire (note_msg s true m) f))));
        [exact HN | left; reflexivity | reflexivity | discriminate].
    + apply (post_to_ext s _ _ _ C1 S1), (handle_request_inv (note_msg s true m));
        [exact HN | left; reflexivity | reflexivity | apply (proj2 HN _ _ Ef)].
  - apply (post_to_ext s _ _ _ C1 S1), (handle_response_inv (note_msg s false m));
      [exact HN | apply (proj2 HN _ _ Ef) | exact Hm].
  - apply (post_to_ext s _ _ _ C1 S1), (handle_request_inv (snd (new_flow (note_msg s true m))));
      [exact HN | left; reflexivity | reflexivity | discriminate].
  - destruct (fix_drop c) eqn:Ed; [apply post_ext_nil; exact HI|].
    apply (post_to_ext s _ _ _ C1 S1), (handle_response_inv (snd (new_flow (note_msg s false m))));
      [exact HN | exact Ed | exact Hm].
Qed.

(* the first half hands the invariant to the second *)
Lemma post_ext_seq s s1 o1 s2 o2 :
  (Inv s -> post_ext s (s1, o1)) -> (Inv s1 -> post_ext s1 (s2, o2)) -> Inv s -> post_ext s (s2, o1 ++ o2).
Proof.
  intros H1 H2 HI. destruct (H1 HI) as (A1 & A2 & A3 & A4). destruct (H2 A1) as (B1 & B2 & B3 & B4).
  cbn [fst snd] in *.
  split; [exact B1|]. split; [eapply incl_tran; eassumption|]. split; [eapply incl_tran; eassumption|].
  exact (good_app _ _ _ _ _ _ B2 B3 A4 B4).
Qed.

Lemma handle_msgs_inv fc : forall ms s, Inv s -> post_ext s (handle_msgs c fc s ms).
Proof. exact (handle_msgs_ind c fc (fun s p => Inv s -> post_ext s p) post_ext_nil post_ext_seq (handle_msg_inv fc)). Qed.

Variable unpack : bytes -> ures.

Lemma Inv_all_dead s srv : Inv s -> Inv (with_done s (all_dead (s_flows s)) srv).
Proof.
  intros [H1 H2]. split; [exact H1|]. intros i f Hf. cbn in Hf. rewrite find_all_dead in Hf.
  destruct (find_flow i (s_flows s)) as [g|] eqn:Eg; [|discriminate].
  injection Hf as <-. exact (H2 i g Eg).
Qed.

Lemma step_inv s e : Inv s -> post_ext s (step unpack c s e).
Proof.
  intros HI. unfold step.
  destruct (s_crashed s); [apply post_ext_nil; exact HI|].
  destruct (s_phase s); [|apply post_ext_nil; exact HI].
  assert (Quiet : forall s' outs, Inv s' -> s_cq s' = s_cq s -> s_sm s' = s_sm s ->
                  good (s_cq s) (s_sm s) outs -> post_ext s (s', outs)).
  { intros s' outs HI' Hc Hs Ho. split; [exact HI'|]. cbn [fst snd]. rewrite Hc, Hs.
    split; [apply incl_refl|]. split; [apply incl_refl | exact Ho]. }
  destruct e as [fc data|fc].
  - destruct (unpack_message unpack c s fc data) as [ms b| | |];
      [|apply Quiet; [exact HI | reflexivity | reflexivity | repeat constructor] ..].
    apply (handle_msgs_inv fc ms (with_buf s fc b)). exact HI.
  - apply Quiet; [apply Inv_all_dead; exact HI | reflexivity | reflexivity |].
    destruct fc; [destruct (s_srv s)|]; repeat constructor.
Qed.

Lemma run_inv : forall es s, Inv s -> post_ext s (run unpack c s es).
Proof. exact (run_ind unpack c (fun s p => Inv s -> post_ext s p) post_ext_nil post_ext_seq step_inv). Qed.

End Inv.

(* a message the addons of this run may set as a response: one given explicitly, or the answer
   the resolver builds from some request *)
Definition addon_msg (script : list act) (m : message) : Prop :=
  In (ASetResp m) script \/ exists rc n an q, In (AResolve rc n an) script /\ m = resolved q rc n an.

Lemma Inv_init c script conn : Inv c (addon_msg script) (init script conn).
Proof.
  split; [|intros i f [=]]. apply Forall_forall. intros a Ha. destruct a; cbn; auto.
  - left. exact Ha.
  - intros q. right. exists rc, n, an, q. split; [exact Ha | reflexivity].
Qed.

Lemma run_good unpack c script conn es :
  let r := run unpack c (init script conn) es in
  forall o, In o (snd r) -> out_good c (addon_msg script) (s_cq (fst r)) (s_sm (fst r)) (snd r) o.
Proof.
  intros r. apply Forall_forall.
  exact (proj2 (proj2 (proj2 (run_inv c (addon_msg script) unpack es _ (Inv_init c script conn))))).
Qed.

(* a reply sent to the client: some message, packed for the transport of the client, that an addon set
   or that has the id of a query the client sent and is either the SERVFAIL made from that query
   or a message received from upstream *)
Definition answers_query (c : cfg) (script : list act) (cq sm : list message) (data : bytes) : Prop :=
  exists m, data = pack_message m (ctcp c) /\
    (addon_msg script m \/ exists q, In q cq /\ m_id q = m_id m /\ (m = fail q \/ In m sm)).

(* a flow as a hook shows it: the request is a query the client sent; a response is set by an addon or is
   an upstream message with the id of that query *)
Definition carries_query (script : list act) (cq sm : list message) (o : out) : Prop :=
  match o with
  | OHook _ _ rq rs _ =>
      exists q, rq = Some q /\ In q cq /\
        forall r, rs = Some r -> addon_msg script r \/ (In r sm /\ m_id r = m_id q)
  | _ => True
  end.

Lemma orphan_only_response unpack c script conn es k ord rs e :
  In (OHook k ord None rs e) (snd (run unpack c (init script conn) es)) -> fix_drop c = false /\ k = HResp.
Proof. apply (run_good unpack c script conn es). Qed.

Lemma reply_partial unpack c script conn es :
  let r := run unpack c (init script conn) es in
  (forall k ord rs e, ~ In (OHook k ord None rs e) (snd r)) ->
  (forall o, In o (snd r) -> carries_query script (s_cq (fst r)) (s_sm (fst r)) o)
  /\ (forall data, In (OSend true data) (snd r) -> answers_query c script (s_cq (fst r)) (s_sm (fst r)) data).
Proof.
  intros r Hno. pose proof (run_good unpack c script conn es) as G. fold r in G. split.
  - intros o Hin. specialize (G _ Hin). destruct o as [k ord [q|] rs e| | | |]; try exact I.
    + exists q. split; [reflexivity | exact G].
    + destruct (Hno _ _ _ _ Hin).
  - intros data Hin. destruct (G _ Hin) as [G'|(ord & rs & e & G')]; [exact G' | destruct (Hno _ _ _ _ G')].
Qed.

Lemma reply_fixed unpack c script conn es :
  fix_drop c = true ->
  let r := run unpack c (init script conn) es in
  (forall o, In o (snd r) -> carries_query script (s_cq (fst r)) (s_sm (fst r)) o)
  /\ (forall data, In (OSend true data) (snd r) -> answers_query c script (s_cq (fst r)) (s_sm (fst r)) data).
Proof.
  intros Hd r. apply reply_partial. intros k ord rs e Hin.
  destruct (orphan_only_response _ _ _ _ _ _ _ _ _ Hin). congruence.
Qed.

Section Stale.
Variable c : cfg.

(* the script sets r as the response of a flow whose request is rq: explicitly, or as the resolver's answer to rq *)
Definition set_by_script (sc : list act) (rq : option message) (r : message) : Prop :=
  In (ASetResp r) sc \/ exists rc n an q, In (AResolve rc n an) sc /\ rq = Some q /\ r = resolved q rc n an.

Definition resp_hooks_from (sc : list act) (outs : list out) : Prop :=
  forall ord rq rs e, In (OHook HResp ord rq rs e) outs ->
    exists r, rs = Some r /\
      (In (ASetResp r) sc \/ exists rc n an q, In (AResolve rc n an) sc /\ rq = Some q /\ r = resolved q rc n an).

Lemma resp_hooks_incl sc sc' o : incl sc' sc -> resp_hooks_from sc' o -> resp_hooks_from sc o.
Proof.
  intros Hi Ho ord rq rs e H. destruct (Ho _ _ _ _ H) as (r & R1 & R2). exists r. split; [exact R1|].
  destruct R2 as [R2|(rc & n & an & q & R2 & R3)]; [left; apply Hi; exact R2|].
  right. exists rc, n, an, q. split; [apply Hi; exact R2 | exact R3].
Qed.

Lemma resp_hooks_app sc a b : resp_hooks_from sc a -> resp_hooks_from sc b -> resp_hooks_from sc (a ++ b).
Proof. intros Ha Hb ord rq rs e H. apply in_app_or in H as [H|H]; [exact (Ha _ _ _ _ H) | exact (Hb _ _ _ _ H)]. Qed.

Definition no_resp_hook (o : out) : bool := match o with OHook HResp _ _ _ _ => false | _ => true end.

Lemma resp_hooks_none sc o : forallb no_resp_hook o = true -> resp_hooks_from sc o.
Proof.
  intros Ho ord rq rs e H. rewrite forallb_forall in Ho. specialize (Ho _ H). discriminate.
Qed.

Lemma script_tl (sc : list act) : incl (tl sc) sc.
Proof. destruct sc; [apply incl_refl | apply incl_tl, incl_refl]. Qed.

Lemma handle_error_hooks s i f :
  s_script (fst (handle_error c s i f)) = tl (s_script s)
  /\ forallb no_resp_hook (snd (handle_error c s i f)) = true.
Proof. unfold handle_error. rewrite pop_act_eq. destruct (f_req _); split; reflexivity. Qed.

Lemma handle_response_hooks s i f r sc :
  set_by_script sc (f_req f) r ->
  s_script (fst (handle_response c s i f r)) = tl (s_script s)
  /\ resp_hooks_from sc (snd (handle_response c s i f r)).
Proof.
  intros Hr. unfold handle_response. rewrite pop_act_eq. split; [reflexivity|].
  intros ord rq rs e [H|H].
  - injection H as <- <- <- <-. exists r. split; [reflexivity | exact Hr].
  - destruct (f_resp _); [destruct H as [H|[]]|destruct H]; discriminate.
Qed.

Lemma apply_act_sets a f r :
  f_resp f = None -> f_resp (apply_act a f) = Some r ->
  a = ASetResp r \/ exists rc n an q, a = AResolve rc n an /\ f_req f = Some q /\ r = resolved q rc n an.
Proof.
  intros Hn Er. destruct a; cbn in Er; try congruence.
  - left. congruence.
  - destruct (f_req f) as [q|]; [|congruence]. right. exists rc, n, an, q. repeat split. cbn in Er. congruence.
Qed.

Lemma handle_request_fresh s i f m :
  f_resp f = None ->
  incl (s_script (fst (handle_request c s i f m))) (s_script s)
  /\ resp_hooks_from (s_script s) (snd (handle_request c s i f m)).
Proof.
  intros Hn. unfold handle_request. rewrite pop_act_eq.
  set (sc := s_script s). set (s1 := with_script s (tl sc)).
  set (f1 := mkFlow (f_ord f) (Some m) (f_resp f) (f_err f) (f_live f)). set (f2 := apply_act (hd ANone sc) f1).
  assert (T2 : incl (tl (tl sc)) sc) by (eapply incl_tran; apply script_tl).
  assert (Herr : forall b cn pre, forallb no_resp_hook pre = true ->
     incl (s_script (fst (handle_error c (with_srv s1 b cn) i f2))) sc
     /\ resp_hooks_from sc (pre ++ snd (handle_error c (with_srv s1 b cn) i f2))).
  { intros b cn pre Hpre. destruct (handle_error_hooks (with_srv s1 b cn) i f2) as [E1 E2].
    rewrite E1. split; [exact T2|]. apply resp_hooks_none. rewrite forallb_app, Hpre. exact E2. }
  destruct (f_resp f2) as [r|] eqn:Er.
  { rewrite let_pair. cbn [fst snd].
    assert (Hr : set_by_script sc (f_req f2) r).
    { unfold f2 at 1. rewrite apply_act_req.
      destruct (apply_act_sets _ f1 r Hn Er) as [Ha|(rc & n & an & q & Ha & Hq)];
        (assert (Hin : In (hd ANone sc) sc) by (destruct sc; [discriminate | left; reflexivity]));
        rewrite Ha in Hin; [left; exact Hin | right; exists rc, n, an, q; split; [exact Hin | exact Hq]]. }
    destruct (handle_response_hooks s1 i f2 r sc Hr) as [E1 E2]. rewrite E1. split; [exact T2|].
    apply (resp_hooks_app sc [_]); [apply resp_hooks_none; reflexivity | exact E2]. }
  destruct (f_err f2). { rewrite let_pair. apply (Herr (s_srv s) (s_conn s) [_]). reflexivity. }
  destruct (negb (has_addr c)). { rewrite let_pair. apply (Herr (s_srv s) (s_conn s) [_]). reflexivity. }
  destruct (s_srv s1). { split; [apply script_tl | apply resp_hooks_none; reflexivity]. }
  destruct (s_conn s1) as [|[|] cn].
  - rewrite let_pair. apply (Herr (s_srv s) (s_conn s) [_; _]). reflexivity.
  - split; [apply script_tl | apply resp_hooks_none; reflexivity].
  - rewrite let_pair. apply (Herr false cn [_; _]). reflexivity.
Qed.

(* the id of the message is new, or its flow has neither response nor error yet *)
Definition id_unanswered (s : st) (m : message) : Prop :=
  match find_flow (m_id m) (s_flows s) with Some f => answered f = false | None => True end.

Lemma handle_msg_client_fresh s m :
  fix_fresh c = true \/ id_unanswered s m ->
  incl (s_script (fst (handle_msg c true s m))) (s_script s)
  /\ resp_hooks_from (s_script s) (snd (handle_msg c true s m)).
Proof.
  intros Hg. unfold handle_msg.
  destruct (s_crashed s). { split; [apply incl_refl | intros ord rq rs e []]. }
  unfold id_unanswered in Hg.
  destruct (find_flow (m_id m) (s_flows s)) as [f|].
  - destruct (answered f) eqn:Ea.
    + destruct Hg as [Hg|Hg]; [|discriminate]. rewrite Hg.
      apply (handle_request_fresh (snd (new_flow (retire (note_msg s true m) f)))). reflexivity.
    + rewrite andb_false_r. apply (handle_request_fresh (note_msg s true m)).
      unfold answered in Ea. destruct (f_resp f); [discriminate | reflexivity].
  - apply (handle_request_fresh (snd (new_flow (note_msg s true m)))). reflexivity.
Qed.

Lemma handle_msgs_client_fresh : fix_fresh c = true -> forall ms s,
  incl (s_script (fst (handle_msgs c true s ms))) (s_script s)
  /\ resp_hooks_from (s_script s) (snd (handle_msgs c true s ms)).
Proof.
  intros Hf.
  apply (handle_msgs_ind c true (fun s p => incl (s_script (fst p)) (s_script s) /\ resp_hooks_from (s_script s) (snd p))).
  - intros s. split; [apply incl_refl | intros ord rq rs e []].
  - intros s s1 o1 s2 o2 [A1 A2] [B1 B2]. cbn [fst snd] in *. split; [eapply incl_tran; eassumption|].
    apply resp_hooks_app; [exact A2 | exact (resp_hooks_incl _ _ _ A1 B2)].
  - intros s m. apply handle_msg_client_fresh. left. exact Hf.
Qed.

Lemma step_client_fresh unpack s data :
  fix_fresh c = true ->
  resp_hooks_from (s_script s) (snd (step unpack c s (EData true data))).
Proof.
  intros Hf. unfold step.
  destruct (s_crashed s); [apply resp_hooks_none; reflexivity|].
  destruct (s_phase s); [|apply resp_hooks_none; reflexivity].
  destruct (unpack_message unpack c s true data) as [ms b| | |]; try (apply resp_hooks_none; reflexivity).
  apply (handle_msgs_client_fresh Hf ms (with_buf s true b)).
Qed.

End Stale.
