(* Proofs/EncodingMsg.v -- Message.set_content / get_content / decode / encode from any cache state
   that satisfies the invariant: round trip, Content-Length rule, invalid codings, decode-then-encode. *)
From Coq Require Import List Bool NArith.
From MV Require Import Base.Bytes Model.Encoding Proofs.EncodingCache.
Import ListNotations.

Definition coding_of (m : msg) : bytes :=
  match m_ce m with Some (b :: n) => b :: n | _ => s_identity end.

Section Msg.
Variable C : codecs.
Variable lenient : bool.

(* with_length touches Content-Length only: the decimal body length unless Transfer-Encoding is present *)
Lemma with_length_eq m :
  with_length m = Build_msg (m_ce m) (m_te m)
                    (match m_te m, m_raw m with
                     | false, Some r => Some (dec_of_N (N.of_nat (length r)))
                     | _, _ => m_cl m
                     end) (m_raw m).
Proof. unfold with_length. destruct m as [ce te cl raw]. cbn. destruct te, raw; reflexivity. Qed.

(* what get_content makes of the result of encoding.decode *)
Definition read (r : res) (raw : bytes) (strict : bool) : gres :=
  let invalid := if strict then GValueError else GBytes raw in
  match r with
  | RBytes d => GBytes d
  | RStr | RValueError => invalid
  | RTypeError => if lenient then invalid else GTypeError
  | RNone => GNone
  end.

Lemma get_content_eq st m s :
  get_content C lenient st m s =
  match m_raw m, m_ce m with
  | Some raw, Some (b :: n) =>
      (read (fst (decode C st (Some raw) (b :: n) s_strict)) raw s, snd (decode C st (Some raw) (b :: n) s_strict))
  | Some raw, _ => (GBytes raw, st)
  | None, _ => (GNone, st)
  end.
Proof.
  unfold get_content, read. destruct (m_raw m) as [raw |]; [| reflexivity].
  destruct (m_ce m) as [[| b n] |]; try reflexivity.
  destruct (decode C st (Some raw) (b :: n) s_strict) as [r st1].
  destruct r, s; try reflexivity; destruct lenient; reflexivity.
Qed.

Lemma read_strict r raw s c : read r raw true = GBytes c -> read r raw s = GBytes c.
Proof. unfold read. destruct r; try discriminate; try (intros H; exact H). destruct lenient; discriminate. Qed.

(* what set_content makes of the result of encoding.encode *)
Definition store (r : res) (m : msg) (v : bytes) : outcome * msg :=
  let invalid := match m_ce m with
                 | Some _ => (Done, with_length (Build_msg None (m_te m) (m_cl m) (Some v)))
                 | None => (OutOfModel, m)
                 end in
  match r with
  | RBytes e => (Done, with_length (Build_msg (m_ce m) (m_te m) (m_cl m) (Some e)))
  | RValueError => invalid
  | RTypeError => if lenient then invalid else (RaisedTypeError, m)
  | RStr | RNone => (OutOfModel, m)
  end.

Lemma set_content_eq st m v :
  set_content C lenient st m (Some v)
  = (store (fst (encode C st (Some v) (coding_of m) s_strict)) m v,
     snd (encode C st (Some v) (coding_of m) s_strict)).
Proof.
  unfold set_content, store, coding_of. destruct (encode C st (Some v) _ s_strict) as [r st1].
  destruct r; try reflexivity; destruct (m_ce m); try reflexivity; destruct lenient; reflexivity.
Qed.

Lemma store_done r m v o m' : store r m v = (o, m') -> o = Done ->
  exists ce raw, m' = with_length (Build_msg ce (m_te m) (m_cl m) (Some raw)).
Proof.
  unfold store. intros E D.
  destruct r; try destruct lenient; try destruct (m_ce m); injection E as <- <-; try discriminate D; eauto.
Qed.

Lemma inv_set_content st m v : contract C -> Inv C st -> Inv C (snd (set_content C lenient st m v)).
Proof.
  intros K I. destruct v; [| exact I]. rewrite set_content_eq. apply inv_encode; assumption.
Qed.

Lemma inv_get_content st m s : Inv C st -> Inv C (snd (get_content C lenient st m s)).
Proof.
  intros I. rewrite get_content_eq. destruct (m_raw m) as [raw |], (m_ce m) as [[| b n] |]; try exact I.
  apply inv_decode, I.
Qed.

Lemma inv_msg_decode st m s : contract C -> Inv C st -> Inv C (snd (msg_decode C lenient st m s)).
Proof.
  intros K I. unfold msg_decode. destruct (m_raw m) as [[| b0 r0] |]; try exact I.
  pose proof (inv_get_content st m s I) as J.
  destruct (get_content C lenient st m s) as [g st1]. cbn [snd] in J.
  destruct g; try exact J. apply inv_set_content; assumption.
Qed.

Lemma inv_msg_encode st m n : contract C -> Inv C st -> Inv C (snd (msg_encode C lenient st m n)).
Proof.
  intros K I. unfold msg_encode.
  pose proof (inv_set_content st (Build_msg (Some n) (m_te m) (m_cl m) (m_raw m)) (m_raw m) K I) as J.
  destruct (set_content C lenient st _ (m_raw m)) as [[o m2] st1]. cbn [snd] in J.
  destruct o; try exact J. destruct (m_ce m2); exact J.
Qed.

Lemma get_content_transparent st m s : Inv C st ->
  fst (get_content C lenient st m s) = fst (get_content C lenient None m s).
Proof.
  intros I. rewrite !get_content_eq. destruct (m_raw m) as [raw |], (m_ce m) as [[| b n] |]; try reflexivity.
  cbn [fst]. rewrite (decode_transparent C st _ _ _ I). reflexivity.
Qed.

Lemma get_content_strict_any st0 st1 m s c : Inv C st0 -> Inv C st1 ->
  fst (get_content C lenient st0 m true) = GBytes c -> fst (get_content C lenient st1 m s) = GBytes c.
Proof.
  intros I0 I1 G0. rewrite get_content_transparent by exact I1. rewrite get_content_transparent in G0 by exact I0.
  rewrite get_content_eq in G0 |- *. destruct (m_raw m) as [raw |], (m_ce m) as [[| b n] |]; try exact G0.
  apply read_strict, G0.
Qed.

Lemma get_content_of_valid st m s e v : Inv C st ->
  m_raw m = Some e -> pure_decode C (lower (coding_of m)) s_strict e = PBytes v ->
  fst (get_content C lenient st m s) = GBytes v.
Proof.
  intros I Hr Hd. rewrite get_content_transparent by exact I. rewrite get_content_eq, Hr.
  unfold coding_of in Hd. destruct (m_ce m) as [[| b n] |].
  - injection Hd as <-. reflexivity.
  - cbn [fst]. rewrite decode_none_fst, Hd. reflexivity.
  - injection Hd as <-. reflexivity.
Qed.

Theorem set_get_roundtrip st m v o m' st' : contract C -> Inv C st ->
  supported (lower (coding_of m)) = true ->
  set_content C lenient st m (Some v) = (o, m', st') ->
  o = Done /\ m_ce m' = m_ce m /\ m_te m' = m_te m
  /\ (exists e, m_raw m' = Some e /\ pure_decode C (lower (coding_of m)) s_strict e = PBytes v)
  /\ forall st2 s, Inv C st2 -> fst (get_content C lenient st2 m' s) = GBytes v.
Proof.
  intros K I S E. destruct (encode_supported C st v (coding_of m) s_strict K I S) as (e & He & Hd).
  rewrite set_content_eq, He in E. cbn [store] in E. rewrite with_length_eq in E. injection E as <- <- <-.
  cbn [m_ce m_te m_raw]. repeat split.
  - exists e. auto.
  - intros st2 s I2. apply get_content_of_valid with (e := e); [exact I2 | reflexivity | exact Hd].
Qed.

(* Content-Length rule: for every coding whatsoever *)
Theorem content_length st m v o m' st' :
  set_content C lenient st m (Some v) = (o, m', st') -> o = Done ->
  m_te m' = m_te m
  /\ (m_te m = true -> m_cl m' = m_cl m)
  /\ (m_te m = false -> exists r, m_raw m' = Some r /\ m_cl m' = Some (dec_of_N (N.of_nat (length r)))).
Proof.
  rewrite set_content_eq. intros E D. injection E as E _.
  destruct (store_done _ m v o m' E D) as (ce & raw & ->). rewrite with_length_eq. cbn [m_ce m_te m_cl m_raw].
  split; [reflexivity |]. split; intros T; rewrite T; [reflexivity | exists raw; split; reflexivity].
Qed.

Lemma encode_identity st v :
  exists e, fst (encode C st (Some v) s_identity s_strict) = RBytes e.
Proof.
  cbn [encode]. destruct st as [c |].
  - destruct (bytes_eqb (c_decoded c) v && _ && _); [eexists; reflexivity |].
    rewrite encode_miss_fst. eexists; reflexivity.
  - rewrite encode_miss_fst. eexists; reflexivity.
Qed.

(* a coding the encoder rejects: header removed, body stored as is *)
Theorem invalid_coding st m v r :
  fst (encode C st (Some v) (coding_of m) s_strict) = r ->
  r = RValueError \/ (r = RTypeError /\ lenient = true) ->
  exists cl' st',
    set_content C lenient st m (Some v) = (Done, Build_msg None (m_te m) cl' (Some v), st')
    /\ forall st2 s, fst (get_content C lenient st2 (Build_msg None (m_te m) cl' (Some v)) s) = GBytes v.
Proof.
  intros E H.
  assert (Hce : exists x, m_ce m = Some x).
  { destruct (m_ce m) as [x |] eqn:Ce; [eauto |]. exfalso.
    unfold coding_of in E. rewrite Ce in E. destruct (encode_identity st v) as (e & He).
    rewrite He in E. destruct H as [H | [H _]]; subst r; discriminate H. }
  destruct Hce as (x & Ce).
  exists (m_cl (with_length (Build_msg None (m_te m) (m_cl m) (Some v)))),
         (snd (encode C st (Some v) (coding_of m) s_strict)).
  split; [| intros; reflexivity]. rewrite set_content_eq, E. f_equal.
  unfold store. rewrite Ce, !with_length_eq. destruct H as [-> | [-> ->]]; reflexivity.
Qed.

(* Message.encode with a supported coding keeps the content readable *)
Lemma msg_encode_supported st m (n : bytes) c o m2 st' : contract C -> Inv C st ->
  m_raw m = Some c ->
  supported (lower (match n with [] => s_identity | _ => n end)) = true ->
  msg_encode C lenient st m n = (o, m2, st') ->
  o = Done /\ m_ce m2 = Some n
  /\ forall st3 s3, Inv C st3 -> fst (get_content C lenient st3 m2 s3) = GBytes c.
Proof.
  intros K I Hr S E. unfold msg_encode in E. rewrite Hr in E.
  pose (me := Build_msg (Some n) (m_te m) (m_cl m) (Some c)).
  assert (Se : supported (lower (coding_of me)) = true).
  { unfold coding_of, me. cbn [m_ce]. destruct n; exact S. }
  destruct (set_content C lenient st me (Some c)) as [[o' m2a] st2a] eqn:E2. fold me in E. rewrite E2 in E.
  destruct (set_get_roundtrip st me c o' m2a st2a K I Se E2) as (-> & Hce2 & _ & _ & G2).
  cbn [m_ce me] in Hce2. rewrite Hce2 in E. injection E as <- <- _. auto.
Qed.

(* Message.decode then Message.encode preserves the content (non-empty body) *)
Theorem decode_encode_preserves st0 st1 st2 m c s (n : bytes) b0 (r0 : bytes) o1 m1 st1' o2 m2 st2' :
  contract C -> Inv C st0 -> Inv C st1 -> Inv C st2 ->
  m_raw m = Some (b0 :: r0) ->
  fst (get_content C lenient st0 m true) = GBytes c ->
  msg_decode C lenient st1 m s = (o1, m1, st1') ->
  supported (lower (match n with [] => s_identity | _ => n end)) = true ->
  msg_encode C lenient st2 m1 n = (o2, m2, st2') ->
  o1 = Done /\ o2 = Done /\ m_ce m1 = None /\ m_raw m1 = Some c /\ m_ce m2 = Some n
  /\ forall st3 s3, Inv C st3 -> fst (get_content C lenient st3 m2 s3) = GBytes c.
Proof.
  intros K I0 I1 I2 Hraw G0 D S E.
  pose proof (get_content_strict_any st0 st1 m s c I0 I1 G0) as G1.
  unfold msg_decode in D. rewrite Hraw in D.
  pose proof (inv_get_content st1 m s I1) as J1.
  destruct (get_content C lenient st1 m s) as [g st1a]. cbn [fst snd] in G1, J1. subst g.
  set (mi := Build_msg None (m_te m) (m_cl m) (Some (b0 :: r0))) in D.
  assert (Si : supported (lower (coding_of mi)) = true) by reflexivity.
  destruct (set_get_roundtrip st1a mi c o1 m1 st1' K J1 Si D) as (Ho1 & Hce1 & Hte1 & (e1 & Hr1 & Hd1) & _).
  cbn in Hd1. injection Hd1 as Hd1. subst e1.
  destruct (msg_encode_supported st2 m1 n c o2 m2 st2' K I2 Hr1 S E) as (Ho2 & Hce2 & G2). auto 10.
Qed.

(* ... and with an empty or missing body (decode is a no-op there) *)
Theorem decode_encode_preserves_empty st0 st1 st2 m g s (n : bytes) o1 m1 st1' o2 m2 st2' :
  contract C -> Inv C st0 -> Inv C st2 ->
  m_raw m = None \/ m_raw m = Some [] ->
  supported (lower (coding_of m)) = true ->
  fst (get_content C lenient st0 m true) = g ->
  msg_decode C lenient st1 m s = (o1, m1, st1') ->
  supported (lower (match n with [] => s_identity | _ => n end)) = true ->
  msg_encode C lenient st2 m1 n = (o2, m2, st2') ->
  o1 = Done /\ m1 = m /\ o2 = Done /\ m_ce m2 = Some n
  /\ forall st3 s3, Inv C st3 -> fst (get_content C lenient st3 m2 s3) = g.
Proof.
  intros K I0 I2 Hraw Sm G0 D S E.
  assert (D' : o1 = Done /\ m1 = m).
  { unfold msg_decode in D. destruct Hraw as [Hr | Hr]; rewrite Hr in D; injection D as <- <- _; auto. }
  destruct D' as [-> ->]. destruct Hraw as [Hr | Hr].
  - unfold msg_encode in E. rewrite Hr in E. cbn [set_content m_ce] in E. injection E as <- <- _. subst g.
    repeat split; try reflexivity. intros st3 s3 _.
    unfold get_content. cbn [m_raw]. rewrite Hr. reflexivity.
  - assert (G : g = GBytes []).
    { rewrite <- G0.
      apply get_content_of_valid with (e := []); try assumption. apply pure_decode_empty, Sm. }
    rewrite G. destruct (msg_encode_supported st2 m n [] o2 m2 st2' K I2 Hr S E) as (Ho2 & Hce2 & G2). auto.
Qed.

End Msg.
