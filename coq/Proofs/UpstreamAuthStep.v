(* Proofs/UpstreamAuthStep.v -- C24, one client connection: the layer invariant and the per-event soundness lemma. *)
From Coq Require Import List Bool NArith.
From MV Require Import Base.Bytes Model.UpstreamAuth.
Import ListNotations.
Open Scope N_scope.

Definition carries (cred : bytes) (fs : list field) : Prop := exists k, In (k, cred) fs.
(* the client did not send the credential *)
Definition clean (cred : bytes) (fs : list field) : Prop := forall k v, In (k, v) fs -> v <> cred.

(* where a head may carry the credential: written to the upstream proxy itself, outside any CONNECT tunnel,
   on a connection of an upstream-mode client; or written to the reverse target of a reverse-mode client *)
Definition good (w : write) : Prop :=
  (w.(w_via) = true /\ w.(w_tunnelled) = false /\ is_upstream w.(w_pm) = true /\ w.(w_hop) = proxy_addr w.(w_pm))
  \/ (w.(w_via) = false /\ exists t tls, w.(w_pm) = PReverse t tls /\ w.(w_hop) = t).

Definition event_clean (cred : bytes) (ev : event) : Prop :=
  match ev with EReq _ _ hs _ => clean cred hs | _ => True end.

(* the request event that is mishandled without the tunnelled set: plain HTTP inside an accepted CONNECT tunnel, upstream mode *)
Definition leaky (st : cstate) (ev : event) : bool :=
  match ev with
  | EReq _ _ _ _ =>
      st.(cs_tunnel) && is_upstream st.(cs_pm)
      && match st.(cs_layer).(hl_ctx) with Some (_, tls) => negb tls | None => false end
  | _ => false
  end.

Lemma addr_eqb_eq a b : addr_eqb a b = true <-> a = b.
Proof.
  unfold addr_eqb. destruct a as [h p], b as [h' p']. cbn [fst snd].
  rewrite andb_true_iff, bytes_eqb_eq, N.eqb_eq. split.
  - intros [-> ->]. reflexivity.
  - intros E. inversion E. auto.
Qed.

Lemma set_all1_in key value fs pending k v :
  In (k, v) (set_all1 key value fs pending) -> In (k, v) fs \/ v = value.
Proof.
  revert pending. induction fs as [|[k0 v0] r IH]; intros pending H; cbn [set_all1] in H.
  - destruct pending; [destruct H as [H|[]]; inversion H; auto | destruct H].
  - (* whatever happens to the first field, the rest is covered by the induction hypothesis *)
    assert (R : forall p, In (k, v) (set_all1 key value r p) -> In (k, v) ((k0, v0) :: r) \/ v = value)
      by (intros p Hp; apply IH in Hp; cbn; tauto).
    destruct (name_eqb k0 key); [destruct pending|]; try (destruct H as [H|H]; [inversion H; cbn; auto|]); eauto.
Qed.

Lemma set_item_in key value fs k v : In (k, v) (set_item key value fs) -> In (k, v) fs \/ v = value.
Proof. apply set_all1_in. Qed.

Lemma set_all1_has key value fs : exists k, In (k, value) (set_all1 key value fs true).
Proof.
  induction fs as [|[k0 v0] r IH]; cbn [set_all1].
  - exists key. left. reflexivity.
  - destruct (name_eqb k0 key).
    + exists k0. left. reflexivity.
    + destruct IH as [k H]. exists k. right. assumption.
Qed.

Lemma truthy_some a x : truthy a = Some x -> a = Some x.
Proof. destruct a as [[|b r]|]; cbn; intros H; inversion H; reflexivity. Qed.

(* the requestheaders hook adds the credential only in the two situations it tests for *)
Lemma requestheaders_carries cfg cred pm https in_set hs :
  clean cred hs ->
  carries cred (requestheaders cfg pm https in_set hs) ->
  (is_upstream pm = true /\ https = false /\ (cfg.(c_fixed) && in_set) = false) \/ is_reverse pm = true.
Proof.
  intros Hc [k Hk]. unfold requestheaders in Hk.
  destruct (truthy (c_auth cfg)) as [a|] eqn:Et.
  - destruct (is_upstream pm && negb https && negb (c_fixed cfg && in_set)) eqn:E1.
    + left. rewrite !andb_true_iff, !negb_true_iff in E1. tauto.
    + destruct (is_reverse pm) eqn:E2.
      * right. reflexivity.
      * exfalso. exact (Hc _ _ Hk eq_refl).
  - exfalso. exact (Hc _ _ Hk eq_refl).
Qed.

Lemma find_reusable_some a tls via cs c :
  find_reusable a tls via cs = Some c -> In c cs /\ c.(sc_addr) = a /\ c.(sc_tls) = tls /\ c.(sc_via) = via.
Proof.
  induction cs as [|x r IH]; cbn [find_reusable]; intros H.
  - discriminate.
  - destruct (spec_matches a tls via x && sc_alive x) eqn:E.
    + inversion H; subst x. unfold spec_matches in E. rewrite !andb_true_iff, addr_eqb_eq in E.
      destruct E as [[[E1 E2] E3] _]. apply Bool.eqb_prop in E2, E3. split; [left; reflexivity|]. auto.
    + apply IH in H. destruct H as [H1 H2]. split; [right; assumption | assumption].
Qed.

(* the connect flag of every server connection is what send_request computes for a new one *)
Definition conns_ok (l : hlayer) : Prop :=
  forall c, In c l.(hl_conns) -> c.(sc_connect) = c.(sc_via) && send_connect l.(hl_mode) c.(sc_tls).

(* which HttpLayer a client in a given mode can be talking to: upstream HTTPMode only before a CONNECT of an upstream-mode
   client, regular only for a regular client; a transparent layer goes via the proxy only inside the tunnel of an
   upstream-mode client, and that of a reverse-mode client has the reverse target as its fixed destination *)
Definition shape_ok (st : cstate) : Prop :=
  let l := st.(cs_layer) in
  match l.(hl_mode) with
  | HUpstream => is_upstream st.(cs_pm) = true /\ l.(hl_via) = true /\ st.(cs_tunnel) = false
  | HRegular => st.(cs_pm) = PRegular /\ l.(hl_via) = false
  | HTransparent =>
      (l.(hl_via) = true -> is_upstream st.(cs_pm) = true /\ st.(cs_tunnel) = true)
      /\ (forall t tls, st.(cs_pm) = PReverse t tls -> l.(hl_via) = false /\ exists tl, l.(hl_ctx) = Some (t, tl))
  end.

(* third conjunct: an upstream-mode client that has not been through an accepted CONNECT still has its upstream layer *)
Definition inv (st : cstate) : Prop :=
  conns_ok st.(cs_layer) /\ shape_ok st
  /\ (is_upstream st.(cs_pm) = true -> st.(cs_tunnel) = false -> st.(cs_layer).(hl_mode) = HUpstream).

Lemma transparent_layer_conns cfg a tls via next l n :
  transparent_layer cfg a tls via next = (l, n) ->
  l.(hl_mode) = HTransparent /\ l.(hl_ctx) = Some (a, tls) /\ l.(hl_via) = via /\ conns_ok l.
Proof.
  unfold transparent_layer. destruct (c_eager cfg && negb via) eqn:E; intros H; inversion H; subst; cbn.
  - repeat split. intros c [<-|[]]. reflexivity.
  - repeat split. intros c [].
Qed.

Lemma inv_init cfg pm : inv (init_cstate cfg pm) /\ (init_cstate cfg pm).(cs_tunnel) = false
                        /\ (init_cstate cfg pm).(cs_pm) = pm.
Proof.
  destruct pm as [|p|t tls|t tls|t tls]; cbn [init_cstate].
  1, 2: repeat split; cbn; try (intros c []); discriminate.
  (* the three modes that start with a transparent layer, not via the proxy *)
  all: destruct (transparent_layer cfg t tls false 1) as [l n] eqn:E;
    apply transparent_layer_conns in E; destruct E as (E1 & E2 & E3 & E4);
    unfold inv, shape_ok; cbn; rewrite E1, E3; (split; [|auto]); split; [exact E4|]; (split; [|discriminate]);
    (split; [discriminate|]); intros t0 tls0 Epm; try discriminate Epm.
  (* reverse mode: the context of the layer is the target *)
  inversion Epm; subst t0 tls0. split; [reflexivity|]. exists tls. exact E2.
Qed.

Lemma via_upstream st : shape_ok st -> st.(cs_layer).(hl_via) = true -> is_upstream st.(cs_pm) = true.
Proof.
  unfold shape_ok. destruct (hl_mode (cs_layer st)); intros Hs Hv.
  - destruct Hs as [_ Hs]. rewrite Hs in Hv. discriminate.
  - apply Hs.
  - apply Hs, Hv.
Qed.

(* a CONNECT head written by mitmproxy itself: always to the proxy, outside any tunnel *)
Definition connect_write (cfg : config) (w : write) : Prop :=
  w.(w_kind) = WConnect /\ good w /\ exists a, w.(w_fields) = connect_head cfg a.

Lemma connect_write_intro cfg st c a :
  shape_ok st -> c.(sc_via) = true -> st.(cs_layer).(hl_via) = true ->
  connect_write cfg (mk_write st.(cs_pm) c false WConnect (connect_head cfg a)).
Proof.
  intros Hs Hv Hlv. split; [reflexivity|]. split; [|exists a; reflexivity].
  left. cbn. unfold hop_of. rewrite Hv. repeat split. exact (via_upstream st Hs Hlv).
Qed.

(* what a write of the request head hs with destination (tls, a) looks like: on a connection that obeys the connect rule *)
Definition request_write (st : cstate) (tls : bool) (a : addr) (hs : list field) (w : write) : Prop :=
  w.(w_kind) = WRequest /\ w.(w_fields) = hs /\ w.(w_via) = st.(cs_layer).(hl_via)
  /\ w.(w_tunnelled) = st.(cs_layer).(hl_via) && send_connect st.(cs_layer).(hl_mode) tls
  /\ w.(w_hop) = if st.(cs_layer).(hl_via) then proxy_addr st.(cs_pm) else a.

(* send_request keeps the invariant, mode and tunnel flag; it writes CONNECT heads of its own and the request head *)
Lemma send_request_spec cfg st tls a hs ok st' wr :
  inv st -> send_request cfg st tls a hs ok = (st', wr) ->
  (inv st' /\ st'.(cs_pm) = st.(cs_pm) /\ st'.(cs_tunnel) = st.(cs_tunnel))
  /\ forall w, In w wr -> w.(w_pm) = st.(cs_pm) /\ (connect_write cfg w \/ request_write st tls a hs w).
Proof.
  intros (Hc & Hs & Hu) H. unfold send_request in H.
  destruct (find_reusable a tls (hl_via (cs_layer st)) (hl_conns (cs_layer st))) as [c|] eqn:Ef.
  - inversion H; subst. split; [repeat split; assumption|]. intros w [<-|[]]. apply find_reusable_some in Ef.
    destruct Ef as (Hi & Ea & Et & Ev). split; [reflexivity|]. right. unfold request_write. cbn. unfold hop_of.
    rewrite (Hc c Hi), Ea, Et, Ev. repeat split.
  - set (sc := hl_via (cs_layer st) && send_connect (hl_mode (cs_layer st)) tls) in *.
    assert (Hconns : forall x, conns_ok (with_conns (cs_layer st) (hl_conns (cs_layer st) ++ [x])) <->
                               (sc_connect x = sc_via x && send_connect (hl_mode (cs_layer st)) (sc_tls x))).
    { intros x. unfold conns_ok. cbn. split.
      - intros Hx. apply Hx. apply in_or_app. right. left. reflexivity.
      - intros Hx c Hin. apply in_app_or in Hin. destruct Hin as [Hin|[<-|[]]]; [apply Hc; assumption | assumption]. }
    assert (Hv : sc = true -> hl_via (cs_layer st) = true) by (intros E; apply andb_true_iff in E; apply E).
    destruct (sc && negb ok) eqn:E1; inversion H; subst; clear H;
      (split; [cbn; repeat split; try assumption; apply Hconns; reflexivity|]); intros w Hin.
    + destruct Hin as [<-|[]]. split; [reflexivity|]. left.
      apply andb_true_iff in E1. destruct E1 as [E1 _]. apply connect_write_intro; auto.
    + apply in_app_or in Hin. destruct Hin as [Hin|[<-|[]]].
      * destruct sc eqn:E2; [|destruct Hin]. destruct Hin as [<-|[]]. split; [reflexivity|]. left.
        apply connect_write_intro; auto.
      * split; [reflexivity|]. right. unfold request_write. cbn. unfold hop_of. cbn. repeat split.
Qed.

Ltac splits := repeat match goal with |- _ /\ _ => split end.

(* one event: the invariant is kept, the tunnel flag is set exactly when the http_connected hook fires, and the writes
   are CONNECT heads of mitmproxy's own and the head of the client's request, after the requestheaders hook, on the
   connection send_request chose for its destination *)
Lemma step_spec cfg in_set st ev st' wr conn :
  inv st -> step cfg in_set st ev = (st', wr, conn) ->
  (inv st' /\ st'.(cs_pm) = st.(cs_pm) /\ st'.(cs_tunnel) = st.(cs_tunnel) || conn)
  /\ forall w, In w wr ->
      w.(w_pm) = st.(cs_pm)
      /\ (connect_write cfg w
          \/ exists tgt hh hs ok tls a,
               ev = EReq tgt hh hs ok /\ resolve st.(cs_layer) tgt hh = Some (tls, a)
               /\ request_write st tls a (requestheaders cfg st.(cs_pm) tls in_set hs) w).
Proof.
  intros Hi H. unfold step in H. destruct (negb (cs_alive st)).
  { inversion H; subst. rewrite orb_false_r. split; [auto | intros w []]. }
  destruct ev as [tgt hh hs ok|a itls ok|ord].
  - destruct (resolve (cs_layer st) tgt hh) as [[tls a]|] eqn:Er.
    + destruct (send_request cfg st tls a (requestheaders cfg (cs_pm st) tls in_set hs) ok) as [s2 w2] eqn:E.
      inversion H; subst. apply send_request_spec in E; [|assumption]. destruct E as [(E1 & E2 & E3) Ew].
      rewrite E3, orb_false_r. split; [auto|]. intros w Hin. destruct (Ew w Hin) as [Hpm [Hw|Hw]].
      * split; [exact Hpm|]. left. exact Hw.
      * split; [exact Hpm|]. right. exists tgt, hh, hs, ok, tls, a. auto.
    + inversion H; subst. cbn. rewrite orb_false_r. split; [auto | intros w []].
  - (* CONNECT from the client: only eager TLS interception in upstream mode writes, a CONNECT of its own *)
    destruct Hi as (Hc & Hs & Hu). pose proof Hs as Hs'. unfold shape_ok in Hs.
    destruct (hl_mode (cs_layer st)) eqn:Em.
    + (* regular *)
      destruct (transparent_layer cfg a itls false (cs_next st)) as [l n] eqn:E. inversion H; subst.
      apply transparent_layer_conns in E. destruct E as (E1 & E2 & E3 & E4). destruct Hs as [Hp Hv].
      split; [|intros w []].
      unfold inv, shape_ok. cbn. rewrite E1, E3, Hp, orb_true_r. splits; try assumption; try discriminate; auto.
    + (* upstream *)
      destruct Hs as (Hp & Hv & Ht).
      destruct (c_eager cfg && itls); inversion H; subst; (split; [|intros w Hin]).
      1, 3: unfold inv, shape_ok; cbn; rewrite orb_true_r; splits; try assumption; try discriminate; auto.
      * intros c [<-|[]]. reflexivity.
      * intros t tls E. rewrite E in Hp. discriminate.
      * intros c [].
      * intros t tls E. rewrite E in Hp. discriminate.
      * destruct Hin as [<-|[]]. split; [reflexivity|]. left. apply connect_write_intro; [exact Hs'|reflexivity|exact Hv].
      * destruct Hin.
    + inversion H; subst. split; [|intros w []].
      unfold inv, shape_ok. cbn. rewrite Em, orb_false_r. splits; try assumption; try apply Hs; auto.
  - inversion H; subst. split; [|intros w []]. destruct Hi as (Hc & Hs & Hu). unfold inv, shape_ok in *. cbn.
    rewrite orb_false_r. splits; try assumption; auto.
    intros c Hin. apply in_map_iff in Hin. destruct Hin as (x & Hx & Hin).
    destruct (sc_ord x =? ord); subst c; cbn; apply Hc; assumption.
Qed.

(* The per-event soundness lemma, for any value cred and whatever UpstreamAuth.auth is.  Side condition: the addon
   knows this client to be tunnelled (c_fixed), or the client is not in a tunnel, or the event is not leaky. *)
Lemma step_sound cfg cred in_set st ev st' wr conn w :
  inv st -> event_clean cred ev ->
  ((cfg.(c_fixed) && in_set) = true \/ st.(cs_tunnel) = false \/ leaky st ev = false) ->
  step cfg in_set st ev = (st', wr, conn) ->
  In w wr -> carries cred w.(w_fields) -> good w.
Proof.
  intros Hi Hcl Hsafe H Hin Hcar.
  destruct (proj2 (step_spec _ _ _ _ _ _ _ Hi H) w Hin)
    as [Hpm [(_ & Hg & _)|(tgt & hh & hs & ok & tls & a & -> & Er & Hk & Hf & Hv & Ht & Hh)]]; [exact Hg|].
  destruct Hi as (Hc & Hs & Hu).
  rewrite Hf in Hcar. cbn in Hcl.
  destruct (requestheaders_carries _ _ _ _ _ _ Hcl Hcar) as [(Hup & Htls & Hfs)|Hrev].
  - (* upstream mode, plain http *)
    assert (Hnt : cs_tunnel st = false).
    { destruct Hsafe as [Hsafe|[Hsafe|Hsafe]].
      - rewrite Hsafe in Hfs. discriminate.
      - assumption.
      - destruct (cs_tunnel st) eqn:Et; [|reflexivity]. exfalso.
        unfold leaky in Hsafe. rewrite Et, Hup in Hsafe. cbn in Hsafe.
        unfold shape_ok in Hs. unfold resolve in Er. destruct (hl_mode (cs_layer st)).
        + destruct Hs as [Hp _]. rewrite Hp in Hup. discriminate.
        + destruct Hs as (_ & _ & Hs). rewrite Et in Hs. discriminate.
        + destruct (hl_ctx (cs_layer st)) as [[a0 t0]|]; [|discriminate].
          inversion Er; subst. cbn in Hsafe. discriminate. }
    specialize (Hu Hup Hnt). unfold shape_ok in Hs. rewrite Hu in Hs, Ht. destruct Hs as (_ & Hvia & _).
    rewrite Hvia in *. rewrite Htls in Ht. cbn in Ht.
    left. rewrite Hpm. repeat split; assumption.
  - (* reverse mode *)
    destruct (cs_pm st) as [|p|t rtls|t rtls|t rtls] eqn:Epm; try discriminate.
    unfold shape_ok in Hs. rewrite Epm in Hs. unfold resolve in Er. destruct (hl_mode (cs_layer st)).
    + destruct Hs as [Hs _]. discriminate.
    + destruct Hs as [Hs _]. cbn in Hs. discriminate.
    + destruct Hs as [_ Hs]. destruct (Hs t rtls eq_refl) as [Hvia [tl Hctx]].
      rewrite Hctx in Er. inversion Er; subst. rewrite Hvia in *.
      right. split; [assumption|]. exists a, rtls. split; assumption.
Qed.

(* what is sent where the statement says it is: every CONNECT head carries the credential *)
Lemma connect_head_carries cfg cred a : cfg.(c_auth) = Some cred -> cred <> [] -> carries cred (connect_head cfg a).
Proof.
  intros Ha Hne. unfold connect_head, http_connect_upstream. rewrite Ha.
  destruct cred as [|x r]; [contradiction|]. cbn [truthy]. apply set_all1_has.
Qed.
