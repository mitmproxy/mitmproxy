(* Proofs/UrlDec.v -- decimal rendering of a port (dec_of_Z) read back by dec_value; per-byte class facts *)
From Coq Require Import List Bool Arith NArith ZArith Lia.
From MV Require Import Base.Bytes Model.Url Proofs.DecOfN Proofs.UrlLemmas.
Import ListNotations.

Lemma byte_imp (p q : byte -> bool) b :
  forallb (fun b => implb (p b) (q b)) all_bytes = true -> p b = true -> q b = true.
Proof. intros S. exact (Bytes.byte_imp p q S b). Qed.

Lemma dec_value_val ds : dec_value ds = dec_val ds 0.
Proof. apply dec_val_fold. Qed.

Lemma dec_of_Z_spec p : (0 <= p)%Z ->
  forallb is_digit (dec_of_Z p) = true /\ dec_of_Z p <> [] /\ Z.of_N (dec_value (dec_of_Z p)) = p.
Proof.
  intros H. unfold dec_of_Z. replace (p <? 0)%Z with false by lia.
  rewrite dec_value_val, dec_of_N_val, Z2N.id by exact H.
  auto using dec_of_N_digits, dec_of_N_nonempty.
Qed.
