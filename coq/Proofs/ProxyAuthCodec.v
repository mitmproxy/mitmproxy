(* Proofs/ProxyAuthCodec.v -- round-trip lemmas for the codecs of Model/ProxyAuth.v:
   decode(encode s) = s for UTF-8 with any error handler, a2b_base64 (b64encode x) = x, and the
   behaviour of str.split() / split(COLON[,1]) on well-formed credentials. *)
From Coq Require Import ZArith NArith List Bool Lia ZifyBool.
From MV Require Import Base.Bytes Model.ProxyAuth Proofs.ListFacts.
Import ListNotations.
Local Open Scope N_scope.
(* One step of the decoder on a tail left abstract.  The lemmas below rewrite with it instead of
   computing: [cbn] on a concrete tail would also unfold the recursive calls of the error branches. *)
Lemma decode_with_cons h b0 r0 : decode_with h (b0 :: r0) =
  if bN b0 <? 128 then bN b0 :: decode_with h r0
  else if bN b0 <? 194 then h [b0] ++ decode_with h r0
  else if bN b0 <? 224 then
    match r0 with
    | [] => h [b0]
    | b1 :: r1 => if is_cont b1 then cp2 b0 b1 :: decode_with h r1 else h [b0] ++ decode_with h r0
    end
  else if bN b0 <? 240 then
    match r0 with
    | [] => h [b0]
    | b1 :: r1 =>
      if second_ok b0 b1 then
        match r1 with
        | [] => h [b0; b1]
        | b2 :: r2 => if is_cont b2 then cp3 b0 b1 b2 :: decode_with h r2 else h [b0; b1] ++ decode_with h r1
        end
      else h [b0] ++ decode_with h r0
    end
  else if bN b0 <? 245 then
    match r0 with
    | [] => h [b0]
    | b1 :: r1 =>
      if second_ok b0 b1 then
        match r1 with
        | [] => h [b0; b1]
        | b2 :: r2 =>
          if is_cont b2 then
            match r2 with
            | [] => h [b0; b1; b2]
            | b3 :: r3 => if is_cont b3 then cp4 b0 b1 b2 b3 :: decode_with h r3
                          else h [b0; b1; b2] ++ decode_with h r2
            end
          else h [b0; b1] ++ decode_with h r1
        end
      else h [b0] ++ decode_with h r0
    end
  else h [b0] ++ decode_with h r0.
Proof. reflexivity. Qed.

Lemma dec1 h b r : bN b < 128 -> decode_with h (b :: r) = bN b :: decode_with h r.
Proof. intros H. rewrite decode_with_cons, (proj2 (N.ltb_lt (bN b) _)) by exact H. reflexivity. Qed.

(* a continuation byte carries one base-64 digit *)
Lemma is_cont_digit d : d < 64 -> is_cont (Nb (128 + d)) = true.
Proof. intros H. unfold is_cont. rewrite bN_Nb by lia. apply andb_true_intro; split; apply N.leb_le; lia. Qed.
Lemma bN_digit d : d < 64 -> bN (Nb (128 + d)) - 128 = d.
Proof. intros H. rewrite bN_Nb by lia. lia. Qed.

Lemma second_ok_digit n d : n < 256 -> d < 64 ->
  (n = 224 -> 32 <= d) -> (n = 237 -> d < 32) -> (n = 240 -> 16 <= d) -> (n = 244 -> d < 16) ->
  second_ok (Nb n) (Nb (128 + d)) = true.
Proof.
  intros H0 H1 A B C D. unfold second_ok. rewrite is_cont_digit, !bN_Nb by lia. cbn [andb].
  destruct (N.eqb_spec n 224). { apply N.leb_le. specialize (A e). lia. }
  destruct (N.eqb_spec n 237). { apply N.ltb_lt. specialize (B e). lia. }
  destruct (N.eqb_spec n 240). { apply N.leb_le. specialize (C e). lia. }
  destruct (N.eqb_spec n 244). { apply N.ltb_lt. specialize (D e). lia. }
  reflexivity.
Qed.

(* [injection] would normalise the additions inside the bytes *)
Lemma Some_inj {A} (x y : A) : Some x = Some y -> x = y.
Proof. congruence. Qed.

(* Naming quotient and remainder turns the arithmetic of both codecs into linear facts about digits. *)
Lemma digits p c : exists q d, c / N.pos p = q /\ c mod N.pos p = d /\ c = N.pos p * q + d /\ d < N.pos p.
Proof. exists (c / N.pos p), (c mod N.pos p). repeat split; [apply N.div_mod'|apply N.mod_lt; discriminate]. Qed.

(* a code point that str.encode accepts decodes back to itself, whatever follows and whatever the handler *)
Lemma dec_enc_cp h c a r : encode_cp c = Some a -> decode_with h (a ++ r) = c :: decode_with h r.
Proof.
  unfold encode_cp.
  (* the base-64 digits d2 d1 d0 of c below the leading part c3 *)
  change 4096 with (64 * 64). change 262144 with (64 * 64 * 64). rewrite <- !N.div_div by discriminate.
  destruct (digits 64 c) as (c1 & d0 & -> & -> & D0 & R0).
  destruct (digits 64 c1) as (c2 & d1 & -> & -> & D1 & R1).
  destruct (digits 64 c2) as (c3 & d2 & -> & -> & D2 & R2).
  intros H.
  destruct (c <? 128) eqn:L1;
    [|destruct (c <? 2048) eqn:L2;
      [|destruct (c <? 65536) eqn:L3;
        [destruct ((55296 <=? c) && (c <? 57344)) eqn:S; [discriminate|]
        |destruct (c <? 1114112) eqn:L4; [|discriminate]]]];
  apply Some_inj in H; subst a; cbv [app];
  (* the same for the four classes: the tests on the lead byte below its class fail and the next succeeds
     (they go first, so that the other rewrites work on the one remaining branch); then digit by digit *)
  rewrite decode_with_cons, bN_Nb by lia;
  rewrite ?(proj2 (N.ltb_ge _ _)) by lia; rewrite (proj2 (N.ltb_lt _ _)) by lia;
  rewrite ?second_ok_digit, ?is_cont_digit by (assumption || lia);
  unfold cp2, cp3, cp4; rewrite ?bN_digit, ?bN_Nb by (assumption || lia); f_equal; lia.
Qed.

Lemma dec_enc h : forall s raw, encode_strict s = Some raw -> decode_with h raw = s.
Proof.
  induction s as [|c s IH]; cbn [encode_strict]; intros raw H.
  - inversion H. reflexivity.
  - destruct (encode_cp c) eqn:E; [|discriminate].
    destruct (encode_strict s) eqn:E2; [|discriminate].
    inversion H; subst raw. rewrite (dec_enc_cp h _ _ _ E). f_equal. apply IH. reflexivity.
Qed.

Definition all_ascii (s : bytes) : bool := forallb (fun b => bN b <? 128) s.

Lemma dec_ascii h : forall s, all_ascii s = true -> decode_with h s = ascii s.
Proof.
  induction s as [|b s IH]; intros H; [reflexivity|].
  cbn [all_ascii forallb] in H. apply andb_prop in H. destruct H as [Hb Hs].
  apply N.ltb_lt in Hb. rewrite dec1 by exact Hb. cbn [ascii map]. f_equal. apply IH, Hs.
Qed.

Lemma enc_ascii : forall s, all_ascii s = true -> encode_strict (ascii s) = Some s.
Proof.
  induction s as [|b s IH]; intros H; [reflexivity|].
  cbn [all_ascii forallb] in H. apply andb_prop in H. destruct H as [Hb Hs].
  cbn [ascii map encode_strict]. fold (ascii s). rewrite (IH Hs).
  unfold encode_cp. rewrite Hb. rewrite Nb_bN. reflexivity.
Qed.

Lemma all_ascii_app a b : all_ascii (a ++ b) = all_ascii a && all_ascii b.
Proof. unfold all_ascii. apply forallb_app. Qed.

Definition sextets : list N := map N.of_nat (seq 0 64).
Definition chk_sextet (v : N) : bool :=
  negb (bN (b64chr v) =? 61) && option_eqb N.eqb (b64val (b64chr v)) (Some v)
  && (bN (b64chr v) <? 128) && negb (is_space (bN (b64chr v))).
Lemma sextets_ok : forallb chk_sextet sextets = true.
Proof. vm_compute. reflexivity. Qed.

Lemma b64_tab v : v < 64 ->
  (bN (b64chr v) =? 61) = false /\ b64val (b64chr v) = Some v
  /\ (bN (b64chr v) <? 128) = true /\ is_space (bN (b64chr v)) = false.
Proof.
  intros H. assert (A : chk_sextet v = true).
  { apply (proj1 (forallb_forall _ _) sextets_ok). unfold sextets. rewrite <- (N2Nat.id v).
    apply in_map, in_seq. lia. }
  unfold chk_sextet in A. rewrite !andb_true_iff, !negb_true_iff in A. destruct A as [[[A1 A2] A3] A4].
  repeat split; try assumption.
  destruct (b64val (b64chr v)) as [w|]; cbn in A2; [|discriminate]. apply N.eqb_eq in A2. subst. reflexivity.
Qed.

(* the decoder on a character of the alphabet: the sextet branch of a2b_loop *)
Lemma a2b_chr v r q l p acc : v < 64 ->
  a2b_loop (b64chr v :: r) q l p acc =
  if q =? 0 then a2b_loop r 1 v 0 acc
  else if q =? 1 then a2b_loop r 2 (v mod 16) 0 (Nb ((l * 4 + v / 16) mod 256) :: acc)
  else if q =? 2 then a2b_loop r 3 (v mod 4) 0 (Nb ((l * 16 + v / 4) mod 256) :: acc)
  else a2b_loop r 0 0 0 (Nb ((l * 64 + v) mod 256) :: acc).
Proof. intros H. destruct (b64_tab v H) as (E & F & _). cbn [a2b_loop]. rewrite E, F. reflexivity. Qed.

Lemma a2b_pad2 r l acc : a2b_loop (x3d :: x3d :: r) 2 l 0 acc = Some (rev acc).
Proof. reflexivity. Qed.
Lemma a2b_pad1 r l acc : a2b_loop (x3d :: r) 3 l 0 acc = Some (rev acc).
Proof. reflexivity. Qed.

Lemma triple_ind (P : bytes -> Prop) :
  P [] -> (forall a, P [a]) -> (forall a b, P [a; b]) -> (forall a b c r, P r -> P (a :: b :: c :: r)) ->
  forall s, P s.
Proof.
  intros H0 H1 H2 H3. fix IH 1. intros [|a [|b [|c r]]].
  - exact H0.
  - apply H1.
  - apply H2.
  - apply H3. apply IH.
Qed.

Lemma Nb_eq (n : N) (b : byte) : n = bN b -> Nb n = b.
Proof. intros ->. apply Nb_bN. Qed.

(* the decoder undoes the RFC 4648 encoder.  With a = 4 a1 + a0, b = 16 b1 + b0, c = 64 c1 + c0 the
   sextets are a1, 16 a0 + b1, 4 b0 + c1, c0, and the decoder reassembles the bytes digit by digit. *)
Lemma a2b_b64encode : forall raw acc, a2b_loop (b64encode raw) 0 0 0 acc = Some (rev acc ++ raw).
Proof.
  induction raw as [|a|a b|a b c r IH] using triple_ind; intros acc; cbn [b64encode].
  - cbn. rewrite app_nil_r. reflexivity.
  - pose proof (bN_lt a). destruct (digits 4 (bN a)) as (a1 & a0 & -> & -> & Da & La).
    do 2 (rewrite a2b_chr by lia; cbn [N.eqb Pos.eqb]). rewrite a2b_pad2.
    rewrite N.div_mul, N.mod_small by lia.
    cbn [rev]. repeat f_equal. apply Nb_eq. lia.
  - pose proof (bN_lt a). destruct (digits 4 (bN a)) as (a1 & a0 & -> & -> & Da & La).
    pose proof (bN_lt b). destruct (digits 16 (bN b)) as (b1 & b0 & -> & -> & Db & Lb).
    do 3 (rewrite a2b_chr by lia; cbn [N.eqb Pos.eqb]). rewrite a2b_pad1.
    rewrite digit_div, digit_mod, N.div_mul, !N.mod_small by lia.
    cbn [rev]. rewrite <- !app_assoc. cbn [app]. repeat f_equal; apply Nb_eq; lia.
  - pose proof (bN_lt a). destruct (digits 4 (bN a)) as (a1 & a0 & -> & -> & Da & La).
    pose proof (bN_lt b). destruct (digits 16 (bN b)) as (b1 & b0 & -> & -> & Db & Lb).
    pose proof (bN_lt c). destruct (digits 64 (bN c)) as (c1 & c0 & -> & -> & Dc & Lc).
    do 4 (rewrite a2b_chr by lia; cbn [N.eqb Pos.eqb]). rewrite IH.
    rewrite !digit_div, !digit_mod, !N.mod_small by lia.
    cbn [rev]. rewrite <- !app_assoc. cbn [app]. repeat f_equal; apply Nb_eq; lia.
Qed.

Theorem a2b_roundtrip raw : a2b_base64 (b64encode raw) = Some raw.
Proof. unfold a2b_base64. rewrite a2b_b64encode. reflexivity. Qed.

(* the encoder only emits alphabet characters and pads: ASCII, no whitespace *)
Definition nospace (w : str) : bool := forallb (fun c => negb (is_space c)) w.

(* beyond the table b64chr falls through to its last case *)
Lemma b64chr_plain v : (bN (b64chr v) <? 128) = true /\ is_space (bN (b64chr v)) = false.
Proof.
  destruct (N.ltb_spec v 64) as [L|L]; [apply (b64_tab v L)|].
  unfold b64chr. rewrite !(proj2 (N.ltb_ge v _)), (proj2 (N.eqb_neq v _)) by lia. split; reflexivity.
Qed.

Lemma b64encode_chars : forall raw, all_ascii (b64encode raw) = true /\ nospace (ascii (b64encode raw)) = true.
Proof.
  induction raw as [|a|a b|a b c r [I1 I2]] using triple_ind;
    unfold all_ascii, nospace in *; cbn [b64encode ascii map forallb];
    rewrite ?(proj1 (b64chr_plain _)), ?(proj2 (b64chr_plain _)); split; trivial.
Qed.

Lemma b64encode_nonempty a raw : b64encode (a :: raw) <> [].
Proof. destruct raw as [|b [|c r]]; cbn [b64encode]; discriminate. Qed.

(* a scanner that pushes every character failing its test onto the word being read runs through a word of
   such characters in one go: str.split() over a word without white space, split(COLON) over one without colon *)
Lemma scan_word {A} (f : str -> str -> A) (t : N -> bool) :
  (forall c r cur, t c = false -> f (c :: r) cur = f r (c :: cur)) ->
  forall w r cur, forallb (fun c => negb (t c)) w = true -> f (w ++ r) cur = f r (rev w ++ cur).
Proof.
  intros step. induction w as [|c w IH]; intros r cur H; [reflexivity|].
  cbn [forallb] in H. apply andb_prop in H. destruct H as [Hc Hw]. apply negb_true_iff in Hc.
  cbn [app rev]. rewrite (step _ _ _ Hc), IH, <- app_assoc by exact Hw. reflexivity.
Qed.

Lemma split_ws_word w acc r : nospace w = true ->
  split_ws (w ++ r) (Some acc) = split_ws r (Some (rev w ++ acc)).
Proof.
  apply (scan_word (fun s cur => split_ws s (Some cur)) is_space).
  intros c r0 cur H. cbn [split_ws]. rewrite H. reflexivity.
Qed.

(* scheme SP token -> [scheme; token] *)
Lemma split_ws_two w1 w2 : w1 <> [] -> w2 <> [] -> nospace w1 = true -> nospace w2 = true ->
  split_ws (w1 ++ 32 :: w2) None = [w1; w2].
Proof.
  intros N1 N2 H1 H2.
  (* the first character of a word opens it *)
  assert (start : forall c w r, nospace (c :: w) = true ->
                  split_ws ((c :: w) ++ r) None = split_ws r (Some (rev (c :: w)))).
  { intros c w r H. cbn [nospace forallb] in H. apply andb_prop in H. destruct H as [Hc Hw].
    apply negb_true_iff in Hc. cbn [app split_ws]. rewrite Hc. apply split_ws_word, Hw. }
  destruct w1 as [|c1 w1]; [congruence|]. destruct w2 as [|c2 w2]; [congruence|].
  rewrite start by exact H1.
  change (split_ws (32 :: c2 :: w2) (Some (rev (c1 :: w1))))
    with (rev (rev (c1 :: w1)) :: split_ws (c2 :: w2) None).
  pose proof (start c2 w2 [] H2) as E. rewrite app_nil_r in E.
  rewrite rev_involutive, E. cbn [split_ws]. rewrite rev_involutive. reflexivity.
Qed.

Definition nocolon (w : str) : bool := forallb (fun c => negb (c =? COLON)) w.

Lemma split_on_word w r cur : nocolon w = true -> split_on COLON (w ++ r) cur = split_on COLON r (rev w ++ cur).
Proof. apply scan_word. intros c r0 cur0 H. cbn [split_on]. rewrite H. reflexivity. Qed.

Lemma split_on1_word w r cur : nocolon w = true -> split_on1 COLON (w ++ r) cur = split_on1 COLON r (rev w ++ cur).
Proof. apply scan_word. intros c r0 cur0 H. cbn [split_on1]. rewrite H. reflexivity. Qed.

Lemma split_on_pair u p cur : nocolon u = true -> nocolon p = true ->
  split_on COLON (u ++ COLON :: p) cur = [rev cur ++ u; p].
Proof.
  intros Hu Hp. rewrite split_on_word by exact Hu. cbn [split_on N.eqb COLON Pos.eqb].
  rewrite <- (app_nil_r p), split_on_word by exact Hp. cbn [split_on].
  rewrite !rev_app_distr, !rev_involutive, app_nil_r. reflexivity.
Qed.

Lemma split_on1_pair u p cur : nocolon u = true ->
  split_on1 COLON (u ++ COLON :: p) cur = [rev cur ++ u; p].
Proof.
  intros Hu. rewrite split_on1_word by exact Hu. cbn [split_on1 N.eqb COLON Pos.eqb].
  rewrite rev_app_distr, rev_involutive. reflexivity.
Qed.
