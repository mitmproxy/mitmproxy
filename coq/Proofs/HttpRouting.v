(* Proofs/HttpRouting.v -- the invariant of HttpLayer.get_connection / register_connection (C08).
   One induction over the nesting fuel proves, for both functions at once, that the invariant
   (every waiting request matches the connection it waits on, that connection is handled by its own layer
   stack, all object numbers in use are below the allocation counter) is preserved, that every reply carries a
   connection satisfying R / E, that the heap below the allocation counter is untouched.
   The section abstracts R (relation between a request and the connection it is answered with), E (health of a
   replied connection) and P (provenance of a request) so that the same proof serves the routing theorem
   (R = spec equality, E = open and not failed) and the dispatch theorem (R, E trivial). *)
From Coq Require Import NArith List Bool Lia.
From MV Require Import Base.Bytes Model.HttpRoutingBase Gen.ConnSpec Model.HttpRouting Proofs.HttpRoutingBase.
Import ListNotations.
Open Scope N_scope.

(* stated for the keys still to be visited, within the whole dict, so that skipping a key is the induction hypothesis *)
Lemma reuse_loop_spec cf s g all keys : incl keys all ->
  match reuse_loop cf s g keys with
  | LQueue c => connection_spec_matches g (hget (l_heap s) c) = true /\ has_key (l_waiting s) c = true
  | LReuse c => connection_spec_matches g (hget (l_heap s) c) = true /\ c_error (hget (l_heap s) c) = false
                /\ connected (hget (l_heap s) c) = true /\ In c (map fst all)
  | _ => True
  end.
Proof.
  induction keys as [|[c h] rest IH]; cbn [reuse_loop]; intros Hk; [exact I|].
  assert (Hin : In c (map fst all)) by (apply (in_map fst _ (c, h)), Hk; left; reflexivity).
  specialize (IH (fun x Hx => Hk x (or_intror Hx))).
  destruct (connection_spec_matches g (hget (l_heap s) c)) eqn:EM; [|exact IH].
  destruct (has_key (l_waiting s) c) eqn:EW; [split; assumption|].
  destruct (c_error (hget (l_heap s) c)) eqn:EE; [exact I|].
  destruct (connected (hget (l_heap s) c)) eqn:EC; [|exact IH].
  destruct (client_h2 cf && negb (c_h2 (hget (l_heap s) c))); [exact IH|]. repeat split; auto.
Qed.

(* the LFall continuation of get_connection, named so that it can be reasoned about once: a new server
   connection (behind a new carrier when the request goes via a proxy) on which the request waits *)
Definition fresh_conn (cf : cfg) (s : lstate) (w : waiter) : lstate * list out :=
  let g := snd w in
  let l := l_next s in
  match g_via g with
  | Some v =>
      let p := l + 1 in
      (mkL (dict_set (dict_set (l_conns s) l l) p l) (waiting_add (l_waiting s) l w)
           (hset (hset (l_heap s) l (new_server g)) p (new_carrier v)) (l + 2)
           (l_stacks s ++ [(l, mkStack (Some p) (g_tls g || negb (upstream_mode cf)) (g_tls g))]), [])
  | None =>
      (mkL (dict_set (l_conns s) l l) (waiting_add (l_waiting s) l w)
           (hset (l_heap s) l (new_server g)) (l + 1)
           (l_stacks s ++ [(l, mkStack None false (g_tls g))]), [])
  end.

Definition fall (f : nat) (cf : cfg) (s : lstate) (w : waiter) : lstate * list out :=
  let g := snd w in
  let ctx := ctx_server cf in
  let kc := hget (l_heap s) ctx in
  let ctx_matches := negb (has_key (l_conns s) ctx) && connection_spec_matches g kc in
  let can_use := ctx_matches && connected kc in
  if ctx_matches && c_error kc then (s, [reply_err w])
  else if can_use then
    register_connection f cf
      (mkL (dict_set (l_conns s) ctx ctx) (waiting_add (l_waiting s) ctx w) (l_heap s) (l_next s)
           (l_stacks s ++ [(ctx, mkStack None false false)])) ctx false
  else fresh_conn cf s w.

Lemma get_connection_unfold f cf s w reuse :
  get_connection (S f) cf s w reuse =
  match (if reuse then reuse_loop cf s (snd w) (l_conns s) else LFall) with
  | LQueue c => (set_waiting s (waiting_add (l_waiting s) c w), [])
  | LErr c => (s, [reply_err w])
  | LReuse c => (s, [reply_conn s w c])
  | LFall => fall f cf s w
  end.
Proof. reflexivity. Qed.

Definition reg_fold (f : nat) (cf : cfg) :=
  fun (acc : lstate * list out) (w : waiter) =>
    let (st', o') := get_connection f cf (fst acc) w false in (st', snd acc ++ o').

Lemma register_connection_unfold f cf s l err :
  register_connection (S f) cf s l err =
  match waiting_pop (l_waiting s) l with
  | None => (s, [OKeyError])
  | Some (ws, w') =>
      let s1 := set_waiting s w' in
      if err then (s1, map reply_err ws)
      else if client_h2 cf && negb (c_h2 (hget (l_heap s1) l)) then
        match ws with
        | [] => (s1, [])
        | w0 :: rest => fold_left (reg_fold f cf) rest (s1, [reply_conn s1 w0 l])
        end
      else (s1, map (fun w => reply_conn s1 w l) ws)
  end.
Proof. reflexivity. Qed.

Section Invariant.
  Variable P : waiter -> Prop.
  Variable R : get_cmd -> conn -> Prop.
  Variable E : conn -> Prop.
  Hypothesis R_match : forall g k, connection_spec_matches g k = true -> R g k.
  Hypothesis R_new : forall g, R g (new_server g).
  Hypothesis E_ok : forall k, c_error k = false -> connected k = true -> E k.

  Definition inv (cf : cfg) (s : lstate) : Prop :=
    ctx_server cf < l_next s
    /\ (forall c, has_key (l_waiting s) c = true -> c < l_next s)
    /\ all_waiting (fun c x => R (snd x) (hget (l_heap s) c) /\ P x) (l_waiting s)
    /\ (forall c, has_key (l_waiting s) c = true -> handler_of (l_conns s) c = c).

  Definition out_ok (o : out) : Prop :=
    match o with
    | OReply rid g (Some (c, k, h)) => R g k /\ E k /\ P (rid, g)
    | OReply rid g None => P (rid, g)
    | _ => True
    end.

  (* the request head is dispatched to the layer stack of the replied connection itself *)
  Definition out_own (o : out) : Prop :=
    match o with
    | OReply _ _ (Some (c, _, h)) => h = c
    | _ => True
    end.

  Definition post (cf : cfg) (s s' : lstate) (outs : list out) : Prop :=
    inv cf s' /\ Forall out_ok outs /\ l_next s <= l_next s'
    /\ (forall c, c < l_next s -> hget (l_heap s') c = hget (l_heap s) c).

  (* the two halves of the mutual induction.  Replies of register_connection always go to the stack of the replied
     connection itself; those of get_connection do so when it does not reuse, or when no registered connection that
     matches the request is handled by a foreign stack (a reused key need not be its own handler) *)
  Definition get_goal (fuel : nat) (cf : cfg) : Prop :=
    forall s w reuse s' outs, inv cf s -> P w -> get_connection fuel cf s w reuse = (s', outs) ->
      post cf s s' outs
      /\ ((reuse = true -> no_foreign_match s (SGet (fst w) (snd w)) = true) -> Forall out_own outs).

  Definition reg_goal (fuel : nat) (cf : cfg) : Prop :=
    forall s l err s' outs, inv cf s ->
      (err = false -> E (hget (l_heap s) l)) ->
      register_connection fuel cf s l err = (s', outs) ->
      post cf s s' outs /\ Forall out_own outs.

  Lemma post_refl cf s outs : inv cf s -> Forall out_ok outs -> post cf s s outs.
  Proof. intros HI HO. split; [exact HI|]. split; [exact HO|]. split; [lia|]. intros; reflexivity. Qed.

  Lemma post_same cf s s' outs :
    inv cf s' -> Forall out_ok outs -> l_next s' = l_next s -> l_heap s' = l_heap s -> post cf s s' outs.
  Proof.
    intros HI HO HN HH. split; [exact HI|]. split; [exact HO|]. split; [lia|]. intros; rewrite HH; reflexivity.
  Qed.

  Lemma inv_add cf s conns' stacks' c w :
    inv cf s -> P w -> R (snd w) (hget (l_heap s) c) -> c < l_next s -> handler_of conns' c = c ->
    (forall c0, has_key (l_waiting s) c0 = true -> handler_of conns' c0 = c0) ->
    inv cf (mkL conns' (waiting_add (l_waiting s) c w) (l_heap s) (l_next s) stacks').
  Proof.
    intros (I1 & I2 & I3 & I4) HP HR Hc Hh Hk. unfold inv; cbn [l_conns l_waiting l_heap l_next l_stacks].
    split; [exact I1|]. split; [|split].
    - intros c0 H0. apply waiting_add_keys in H0. destruct H0 as [-> | H0]; auto.
    - apply all_waiting_add; [exact I3 | split; auto].
    - intros c0 H0. apply waiting_add_keys in H0. destruct H0 as [-> | H0]; auto.
  Qed.

  Lemma new_conn_ok cf s w conns' heap' n' stacks' :
    inv cf s -> P w ->
    (n' = l_next s + 1 \/ n' = l_next s + 2) ->
    (forall c, c < l_next s -> hget heap' c = hget (l_heap s) c) ->
    hget heap' (l_next s) = new_server (snd w) ->
    handler_of conns' (l_next s) = l_next s ->
    (forall c, c < l_next s -> handler_of conns' c = handler_of (l_conns s) c) ->
    post cf s (mkL conns' (waiting_add (l_waiting s) (l_next s) w) heap' n' stacks') [].
  Proof.
    intros (I1 & I2 & I3 & I4) HP HN HH HL HD1 HD2.
    unfold post, inv; cbn [l_conns l_waiting l_heap l_next l_stacks].
    split; [split; [|split; [|split]] | split; [constructor | split]].
    - destruct HN; lia.
    - intros c Hc. apply waiting_add_keys in Hc. destruct Hc as [-> | Hc]; [destruct HN; lia|].
      apply I2 in Hc. destruct HN; lia.
    - apply all_waiting_add.
      + eapply all_waiting_weaken; [|exact I3]. cbn beta. intros c x Hc [HR HPx]. split; auto.
        apply I2 in Hc. rewrite HH by exact Hc. exact HR.
      + split; auto. rewrite HL. apply R_new.
    - intros c Hc. apply waiting_add_keys in Hc. destruct Hc as [-> | Hc]; [exact HD1|].
      rewrite HD2 by (apply I2; exact Hc). apply I4; exact Hc.
    - destruct HN; lia.
    - exact HH.
  Qed.

  Lemma fresh_conn_ok cf s w s' outs :
    inv cf s -> P w -> fresh_conn cf s w = (s', outs) -> post cf s s' outs /\ Forall out_own outs.
  Proof.
    intros HI HP. destruct w as [rid g]. unfold fresh_conn. cbn [snd].
    (* in both shapes the new objects lie at or above l_next s: reads below it skip them, the read at it finds the server *)
    destruct (g_via g) as [v|]; intros H; inversion H; subst; clear H; (split; [|constructor]);
      apply new_conn_ok; auto; try (intros c Hc);
      rewrite ?hget_hset_other, ?handler_of_dict_set_other by lia; auto using hget_hset_same, handler_of_dict_set_same.
  Qed.

  Lemma fall_ok f cf : reg_goal f cf ->
    forall s w s' outs, inv cf s -> P w -> fall f cf s w = (s', outs) ->
      post cf s s' outs /\ Forall out_own outs.
  Proof.
    intros IHr s [rid g] s' outs HI HP. unfold fall. cbn [snd fst].
    pose proof HI as (I1 & I2 & I3 & I4).
    set (ctx := ctx_server cf) in *. set (kc := hget (l_heap s) ctx).
    pose proof (fresh_conn_ok cf s (rid, g) s' outs HI HP) as NEW.
    destruct (negb (has_key (l_conns s) ctx) && connection_spec_matches g kc) eqn:EM; cbn [andb].
    - destruct (c_error kc) eqn:EE.
      + intros H; inversion H; subst. split; [|repeat constructor].
        apply post_refl; [exact HI|]. repeat constructor. exact HP.
      + destruct (connected kc) eqn:EC; [|exact NEW].
        (* the context connection is used *)
        apply andb_true_iff in EM. destruct EM as [_ EM].
        intros H. apply IHr in H.
        * (* the state handed to register_connection has the heap and counter of s *)
          exact H.
        * apply inv_add; auto; [apply handler_of_dict_set_same|].
          intros c Hc. destruct (N.eq_dec c ctx) as [-> | D]; [apply handler_of_dict_set_same|].
          rewrite handler_of_dict_set_other by exact D. auto.
        * intros _. cbn [l_heap]. apply E_ok; assumption.
    - exact NEW.
  Qed.

  Lemma get_step f cf : reg_goal f cf -> get_goal (S f) cf.
  Proof.
    intros IHr s [rid g] reuse s' outs HI HP. rewrite get_connection_unfold. cbn [snd fst].
    destruct reuse.
    - pose proof (reuse_loop_spec cf s g (l_conns s) (l_conns s) (incl_refl _)) as HL.
      destruct (reuse_loop cf s g (l_conns s)) as [c|c|c|] eqn:EL.
      + (* queue on a pending connection *)
        destruct HL as [HM HK]. pose proof HI as (I1 & I2 & I3 & I4).
        intros H; inversion H; subst; clear H. split; [|intros _; constructor].
        apply post_same; [|constructor|reflexivity|reflexivity]. apply inv_add; auto.
      + intros H; inversion H; subst; clear H. split; [|intros _; repeat constructor].
        apply post_refl; [exact HI|]. repeat constructor. exact HP.
      + destruct HL as (HM & HE & HC & HIn).
        intros H; inversion H; subst; clear H. split.
        * apply post_refl; [exact HI|]. constructor; [|constructor]. cbn. auto.
        * intros HG. specialize (HG eq_refl). cbn in HG. repeat constructor. cbn.
          rewrite forallb_forall in HG. apply in_map_iff in HIn. destruct HIn as [x [Hx HIn]].
          specialize (HG x HIn). rewrite Hx in HG. rewrite HM in HG. cbn in HG. apply N.eqb_eq in HG. exact HG.
      + intros H. destruct (fall_ok f cf IHr s (rid, g) s' outs HI HP H) as [H1 H2]. split; auto.
    - intros H. destruct (fall_ok f cf IHr s (rid, g) s' outs HI HP H) as [H1 H2]. split; auto.
  Qed.

  Lemma fold_ok f cf : get_goal f cf ->
    forall rest st acc s0 s' outs,
      inv cf st -> (forall x, In x rest -> P x) ->
      Forall out_ok acc -> Forall out_own acc -> l_next s0 <= l_next st ->
      (forall c, c < l_next s0 -> hget (l_heap st) c = hget (l_heap s0) c) ->
      fold_left (reg_fold f cf) rest (st, acc) = (s', outs) ->
      post cf s0 s' outs /\ Forall out_own outs.
  Proof.
    intros IHg rest. induction rest as [|x rest IH]; intros st acc s0 s' outs HI HP HA HO HN HH; cbn [fold_left].
    - intros H; inversion H; subst. split; auto. split; [exact HI|]. split; [exact HA|]. split; [exact HN|exact HH].
    - unfold reg_fold at 2. cbn [fst snd].
      destruct (get_connection f cf st x false) as [st1 o1] eqn:EG.
      destruct (IHg st x false st1 o1 HI (HP x (or_introl eq_refl)) EG) as [(J1 & J2 & J3 & J4) J5].
      apply IH; auto.
      + intros y Hy. apply HP. right; exact Hy.
      + apply Forall_app; auto.
      + apply Forall_app; split; auto. apply J5. discriminate.
      + lia.
      + intros c Hc. rewrite J4 by lia. auto.
  Qed.

  Lemma reg_step f cf : get_goal f cf -> reg_goal (S f) cf.
  Proof.
    intros IHg s l err s' outs HI HE. rewrite register_connection_unfold.
    destruct (waiting_pop (l_waiting s) l) as [[ws w']|] eqn:EP.
    - destruct HI as (I1 & I2 & I3 & I4).
      destruct (all_waiting_pop _ _ _ _ _ I3 EP) as [HWS HW'].
      assert (HK : has_key (l_waiting s) l = true).
      { apply has_key_In. exists ws. exact (proj1 (waiting_pop_spec _ _ _ _ EP)). }
      assert (HI1 : inv cf (set_waiting s w')).
      { unfold inv; cbn [set_waiting l_conns l_waiting l_heap l_next l_stacks]. split; [|split; [|split]].
        - exact I1.
        - intros c Hc. apply I2. eapply waiting_pop_keys; eauto.
        - exact HW'.
        - intros c Hc. apply I4. eapply waiting_pop_keys; eauto. }
      cbv zeta. destruct err.
      + intros H; inversion H; subst; clear H. split.
        * apply post_same; auto. apply Forall_map, Forall_forall. intros [r g] Hx. cbn. apply (HWS _ Hx).
        * apply Forall_map, Forall_forall. intros x _. exact I.
      + specialize (HE eq_refl).
        assert (HR : forall x, In x ws -> out_ok (reply_conn (set_waiting s w') x l) /\ out_own (reply_conn (set_waiting s w') x l)).
        { intros [r g] Hx. destruct (HWS _ Hx) as [H1 H2]. cbn in *. repeat split; auto. }
        destruct (client_h2 cf && negb (c_h2 (hget (l_heap (set_waiting s w')) l))).
        * destruct ws as [|w0 rest].
          -- intros H; inversion H; subst. split; [apply post_same; auto | constructor].
          -- intros H. eapply (fold_ok f cf IHg rest (set_waiting s w') _ s) in H; eauto.
             ++ intros x Hx. apply (HWS x). right; exact Hx.
             ++ constructor; [|constructor]. apply (HR w0). left; reflexivity.
             ++ constructor; [|constructor]. apply (HR w0). left; reflexivity.
             ++ cbn; lia.
        * intros H; inversion H; subst; clear H. split.
          -- apply post_same; auto. apply Forall_map, Forall_forall. intros x Hx. apply (HR x Hx).
          -- apply Forall_map, Forall_forall. intros x Hx. apply (HR x Hx).
    - intros H; inversion H; subst. split; [apply post_refl; auto | ]; repeat constructor.
  Qed.

  Lemma get_register_ok fuel cf : get_goal fuel cf /\ reg_goal fuel cf.
  Proof.
    induction fuel as [|f [IHg IHr]].
    - split.
      + intros s w reuse s' outs HI HP H. cbn in H. inversion H; subst. split; [apply post_refl; auto|]; repeat constructor.
      + intros s l err s' outs HI HE H. cbn in H. inversion H; subst. split; [apply post_refl; auto|]; repeat constructor.
    - split; [apply get_step; exact IHr | apply reg_step; exact IHg].
  Qed.

  Lemma step_inv cf s e s' outs :
    inv cf s ->
    (forall rid g, e = SGet rid g -> P (rid, g)) ->
    (forall l, e = SRegister l false -> E (hget (l_heap s) l)) ->
    (forall c f k' g, e = SSet c f -> has_key (l_waiting s) c = true ->
        server_setattr (hget (l_heap s) c) f = Some k' -> R g (hget (l_heap s) c) -> R g k') ->
    step_fn cf s e = (s', outs) ->
    inv cf s' /\ Forall out_ok outs /\ (no_foreign_match s e = true -> Forall out_own outs).
  Proof.
    intros HI HP HE HS. destruct e as [rid g | l err | c f]; cbn [step_fn].
    - intros H. destruct (proj1 (get_register_ok nest_fuel cf) s (rid, g) true s' outs HI (HP _ _ eq_refl) H)
        as [(J1 & J2 & _) J3]. split; [exact J1|]. split; [exact J2|]. intros HG. apply J3. intros _. exact HG.
    - intros H. destruct (proj2 (get_register_ok nest_fuel cf) s l err s' outs HI) as [(J1 & J2 & _) J3]; auto.
      intros ->. apply HE. reflexivity.
    - destruct (server_setattr (hget (l_heap s) c) f) as [k'|] eqn:ES; intros H; inversion H; subst; clear H.
      + destruct HI as (I1 & I2 & I3 & I4).
        split; [|split; [repeat constructor | intros _; repeat constructor]].
        unfold inv; cbn [l_conns l_waiting l_heap l_next l_stacks]. split; [exact I1|]. split; [exact I2|]. split; [|exact I4].
        intros c0 ws x H1 H2. destruct (I3 c0 ws x H1 H2) as [HR HPx]. split; auto.
        destruct (N.eq_dec c0 c) as [-> | D].
        * rewrite hget_hset_same. eapply HS; eauto. apply has_key_In. eauto.
        * rewrite hget_hset_other by exact D. exact HR.
      + split; [exact HI|]. split; [repeat constructor | intros _; repeat constructor].
  Qed.
End Invariant.

