(* Proofs/HttpBodyForward.v -- a body rejected for its size is never forwarded: in every history, if the request
   was rejected (ResponseProtocolError REQUEST_TOO_LARGE sent to the client) then no request head, data or
   end-of-message was ever sent to the server, before or after the decision; likewise a rejected response never
   reaches the client.  No hypothesis on the options.  This file has the invariant (finv) and its preservation;
   Props/C07.v reads the three statements off finv_run. *)
From Coq Require Import List Bool NArith ZArith.
From MV Require Import Base.Bytes Model.HttpBody Proofs.HttpBodyBase Proofs.HttpBodySteps.
Import ListNotations.
Open Scope Z_scope.

Section Forward.
Variable S : Type.
Variable fq fs : S -> bytes -> S * sres.
Variable cfg : config.

Notation st := (st S).
Notation handle_event := (handle_event S fq fs cfg).
Notation run := (run S fq fs cfg).

Notation own_state := (own_state S).
Notation early := (early S).
Notation outcome := (outcome S cfg).
Notation frame := (frame S).

(* one side (r = true: the request): as long as it is early nothing of it was passed on or rejected; once it is
   rejected it is errored and nothing of it was ever passed on *)
Definition side_finv (r : bool) (s : st) (out : list cmd) : Prop :=
  (early r s -> forwarded r out = [] /\ ~ rej r out)
  /\ (rej r out -> own_state r s = Errored /\ forwarded r out = []).

(* the last two clauses are what step_sides and the frame of the request head need: before the request head
   nothing is buffered and the response side is untouched; before the response head its buffer is empty *)
Definition finv (s : st) (out : list cmd) : Prop :=
  side_finv true s out /\ side_finv false s out
  /\ (rejs out -> client_state s = Errored)
  /\ (client_state s = WaitHeaders -> request_body_buf s = [] /\ server_state s = Uninit)
  /\ (server_state s = Uninit \/ server_state s = WaitHeaders -> response_body_buf s = []).

Lemma rej_app r a b : rej r (a ++ b) <-> rej r a \/ rej r b.
Proof. destruct r; apply in_app_iff. Qed.
Lemma forwarded_app r a b : forwarded r (a ++ b) = forwarded r a ++ forwarded r b.
Proof. destruct r; apply filter_app. Qed.

Lemma early_not_errored r (s : st) : early r s -> own_state r s = Errored -> False.
Proof. intros [E|[E|E]] X; rewrite X in E; discriminate E. Qed.

Lemma side_finv_own r (s s' : st) e c out :
  outcome r s s' e c -> side_finv r s out -> side_finv r s' (out ++ c).
Proof.
  intros O (J1 & J2). unfold side_finv. rewrite forwarded_app, rej_app.
  destruct O as [E C1 RJ FW _|NR C1 FW _|E C1 NR FW _ _|NE NR C1 _ _|C0 -> ->].
  - destruct (J1 E) as (X & Y). rewrite X, FW. split; [intros E'; destruct (early_not_errored r s' E' C1)|auto].
  - split; [intros E'; destruct (early_not_errored r s' E' C1)|].
    intros [R|R]; [|contradiction]. destruct (J2 R) as (_ & X). rewrite X, FW. auto.
  - destruct (J1 E) as (X & Y). rewrite X, FW.
    split; [intros _; split; [reflexivity|intros [R|R]; contradiction]|].
    intros [R|R]; contradiction.
  - split; [intros [E'|[E'|E']]; destruct C1 as [C1|C1]; rewrite C1 in E'; discriminate E'|].
    intros [R|R]; [|contradiction]. destruct (J2 R) as (X & _). contradiction.
  - assert (X : forwarded r [] = [] /\ ~ rej r []) by (destruct r; split; auto). destruct X as (X & Y).
    rewrite X, app_nil_r. split; [|intros [R|R]; [exact (J2 R)|contradiction]].
    intros E. destruct (J1 E) as (Z & NR). split; [exact Z|intros [R|R]; contradiction].
Qed.

(* the second hypothesis: the request head finds the response side untouched *)
Lemma side_finv_other r (s s' : st) c out :
  frame r s s' c ->
  (r = true -> own_state r s = WaitHeaders -> own_state (negb r) s = Uninit) ->
  side_finv (negb r) s out -> side_finv (negb r) s' (out ++ c).
Proof.
  intros (_ & NR & FW & ST & _) W (J1 & J2). unfold side_finv. rewrite forwarded_app, rej_app.
  assert (E0 : early (negb r) s' -> early (negb r) s).
  { unfold HttpBodySteps.early. destruct ST as [->|[->|(R & C0 & ->)]]; [auto|intros [X|[X|X]]; discriminate X|].
    rewrite (W R C0). auto. }
  split.
  - intros E. destruct (J1 (E0 E)) as (X & Y). rewrite X. split; [|intros [R|R]; contradiction].
    destruct (E0 E) as [Z|[Z|Z]]; rewrite FW by (rewrite Z; discriminate); reflexivity.
  - intros [R|R]; [|contradiction]. destruct (J2 R) as (X & Y). rewrite Y, FW by (rewrite X; discriminate).
    split; [|reflexivity]. destruct ST as [->|[->|(R0 & C0 & _)]]; auto. rewrite (W R0 C0) in X. discriminate X.
Qed.

Theorem finv_step (s s' : st) e c out :
  handle_event s e = Some (s', c) -> finv s out -> finv s' (out ++ c).
Proof.
  intros H (IQ & IS & KC & CP & CR).
  destruct (step_sides S fq fs cfg s s' e c H) as (F & O).
  { intros CW. apply CP. exact CW. } { intros SW. apply CR. auto. }
  unfold finv.
  destruct (is_request_event e) eqn:RQ.
  - split; [exact (side_finv_own true _ _ _ _ _ O IQ)|].
    split; [apply (side_finv_other true _ _ _ _ F); [intros _ CW; apply CP; exact CW|exact IS]|].
    destruct F as (B & NRS & _ & ST & _). cbn in B, NRS, ST.
    split; [|split].
    + intros R. apply (rej_app false) in R. destruct R as [R|R]; [|contradiction]. pose proof (KC R) as CE.
      destruct O as [E _|_ C1|E _|NE _|_ -> _]; auto; cbn in *; try contradiction; destruct (early_not_errored true s E CE).
    + intros CW. destruct (outcome_not_waiting S cfg _ _ _ _ _ O (or_intror CW)).
    + rewrite B. intros E. apply CR. destruct ST as [X|[X|(_ & CW & _)]]; [rewrite X in E; exact E| |].
      * rewrite X in E. destruct E; discriminate.
      * destruct (CP CW) as (_ & ->). auto.
  - split; [apply (side_finv_other false _ _ _ _ F); [discriminate|exact IQ]|].
    split; [exact (side_finv_own false _ _ _ _ _ O IS)|].
    destruct F as (_ & _ & _ & ST & RE). cbn in ST, RE.
    assert (CK : client_state s' = client_state s \/ client_state s' = Errored)
      by (destruct ST as [X|[X|(X & _)]]; auto; discriminate X).
    split; [|split].
    + intros R. apply (rej_app false) in R. destruct R as [R|R]; [|exact (RE R eq_refl)].
      destruct CK as [X|X]; rewrite X; auto.
    + intros CW. assert (C0 : client_state s = WaitHeaders) by (destruct CK as [X|X]; rewrite X in CW; [exact CW|discriminate CW]).
      destruct (CP C0) as (_ & SU). unfold HttpBody.handle_event in H. rewrite RQ, SU in H. discriminate H.
    + intros E. destruct (outcome_not_waiting S cfg _ _ _ _ _ O E).
Qed.

Lemma finv_init q0 s0 : finv (init S q0 s0) [].
Proof.
  unfold finv, side_finv, HttpBodySteps.early, rejq, rejs; cbn. repeat split; auto; intros; try tauto; try discriminate.
Qed.

Theorem finv_run evs : forall (s s' : st) pre out cr,
  finv s pre -> run s evs = (s', out, cr) -> finv s' (pre ++ out).
Proof.
  induction evs as [|e r IH]; intros s s' pre out cr I R.
  - cbn in R. inversion R; subst. rewrite app_nil_r. exact I.
  - cbn in R. destruct (handle_event s e) as [[s1 c1]|] eqn:HE.
    + destruct (run s1 r) as [[s2 c2] cr2] eqn:RR. inversion R; subst.
      rewrite app_assoc. eapply IH; [|exact RR]. eapply finv_step; eauto.
    + inversion R; subst. rewrite app_nil_r. exact I.
Qed.

End Forward.
