(* Proofs/ShQuote.v -- shlex.quote against the bash word parser of Model/Sh.v:
   every list of NUL-free arguments, quoted and joined with spaces, is read back by the parser as exactly those words. *)
From Coq Require Import List Bool NArith Lia.
From MV Require Import Base.Bytes Model.Http1Msg Model.Sh Model.Export.
Import ListNotations.

(* a run inside one nesting level: it fails where the parser would open or close a substitution *)
Fixpoint lrun (sub : bool) (lv : level) (l : bytes) : option level :=
  match l with
  | [] => Some lv
  | c :: r => match level_step sub lv c with Cont lv' => lrun sub lv' r | _ => None end
  end.

Lemma lrun_app sub lv a b :
  lrun sub lv (a ++ b) = match lrun sub lv a with Some lv' => lrun sub lv' b | None => None end.
Proof.
  revert lv; induction a as [|c a IH]; intros lv; simpl; auto.
  destruct (level_step sub lv c); auto.
Qed.

Lemma run_app s a b : run s (a ++ b) = match run s a with Some s' => run s' b | None => None end.
Proof.
  revert s; induction a as [|c a IH]; intros s; simpl; auto.
  destruct (step s c); auto.
Qed.

Lemma run_outer_lrun ol l ol' : lrun false ol l = Some ol' -> run (mkSt ol None) l = Some (mkSt ol' None).
Proof.
  revert ol; induction l as [|c l IH]; intros ol H; simpl in *.
  - injection H as <-. reflexivity.
  - unfold step. cbn [inner outer]. destruct (level_step false ol c); try discriminate. apply IH, H.
Qed.

Lemma run_inner_lrun ol il l il' :
  lrun true il l = Some il' -> run (mkSt ol (Some il)) l = Some (mkSt ol (Some il')).
Proof.
  revert il; induction l as [|c l IH]; intros il H; simpl in *.
  - injection H as <-. reflexivity.
  - unfold step. cbn [inner outer]. destruct (level_step true il c); try discriminate. apply IH, H.
Qed.

Definition nonul (s : bytes) : Prop := forallb (fun c => negb (byte_eqb c NUL)) s = true.

(* shlex's safe bytes are literal for the shell, and a literal byte is none of the bytes the parser acts on;
   one pass over the bytes for both *)
Lemma plain_bytes c :
  (is_safe c = true -> sh_plain c = true)
  /\ (sh_plain c = true ->
      byte_eqb c NUL = false /\ is_blank c = false /\ byte_eqb c SQUOTE = false /\ byte_eqb c DQUOTE = false
      /\ byte_eqb c BSLASH = false /\ byte_eqb c RPAREN = false /\ byte_eqb c LESS = false).
Proof.
  assert (H : forall c, implb (is_safe c) (sh_plain c) && implb (sh_plain c)
     (negb (byte_eqb c NUL) && negb (is_blank c) && negb (byte_eqb c SQUOTE) && negb (byte_eqb c DQUOTE)
      && negb (byte_eqb c BSLASH) && negb (byte_eqb c RPAREN) && negb (byte_eqb c LESS)) = true)
    by (apply forall_bytes; vm_compute; reflexivity).
  specialize (H c). apply andb_true_iff in H as [S P]. split; intros E.
  - rewrite E in S. exact S.
  - rewrite E in P. cbn [implb] in P.
    repeat (apply andb_true_iff in P as [P ?]). repeat split; apply negb_true_iff; assumption.
Qed.
Lemma safe_plain c : is_safe c = true -> sh_plain c = true.
Proof. apply plain_bytes. Qed.

Lemma plain_step sub W cu H P c : sh_plain c = true ->
  level_step sub (mkLv U W cu H P) c = Cont (addc (mkLv U W cu H P) c).
Proof.
  intros E. destruct (proj2 (plain_bytes c) E) as (A1 & A2 & A3 & A4 & A5 & A6 & A7).
  unfold level_step. cbn [lx]. rewrite A1, A2, A3, A4, A5, A6, A7, E. reflexivity.
Qed.

(* the word in progress after more literal bytes *)
Definition cur_app (cu : option bytes) (w : bytes) : option bytes :=
  Some (match cu with Some x => x | None => [] end ++ w).

Lemma lrun_plain sub W cu H P w : forallb sh_plain w = true -> w <> [] ->
  lrun sub (mkLv U W cu H P) w = Some (mkLv U W (cur_app cu w) H P).
Proof.
  revert cu; induction w as [|c w IH]; intros cu F NE; [contradiction|].
  simpl in F. apply andb_true_iff in F as [Fc Fw].
  cbn [lrun]. rewrite plain_step by exact Fc. unfold addc, addbytes, cur_or_nil. cbn [lx ws cur here hpend].
  destruct w as [|d w].
  - reflexivity.
  - rewrite IH by (auto; discriminate). unfold cur_app. rewrite <- app_assoc. reflexivity.
Qed.

Lemma sq_step sub W w H P c : byte_eqb c NUL = false -> byte_eqb c SQUOTE = false ->
  level_step sub (mkLv SQ W (Some w) H P) c = Cont (mkLv SQ W (Some (w ++ [c])) H P).
Proof. intros A B. unfold level_step. cbn [lx]. rewrite A, B. reflexivity. Qed.

(* quote dquote quote dquote quote: leave the single quotes, a double-quoted single quote, and enter them again *)
Lemma lrun_sq_esc sub W w H P :
  lrun sub (mkLv SQ W (Some w) H P) SQ_ESC = Some (mkLv SQ W (Some (w ++ [x27])) H P).
Proof.
  (* the five steps compute to this term: opening a quote appends the empty string *)
  transitivity (Some (mkLv SQ W (Some (((w ++ []) ++ [x27]) ++ [])) H P)); [reflexivity|].
  rewrite !app_nil_r. reflexivity.
Qed.

Lemma lrun_sq_escape sub W w H P s : nonul s ->
  lrun sub (mkLv SQ W (Some w) H P) (sq_escape s ++ [SQUOTE]) = Some (mkLv U W (Some (w ++ s)) H P).
Proof.
  unfold nonul. revert w; induction s as [|c s IH]; intros w N.
  - simpl. rewrite app_nil_r. reflexivity.
  - simpl in N. apply andb_true_iff in N as [Nc Ns]. apply negb_true_iff in Nc.
    cbn [sq_escape]. rewrite <- app_assoc, lrun_app.
    destruct (byte_eqb c x27) eqn:Q.
    + apply byte_eqb_eq in Q. subst c. rewrite lrun_sq_esc, IH, <- app_assoc by exact Ns. reflexivity.
    + cbn [lrun]. rewrite sq_step, IH, <- app_assoc by assumption. reflexivity.
Qed.

Lemma open_sq sub W H P : level_step sub (mkLv U W None H P) x27 = Cont (mkLv SQ W (Some []) H P).
Proof. reflexivity. Qed.

Lemma lrun_quote sub W H P w : nonul w ->
  lrun sub (mkLv U W None H P) (quote w) = Some (mkLv U W (Some w) H P).
Proof.
  intros N. unfold quote. destruct w as [|c w].
  - reflexivity.
  - destruct (forallb is_safe (c :: w)) eqn:S.
    + rewrite lrun_plain; [reflexivity| |discriminate].
      rewrite forallb_forall in S. apply forallb_forall. intros x Hx. apply safe_plain, S, Hx.
    + change ([x27] ++ sq_escape (c :: w) ++ [x27]) with (x27 :: (sq_escape (c :: w) ++ [SQUOTE])).
      cbn [lrun]. rewrite open_sq.
      exact (lrun_sq_escape sub W [] H P (c :: w) N).
Qed.

Lemma blank_step sub W w H c : is_blank c = true ->
  level_step sub (mkLv U W (Some w) H false) c = Cont (mkLv U (W ++ [w]) None H false).
Proof.
  intros B. unfold level_step. cbn [lx].
  assert (Z : byte_eqb c NUL = false).
  { unfold is_blank in B. destruct (byte_eqb c NUL) eqn:E; auto. apply byte_eqb_eq in E. subst c. discriminate. }
  rewrite Z, B. reflexivity.
Qed.

(* the state reached after a joined argument list, with the last word still open *)
Definition after_args (W : list bytes) (H : option bytes) (args : list bytes) : level :=
  mkLv U (W ++ removelast args) (Some (last args [])) H false.

Lemma lrun_join sub H args : args <> [] -> Forall nonul args -> forall W,
  lrun sub (mkLv U W None H false) (join_sp (map quote args)) = Some (after_args W H args).
Proof.
  intros NE F. induction F as [|a args Na F IH]; intros W; [contradiction|]. unfold after_args.
  destruct args as [|b args].
  - cbn [map join_sp]. rewrite app_nil_r, lrun_quote by assumption. simpl. rewrite app_nil_r. reflexivity.
  - change (join_sp (map quote (a :: b :: args))) with (quote a ++ x20 :: join_sp (map quote (b :: args))).
    rewrite lrun_app, lrun_quote by assumption. cbn [lrun]. rewrite blank_step, IH by (reflexivity || discriminate).
    unfold after_args. change (removelast (a :: b :: args)) with (a :: removelast (b :: args)).
    rewrite <- app_assoc. reflexivity.
Qed.

Lemma endword_after_args W H args : args <> [] ->
  endword (after_args W H args) = mkLv U (W ++ args) None H false.
Proof.
  intros NE. unfold after_args, endword. cbn [cur hpend lx ws here].
  rewrite <- app_assoc, <- app_removelast_last by exact NE. reflexivity.
Qed.

Theorem quote_join_roundtrip : forall args,
  args <> [] -> Forall nonul args -> cmd_name_ok (hd [] args) = true ->
  sh_eval (join_sp (map quote args)) = ShRun args None.
Proof.
  intros args NE F OK. unfold sh_eval, st0, lv0.
  rewrite (run_outer_lrun _ _ _ (lrun_join false None args NE F [])).
  unfold finish. cbn [inner outer lx]. rewrite endword_after_args by exact NE. cbn [hpend ws here app].
  destruct args as [|a args]; [contradiction|]. cbn [hd] in OK. rewrite OK. reflexivity.
Qed.
