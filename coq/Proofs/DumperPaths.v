(* Proofs/DumperPaths.v -- the echo-path table translated from dumper.py (Gen/DumperPaths.v):
   meaning of a path expression, soundness of the [sanitized] check, and the facts about the
   generated table (every path sanitized; the call sites are exactly the ones Model.Dumper
   covers; the translation table of strutils is the one the model uses). *)
From Coq Require Import List Bool NArith Lia ZifyBool String.
From MV Require Import Base.Bytes Model.Strutils Model.Dumper Proofs.Radix Proofs.DumperBase Gen.DumperPaths.
Import ListNotations.
Local Open Scope N_scope.

(* [den e t]: t is a token text that the expression e can evaluate to, for some values of the
   flow fields (Raw: any text at all; Num: any harmless text), some branch choices, some number
   of loop iterations, styling on or off; Sub e: any selection of tokens of such a text. *)
Inductive den : sexp -> ttext -> Prop :=
| D_empty : den Empty []
| D_lit s : den (Lit s) (plain s)
| D_num n t : ok_text t = true -> den (Num n) (plain t)
| D_raw n t : den (Raw n) (plain t)
| D_escb n b : den (EscB n) (b2e b)
| D_esc e t : den e t -> den (Esc e) (esc (flatten t))
| D_sty e t s v : den e t -> den (Sty e) (style_ v t s)
| D_ind e t n : den e t -> den (Ind e) (indent n t)
| D_sub e t t' : den e t -> incl t' t -> den (Sub e) t'
| D_cat a b ta tb : den a ta -> den b tb -> den (Cat a b) (ta ++ tb)
| D_alt_l a b t : den a t -> den (Alt a b) t
| D_alt_r a b t : den b t -> den (Alt a b) t
| D_rep_nil sep e : den (Rep sep e) []
| D_rep_one sep e t : den e t -> den (Rep sep e) t
| D_rep_cons sep e t r : den e t -> den (Rep sep e) r -> den (Rep sep e) (t ++ plain sep ++ r).

Lemma OK_weaken v t : OK v t -> OK true t.
Proof.
  rewrite !OK_In. intros H k Hk. specialize (H k Hk). destruct k as [c|s]; [exact H|].
  cbn [ok_tok] in *. apply andb_true_iff in H as [_ H]. exact H.
Qed.

Theorem sanitized_sound e t : den e t -> sanitized e = true -> OK true t.
Proof.
  induction 1; cbn [sanitized]; intro Hs.
  - apply OK_nil.
  - apply OK_plain. exact Hs.
  - apply OK_plain. assumption.
  - discriminate.
  - apply OK_b2e.
  - apply OK_esc.
  - apply OK_style_any. apply IHden, Hs.
  - apply OK_indent. apply IHden, Hs.
  - eapply OK_incl; [eassumption | apply IHden, Hs].
  - apply andb_true_iff in Hs as [Ha Hb]. apply OK_app_intro; [apply IHden1, Ha | apply IHden2, Hb].
  - apply andb_true_iff in Hs as [Ha _]. apply IHden, Ha.
  - apply andb_true_iff in Hs as [_ Hb]. apply IHden, Hb.
  - apply OK_nil.
  - apply andb_true_iff in Hs as [_ He]. apply IHden, He.
  - pose proof Hs as Hs'. apply andb_true_iff in Hs' as [Hsep He].
    apply OK_app_intro; [apply IHden1, He|]. apply OK_app_intro; [apply OK_plain, Hsep | apply IHden2, Hs].
Qed.

(* the check is not vacuous: an unsanitized field does reach the terminal *)
Lemma raw_unsound : exists t, den (Raw "x") t /\ ~ OK true t.
Proof. exists (plain [27]). split; [constructor | vm_compute; discriminate]. Qed.

Lemma paths_sanitized_all : forall name e, In (name, e) paths -> sanitized e = true.
Proof.
  assert (Hp : forallb (fun p => sanitized (snd p)) paths = true) by (vm_compute; reflexivity).
  rewrite forallb_forall in Hp. intros name e H. apply (Hp _ H).
Qed.

Lemma sites_covered : map fst paths = sites.
Proof. vm_compute. reflexivity. Qed.

Lemma in_table_small tbl c : forallb (fun x => x <? 160) tbl = true -> 160 <= c -> in_table tbl c = false.
Proof.
  intros H Hc. unfold in_table. apply not_true_is_false. intro E. apply existsb_exists in E as [x [Hx Hxc]].
  apply N.eqb_eq in Hxc. subst x. rewrite forallb_forall in H. apply H in Hx. apply N.ltb_lt in Hx. lia.
Qed.

Lemma is_cc_large c : 160 <= c -> is_cc c = false.
Proof. unfold is_cc. lia. Qed.

(* a table of code points below 160 against a predicate that is false from 160 on: compare below 160 *)
Lemma table_sweep tbl (Q : N -> bool) :
  forallb (fun x => x <? 160) tbl = true -> (forall c, 160 <= c -> Q c = false) ->
  forallb (fun c => Bool.eqb (in_table tbl c) (Q c)) (map N.of_nat (seq 0 160)) = true ->
  forall c, in_table tbl c = Q c.
Proof.
  intros Ht HQ Hs c. destruct (N.ltb_spec c 160) as [H|H].
  - apply eqb_prop. exact (forall_below (fun c => Bool.eqb (in_table tbl c) (Q c)) 160 Hs c H).
  - rewrite HQ by exact H. apply in_table_small; assumption.
Qed.

(* the translation tables built by strutils.py are the ones escape_control_characters uses *)
Lemma table_agrees c : in_table cc_table c = is_cc c.
Proof. revert c. apply table_sweep; [reflexivity | exact is_cc_large | vm_compute; reflexivity]. Qed.

Lemma table_spacing_agrees c : in_table cc_table_spacing c = is_cc c && negb (is_spacing c).
Proof.
  revert c. apply (table_sweep _ (fun c => is_cc c && negb (is_spacing c))); [reflexivity | | vm_compute; reflexivity].
  intros c H. rewrite (is_cc_large c H). reflexivity.
Qed.

Lemma escape_is_translate t ks :
  escape_control_characters t ks = translate_with (if ks then cc_table_spacing else cc_table) t.
Proof.
  unfold escape_control_characters, translate_with. apply map_ext. intro c. destruct ks.
  - rewrite table_spacing_agrees. reflexivity.
  - rewrite table_agrees. cbn [andb negb]. rewrite andb_true_r. reflexivity.
Qed.
