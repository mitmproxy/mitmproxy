(* Proofs/HttpBodyLimit.v -- body_size_limit: a body known to exceed the limit is rejected, with the exact commands
   (early case: the announced size; late case: the buffered bytes; both directions). *)
From Coq Require Import List Bool NArith ZArith Lia.
From MV Require Import Base.Bytes Model.HttpBody Proofs.HttpBodyBase.
Import ListNotations.
Open Scope Z_scope.

Section Limit.
Variable S : Type.
Variable fq fs : S -> bytes -> S * sres.
Variable cfg : config.
Variable L : Z.
Hypothesis HL : parse_size (o_limit cfg) = PVal L.

Notation st := (st S).
Notation handle_event := (handle_event S fq fs cfg).
Notation check_body_size := (check_body_size S fq fs cfg).
Notation abort_body := (abort_body S cfg).

Lemma limit_truthy : opt_truthy (o_limit cfg) = true.
Proof. eapply parse_size_val_truthy; eauto. Qed.

Lemma check_body_size_abort request (s : st) e :
  expected S request s = Some e -> 0 < e -> L < e ->
  check_body_size request s = Some (true, fst (abort_body request s), snd (abort_body request s)).
Proof.
  intros He Hpos Hlt. unfold HttpBody.check_body_size. fold (expected S request s).
  rewrite limit_truthy, orb_true_r. cbn [negb]. rewrite He.
  replace (e <=? 0) with false by (symmetry; apply Z.leb_gt; lia).
  rewrite HL. replace (L <? e) with true by (symmetry; apply Z.ltb_lt; lia).
  destruct (abort_body request s); reflexivity.
Qed.

Theorem early_reject_request (s : st) n e100 :
  client_state s = WaitHeaders -> request_body_buf s = [] -> 0 < n -> L < n ->
  exists s', handle_event s (ReqHeaders (FLen n) e100)
             = Some (s', [CHook HRequestHeaders; CHook HError; CSend Client (MErr ReqTooLarge)])
    /\ client_state s' = Errored /\ flow_error s' = true /\ flow_live s' = false
    /\ request_body_buf s' = [].
Proof.
  intros Hc Hb Hn Hlt. unfold HttpBody.handle_event. cbn [is_request_event]. rewrite Hc.
  unfold state_wait_for_request_headers.
  assert (E : end_stream_of (FLen n) = false) by (unfold end_stream_of; simpl; destruct n; auto; lia).
  rewrite E.
  rewrite (check_body_size_abort true _ n); unfold expected; cbn; try rewrite Hb; cbn; auto.
  unfold HttpBody.abort_body, hook_requestheaders. cbn. rewrite Hb. cbn.
  destruct (p_req cfg); cbn; eexists; (split; [reflexivity|]); cbn; repeat split; auto.
Qed.

Theorem late_reject_request (s : st) d :
  client_state s = Consume -> 0 <= L -> L < blen (request_body_buf s ++ d) ->
  exists s', handle_event s (ReqData d) = Some (s', [CHook HError; CSend Client (MErr ReqTooLarge)])
    /\ client_state s' = Errored /\ flow_error s' = true /\ flow_live s' = false
    /\ request_body_buf s' = request_body_buf s ++ d.
Proof.
  intros Hc HL0 Hlt. unfold HttpBody.handle_event. cbn [is_request_event]. rewrite Hc.
  unfold state_consume_request_body.
  assert (NE : nonempty (request_body_buf s ++ d) = true) by (apply blen_pos_nonempty; lia).
  rewrite (check_body_size_abort true _ (blen (request_body_buf s ++ d))); unfold expected; cbn; try rewrite NE; cbn; auto; try lia.
  unfold HttpBody.abort_body. cbn. rewrite NE. cbn. eexists; (split; [reflexivity|]); cbn; repeat split; auto.
Qed.

Theorem early_reject_response (s : st) n :
  server_state s = WaitHeaders -> response_body_buf s = [] -> 0 < n -> L < n ->
  exists s', handle_event s (RespHeaders (FLen n))
             = Some (s', [CHook HResponseHeaders; CHook HError; CSend Client (MErr RespTooLarge);
                          CSend Server (MErr RespTooLarge)])
    /\ client_state s' = Errored /\ server_state s' = Errored
    /\ flow_error s' = true /\ flow_live s' = false.
Proof.
  intros Hc Hb Hn Hlt. unfold HttpBody.handle_event. cbn [is_request_event]. rewrite Hc.
  unfold state_wait_for_response_headers.
  assert (E : end_stream_of (FLen n) = false) by (unfold end_stream_of; simpl; destruct n; auto; lia).
  rewrite E.
  rewrite (check_body_size_abort false _ n); unfold expected; cbn; try rewrite Hb; cbn; auto.
  unfold HttpBody.abort_body, hook_responseheaders. cbn. rewrite Hb. cbn.
  destruct (p_resp cfg); cbn; eexists; (split; [reflexivity|]); cbn; repeat split; auto.
Qed.

Theorem late_reject_response (s : st) d :
  server_state s = Consume -> 0 <= L -> L < blen (response_body_buf s ++ d) ->
  exists s', handle_event s (RespData d)
             = Some (s', [CHook HError; CSend Client (MErr RespTooLarge); CSend Server (MErr RespTooLarge)])
    /\ client_state s' = Errored /\ server_state s' = Errored
    /\ flow_error s' = true /\ flow_live s' = false
    /\ response_body_buf s' = response_body_buf s ++ d.
Proof.
  intros Hc HL0 Hlt. unfold HttpBody.handle_event. cbn [is_request_event]. rewrite Hc.
  unfold state_consume_response_body.
  assert (NE : nonempty (response_body_buf s ++ d) = true) by (apply blen_pos_nonempty; lia).
  rewrite (check_body_size_abort false _ (blen (response_body_buf s ++ d))); unfold expected; cbn; try rewrite NE; cbn; auto; try lia.
  unfold HttpBody.abort_body. cbn. rewrite NE. cbn. eexists; (split; [reflexivity|]); cbn; repeat split; auto.
Qed.

End Limit.
