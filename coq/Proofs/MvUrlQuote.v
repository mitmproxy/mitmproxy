(* Proofs/MvUrlQuote.v -- percent-encoding round trips: unquote/quote, quote_plus, urlencode/parse_qsl (C34). *)
From Coq Require Import List Bool NArith Lia.
From MV Require Import Base.Bytes Model.MvCommon Model.MvUrl Proofs.ListFacts Proofs.MvCommonLemmas.
Import ListNotations.

(* the two hex digits of every byte decode back to it and are unreserved: one sweep over the 256 bytes *)
Definition hex_ok (b : byte) : bool :=
  match hexval (hexdig (bN b / 16)), hexval (hexdig (bN b mod 16)) with
  | Some a, Some c => byte_eqb (Nb (16 * a + c)) b
  | _, _ => false
  end.
Lemma hexdig_ok b :
  hex_ok b && (unreserved (hexdig (bN b / 16)) && unreserved (hexdig (bN b mod 16))) = true.
Proof. revert b. apply forall_bytes. vm_compute. reflexivity. Qed.

Lemma unquote_quote_byte safe b r :
  memb PCT safe = false -> unquote (quote_byte safe b ++ r) = b :: unquote r.
Proof.
  intros Hs. unfold quote_byte. destruct (unreserved b || memb b safe) eqn:E.
  - simpl. destruct (byte_eqb b PCT) eqn:Eb; [|reflexivity].
    apply byte_eqb_eq in Eb. subst b. rewrite Hs in E. vm_compute in E. discriminate.
  - pose proof (hexdig_ok b) as H. apply andb_true_iff in H as [H _]. unfold hex_ok in H. cbn -[N.mul N.add hexval hexdig N.div N.modulo].
    destruct (hexval (hexdig (bN b / 16))) as [a|]; [|discriminate].
    destruct (hexval (hexdig (bN b mod 16))) as [c|]; [|discriminate].
    apply byte_eqb_eq in H. rewrite H. reflexivity.
Qed.

Lemma unquote_quote safe s : memb PCT safe = false -> unquote (quote safe s) = s.
Proof.
  intros Hs. unfold quote. induction s as [|b s IH]; [reflexivity|].
  simpl flat_map. rewrite unquote_quote_byte by exact Hs. rewrite IH. reflexivity.
Qed.

Definition qchar (safe : bytes) (c : byte) : bool := unreserved c || memb c safe || byte_eqb c PCT.

Lemma quote_chars safe s : forallb (qchar safe) (quote safe s) = true.
Proof.
  unfold quote. induction s as [|b s IH]; [reflexivity|].
  simpl flat_map. rewrite forallb_app, IH, andb_true_r.
  unfold quote_byte. destruct (unreserved b || memb b safe) eqn:E.
  - simpl. unfold qchar. rewrite E. reflexivity.
  - pose proof (hexdig_ok b) as H. apply andb_true_iff in H as [_ H]. apply andb_true_iff in H as [H1 H2].
    cbn [forallb]. unfold qchar. rewrite H1, H2, byte_eqb_refl, orb_true_r. reflexivity.
Qed.

Lemma quote_nonempty safe s : s <> [] -> quote safe s <> [].
Proof.
  destruct s as [|b s]; [congruence|]. intros _. unfold quote. simpl.
  unfold quote_byte. destruct (unreserved b || memb b safe); discriminate.
Qed.

Lemma replace_id a b s : memb a s = false -> replace_byte a b s = s.
Proof.
  induction s as [|x s IH]; intros H; [reflexivity|].
  apply memb_cons_false in H as [H1 H2]. simpl. rewrite H1. f_equal. apply IH, H2.
Qed.

Lemma replace_back a b s : memb b s = false -> replace_byte b a (replace_byte a b s) = s.
Proof.
  induction s as [|x s IH]; intros H; [reflexivity|].
  apply memb_cons_false in H as [H1 H2]. simpl. rewrite IH by exact H2. f_equal.
  destruct (byte_eqb x a) eqn:E.
  - rewrite byte_eqb_refl. apply byte_eqb_eq in E. congruence.
  - rewrite H1. reflexivity.
Qed.

Lemma quote_no_plus safe s : memb PLUS safe = false -> memb PLUS (quote safe s) = false.
Proof.
  intros Hs. apply (forallb_memb_false (qchar safe)); [apply quote_chars|].
  unfold qchar. rewrite Hs. reflexivity.
Qed.

Lemma unplus_quote_plus s : unplus (quote_plus s) = s.
Proof.
  unfold unplus, quote_plus. destruct (negb (memb SP s)).
  - rewrite replace_id by (apply quote_no_plus; reflexivity). apply unquote_quote. reflexivity.
  - rewrite replace_back by (apply quote_no_plus; reflexivity). apply unquote_quote. reflexivity.
Qed.

Definition qpchar (c : byte) : bool := unreserved c || byte_eqb c PCT || byte_eqb c PLUS.

Lemma quote_plus_chars s : forallb qpchar (quote_plus s) = true.
Proof.
  unfold quote_plus. destruct (negb (memb SP s)).
  - apply (forallb_impl (qchar [])); [|apply quote_chars].
    intros c H. unfold qchar, qpchar in *. simpl in H. rewrite orb_false_r in H. rewrite H. reflexivity.
  - unfold replace_byte. rewrite forallb_forall. intros c Hc. apply in_map_iff in Hc as [x [<- Hin]].
    pose proof (quote_chars [SP] s) as Q. rewrite forallb_forall in Q. specialize (Q _ Hin).
    destruct (byte_eqb x SP) eqn:E; [reflexivity|].
    unfold qchar, qpchar in *. simpl in Q. rewrite E, !orb_false_r in Q. rewrite Q. reflexivity.
Qed.

Lemma quote_plus_no c s : qpchar c = false -> memb c (quote_plus s) = false.
Proof. intros H. apply (forallb_memb_false qpchar); [apply quote_plus_chars|exact H]. Qed.

Definition qs_item (kv : bytes * bytes) : bytes := quote_plus (fst kv) ++ [EQS] ++ quote_plus (snd kv).

Lemma qs_item_no_amp kv : memb AMP (qs_item kv) = false.
Proof.
  unfold qs_item. rewrite !memb_app. rewrite !quote_plus_no by reflexivity. reflexivity.
Qed.

Lemma qs_item_decode kv :
  (if negb (nonempty (qs_item kv)) then []
   else match break_at EQS (qs_item kv) with
        | Some (n, v) => [(unplus n, unplus v)]
        | None => [(unplus (qs_item kv), [])]
        end) = [kv].
Proof.
  assert (Hne : nonempty (qs_item kv) = true).
  { unfold qs_item. destruct (quote_plus (fst kv)); reflexivity. }
  rewrite Hne. simpl negb. cbv iota. unfold qs_item. simpl app.
  rewrite break_at_app by (apply quote_plus_no; reflexivity).
  rewrite !unplus_quote_plus. destruct kv; reflexivity.
Qed.

Lemma urlencode_nonempty kv l : nonempty (urlencode (kv :: l)) = true.
Proof.
  unfold urlencode. simpl map. simpl join. destruct (map _ l), (quote_plus (fst kv)); reflexivity.
Qed.

Lemma parse_qsl_urlencode l : parse_qsl (urlencode l) = l.
Proof.
  destruct l as [|kv l]; [reflexivity|].
  unfold parse_qsl. rewrite urlencode_nonempty. simpl negb. cbv iota.
  unfold urlencode. change (fun kv0 : bytes * bytes => quote_plus (fst kv0) ++ [EQS] ++ quote_plus (snd kv0)) with qs_item.
  rewrite split_join.
  - induction (kv :: l) as [|x t IH]; [reflexivity|].
    simpl map. simpl flat_map. rewrite qs_item_decode. rewrite IH. reflexivity.
  - discriminate.
  - intros i Hi. apply in_map_iff in Hi as [x [<- _]]. apply qs_item_no_amp.
Qed.

(* the bytes urlencode can produce *)
Definition encchar (c : byte) : bool := qpchar c || byte_eqb c EQS || byte_eqb c AMP.

Lemma urlencode_chars l : forallb encchar (urlencode l) = true.
Proof.
  assert (W : forall s, forallb encchar (quote_plus s) = true).
  { intros s. apply (forallb_impl qpchar); [|apply quote_plus_chars].
    intros c H. unfold encchar. rewrite H. reflexivity. }
  unfold urlencode. apply forallb_join; [reflexivity|].
  intros i Hi. apply in_map_iff in Hi as [kv [<- _]]. rewrite !forallb_app, !W. reflexivity.
Qed.

(* with similar_to: nothing is removed when the old text is empty or every old field has an equals sign *)
Definition plain_mode (similar_to : option bytes) : bool :=
  match similar_to with
  | Some st => negb (nonempty st && existsb (fun param => negb (memb EQS param)) (split_char AMP st))
  | None => true
  end.

Lemma url_encode_plain l sim : plain_mode sim = true -> url_encode l sim = urlencode l.
Proof.
  intros H. unfold url_encode. destruct sim as [st|]; [|rewrite andb_false_r; reflexivity].
  simpl in H. apply negb_true_iff in H. rewrite H, andb_false_r. reflexivity.
Qed.

Lemma url_decode_encode_plain l sim : plain_mode sim = true -> url_decode (url_encode l sim) = l.
Proof. intros H. rewrite (url_encode_plain l sim H). apply parse_qsl_urlencode. Qed.
