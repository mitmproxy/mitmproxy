(* Proofs/SaveSpec.v -- C39: the vocabulary the theorems are stated in (defined on the event
   history alone, independent of the generated hook table) and the two symbolic-execution
   lemmas: what one hook / one option change does to a regular state. *)
From Coq Require Import List Bool NArith.
From MV Require Import Model.SavePrelude Gen.SaveHooks Model.Save.
Import ListNotations.
Open Scope N_scope.

(* hooks at which a flow starts / completes (ws: flow.websocket is set) *)
Definition is_start (h : hook) : bool :=
  match h with HRequest | HTcpStart | HUdpStart | HDnsRequest => true | _ => false end.
Definition is_completion (h : hook) (ws : bool) : bool :=
  match h with
  | HResponse | HError => negb ws
  | HWebsocketEnd | HTcpEnd | HTcpError | HUdpEnd | HUdpError | HDnsResponse | HDnsError => true
  | _ => false
  end.

(* an option change is rejected (OptionsError, options rolled back) iff the filter does not parse
   or the file cannot be opened *)
Definition file_bad (uf : option (option (bool * N))) : bool :=
  match uf with Some (Some (_, p)) => p =? bad_path | _ => false end.
Definition filter_bad (ufl : option (option fspec)) : bool :=
  match ufl with Some (Some FSInvalid) => true | _ => false end.
Definition accepted uf ufl : bool := negb (file_bad uf) && negb (filter_bad ufl).
Definition flt_of (v : option fspec) : option flt :=
  match v with Some (FSOk f) => Some f | _ => None end.

(* value of save_stream_file / the filter in force after a history *)
Definition upd_file (cur : option (bool * N)) (e : event) : option (bool * N) :=
  match e with
  | Configure (Some v) ufl => if accepted (Some v) ufl then v else cur
  | _ => cur
  end.
Definition file_after (pre : list event) := fold_left upd_file pre None.
Definition saving_after (pre : list event) : option N := option_map snd (file_after pre).
Definition upd_filter (cur : option flt) (e : event) : option flt :=
  match e with
  | Configure uf (Some v) => if accepted uf (Some v) then flt_of v else cur
  | _ => cur
  end.
Definition filter_after (pre : list event) := fold_left upd_filter pre None.

(* the flow as a filter sees it after a history: response / error set by an earlier hook *)
Definition has_resp (pre : list event) (i : N) : bool :=
  existsb (fun e => match e with Hook h j => sets_resp h && (j =? i) | _ => false end) pre.
Definition has_err (pre : list event) (i : N) : bool :=
  existsb (fun e => match e with Hook h j => sets_err h && (j =? i) | _ => false end) pre.
Definition snap_after (infos : list finfo) (pre : list event) (i : N) : snap :=
  {| s_kind := f_kind (info infos i); s_ws := f_ws (info infos i); s_marked := f_marked (info infos i);
     s_resp := has_resp pre i; s_err := has_err pre i |}.
Definition passes (fl : option flt) (x : snap) : bool :=
  match fl with Some f => matches f x | None => true end.

(* saving stops: shutdown, or save_stream_file unset by an accepted option change *)
Definition stops (e : event) : bool :=
  match e with
  | Done => true
  | Configure (Some None) ufl => negb (filter_bad ufl)
  | _ => false
  end.
Definition closes (infos : list finfo) (i : N) (e : event) : bool :=
  stops e || match e with
             | Hook h j => (j =? i) && is_completion h (f_ws (info infos i))
             | _ => false
             end.
(* flow i started while saving was active and has neither completed nor been flushed since *)
Definition open_after (infos : list finfo) (pre : list event) (i : N) : Prop :=
  exists a h b, pre = a ++ Hook h i :: b /\ is_start h = true /\ saving_after a <> None
                /\ Forall (fun e => closes infos i e = false) b.

Definition no_done (pre : list event) : Prop := Forall (fun e => e <> Done) pre.
(* the complement of the finding: no attempt to switch to a file that cannot be opened
   (or a maybe_rotate_to_new_file that opens the new file first, as the source does) *)
Definition no_bad_switch (e : event) : Prop :=
  match e with Configure uf _ => file_bad uf = false | _ => True end.
Definition switch_safe (evs : list event) : Prop :=
  rotate_open_first = true \/ Forall no_bad_switch evs.

(* the regular state (Proofs/SaveInv.v) with these option values, active set, response and error sets *)
Definition regular (of : option (bool * N)) (fl : option flt) (act rs er : list N) : st :=
  {| stream := option_map (fun ap : bool * N => {| wr_path := snd ap; wr_flt := fl |}) of;
     filt := fl; active := act; current_path := option_map snd of;
     opt_file := of; opt_filter := option_map FSOk fl; resp := rs; err := er |}.

(* snap_of on a state whose response / error sets are rs, er *)
Definition snap_env (infos : list finfo) (rs er : list N) (i : N) : snap :=
  {| s_kind := f_kind (info infos i); s_ws := f_ws (info infos i); s_marked := f_marked (info infos i);
     s_resp := memN i rs; s_err := memN i er |}.
(* FilteredFlowWriter.add with the environment spelled out *)
Definition wadd (infos : list finfo) (rs er : list N) (fl : option flt) (p i : N) : list fop :=
  match fl with
  | Some f => if matches f (snap_env infos rs er i) then [WWrite p i] else []
  | None => [WWrite p i]
  end.
Definition flush (infos : list finfo) (of : option (bool * N)) (fl : option flt) (act rs er : list N) : list fop :=
  match of with
  | Some (_, p0) => flat_map (wadd infos rs er fl p0) (sortN act)
  | None => []
  end.
Definition cfg_ops (infos : list finfo) (of : option (bool * N)) (fl : option flt) (act rs er : list N)
           (of' : option (bool * N)) : list fop :=
  match of' with
  | None => flush infos of fl act rs er
  | Some (a, p) => if optN_eqb (option_map snd of) (Some p) then [] else [WOpen p a]
  end.

Lemma wadd_passes : forall infos rs er fl p i,
  wadd infos rs er fl p i = if passes fl (snap_env infos rs er i) then [WWrite p i] else [].
Proof. intros. destruct fl; reflexivity. Qed.

Local Arguments N.eqb : simpl never.
(* kept folded so that the lemmas below are proved for either generated order of maybe_rotate *)
Local Opaque bad_path rotate_open_first.

Lemma save_flow_regular : forall infos of fl act rs er i,
  save_flow infos (regular of fl act rs er) i =
  match of with
  | Some (_, p) => (regular of fl (removeN i act) rs er, wadd infos rs er fl p i)
  | None => (regular of fl act rs er, [])
  end.
Proof.
  intros. destruct of as [[a p]|]; [|reflexivity].
  unfold save_flow, maybe_rotate, regular. cbn. rewrite N.eqb_refl. reflexivity.
Qed.

Lemma step_hook_regular : forall infos of fl act rs er h i,
  step infos (regular of fl act rs er) (Hook h i) =
  let rs' := if sets_resp h then addN i rs else rs in
  let er' := if sets_err h then addN i er else er in
  (regular of fl
     (match of with
      | Some _ => if is_start h then addN i act
                  else if is_completion h (f_ws (info infos i)) then removeN i act else act
      | None => act
      end) rs' er',
   match of with
   | Some (_, p) => if is_completion h (f_ws (info infos i)) then wadd infos rs' er' fl p i else []
   | None => []
   end,
   (false, false)).
Proof.
  intros infos of fl act rs er h i. unfold step, env_pre.
  change (set_env (regular of fl act rs er) ?r ?e) with (regular of fl act r e).
  destruct h; cbn [hook_table run_hook forallb cond_holds do_prim]; rewrite ?save_flow_regular;
    destruct of as [[a p]|]; destruct (f_ws (info infos i)); cbn; rewrite ?app_nil_r; reflexivity.
Qed.

Lemma step_done_regular : forall infos of fl act rs er,
  snd (fst (step infos (regular of fl act rs er) Done)) = flush infos of fl act rs er.
Proof.
  intros. destruct of as [[a p]|]; unfold step, done, regular; cbn; rewrite ?app_nil_r; reflexivity.
Qed.

(* Save.configure validates the filter option before it looks at the file option *)
Lemma configure_raw_filter : forall infos s updf,
  configure_raw infos s updf true =
  match opt_filter s with
  | Some FSInvalid => (s, [], COptErr)
  | Some (FSOk f) => configure_raw infos (set_filt s (Some f)) true false
  | None => configure_raw infos (set_filt s None) true false
  end.
Proof. intros. unfold configure_raw. rewrite orb_true_r. destruct (opt_filter s) as [[|f]|]; reflexivity. Qed.

(* the file option nf on a regular state whose filter has just become fl' (the open writer still
   carries fl): rejected iff nf cannot be opened, and then nothing has changed *)
Lemma configure_file_regular : forall infos of fl fl' act rs er nf nfl,
  (of = None -> act = []) ->
  (forall a p, of = Some (a, p) -> p =? bad_path = false) ->
  (rotate_open_first = true \/ file_bad (Some nf) = false) ->
  configure_raw infos (set_filt (set_opts (regular of fl act rs er) nf nfl) fl') true false =
  if file_bad (Some nf) then (set_filt (set_opts (regular of fl act rs er) nf nfl) fl', [], COptErr)
  else (set_opts (regular nf fl' (match nf with None => [] | Some _ => act end) rs er) nf nfl,
        cfg_ops infos of fl act rs er nf, COk).
Proof.
  intros infos of fl fl' act rs er nf nfl Hact Hok Hg.
  (* cases: saving before or not; nf unset (done), the path in use (nothing reopened), or another
     path, openable or not, under either order of maybe_rotate; Hg excludes bad path + close first *)
  destruct of as [[a0 p0]|]; [pose proof (Hok _ _ eq_refl) as Hp0 | rewrite (Hact eq_refl)];
    destruct nf as [[a p]|];
    unfold configure_raw, maybe_rotate, done, regular, cfg_ops, flush, file_bad; cbn;
    rewrite ?app_nil_r; try reflexivity;
    try (destruct (p0 =? p) eqn:Ep; cbn; [apply N.eqb_eq in Ep; subst p0; rewrite Hp0; reflexivity|]);
    destruct (p =? bad_path) eqn:Eb; destruct rotate_open_first eqn:Er; cbn; try reflexivity;
    destruct Hg as [Hg|Hg]; cbn in Hg; congruence.
Qed.

(* the rollback: configure on the old options puts the old filter back and touches nothing else *)
Lemma configure_raw_restored : forall infos of fl fl' act rs er updf updfl,
  (updfl = false -> fl' = fl) ->
  configure_raw infos (set_filt (regular of fl act rs er) fl') updf updfl = (regular of fl act rs er, [], COk).
Proof.
  intros infos of fl fl' act rs er updf updfl H.
  destruct updfl; [|rewrite (H eq_refl)]; destruct fl; destruct of as [[a p]|]; destruct updf;
    unfold configure_raw, maybe_rotate, done, regular; cbn; rewrite ?N.eqb_refl; reflexivity.
Qed.

Lemma do_configure_regular : forall infos of fl act rs er uf ufl,
  (of = None -> act = []) ->
  (forall a p, of = Some (a, p) -> p =? bad_path = false) ->
  (rotate_open_first = true \/ file_bad uf = false) ->
  do_configure infos (regular of fl act rs er) uf ufl =
  if accepted uf ufl then
    let of' := match uf with Some v => v | None => of end in
    let fl' := match ufl with Some v => flt_of v | None => fl end in
    (regular of' fl' (match of' with None => [] | Some _ => act end) rs er,
     cfg_ops infos of fl act rs er of', (false, false))
  else (regular of fl act rs er, [], (true, false)).
Proof.
  intros infos of fl act rs er uf ufl Hact Hok Hg.
  set (nf := match uf with Some v => v | None => of end).
  assert (Hnf : rotate_open_first = true \/ file_bad (Some nf) = false).
  { destruct uf as [v|]; [exact Hg|]. right. destruct of as [[a p]|]; [exact (Hok _ _ eq_refl) | reflexivity]. }
  assert (Hbad : file_bad (Some nf) = file_bad uf).
  { destruct uf as [v|]; [reflexivity|]. destruct of as [[a p]|]; [exact (Hok _ _ eq_refl) | reflexivity]. }
  (* the first call of configure: fl' is the filter it has installed when it fails *)
  assert (E : exists fl', (ufl = None -> fl' = fl) /\
    configure_raw infos (set_opts (regular of fl act rs er) nf
                           (match ufl with Some v => v | None => option_map FSOk fl end))
                  (is_some uf) (is_some ufl) =
    if accepted uf ufl
    then (regular nf (match ufl with Some v => flt_of v | None => fl end)
                   (match nf with None => [] | Some _ => act end) rs er,
          cfg_ops infos of fl act rs er nf, COk)
    else (set_filt (set_opts (regular of fl act rs er) nf
                      (match ufl with Some v => v | None => option_map FSOk fl end)) fl', [], COptErr)).
  { unfold accepted. rewrite <- Hbad.
    destruct ufl as [[[|f]|]|]; cbn [filter_bad negb is_some]; rewrite ?andb_true_r, ?andb_false_r.
    - exists fl. split; [discriminate|]. now rewrite configure_raw_filter.
    - exists (Some f). split; [discriminate|]. rewrite configure_raw_filter. cbn [opt_filter set_opts].
      rewrite (configure_file_regular infos of fl (Some f) act rs er nf _ Hact Hok Hnf).
      destruct (file_bad (Some nf)); reflexivity.
    - exists None. split; [discriminate|]. rewrite configure_raw_filter. cbn [opt_filter set_opts].
      rewrite (configure_file_regular infos of fl None act rs er nf _ Hact Hok Hnf).
      destruct (file_bad (Some nf)); reflexivity.
    - exists fl. split; [reflexivity|]. destruct uf as [v|]; cbn [is_some].
      + change (configure_raw infos _ true false) with
          (configure_raw infos (set_filt (set_opts (regular of fl act rs er) nf (option_map FSOk fl)) fl) true false).
        rewrite (configure_file_regular infos of fl fl act rs er nf _ Hact Hok Hnf).
        destruct (file_bad (Some nf)); destruct fl; reflexivity.
      + subst nf. destruct of as [[a p]|]; [|rewrite (Hact eq_refl)]; destruct fl;
          unfold cfg_ops, flush, file_bad; cbn; rewrite ?(Hok _ _ eq_refl), ?N.eqb_refl; reflexivity. }
  destruct E as (fl' & Hfl & E). unfold do_configure. cbn [opt_file opt_filter regular]. fold nf.
  fold (regular of fl act rs er). rewrite E. destruct (accepted uf ufl); cbn [is_opterr is_assert]; [reflexivity|].
  change (set_opts _ of (option_map FSOk fl)) with (set_filt (regular of fl act rs er) fl').
  rewrite configure_raw_restored; [reflexivity|]. destruct ufl; [discriminate | auto].
Qed.
