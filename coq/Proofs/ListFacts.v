(* Proofs/ListFacts.v -- facts about the lists and binary naturals of the standard library that several
   properties need. *)
From Coq Require Import List Bool Arith NArith Lia.
Import ListNotations.

Lemma firstn_exact {A} (a b : list A) : firstn (length a) (a ++ b) = a.
Proof. rewrite firstn_app, Nat.sub_diag, firstn_all. cbn. apply app_nil_r. Qed.

Lemma skipn_exact {A} (a b : list A) : skipn (length a) (a ++ b) = b.
Proof. rewrite skipn_app, Nat.sub_diag, skipn_all. reflexivity. Qed.

Lemma skipn_S_exact {A} (a : list A) x b : skipn (S (length a)) (a ++ x :: b) = b.
Proof. induction a as [|y a IH]; [reflexivity|exact IH]. Qed.

Lemma skipn_skipn {A} n m (l : list A) : skipn n (skipn m l) = skipn (m + n) l.
Proof. revert l. induction m as [|m IH]; intros [|x l]; cbn [skipn Nat.add]; auto using skipn_nil. Qed.

Lemma app_eq_app_le {A} (a b c d : list A) :
  a ++ b = c ++ d -> length c <= length a -> exists l, a = c ++ l /\ d = l ++ b.
Proof.
  intros E L. destruct (app_eq_app _ _ _ _ E) as [l [[-> ->]|[-> ->]]]; [eauto|].
  rewrite app_length in L. destruct l; [|cbn in L; lia]. exists []. rewrite !app_nil_r. auto.
Qed.

Lemma forallb_impl {A} (P Q : A -> bool) l :
  (forall x, P x = true -> Q x = true) -> forallb P l = true -> forallb Q l = true.
Proof. intros H. rewrite !forallb_forall. intros HP x Hx. apply H, HP, Hx. Qed.

Lemma forallb_andb {A} (P Q : A -> bool) l :
  forallb (fun x => P x && Q x) l = forallb P l && forallb Q l.
Proof.
  induction l as [|x l IH]; simpl; [reflexivity|]. rewrite IH.
  destruct (P x), (Q x), (forallb P l); reflexivity.
Qed.

Lemma forallb_filter {A} (p : A -> bool) l : forallb p (filter p l) = true.
Proof. induction l as [|x l IH]; simpl; [reflexivity|]. destruct (p x) eqn:E; simpl; [rewrite E|]; exact IH. Qed.

Lemma existsb_eqb_In {A} (eqb : A -> A -> bool) :
  (forall a b, eqb a b = true <-> a = b) -> forall x l, existsb (eqb x) l = true <-> In x l.
Proof.
  intros H x l. rewrite existsb_exists. split.
  - intros [y [Hy E]]. apply H in E. subst. exact Hy.
  - intros Hin. exists x. split; [exact Hin | apply H; reflexivity].
Qed.

Lemma flat_map_map {A B C} (f : B -> list C) (g : A -> B) l : flat_map f (map g l) = flat_map (fun x => f (g x)) l.
Proof. induction l as [|x l IH]; [reflexivity|]. cbn. rewrite IH. reflexivity. Qed.

(* reading the two digits of x m + y in base m *)
Lemma digit_div x y m : (y < m -> (x * m + y) / m = x)%N.
Proof. intros H. symmetry. apply (N.div_unique _ _ x y); [exact H|]. rewrite N.mul_comm. reflexivity. Qed.

Lemma digit_mod x y m : (y < m -> (x * m + y) mod m = y)%N.
Proof. intros H. symmetry. apply (N.mod_unique _ _ x y); [exact H|]. rewrite N.mul_comm. reflexivity. Qed.
