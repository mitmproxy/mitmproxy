(* Proofs/HttpStreamMain.v -- the lifecycle theorems for every stream reachable in the model (all option sets, all
   inputs, all addon actions), and the lifting to the streams of the whole system model (Model/HttpSys.v). *)
From Coq Require Import List Bool NArith.
From MV Require Import Base.Bytes Model.HttpStream Model.HttpSys Proofs.HttpStreamAbs Proofs.HttpStreamSound
  Proofs.HttpStreamInv Proofs.HttpStreamHooks Proofs.HookSeq.
Import ListNotations.

Theorem HM_handle o s inp : HM s -> HM (fst (stream_handle o s inp)).
Proof.
  apply (handle_preserves HM o HM_queue); intros; [apply HM_event | apply HM_crash | apply HM_resume, HM_pc]; assumption.
Qed.

Inductive sreach (o : opts) : stream -> Prop :=
| sr_new id : sreach o (new_stream id)
| sr_handle s inp : sreach o s -> sreach o (fst (stream_handle o s inp))
| sr_act s h a : sreach o s -> sreach o (apply_act h a s).

Lemma sreach_good o s : sreach o s -> Inv s /\ HM s.
Proof.
  induction 1 as [id | s inp _ [I H] | s h a _ [I H]].
  - split; [apply Inv_new | apply HM_new].
  - split; [apply Inv_handle, I | apply HM_handle, H].
  - split; [apply Inv_act, I | apply HM_act, H].
Qed.

(* what the table says about a reachable stream whose environment kept its contract, in terms of the monitor run
   over its hook list *)
Lemma reach_facts o s : sreach o s -> venv s = false ->
  let m := summ (hooks s) in
  m_ok m = true /\ m_r m && m_er m = false /\ m_er2 m = false /\ (req_stream s = false -> m_early m = false)
  /\ (pc s = None -> tunnel s = false -> crashed s = false -> fws s = false -> m_qh m = true -> closed_s s = true ->
      xorb (m_r m) (m_er m) = true /\ live s = false).
Proof.
  intros R Hv. destruct (sreach_good o s R) as [I H]. destruct (Inv_facts s I) as (Pok & Pb & Pe & Po).
  unfold P_ok, P_both, P_early, P_out, HttpStreamInv.closed_ok in *. simpl in *. fold (closed_s s) in Po.
  rewrite Hv, H in *. simpl in *. apply andb_prop in Pb. destruct Pb as [B1 B2].
  split; [exact Pok|]. split; [destruct (_ && _); [discriminate | reflexivity]|].
  split; [destruct (m_er2 _); [discriminate | reflexivity]|]. split.
  - intros Hs. rewrite Hs, orb_false_r in Pe. destruct (m_early _); [discriminate | reflexivity].
  - intros Hpc Ht Hc Hw Hq Hcl. rewrite Hpc, Ht, Hc, Hw, Hq, Hcl in Po. apply andb_prop in Po. destruct Po as [P1 P2].
    split; [exact P1 | destruct (live s); [discriminate | reflexivity]].
Qed.

Theorem T_order o s : sreach o s -> venv s = false ->
  forall pre h post, hooks s = pre ++ h :: post -> rule h pre = true.
Proof. intros R Hv. apply ok_rule, (reach_facts o s R Hv). Qed.

Theorem T_not_both o s : sreach o s -> venv s = false ->
  mem HkResponse (hooks s) && mem HkError (hooks s) = false
  /\ (forall pre post, hooks s = pre ++ HkError :: post -> mem HkError pre = false).
Proof.
  intros R Hv. destruct (reach_facts o s R Hv) as (_ & B & E2 & _).
  pose proof (bits_mem (hooks s)) as (_ & _ & _ & D & E & _). rewrite <- D, <- E.
  split; [exact B | apply er2_rule, E2].
Qed.

Theorem T_request_first o s : sreach o s -> venv s = false -> req_stream s = false ->
  forall pre post, hooks s = pre ++ HkRespHeaders :: post -> mem HkRequest pre = true.
Proof. intros R Hv Hs. apply early_rule, (reach_facts o s R Hv), Hs. Qed.

Theorem T_outcome o s : sreach o s ->
  pc s = None -> tunnel s = false -> crashed s = false -> venv s = false -> fws s = false ->
  mem HkReqHeaders (hooks s) = true -> closed_s s = true ->
  xorb (mem HkResponse (hooks s)) (mem HkError (hooks s)) = true /\ live s = false.
Proof.
  intros R Hpc Ht Hc Hv Hw Hq Hcl. pose proof (bits_mem (hooks s)) as (A & _ & _ & D & E & _).
  rewrite <- D, <- E. rewrite <- A in Hq. apply (reach_facts o s R Hv); assumption.
Qed.

(* Runs of one stream.  gap_run is the schedule on which both the error and the response hook would fire
   without check_killed after the request hook (streamed request; while its request hook is pending the client
   disconnects and the server answers): with it the run ends with the error outcome only *)
Inductive sstep := SIn (i : sinput) | SAct (h : hook) (a : act).
Definition run_stream (o : opts) (l : list sstep) : stream :=
  fold_left (fun s st => match st with SIn i => fst (stream_handle o s i) | SAct h a => apply_act h a s end) l (new_stream 1).
Lemma run_stream_reach o l : sreach o (run_stream o l).
Proof.
  unfold run_stream. generalize (new_stream 1), (sr_new o 1).
  induction l as [|st l IH]; intros s R; simpl; [exact R|]. apply IH. destruct st; [apply sr_handle | apply sr_act]; exact R.
Qed.
Definition gap_opts : opts := mkOpts None None true false.
Definition gap_req : head := mkHead [] MGet (HLen 1) 0 true true false false 0 false.
Definition gap_resp : head := mkHead [] MGet (HLen 0) 0 true true false false 200 false.
Definition gap_run : list sstep :=
  [SIn (IEvent (EReqHeaders gap_req false)); SAct HkReqHeaders AStream; SIn IHookDone; SIn (IConnDone (Some 1%N));
   SIn (IEvent (EReqData [x61])); SIn (IEvent EReqEOM);
   SIn (IEvent (EReqErr None)); SIn (IEvent (ERespHeaders gap_resp true)); SIn (IEvent ERespEOM);
   SIn IHookDone; SIn IHookDone; SIn IHookDone; SIn IHookDone].
Theorem T_gap_closed :
  let s := run_stream gap_opts gap_run in
  venv s = false /\ hooks s = [HkReqHeaders; HkRequest; HkError] /\ live s = false.
Proof. vm_compute. repeat split. Qed.

(* an addon replaces the 101 response of a WebSocket handshake in the response hook: flow.websocket was set before the
   hook, flow_done therefore leaves the flow live, and the replaced response is not a 101, so nothing takes the flow over *)
Definition ws_req : head := mkHead [] MGet HNone 0 true true false false 0 true.
Definition ws_resp : head := mkHead [] MGet HNone 0 true true false false 101 true.
Definition ws_run : list sstep :=
  [SIn (IEvent (EReqHeaders ws_req true)); SIn IHookDone; SIn (IEvent EReqEOM); SIn IHookDone; SIn (IConnDone (Some 1%N));
   SIn (IEvent (ERespHeaders ws_resp true)); SIn IHookDone; SIn (IEvent ERespEOM); SAct HkResponse AResp; SIn IHookDone].
Theorem T_live_refuted :
  let s := run_stream gap_opts ws_run in
  pc s = None /\ tunnel s = false /\ crashed s = false /\ venv s = false /\ closed_s s = true
  /\ hooks s = [HkReqHeaders; HkRequest; HkRespHeaders; HkResponse] /\ fws s = true /\ live s = true.
Proof. vm_compute. repeat split. Qed.

(* Every stream of the system model is a reachable stream.  Only sy_streams writes the streams of the
   system state: after any other update all_reach is the hypothesis, by conversion. *)
Definition all_reach (e : env) (y : sys) : Prop := Forall (fun p => sreach (e_opts e) (fst p)) (streams y).

Lemma find_stream_In id l v : find_stream id l = Some v -> In v l.
Proof.
  induction l as [|[s d] r IH]; simpl; [discriminate|].
  destruct (N.eqb (sid s) id); [intros H; inversion H; auto | intros H; right; apply IH, H].
Qed.
Lemma put_stream_Forall (P : stream * bool -> Prop) id v l : Forall P l -> P v -> Forall P (put_stream id v l).
Proof.
  induction 1 as [|[s d] r Hx Hr IH]; intros Hv; simpl; [constructor|].
  destruct (N.eqb (sid s) id); constructor; auto.
Qed.

Lemma streams_add_trace c y : streams (add_trace c y) = streams y.
Proof. destruct y; reflexivity. Qed.
Lemma streams_do_crash y : streams (do_crash y) = streams y.
Proof. destruct y; reflexivity. Qed.

Lemma get_connection_streams e id host y : streams (fst (get_connection e id host y)) = streams y.
Proof.
  unfold get_connection. destruct (find_conn host (srvs y) 1) as [[k| |k]|].
  - destruct (nth_srv k (srvs y)); reflexivity.
  - reflexivity.
  - reflexivity.
  - destruct (e_conn e _); reflexivity.
Qed.

Lemma step_reach e y w : all_reach e y -> all_reach e (fst (step e y w)).
Proof.
  intros A. unfold all_reach in *. destruct w as [id inp | id c | k c]; simpl.
  - destruct (find_stream id (streams y)) as [[s d]|] eqn:F; [|exact A].
    destruct (stream_handle (e_opts e) s inp) as [s1 cmds] eqn:SH. simpl.
    apply put_stream_Forall; [exact A|]. simpl. change s1 with (fst (s1, cmds)). rewrite <- SH. apply sr_handle.
    apply find_stream_In in F. rewrite Forall_forall in A. exact (A _ F).
  - destruct (find_stream id (streams y)) as [[s d]|] eqn:F; [|exact A].
    assert (Rs : sreach (e_opts e) s) by (apply find_stream_In in F; rewrite Forall_forall in A; exact (A _ F)).
    destruct c as [h | t ev | host | | | |]; try exact A.
    + destruct (assoc id (ords y)) as [o|]; simpl.
      * destruct (e_defer e o h); apply put_stream_Forall; auto; apply sr_act; exact Rs.
      * destruct (e_defer e (next_ord y) h); apply put_stream_Forall; auto; apply sr_act; exact Rs.
    + destruct t.
      * destruct (h1s_send (cl_w y) id ev (cl y)); exact A.
      * destruct (srv s) as [k|]; [|exact A].
        destruct (nth_srv k (srvs y)) as [v|]; [|exact A].
        destruct (h1c_send id ev (v_conn v)); exact A.
    + rewrite get_connection_streams. exact A.
    + apply put_stream_Forall; auto.
    + destruct (srv s); exact A.
  - destruct c as [b | st | half | id ev | |]; try exact A.
    + destruct (N.eqb k 0); [destruct half; exact A|].
      destruct (nth_srv k (srvs y)); [destruct half|]; exact A.
    + assert (A1 : Forall (fun p => sreach (e_opts e) (fst p))
                     (streams (if is_reqheaders ev then sy_streams (streams y ++ [(new_stream id, false)]) y else y))).
      { destruct (is_reqheaders ev); [|exact A]. apply Forall_app. split; [exact A|].
        constructor; [apply sr_new | constructor]. }
      destruct (find_stream id _) as [[? []]|]; exact A1.
Qed.

Lemma run_reach e : forall fuel y stack, all_reach e y -> all_reach e (run fuel e y stack).
Proof.
  induction fuel as [|f IH]; intros y stack A; destruct stack as [|w rest]; simpl; try exact A.
  - destruct (halted y); exact A.
  - destruct (halted y); [exact A|]. destruct (step e y w) as [y1 new] eqn:S. apply IH.
    change y1 with (fst (y1, new)). rewrite <- S. apply step_reach, A.
Qed.
Lemma complete_reach e y p : all_reach e y -> all_reach e (fst (complete y p)).
Proof.
  intros A. destruct p as [id | k ok]; simpl; [exact A|].
  destruct (nth_srv k (srvs y)); exact A.
Qed.
Lemma pump_reach e : forall n y, all_reach e y -> all_reach e (pump n e y).
Proof.
  induction n as [|n IH]; intros y A; cbn [pump].
  - destruct (pendq y); [exact A|]. destruct (halted y); exact A.
  - destruct (pendq y) as [|p q] eqn:Q; [exact A|]. destruct (halted y); [exact A|].
    destruct (complete (sy_pendq q y) p) as [y1 ws] eqn:C. apply IH. apply run_reach.
    change y1 with (fst (y1, ws)). rewrite <- C. apply complete_reach. exact A.
Qed.
Lemma settle_reach e y ws : all_reach e y -> all_reach e (settle e y ws).
Proof. intros A. unfold settle. apply pump_reach, run_reach, A. Qed.

#[local] Opaque run pump.
Lemma do_op_reach e y o : all_reach e y -> all_reach e (do_op e y o).
Proof.
  intros A. unfold do_op. destruct (halted y); [exact A|].
  destruct o as [t | k t | | k |].
  - destruct (cl_r y); [|exact A]. destruct (feed true t (cl y)). apply settle_reach. exact A.
  - destruct (nth_srv k (srvs y)) as [v|]; [|exact A]. destruct (v_r v && negb (N.eqb k 0)); [|exact A].
    destruct (feed false t (v_conn v)). apply settle_reach. exact A.
  - destruct (cl_r y); [|exact A]. destruct (h1_closed true (cl_w y) (cl y)). apply settle_reach. exact A.
  - destruct (nth_srv k (srvs y)) as [v|]; [|exact A]. destruct (v_r v && negb (N.eqb k 0)); [|exact A].
    destruct (h1_closed false (v_w v) (v_conn v)). apply settle_reach. exact A.
  - destruct (deferred y) as [|p r] eqn:D; [exact A|].
    destruct (complete (sy_deferred r y) p) as [y1 ws] eqn:C. apply settle_reach.
    change y1 with (fst (y1, ws)). rewrite <- C. apply complete_reach. exact A.
Qed.

Lemma fold_ops_reach e ops : forall y, all_reach e y -> all_reach e (fold_left (do_op e) ops y).
Proof. induction ops as [|o r IH]; intros y A; cbn [fold_left]; [exact A | apply IH, do_op_reach, A]. Qed.
Lemma resume_all_reach e : forall n y, all_reach e y -> all_reach e (resume_all n e y).
Proof.
  induction n as [|n IH]; intros y A; cbn [resume_all]; [exact A|].
  destruct (deferred y); [exact A|]. destruct (halted y); [exact A|]. apply IH, do_op_reach, A.
Qed.
Lemma close_all_reach e y : all_reach e y -> all_reach e (close_all e y).
Proof.
  intros A. unfold close_all.
  assert (G : forall l y0, all_reach e y0 -> all_reach e (fold_left (fun y k => do_op e y (OCloseS k)) l y0)).
  { induction l as [|k l IH]; intros y0 A0; cbn [fold_left]; [exact A0 | apply IH, do_op_reach, A0]. }
  apply G, do_op_reach, A.
Qed.
Lemma finish_reach e : forall r y, all_reach e y -> all_reach e (finish r e y).
Proof. induction r as [|r IH]; intros y A; cbn [finish]; [exact A | apply IH, close_all_reach, resume_all_reach, A]. Qed.

Theorem run_ops_reach e ops : all_reach e (run_ops e ops).
Proof. unfold run_ops. apply finish_reach, fold_ops_reach. unfold all_reach. apply Forall_nil. Qed.
