(* Proofs/ClientPlaybackSent.v -- the loop of start_replay: it accepts exactly the arguments that
   pass check on the table the call started with, in argument order, and appends them to the queue
   with consecutive sequence numbers. *)
From Coq Require Import List Bool Arith.
From MV Require Import Base.Bytes Model.FlowBackup Model.ClientPlayback.
Import ListNotations.
Local Open Scope nat_scope.

Lemma updf_length : forall s i g, length (updf i g s) = length s.
Proof. induction s as [|f r IH]; intros [|k] g; simpl; auto. Qed.

Lemma updf_other : forall s i j g, i <> j -> nth_error (updf i g s) j = nth_error s j.
Proof.
  induction s as [|f r IH]; intros [|i] [|j] g H; simpl; auto; congruence.
Qed.

Lemma updf_same : forall s i g, nth_error (updf i g s) i = option_map g (nth_error s i).
Proof. induction s as [|f r IH]; intros [|i] g; simpl; auto. Qed.

Definition infl_eq (infl : option nat) (i : nat) : bool :=
  match infl with Some j => Nat.eqb i j | None => false end.

Definition ok (infl : option nat) (fs : list cflow) (i : nat) : bool :=
  match nth_error fs i with
  | Some f => match check (infl_eq infl i) f with None => true | Some _ => false end
  | None => false
  end.

Lemma check_prepare : forall b f, check b (on_fl prepare f) = check b f.
Proof.
  intros b [[i o l bk] h]. unfold check, on_fl, prepare, on_obj, f_backup, backup. simpl.
  destruct bk; reflexivity.
Qed.

(* accepting one flow does not change the verdict on any flow, so all verdicts of a call are those
   on the table it started with *)
Lemma ok_prepare : forall infl fs i j, ok infl (updf i (on_fl prepare) fs) j = ok infl fs j.
Proof.
  intros infl fs i j. unfold ok. destruct (Nat.eq_dec i j) as [->|D].
  - rewrite updf_same. destruct (nth_error fs j); simpl; [rewrite check_prepare|]; reflexivity.
  - rewrite updf_other by exact D. reflexivity.
Qed.

Lemma start_loop_spec : forall ids infl fs q next upd fs' q' nx' upd',
  start_loop infl ids fs q next upd = (fs', q', nx', upd') ->
  let acc := filter (ok infl fs) ids in
  upd' = upd ++ acc /\ q' = q ++ combine (seq next (length acc)) acc /\ nx' = next + length acc.
Proof.
  induction ids as [|i r IH]; intros infl fs q next upd fs' q' nx' upd' H; simpl in H.
  - inversion H; subst. simpl. rewrite !app_nil_r, Nat.add_0_r. auto.
  - simpl. set (F := filter (ok infl fs) r). unfold ok, infl_eq.
    destruct (nth_error fs i) as [f|]; [|exact (IH _ _ _ _ _ _ _ _ _ H)].
    destruct (check _ f); [exact (IH _ _ _ _ _ _ _ _ _ H)|].
    destruct (IH _ _ _ _ _ _ _ _ _ H) as (-> & -> & ->).
    rewrite (filter_ext _ _ (ok_prepare infl fs i)). fold F. simpl.
    rewrite <- !app_assoc, Nat.add_succ_r. auto.
Qed.

(* flow i carries a response: the condition under which the playback loop answers an entry from that
   response instead of sending (tick_stale in Proofs/ClientPlaybackLog.v) *)
Definition resp_at (fs : list cflow) (i : nat) : bool :=
  match nth_error fs i with Some f => match o_resp (fo (cf f)) with Some _ => true | None => false end | None => false end.
