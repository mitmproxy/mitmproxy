(* Proofs/DumperBase.v -- building blocks for C49: every sanitizer of Model.Dumper yields only
   harmless characters, and the text combinators (style, indent, echo, joins) add nothing but
   spaces, line feeds and the dumper's own SGR sequences. *)
From Coq Require Import List Bool NArith Lia ZifyBool String.
From MV Require Import Base.Bytes Model.Strutils Model.Dumper Proofs.DecOfN Proofs.StrutilsC51.
Import ListNotations.
Local Open Scope N_scope.

Definition OK (v : bool) (t : ttext) : Prop := ok_tt v t = true.

Lemma OK_nil v : OK v []. Proof. reflexivity. Qed.

Lemma OK_app_intro v a b : OK v a -> OK v b -> OK v (a ++ b).
Proof. unfold OK, ok_tt. rewrite forallb_app. intros -> ->. reflexivity. Qed.

Lemma OK_cons v k t : ok_tok v k = true -> OK v t -> OK v (k :: t).
Proof. unfold OK, ok_tt. cbn [forallb]. intros -> ->. reflexivity. Qed.

Lemma OK_In v t : OK v t <-> forall k, In k t -> ok_tok v k = true.
Proof. unfold OK, ok_tt. apply forallb_forall. Qed.

Lemma OK_incl v a b : incl a b -> OK v b -> OK v a.
Proof. rewrite !OK_In. intros Hi Hb k Hk. apply Hb, Hi, Hk. Qed.

Lemma OK_rev v t : OK v t -> OK v (rev t).
Proof. apply OK_incl. intros k Hk. apply in_rev. exact Hk. Qed.

Lemma OK_plain v t : OK v (plain t) <-> ok_text t = true.
Proof.
  unfold OK, ok_tt, ok_text, plain. induction t as [|c t IH]; cbn; [tauto|].
  rewrite !andb_true_iff, IH. tauto.
Qed.

Lemma OK_lit v s : ok_text (T s) = true -> OK v (P s).
Proof. intro H. apply OK_plain. exact H. Qed.

Lemma ok_text_app a b : ok_text (a ++ b) = ok_text a && ok_text b.
Proof. apply forallb_app. Qed.

(* the test as escape_control_characters writes it with keep_spacing = true *)
Lemma okc_escaped c : okc (if is_cc c && negb (true && is_spacing c) then 46 else c) = true.
Proof.
  unfold okc. destruct (is_cc c) eqn:Hc; destruct (is_spacing c) eqn:Hs; cbn; rewrite ?Hc, ?Hs; reflexivity.
Qed.

Lemma escape_ok t : ok_text (escape_control_characters t true) = true.
Proof.
  unfold ok_text, escape_control_characters. rewrite forallb_forall. intros c Hc.
  apply in_map_iff in Hc as [x [<- _]]. apply okc_escaped.
Qed.

(* without keep_spacing not even TAB/LF/CR survive *)
Lemma escape_strict_ok t : forallb (fun c => negb (is_cc c)) (escape_control_characters t false) = true.
Proof.
  unfold escape_control_characters. rewrite forallb_forall. intros c Hc.
  apply in_map_iff in Hc as [x [<- _]]. cbn [andb negb].
  destruct (is_cc x) eqn:Hx; cbn; [reflexivity | rewrite Hx; reflexivity].
Qed.

Lemma OK_esc v t : OK v (esc t).
Proof. apply OK_plain, escape_ok. Qed.

Lemma prettify_ok m : ok_text (prettify_message m) = true.
Proof. unfold prettify_message. destruct (pm_raw m); [apply escape_ok | vm_compute; reflexivity]. Qed.

(* bytes_to_escaped_str: what C51_no_control says, read as OK *)
Lemma OK_b2e v b : OK v (b2e b).
Proof.
  apply OK_plain. unfold ok_text. rewrite forallb_forall. intros c Hc.
  apply in_map_iff in Hc as [x [<- Hx]]. apply no_control in Hx as [H | [H _]]; [|discriminate].
  unfold okc. rewrite H. reflexivity.
Qed.

Lemma dec_isd n : forallb is_digit_n (dec n) = true.
Proof.
  pose proof (dec_of_N_digits n) as H. rewrite forallb_forall in *.
  intros c Hc. apply in_map_iff in Hc as [b [<- Hb]]. apply (H b Hb).
Qed.

Lemma dec_nonempty n : dec n <> [].
Proof. intro H. apply map_eq_nil in H. exact (dec_of_N_nonempty n H). Qed.

Lemma digit_okc c : is_digit_n c = true -> okc c = true.
Proof. unfold is_digit_n, okc, is_cc, is_spacing. lia. Qed.

Lemma dec_ok n : ok_text (dec n) = true.
Proof.
  pose proof (dec_isd n) as H. unfold ok_text. rewrite forallb_forall in *.
  intros c Hc. apply digit_okc, H, Hc.
Qed.

Lemma OK_dec v n : OK v (plain (dec n)).
Proof. apply OK_plain, dec_ok. Qed.

Lemma own_sgr_code n : own_sgr ([27; 91] ++ dec n ++ [109]) = true.
Proof.
  cbn [app own_sgr]. rewrite rev_app_distr. cbn [rev app N.eqb Pos.eqb andb].
  apply andb_true_iff. split.
  - destruct (rev (dec n)) eqn:E; [|reflexivity].
    exfalso. apply (dec_nonempty n). rewrite <- (rev_involutive (dec n)), E. reflexivity.
  - rewrite forallb_forall. intros c Hc. apply in_rev in Hc.
    pose proof (dec_isd n) as H. rewrite forallb_forall in H. apply H, Hc.
Qed.

Lemma ok_sgr n : ok_tok true (sgr n) = true.
Proof. unfold sgr. cbn [ok_tok andb]. apply own_sgr_code. Qed.

Lemma OK_flag o a b : OK true (flag o a b).
Proof. destruct o as [[|]|]; cbn [flag]; try apply OK_nil; (apply OK_cons; [apply ok_sgr | apply OK_nil]). Qed.

Lemma OK_miniclick t s : OK true t -> OK true (miniclick_style t s).
Proof.
  intro H. unfold miniclick_style. repeat apply OK_app_intro; try apply OK_flag; try exact H.
  - destruct (fg s); [apply OK_cons; [apply ok_sgr | apply OK_nil] | apply OK_nil].
  - apply OK_cons; [apply ok_sgr | apply OK_nil].
Qed.

(* styling may be on in one place and off in another: judged with styling allowed *)
Lemma OK_style_any v t s : OK true t -> OK true (style_ v t s).
Proof.
  intro H. unfold style_. destruct s as [st|]; [|exact H].
  destruct v; [apply OK_miniclick; exact H | exact H].
Qed.

Lemma OK_style v t s : OK v t -> OK v (style_ v t s).
Proof. destruct v; [apply OK_style_any | destruct s; trivial]. Qed.

Lemma lstrip_incl t : incl (lstrip t) t.
Proof.
  induction t as [|k r IH]; cbn [lstrip]; [apply incl_refl|].
  destruct (tok_space k); [apply incl_tl, IH | apply incl_refl].
Qed.

Lemma strip_incl t : incl (strip t) t.
Proof.
  unfold strip. intros k Hk. apply in_rev in Hk. apply lstrip_incl in Hk.
  apply in_rev in Hk. apply lstrip_incl in Hk. exact Hk.
Qed.

Lemma splitlines_incl t : forall cur l, In l (splitlines t cur) -> incl l (rev cur ++ t).
Proof.
  (* after CR LF the function recurses on the tail of the tail: carry the statement for both *)
  enough (H : (forall cur l, In l (splitlines t cur) -> incl l (rev cur ++ t))
              /\ (forall cur l, In l (splitlines (tl t) cur) -> incl l (rev cur ++ tl t))) by apply H.
  induction t as [|k r [IHr IHr']].
  - assert (H : forall cur l, In l (splitlines [] cur) -> incl l (rev cur ++ [])).
    { intros cur l Hl. cbn in Hl. destruct cur; [destruct Hl|]. destruct Hl as [<-|[]]. apply incl_appl, incl_refl. }
    split; exact H.
  - split; [|exact IHr]. intros cur l Hl.
    assert (Hbreak : forall r', incl r' r -> (forall l, In l (splitlines r' []) -> incl l r') ->
                       In l (rev cur :: splitlines r' []) -> incl l (rev cur ++ k :: r)).
    { intros r' Hr' IH [<-|Hl']; [apply incl_appl, incl_refl|].
      apply incl_appr, incl_tl. exact (incl_tran (IH l Hl') Hr'). }
    assert (Hcont : In l (splitlines r (k :: cur)) -> incl l (rev cur ++ k :: r)).
    { intro Hl'. apply IHr in Hl'. cbn [rev] in Hl'. rewrite <- app_assoc in Hl'. exact Hl'. }
    destruct k as [c|s]; cbn [splitlines] in Hl; [|exact (Hcont Hl)].
    destruct (is_linebreak c); [|exact (Hcont Hl)].
    destruct r as [|[d|s'] r']; try exact (Hbreak _ (incl_refl _) (IHr []) Hl).
    destruct ((c =? 13) && (d =? 10)).
    + exact (Hbreak r' (incl_tl _ (incl_refl _)) (IHr' []) Hl).
    + exact (Hbreak _ (incl_refl _) (IHr []) Hl).
Qed.

Lemma OK_spaces v n : OK v (repeat (Ch 32) n).
Proof. induction n; cbn; [apply OK_nil | apply OK_cons; [reflexivity | exact IHn]]. Qed.

Lemma OK_join_lines v pad ls : OK v pad -> (forall l, In l ls -> OK v l) -> OK v (join_lines pad ls).
Proof.
  intros Hp. induction ls as [|l r IH]; intros H; cbn [join_lines]; [apply OK_nil|].
  destruct r as [|l2 r2].
  - apply OK_app_intro; [exact Hp | apply H; left; reflexivity].
  - apply OK_app_intro; [exact Hp|]. apply OK_app_intro; [apply H; left; reflexivity|].
    apply OK_cons; [reflexivity|]. apply IH. intros x Hx. apply H. right. exact Hx.
Qed.

Lemma OK_indent v n t : OK v t -> OK v (indent n t).
Proof.
  intro H. unfold indent. apply OK_join_lines; [apply OK_spaces|].
  intros l Hl. apply (OK_incl v l t); [|exact H].
  exact (incl_tran (splitlines_incl _ [] l Hl) (strip_incl t)).
Qed.

Lemma OK_echo v t n s : OK v t -> OK v (echo v t n s).
Proof.
  intro H. unfold echo. apply OK_app_intro; [|apply OK_cons; [reflexivity | apply OK_nil]].
  apply OK_style. destruct n; [exact H | apply OK_indent; exact H].
Qed.

Lemma OK_flat_map {A} v (f : A -> ttext) l : (forall x, In x l -> OK v (f x)) -> OK v (flat_map f l).
Proof.
  induction l as [|x r IH]; intro H; cbn [flat_map]; [apply OK_nil|].
  apply OK_app_intro; [apply H; left; reflexivity | apply IH; intros y Hy; apply H; right; exact Hy].
Qed.

Lemma OK_join_tt v sep l : OK v sep -> (forall x, In x l -> OK v x) -> OK v (join_tt sep l).
Proof.
  intro Hs. induction l as [|x r IH]; intro H; cbn [join_tt]; [apply OK_nil|].
  destruct r as [|y r'].
  - apply H. left. reflexivity.
  - apply OK_app_intro; [apply H; left; reflexivity|]. apply OK_app_intro; [exact Hs|].
    apply IH. intros z Hz. apply H. right. exact Hz.
Qed.

Lemma text_eqb_eq a : forall b, text_eqb a b = true -> a = b.
Proof.
  induction a as [|x a IH]; intros [|y b]; cbn; try discriminate; [reflexivity|].
  intro H. apply andb_true_iff in H as [H1 H2]. apply N.eqb_eq in H1. f_equal; [exact H1 | apply IH, H2].
Qed.

Lemma chunks_ok m : pm_ok m = true -> forall c, In c (pm_chunks m) -> ok_text (snd c) = true.
Proof.
  unfold pm_ok. intros H c Hc. destruct (pm_chunks m) as [|c0 cs] eqn:E; [destruct Hc|].
  apply text_eqb_eq in H. pose proof (prettify_ok m) as Hp. rewrite <- H in Hp.
  unfold ok_text in *. rewrite forallb_forall in *. intros x Hx. apply Hp.
  apply in_concat. exists (snd c). split; [apply in_map, Hc | exact Hx].
Qed.
