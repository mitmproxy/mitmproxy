(* Proofs/ViewBase.v -- lemmas about the monad, the dictionaries and the sorted-list functions of Model/View.v *)
From Coq Require Import List Bool Arith NArith ZArith Lia Permutation Sorted.
From MV Require Import Base.Bytes Model.View Proofs.ListFacts.
Import ListNotations.

Lemma bind_ok {A B} (m : M A) (k : A -> M B) s a s1 : m s = Ok (a, s1) -> bind m k s = k a s1.
Proof. intros E. unfold bind. rewrite E. reflexivity. Qed.
Arguments bind_ok {A B m k s a s1}.
Lemma bind_gets {A B} (f : state -> A) (k : A -> M B) s : bind (gets f) k s = k (f s) s.
Proof. reflexivity. Qed.
Lemma bind_modify {B} (f : state -> state) (k : unit -> M B) s : bind (modify f) k s = k tt (f s).
Proof. reflexivity. Qed.
Lemma bind_ret {A B} (a : A) (k : A -> M B) s : bind (ret a) k s = k a s.
Proof. reflexivity. Qed.
Lemma bind_assoc {A B C} (m : M A) (k : A -> M B) (h : B -> M C) s :
  bind (bind m k) h s = bind m (fun a => bind (k a) h) s.
Proof. unfold bind. destruct (m s) as [[a s1]|e]; reflexivity. Qed.
Lemma bind_ret_r (m : M unit) s : bind m (fun _ => ret tt) s = m s.
Proof. unfold bind, ret. destruct (m s) as [[[] s']|e]; reflexivity. Qed.

(* [ok (m s) Q]: the call [m] in state [s] does not raise, and its result and final state satisfy [Q] *)
Definition ok {A} (r : result (A * state)) (Q : A -> state -> Prop) : Prop :=
  match r with Ok (a, s') => Q a s' | Err _ => False end.
Lemma ok_bind {A B} {m : M A} {k : A -> M B} {s} {P : A -> state -> Prop} {Q : B -> state -> Prop} :
  ok (m s) P -> (forall a s', P a s' -> ok (k a s') Q) -> ok (bind m k s) Q.
Proof. unfold bind. destruct (m s) as [[a s']|e]; simpl; [auto | contradiction]. Qed.
Lemma ok_mono {A} {r : result (A * state)} {P Q : A -> state -> Prop} :
  ok r P -> (forall a s', P a s' -> Q a s') -> ok r Q.
Proof. destruct r as [[a s']|e]; simpl; auto. Qed.

Lemma memN_In x l : memN x l = true <-> In x l.
Proof. apply (existsb_eqb_In _ N.eqb_eq). Qed.
Lemma memN_false x l : memN x l = false <-> ~ In x l.
Proof.
  split.
  - intros H Hin. apply memN_In in Hin. congruence.
  - intros H. destruct (memN x l) eqn:E; [|reflexivity]. apply memN_In in E. contradiction.
Qed.

Lemma hget_hset h f id : hget (hset h f) id = if N.eqb (fid f) id then f else hget h id.
Proof.
  induction h as [|g t IH]; simpl.
  - destruct (N.eqb (fid f) id); reflexivity.
  - destruct (N.eqb (fid g) (fid f)) eqn:E; simpl.
    + apply N.eqb_eq in E. rewrite E. destruct (N.eqb (fid f) id); reflexivity.
    + destruct (N.eqb (fid g) id) eqn:E2.
      * apply N.eqb_eq in E2. destruct (N.eqb (fid f) id) eqn:E3; [|reflexivity].
        apply N.eqb_eq in E3. apply N.eqb_neq in E. congruence.
      * exact IH.
Qed.

Lemma order_eqb_eq a b : order_eqb a b = true <-> a = b.
Proof. destruct a, b; simpl; split; intros; congruence. Qed.
Lemma order_eqb_refl a : order_eqb a a = true.
Proof. destruct a; reflexivity. Qed.
Lemma cget_cset o o' k c : cget o (cset o' k c) = if order_eqb o o' then Some k else cget o c.
Proof. destruct o, o'; reflexivity. Qed.
Lemma cget_cempty o : cget o cempty = None.
Proof. destruct o; reflexivity. Qed.

Lemma sget_sset l id c id' : sget (sset l id c) id' = if N.eqb id id' then Some c else sget l id'.
Proof.
  induction l as [|[i c0] t IH]; simpl.
  - destruct (N.eqb id id'); reflexivity.
  - destruct (N.eqb i id) eqn:E; simpl.
    + apply N.eqb_eq in E. subst i. destruct (N.eqb id id'); reflexivity.
    + destruct (N.eqb i id') eqn:E2.
      * apply N.eqb_eq in E2. subst i. rewrite N.eqb_sym in E. rewrite E. reflexivity.
      * exact IH.
Qed.
Lemma sset_ids l id c x : In x (map fst (sset l id c)) -> x = id \/ In x (map fst l).
Proof.
  induction l as [|[i c0] t IH]; simpl.
  - intros [H|[]]; auto.
  - destruct (N.eqb i id) eqn:E; simpl.
    + apply N.eqb_eq in E. subst. intros [H|H]; auto.
    + intros [H|H]; auto. destruct (IH H); auto.
Qed.
Lemma sget_ids l id c : sget l id = Some c -> In id (map fst l).
Proof.
  induction l as [|[i c0] t IH]; simpl; [discriminate|].
  destruct (N.eqb i id) eqn:E; [apply N.eqb_eq in E; auto | auto].
Qed.
Lemma sget_filter l (p : N -> bool) id :
  sget (filter (fun e => p (fst e)) l) id = if p id then sget l id else None.
Proof.
  induction l as [|[i c0] t IH]; simpl; [destruct (p id); reflexivity|].
  destruct (N.eqb i id) eqn:E.
  - apply N.eqb_eq in E. subst i. destruct (p id); simpl; [rewrite N.eqb_refl; reflexivity | exact IH].
  - destruct (p i); simpl; [rewrite E|]; exact IH.
Qed.
Lemma sget_filter_sub l (p : N * cache -> bool) id c : sget (filter p l) id = Some c -> exists c', sget l id = Some c'.
Proof.
  induction l as [|[i c0] t IH]; simpl; [discriminate|].
  destruct (p (i, c0)); simpl.
  - destruct (N.eqb i id); [eauto | exact IH].
  - destruct (N.eqb i id); [eauto | exact IH].
Qed.

Lemma in_ids_split (v : list (N * N)) id : In id (map snd v) -> exists k, In (k, id) v.
Proof. rewrite in_map_iff. intros ([k i] & E & H). simpl in E. subst. eauto. Qed.
Lemma in_ids (v : list (N * N)) k id : In (k, id) v -> In id (map snd v).
Proof. intros H. change id with (snd (k, id)). apply in_map. exact H. Qed.

Definition keys (v : list (N * N)) : list N := map fst v.
Definition ksorted (v : list (N * N)) : Prop := StronglySorted N.le (keys v).

Lemma ksorted_nil : ksorted []. Proof. constructor. Qed.
Lemma ksorted_cons k id v : ksorted ((k, id) :: v) <-> ksorted v /\ Forall (N.le k) (keys v).
Proof.
  unfold ksorted; simpl. split.
  - intros H. inversion H; subst. auto.
  - intros [H1 H2]. constructor; assumption.
Qed.

Lemma sl_add_perm k id v : Permutation (sl_add k id v) ((k, id) :: v).
Proof.
  induction v as [|[k' id'] t IH]; simpl; [reflexivity|].
  destruct (N.leb k' k); [|reflexivity].
  rewrite IH. apply perm_swap.
Qed.
Lemma sl_add_sorted k id v : ksorted v -> ksorted (sl_add k id v).
Proof.
  induction v as [|[k' id'] t IH]; simpl; intros H.
  - apply ksorted_cons. split; [constructor | constructor].
  - apply ksorted_cons in H as [H1 H2].
    destruct (N.leb k' k) eqn:E.
    + apply ksorted_cons. split; [auto|].
      apply N.leb_le in E.
      assert (P : Permutation (keys (sl_add k id t)) (k :: keys t)).
      { unfold keys. rewrite (sl_add_perm k id t). reflexivity. }
      eapply Permutation_Forall; [symmetry; exact P|]. constructor; assumption.
    + apply N.leb_gt in E. apply ksorted_cons. split.
      * apply ksorted_cons. auto.
      * simpl. constructor; [lia|]. eapply Forall_impl; [|exact H2]. intros; simpl in *; lia.
Qed.

Lemma sl_index_some k id v i : sl_index k id v = Some i -> nth_error v i = Some (k, id).
Proof.
  revert i. induction v as [|[k' id'] t IH]; simpl; intros i; [discriminate|].
  destruct (N.ltb k' k).
  - destruct (sl_index k id t); simpl; [|discriminate]. intros [= <-]. simpl. auto.
  - destruct (N.eqb k' k) eqn:E; [|discriminate]. apply N.eqb_eq in E. subst k'.
    destruct (N.eqb id' id) eqn:E2.
    + apply N.eqb_eq in E2. subst. intros [= <-]. reflexivity.
    + destruct (sl_index k id t); simpl; [|discriminate]. intros [= <-]. simpl. auto.
Qed.
(* sl_index and sl_remove walk the list alike: both find an element that is there *)
Lemma sl_find_in k id v : ksorted v -> In (k, id) v ->
  (exists i, sl_index k id v = Some i) /\ (exists v', sl_remove k id v = Some v').
Proof.
  induction v as [|[k' id'] t IH]; simpl; intros Hs Hin; [contradiction|].
  apply ksorted_cons in Hs as [H1 H2].
  destruct Hin as [Hin|Hin].
  - inversion Hin; subst. rewrite N.ltb_irrefl, !N.eqb_refl. eauto.
  - assert (k' <= k)%N.
    { rewrite Forall_forall in H2. apply H2. unfold keys. change k with (fst (k, id)). apply in_map. exact Hin. }
    destruct (IH H1 Hin) as [[i Hi] [w Hw]]. rewrite Hi, Hw. simpl.
    destruct (N.ltb k' k) eqn:E; [eauto|].
    apply N.ltb_ge in E. apply (N.le_antisymm _ _ H) in E. subst. rewrite N.eqb_refl.
    destruct (N.eqb id' id); eauto.
Qed.
Lemma sl_index_none k id v : ~ In id (map snd v) -> sl_index k id v = None.
Proof.
  intros H. destruct (sl_index k id v) eqn:E; [|reflexivity].
  apply sl_index_some in E. apply nth_error_In in E. destruct (H (in_ids _ _ _ E)).
Qed.

Lemma sl_remove_some k id v v' : sl_remove k id v = Some v' ->
  exists l1 l2, v = l1 ++ (k, id) :: l2 /\ v' = l1 ++ l2.
Proof.
  revert v'. induction v as [|[k' id'] t IH]; simpl; intros v'; [discriminate|].
  destruct (N.ltb k' k).
  - destruct (sl_remove k id t) as [w|]; simpl; [|discriminate]. intros [= <-].
    destruct (IH w eq_refl) as (l1 & l2 & -> & ->). exists ((k', id') :: l1), l2. auto.
  - destruct (N.eqb k' k) eqn:E; [|discriminate]. apply N.eqb_eq in E. subst k'.
    destruct (N.eqb id' id) eqn:E2.
    + apply N.eqb_eq in E2. subst. intros [= <-]. exists [], t. auto.
    + destruct (sl_remove k id t) as [w|]; simpl; [|discriminate]. intros [= <-].
      destruct (IH w eq_refl) as (l1 & l2 & -> & ->). exists ((k, id') :: l1), l2. auto.
Qed.
Lemma ksorted_app_remove l1 x l2 : ksorted (l1 ++ x :: l2) -> ksorted (l1 ++ l2).
Proof.
  unfold ksorted, keys. rewrite !map_app. simpl.
  induction (map fst l1) as [|a t IH]; simpl; intros H.
  - inversion H; assumption.
  - inversion H; subst. constructor; [auto|].
    rewrite Forall_forall in *. intros y Hy. apply H3. rewrite in_app_iff in *. simpl. tauto.
Qed.

Lemma sl_bisect_right_le k v : (sl_bisect_right k v <= length v)%nat.
Proof. induction v as [|[k' id'] t IH]; simpl; [lia|]. destruct (N.leb k' k); lia. Qed.

Lemma sl_sorted_spec kv : ksorted (sl_sorted kv) /\ Permutation (sl_sorted kv) kv.
Proof.
  unfold sl_sorted.
  assert (G : forall acc, ksorted acc ->
            ksorted (fold_left (fun acc e => sl_add (fst e) (snd e) acc) kv acc)
            /\ Permutation (fold_left (fun acc e => sl_add (fst e) (snd e) acc) kv acc) (kv ++ acc)).
  { induction kv as [|[k id] t IH]; simpl; intros acc Ha.
    - split; [exact Ha | reflexivity].
    - destruct (IH (sl_add k id acc) (sl_add_sorted k id acc Ha)) as [H1 H2]. split; [exact H1|].
      rewrite H2. rewrite sl_add_perm. symmetry. apply Permutation_middle. }
  destruct (G [] ksorted_nil) as [H1 H2]. rewrite app_nil_r in H2. auto.
Qed.

Lemma StronglySorted_rev {A} (R : A -> A -> Prop) l : StronglySorted R l -> StronglySorted (fun a b => R b a) (rev l).
Proof.
  induction 1 as [|a l H IH Hf]; simpl; [constructor|].
  assert (G : forall l1, StronglySorted (fun a b => R b a) l1 -> Forall (fun x => R a x) l1 ->
            StronglySorted (fun a b => R b a) (l1 ++ [a])).
  { induction l1 as [|x t IHt]; simpl; intros Hs Hfa.
    - constructor; constructor.
    - inversion Hs; subst. inversion Hfa; subst. constructor; [apply IHt; assumption|].
      apply Forall_app. split; [assumption | constructor; [assumption | constructor]]. }
  apply G; [exact IH|]. apply Forall_rev. exact Hf.
Qed.
