(* Proofs/QuicAlloc.v -- any sequence of get_next_available_stream_id calls yields ids that are
   pairwise distinct, carry the requested initiator/direction bits and increase within a class. *)
From Coq Require Import NArith Arith List Bool Lia.
From MV Require Import Model.QuicIdsPrelude Gen.QuicIds Model.QuicDemux Proofs.QuicIds.
Import ListNotations.
Open Scope N_scope.

(* x was allocated before y: they differ, and within one class ids increase *)
Definition fresh_pair (x y : N) : Prop := x <> y /\ (x mod 4 = y mod 4 -> x < y).
(* id has the initiator and direction bits asked for by the call (is_client, is_unidirectional) *)
Definition bits_ok (call : bool * bool) (id : N) : Prop :=
  stream_is_client_initiated id = fst call /\ stream_is_unidirectional id = snd call.

Lemma alloc_seq_spec calls : forall nx, counters_ok nx ->
  exists ids final, alloc_seq nx calls = Some (ids, final) /\ counters_ok final /\
    Forall2 bits_ok calls ids /\
    (forall j, counter nx j <= counter final j) /\
    Forall (fun id => counter nx (id mod 4) <= id) ids /\
    ForallOrdPairs fresh_pair ids.
Proof.
  induction calls as [|[c u] t IH]; intros nx Hok.
  - exists [], nx. cbn. split; [reflexivity|]. split; [auto|]. split; [constructor|]. split; [intros; lia|]. split; constructor.
  - destruct (alloc_spec nx c u Hok) as (id & nx' & Hg & Hok' & Hid & Hm & Hb & Ho).
    destruct (IH nx' Hok') as (ids & final & Ha & Hokf & Hbits & Hmono & Hlow & Hord).
    exists (id :: ids), final. cbn. rewrite Hg, Ha.
    assert (Hstep : forall j, counter nx j <= counter nx' j).
    { intros j. destruct (N.eq_dec j (class_of c u)) as [->|Hn]; [rewrite Hb, Hid; lia | rewrite Ho; auto; lia]. }
    split; [reflexivity|]. split; [auto|]. split.
    { constructor; auto. unfold bits_ok; cbn. eapply (alloc_bits nx c u id nx'); eauto.
    }
    split. { intros j. eapply N.le_trans; [apply Hstep | apply Hmono]. }
    split.
    { constructor; [rewrite Hm, <- Hid; lia|].
      eapply Forall_impl; [|exact Hlow]. intros a Ha'. cbn in Ha'. eapply N.le_trans; [apply Hstep | exact Ha']. }
    constructor; auto.
    rewrite Forall_forall in Hlow |- *. intros y Hy. specialize (Hlow y Hy). cbn in Hlow.
    assert (Hlt : id mod 4 = y mod 4 -> id < y).
    { intros E. rewrite <- E, Hm, Hb in Hlow. lia. }
    split; auto. intros ->. specialize (Hlt eq_refl). lia.
Qed.

Lemma ord_pairs_nodup ids : ForallOrdPairs fresh_pair ids -> NoDup ids.
Proof.
  induction 1 as [|x l Hx _ IH]; constructor; auto.
  intros Hin. rewrite Forall_forall in Hx. destruct (Hx x Hin) as [Hne _]. congruence.
Qed.
