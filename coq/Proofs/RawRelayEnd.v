(* Proofs/RawRelayEnd.v -- item (2b) of Props/C29.v: an idle layer that is not done has a peer that can still
   send; so once both peers have stopped sending and the hooks are answered, the flow has ended. *)
From Coq Require Import List Bool.
From MV Require Import Base.Bytes Model.RawRelay Proofs.RawRelay.
Import ListNotations.

(* The last clause is the point: while the layer is not done, a peer Y that can no longer send has had its
   close handled (eof), or its close still waits in the queue, or it is the server before the layer has
   looked at it.  With an empty queue, both peers unreadable then means both eofs, which the third clause
   rules out before PDone.  The first two clauses say what holds before Start is handled. *)
Definition I6 st (q : list event) (out : list cmd) : Prop :=
  crashed st = false ->
  (ph st = PStart -> wait st = NoWait -> q = [] /\ can_read (client st) = true /\ eof_s st = false /\
     (server_open (cf st) = true -> pr (cf st) = UDP -> can_read (server st) = true)) /\
  (ph st = PStart -> eof_c st = false) /\
  (ph st <> PDone -> eof_c st = true -> eof_s st = true -> False) /\
  (ph st <> PDone -> forall Y, can_read (conn_of st Y) = false ->
     eof_of st Y = true \/ existsb (closed_from Y) q = true \/
     (Y = Server /\ ph st = PStart /\ (server_open (cf st) = false \/ wait st = NoWait))).

Ltac fin6 :=
  simpl in *;
  repeat match goal with
  | H : negb _ = true |- _ => apply negb_true_iff in H
  | H : negb _ = false |- _ => apply negb_false_iff in H
  | H : _ || _ = false |- _ => apply orb_false_iff in H; destruct H
  | H : _ || _ = true |- _ => apply orb_true_iff in H; destruct H
  end; simpl in *; try congruence; try discriminate; auto.

Ltac split6 :=
  repeat match goal with
  | |- _ /\ _ => split
  | |- _ -> _ => intro
  | |- forall _, _ => intro
  end.
(* j6 HJ: for the side Y whose unreadability is at stake, take the last clause HJ of I6 for Y in the state before the step
   and go through its three alternatives.  Where the alternative found has to be put together again for the new
   state (its inner disjunction, or a contradiction with the third clause) the goal is left: it is
   propositional, and the `intuition congruence` that follows each call closes it. *)
Ltac j6 HJ :=
  try match goal with
  | Y : side, H : can_read _ = false |- _ =>
      let D := fresh in
      (assert (D := HJ ltac:(first [discriminate | congruence]) Y)); destruct Y; simpl in *; fin6;
      try (destruct (D H) as [D1|[D1|(D1 & D2 & [D3|D3])]]; fin6; fail);
      try (destruct (D eq_refl) as [D1|[D1|(D1 & D2 & [D3|D3])]]; fin6; fail)
  end.

Lemma I6_handle st e q out st' o :
  I6 st (e :: q) out -> waiting st = false -> crashed st = false -> handle st e = (st', o) -> I6 st' q (out ++ o).
Proof.
  intros H Hw Hc Hh. unfold I6 in *. intros Hc'. specialize (H Hc). destruct H as (HL & HM & HK & HJ).
  unfold waiting in Hw. destruct (wait st) eqn:Ew; try discriminate. clear Hw.
  unfold handle in Hh.
  destruct (ph st) eqn:Eph.
  - destruct (HL eq_refl eq_refl) as (A & _). discriminate.
  - destruct e as [|f d|f|fc d|a err]; simpl in Hh.
    all: unfold_layer; unfold env_cmd, set_conn in *.
    all: split_run Hh; inversion Hh; subst; clear Hh; simpl in *; rewrite ?Ew in *; try discriminate.
    all: split6; try congruence; try discriminate; try (exfalso; apply HK; auto; congruence; fail).
    all: j6 HJ.
  - destruct e as [|f d|f|fc d|a err]; simpl in Hh; inversion Hh; subst; clear Hh; simpl in *;
      split6; congruence.
Qed.

Lemma I6_resume st q out a err st' o :
  wait_ph_ok st ->
  I6 st q out -> waiting st = true -> crashed st = false -> resume st a err = (st', o) -> I6 st' q (out ++ o).
Proof.
  intros Hp H _ Hc Hr. unfold resume in Hr.
  destruct (wait st) eqn:Ew; [inversion Hr; subst; exact H|..].
  all: unfold I6 in *; intros Hc'; specialize (H Hc); destruct H as (HL & HM & HK & HJ); unfold wait_ph_ok in Hp; rewrite Ew in Hp.
  all: unfold_layer; unfold env_cmd, set_conn, connected_state in *.
  all: split_run Hr; inversion Hr; subst; clear Hr; simpl in *; rewrite ?Ew, ?Hp in *; try discriminate.
  all: split6; try congruence; try discriminate; try (apply HM; auto; fail);
       try (exfalso; apply HK; auto; congruence; fail).
  all: j6 HJ.
  all: try (intuition congruence).
Qed.

(* once Start has been handled every event can be queued *)
Definition begun st (e : event) : bool := match ph st with PStart => false | _ => true end.

Lemma closed_or_app (A C : Prop) Y q e :
  A \/ existsb (closed_from Y) q = true \/ C -> A \/ existsb (closed_from Y) (q ++ [e]) = true \/ C.
Proof. intros [D|[D|D]]; [left; exact D | right; left; rewrite existsb_app, D; reflexivity | right; right; exact D]. Qed.

Lemma I6_enqueue st q out e :
  not_reply e -> waiting st = true \/ begun st e = true -> crashed st = false ->
  I6 st q out -> I6 (env_arrive st e) (q ++ [e]) out.
Proof.
  intros He Hw Hc H. unfold I6 in *. rewrite crashed_env_arrive. intros Hc'. specialize (H Hc).
  destruct H as (HL & HM & HK & HJ).
  assert (Hidle : ph st = PStart -> wait st = NoWait -> False).
  { intros A B. destruct Hw as [Hw|Hw]; [unfold waiting in Hw; rewrite B in Hw | unfold begun in Hw; rewrite A in Hw]; discriminate. }
  destruct e as [|f d|f|fc d|a err]; try contradiction; simpl env_arrive.
  1,2,4: (split6; try (exfalso; apply Hidle; assumption); auto;
          match goal with
          | Y : side, H : can_read _ = false |- _ => apply closed_or_app, (HJ ltac:(assumption) Y H)
          end).
  (* EClosed f: f becomes unreadable and its close is the event appended *)
  destruct (pr (cf st)), f; simpl; split6; try (exfalso; apply Hidle; assumption); auto;
    try (apply HM; auto; fail); try (apply (HK ltac:(assumption)); auto; fail);
    match goal with
    | Y : side, H : can_read _ = false |- _ =>
        destruct Y; simpl in *;
        try (right; left; rewrite existsb_app; simpl; rewrite orb_true_r; reflexivity);
        try (apply closed_or_app, (HJ ltac:(assumption) Server H));
        try (apply closed_or_app, (HJ ltac:(assumption) Client H))
    end.
Qed.

Lemma I6_fresh st e out st' o :
  not_reply e -> I6 st [] out -> ph st = PStart -> waiting st = false -> crashed st = false ->
  handle (env_arrive st e) e = (st', o) -> I6 st' [] (out ++ o).
Proof.
  intros He H Eph Hw Hc Hh. unfold handle in Hh. rewrite ph_env_arrive, Eph in Hh.
  destruct e as [|f d|f|fc d|a err]; try contradiction.
  2-4: (inversion Hh; subst; intros Hc'; discriminate Hc').
  unfold I6 in *. intros Hc'. specialize (H Hc). destruct H as (HL & HM & HK & HJ).
  unfold waiting in Hw. destruct (wait st) eqn:Ew; try discriminate. clear Hw.
  simpl env_arrive in Hh.
  destruct (HL Eph eq_refl) as (_ & L1 & L2 & L3). specialize (HM Eph).
  (* the client is readable and no eof is set: start marks at most an unreadable, connected TCP server *)
  assert (Em : marked st = if server_open (cf st) && unreadable st Server then set_eof st Server else st).
  { destruct st as [c p w q0 cl sv f x ec es]. simpl in *. subst ec es. unfold marked, unreadable. simpl.
    rewrite L1. destruct (pr c); simpl; rewrite ?andb_false_r; try reflexivity.
    destruct (server_open c && negb (can_read sv)); reflexivity. }
  rewrite start_eq, Em in Hh. unfold start_open, has_flow, unreadable in Hh.
  split_run Hh; inversion Hh; subst; clear Hh; simpl in *; rewrite ?Ew in *; try discriminate.
  all: split6; try congruence; try discriminate.
  all: j6 HJ.
  all: try (intuition congruence).
  (* what is left: the server is unreadable and was not marked, hence not connected yet *)
  all: match goal with H : can_read (server _) = false |- _ => rewrite H in * end.
  all: destruct (server_open (cf st)), (pr (cf st)); simpl in *; try discriminate;
    try (discriminate (L3 eq_refl eq_refl)); auto 8.
Qed.

Definition I26 st q out : Prop := I2 st q out /\ I6 st q out.

Lemma I26_handle st e q out st' o :
  I26 st (e :: q) out -> waiting st = false -> crashed st = false -> handle st e = (st', o) -> I26 st' q (out ++ o).
Proof. intros [A B] Hw Hc Hh. split; [eapply I2_handle | eapply I6_handle]; eauto. Qed.

Lemma I26_direct st e out st' o :
  not_reply e -> begun st e = false -> I26 st [] out -> waiting st = false -> crashed st = false ->
  handle (env_arrive st e) e = (st', o) -> I26 st' [] (out ++ o).
Proof.
  intros He Hb [A B] Hw Hc Hh. unfold begun in Hb. destruct (ph st) eqn:Eph; try discriminate.
  split; [|eapply I6_fresh; eauto].
  exact (handled_at_once I2 st e out st' o I2_handle (I2_arrive st [] out e He Hc A) Hw Hc Hh).
Qed.

Lemma both_closed_ends pol c evs :
  let '(st, out) := run pol (init c) evs in
  crashed st = false -> wait st = NoWait -> ph st <> PDone ->
  can_read (client st) || can_read (server st) = true.
Proof.
  destruct (run pol (init c) evs) as [st out] eqn:H.
  assert (H0 : Inv I26 (init c) []).
  { split; [|reflexivity]. split.
    - split; [exact Logic.I|]. unfold ended, has_flow. simpl. rewrite andb_false_r. reflexivity.
    - unfold I6. simpl. intros _. split6; auto; try discriminate.
      + unfold connected_state. destruct (server_open c); [|discriminate].
        match goal with E : pr c = UDP |- _ => rewrite E end. reflexivity.
      + destruct Y; simpl in *; [discriminate|]. right; right. auto. }
  assert (HR : Inv I26 st ([] ++ out)).
  { refine (I_run pol Gtrue I26 I26_handle begun _ _ _ (fun _ _ _ _ h => h) evs _ _ _ _ (guarded_true pol evs _) H0 H).
    - intros s e ou s' o' _. apply I26_direct.
    - intros s q ou e _ He Hw Hc [A B]. split; [apply I2_arrive | apply I6_enqueue]; auto.
    - intros s q ou a a0 err s' o' _ [A B] Hw Hc Hr. split; [eapply I2_resume | eapply I6_resume]; eauto. apply A. }
  destruct HR as [[_ HI] HS].
  intros Hc Hw Hp. unfold I6 in HI.
  assert (Hq : queue st = []) by (apply HS; [unfold waiting; rewrite Hw; reflexivity | exact Hc]).
  rewrite Hq in HI. destruct (HI Hc) as (HL & HM & HK & HJ).
  destruct (can_read (client st)) eqn:E1; [reflexivity|].
  destruct (can_read (server st)) eqn:E2; [reflexivity|]. exfalso.
  destruct (HJ Hp Client E1) as [A|[A|(A & _)]]; simpl in A; try discriminate.
  destruct (HJ Hp Server E2) as [B|[B|(_ & B & _)]]; simpl in B; try discriminate.
  - exact (HK Hp A B).
  - rewrite (HM B) in A. discriminate.
Qed.
