(* Proofs/RawRelayLoss.v -- the environment contract [respects] (data and closes only from readable
   peers, connect succeeds; calm: ConnectionClosed is never delivered while the layer is paused) and
   what holds under it: the no-loss argument for any invariant bounded by the measure mu and its UDP
   instance; nothing is sent to a connection the layer has shut (guards calm + injects_live, with the
   refuting schedule); the half-close step; the statements and witnesses used by Props/C29.v. *)
From Coq Require Import List Bool Arith Lia.
From MV Require Import Base.Bytes Model.RawRelay Proofs.RawRelay.
Import ListNotations.

Definition started st : bool :=
  negb (match ph st, wait st with PStart, NoWait => true | _, _ => false end).
Definition is_data (s : side) (e : event) : bool :=
  match e with EData f _ => side_eqb f s | _ => false end.
Definition count_data (s : side) (l : list event) : nat := length (filter (is_data s) l).

(* what server.py can deliver in state st.  calm = true additionally demands that a
   ConnectionClosed is delivered only while the layer is not paused. *)
Definition allowed (calm : bool) st (e : event) : bool :=
  match e with
  | EStart => negb (started st)
  | EData s _ => started st && can_read (conn_of st s)
  | EClosed s => started st && can_read (conn_of st s) && (negb calm || negb (waiting st))
  | EInject _ _ => started st
  | EReply _ err => negb (err && match wait st with WOpen => true | _ => false end)
  end.
Fixpoint respects (calm : bool) (pol : policy) st (evs : list event) : bool :=
  match evs with
  | [] => true
  | e :: r => allowed calm st e && respects calm pol (fst (arrive pol st e)) r
  end.

Lemma waiting_started st : waiting st = true -> started st = true.
Proof. unfold waiting, started. destruct (wait st), (ph st); intros A; try discriminate; reflexivity. Qed.

Lemma started_PStart st : started st = true -> ph st = PStart -> waiting st = true.
Proof. unfold waiting, started. intros A B. rewrite B in A. destruct (wait st); [discriminate|reflexivity..]. Qed.

Definition payload_only (e : event) : bool :=
  match e with EData _ _ | EInject _ _ => true | _ => false end.
(* the no-loss measure: chunks from X recorded in the flow plus chunks from X still queued *)
Definition mu (X : side) st (q : list event) : nat :=
  length (rec_of (is_client X) (messages (fl st))) + count_data X q.

Lemma count_data_app X a b : count_data X (a ++ b) = count_data X a + count_data X b.
Proof. unfold count_data. rewrite filter_app, app_length. reflexivity. Qed.

Lemma count_data_cons X e q : count_data X (e :: q) = (if is_data X e then 1 else 0) + count_data X q.
Proof. unfold count_data. simpl. destruct (is_data X e); reflexivity. Qed.

Lemma side_eqb_is_client f X : side_eqb f X = Bool.eqb (is_client f) (is_client X).
Proof. destruct f, X; reflexivity. Qed.

Lemma len_rec_cons fc m ms :
  length (rec_of fc (m :: ms)) = length (rec_of fc ms) + (if Bool.eqb (fst m) fc then 1 else 0).
Proof. rewrite rec_of_cons, app_length. destruct (Bool.eqb (fst m) fc); reflexivity. Qed.

Lemma len_rec_edit fc f a :
  length (rec_of fc (messages (apply_kill (apply_edit f a) a))) = length (rec_of fc (messages f)).
Proof.
  rewrite messages_apply_kill. unfold apply_edit.
  destruct (edit a) as [c|]; [|reflexivity]. destruct (messages f) as [|[fc0 c0] ms] eqn:Em; simpl; rewrite ?Em; [reflexivity|].
  rewrite !len_rec_cons. reflexivity.
Qed.

(* The no-loss argument, for any family J X k of invariants that bound k by the measure mu:
   J is preserved by every allowed step, so (taking k := mu now) mu never decreases; and a chunk from X
   that is allowed to arrive is queued or recorded at once, so mu grows by one. *)
Section NoLoss.
  Variable pol : policy.
  Variable calm : bool.
  Variable X : side.
  Variable J : nat -> state -> list event -> list cmd -> Prop.
  Hypothesis J_step : forall k st out e st' o,
    allowed calm st e = true -> Inv (J k) st out -> arrive pol st e = (st', o) -> Inv (J k) st' (out ++ o).
  Hypothesis J_rebound : forall k st q out, J k st q out -> J (mu X st q) st q out.
  Hypothesis J_reads : forall k st q out, J k st q out ->
    k <= mu X st q /\ crashed st = false /\ ignore (cf st) = false /\
    (ph st = PDone -> can_read (conn_of st X) = false).

  Lemma data_step k st out d st' o :
    Inv (J k) st out -> allowed calm st (EData X d) = true -> arrive pol st (EData X d) = (st', o) ->
    mu X st' (queue st') = mu X st (queue st) + 1.
  Proof.
    intros [H S] HG Ha. destruct (J_reads _ _ _ _ H) as (_ & Hc & Hi & Hd).
    unfold arrive in Ha. rewrite Hc in Ha. simpl env_arrive in Ha.
    unfold allowed in HG. apply andb_true_iff in HG as [Hs Hr].
    destruct (waiting st) eqn:Hw.
    - inversion Ha; subst; clear Ha. unfold mu. simpl. rewrite count_data_app.
      unfold count_data at 2. simpl. destruct X; simpl; lia.
    - rewrite (S eq_refl Hc). unfold waiting in Hw. destruct (wait st) eqn:Ew; try discriminate.
      unfold started in Hs. rewrite Ew in Hs. unfold handle in Ha.
      destruct (ph st) eqn:Eph; try discriminate.
      + unfold relay_data, has_flow in Ha. rewrite Hi in Ha. simpl in Ha. inversion Ha; subst; clear Ha.
        unfold mu. simpl. rewrite len_rec_cons. simpl. rewrite Bool.eqb_reflx.
        rewrite (S eq_refl Hc). lia.
      + rewrite (Hd eq_refl) in Hr. discriminate.
  Qed.

  Lemma no_loss_gen : forall evs k st out st' o,
    Inv (J k) st out -> respects calm pol st evs = true -> run pol st evs = (st', o) ->
    count_data X evs + mu X st (queue st) <= mu X st' (queue st').
  Proof.
    induction evs as [|e evs IH]; intros k st out st' o HI HR H; simpl in H.
    - inversion H; subst. unfold count_data. simpl. lia.
    - simpl in HR. apply andb_true_iff in HR as [HG HR].
      destruct (arrive pol st e) as [st1 o1] eqn:Ha. destruct (run pol st1 evs) as [st2 o2] eqn:Hr.
      inversion H; subst; clear H. simpl in HR.
      specialize (IH k st1 (out ++ o1) st' o2 (J_step k st out e st1 o1 HG HI Ha) HR Hr).
      assert (Hstep : (if is_data X e then 1 else 0) + mu X st (queue st) <= mu X st1 (queue st1)).
      { destruct (is_data X e) eqn:Ed.
        - destruct e as [|f d|f|fc d|a err]; try discriminate. simpl in Ed.
          assert (f = X) by (destruct f, X; try discriminate; reflexivity). subst f.
          rewrite (data_step k st out d st1 o1 HI HG Ha). lia.
        - destruct HI as [HI HS].
          destruct (J_step _ st out e st1 o1 HG (conj (J_rebound _ _ _ _ HI) HS) Ha) as [HI1 _].
          exact (proj1 (J_reads _ _ _ _ HI1)). }
      rewrite count_data_cons. lia.
  Qed.

  Lemma no_loss c evs :
    Inv (J 0) (init c) [] -> respects calm pol (init c) evs = true ->
    let '(st, out) := run pol (init c) evs in
    count_data X evs <= length (recorded (is_client X) (fl st)) + count_data X (queue st).
  Proof.
    intros H0 HR. destruct (run pol (init c) evs) as [st out] eqn:H.
    pose proof (no_loss_gen evs 0 (init c) [] st out H0 HR H) as L.
    unfold mu in L. simpl in L. unfold count_data in L at 2. simpl in L.
    unfold recorded. fold (rec_of (is_client X) (messages (fl st))). lia.
  Qed.
End NoLoss.

(* UDP under the calm contract: the queue holds payload only, and when the first close ends the flow
   (handled at once, so with an empty queue) both peers are unreadable: no chunk arrives or waits after that. *)
Definition I4 (X : side) (k : nat) st (q : list event) (out : list cmd) : Prop :=
  pr (cf st) = UDP /\ ignore (cf st) = false /\ wait_ph_ok st /\ crashed st = false /\ wait st <> WErrorHook /\
  forallb payload_only q = true /\
  (ph st = PStart -> waiting st = true \/ q = []) /\
  (ph st = PDone -> count_data X q = 0 /\ can_read (client st) = false /\ can_read (server st) = false) /\
  k <= mu X st q.

Definition G4 st e : Prop := allowed true st e = true.

Ltac inv4 H := destruct H as (Hu & Hi & Hp & Hc & Hne & Hq & Hn & Hd & Hk).

Lemma I4_handle X k st e q out st' o :
  I4 X k st (e :: q) out -> waiting st = false -> crashed st = false -> handle st e = (st', o) -> I4 X k st' q (out ++ o).
Proof.
  intros H Hw _ Hh. inv4 H. unfold waiting in Hw. destruct (wait st) eqn:Ew; try discriminate. clear Hw.
  simpl in Hq. apply andb_true_iff in Hq as [He Hq].
  unfold I4, mu in *. unfold handle in Hh.
  destruct (ph st) eqn:Eph.
  - (* PStart with a non-empty queue and not waiting: excluded *)
    destruct (Hn eq_refl) as [A|A]; [unfold waiting in A; rewrite Ew in A|]; discriminate.
  - destruct e as [|f d|f|fc d|a err]; try discriminate; simpl in Hh;
      unfold relay_data, has_flow in Hh; rewrite Hi in Hh; simpl in Hh; inversion Hh; subst; clear Hh;
      simpl; unfold wait_ph_ok; simpl; rewrite Eph;
      (repeat split; auto; try discriminate; try (intros A; discriminate)).
    all: rewrite count_data_cons in Hk; simpl in Hk; rewrite ?side_eqb_is_client in Hk; rewrite len_rec_cons; simpl; lia.
  - (* PDone: the event is dropped; it is not a chunk from X *)
    destruct (Hd eq_refl) as (D0 & D1 & D2). rewrite count_data_cons in D0, Hk.
    destruct (is_data X e); [discriminate|]. simpl in D0, Hk.
    destruct e as [|f d|f|fc d|a err]; try discriminate; simpl in Hh; inversion Hh; subst; clear Hh.
    all: repeat split; auto; intros A; congruence.
Qed.

Lemma I4_intro X k st q (out : list cmd) :
  pr (cf st) = UDP -> ignore (cf st) = false -> wait_ph_ok st -> crashed st = false -> wait st <> WErrorHook ->
  forallb payload_only q = true -> (ph st = PStart -> waiting st = true \/ q = []) ->
  (ph st = PDone -> count_data X q = 0) -> (ph st = PDone -> can_read (client st) = false) ->
  (ph st = PDone -> can_read (server st) = false) -> k <= mu X st q -> I4 X k st q out.
Proof. unfold I4. intuition. Qed.

Lemma I4_enqueue X k st q out e :
  G4 st e -> not_reply e -> waiting st = true \/ payload_only e = true -> crashed st = false ->
  I4 X k st q out -> I4 X k (env_arrive st e) (q ++ [e]) out.
Proof.
  intros HG He Hw _ H. inv4 H. unfold G4, allowed in HG.
  destruct e as [|f d|f|fc d|a err]; try contradiction; simpl env_arrive.
  - (* EStart while waiting: not allowed *)
    destruct Hw as [Hw|Hw]; [|discriminate]. rewrite (waiting_started st Hw) in HG. discriminate.
  - apply andb_true_iff in HG as [Hs Hr]. pose proof (started_PStart st Hs) as Hw'.
    apply I4_intro; auto.
    all: try (rewrite forallb_app, Hq; reflexivity).
    all: try (intros A; apply (Hd A)).
    all: try (unfold mu in *; rewrite count_data_app; lia).
    intros A. destruct (Hd A) as (D0 & D1 & D2). rewrite count_data_app, D0.
    unfold count_data. simpl. destruct (side_eqb f X) eqn:Ef; [|reflexivity].
    destruct f; simpl in Hr; congruence.
  - (* EClosed while waiting: not allowed under calm *)
    destruct Hw as [Hw|Hw]; [|discriminate].
    apply andb_true_iff in HG as [_ Hcalm]. simpl in Hcalm. rewrite Hw in Hcalm. discriminate.
  - pose proof (started_PStart st HG) as Hw'.
    apply I4_intro; auto.
    all: try (rewrite forallb_app, Hq; reflexivity).
    all: try (intros A; apply (Hd A)).
    all: try (unfold mu in *; rewrite count_data_app; lia).
    intros A. destruct (Hd A) as (D0 & D1 & D2). rewrite count_data_app, D0. reflexivity.
Qed.

Ltac fin4 Hd :=
  apply I4_intro; unfold wait_ph_ok; simpl; auto;
  try discriminate; try (intros A; discriminate); try (intros A; congruence);
  try (intros A; apply (Hd A)); try (left; reflexivity).

Lemma I4_resume X k st q out a a0 err st' o :
  G4 st (EReply a0 err) -> I4 X k st q out -> waiting st = true -> crashed st = false ->
  resume st a err = (st', o) -> I4 X k st' q (out ++ o).
Proof.
  intros HG H _ _ Hr. inv4 H. unfold G4, allowed in HG. unfold mu in Hk.
  unfold wait_ph_ok in Hp. unfold resume in Hr.
  destruct (wait st) eqn:Ew.
  - inversion Hr; subst. fin4 Hd. rewrite Ew. exact Logic.I.
  - (* start hook *)
    unfold_layer. unfold has_flow in *. simpl in Hr.
    destruct (negb (server_open (cf st))); inversion Hr; subst; clear Hr; fin4 Hd;
      unfold mu; simpl; rewrite ?messages_apply_kill; auto.
  - (* OpenConnection: err = false by the guard *)
    destruct err; [discriminate|].
    unfold_layer. simpl in Hr. rewrite ?Hu in Hr. inversion Hr; subst; clear Hr. fin4 Hd.
  - congruence.
  - (* message hook *)
    unfold_layer. inversion Hr; subst; clear Hr. fin4 Hd.
    unfold mu; simpl. rewrite len_rec_edit. exact Hk.
  - (* end hook *)
    unfold_layer. inversion Hr; subst; clear Hr. fin4 Hd.
    unfold mu; simpl. rewrite messages_apply_kill. exact Hk.
Qed.

Lemma I4_direct X k st e out st' o :
  G4 st e -> not_reply e -> payload_only e = false -> I4 X k st [] out -> waiting st = false -> crashed st = false ->
  handle (env_arrive st e) e = (st', o) -> I4 X k st' [] (out ++ o).
Proof.
  intros HG He Hpay H Hw Hcr Hh. inv4 H. unfold G4, allowed in HG.
  unfold waiting in Hw. destruct (wait st) eqn:Ew; try discriminate. clear Hw.
  unfold mu in Hk. unfold count_data in Hk. simpl in Hk.
  destruct e as [|f d|f|fc d|a err]; try contradiction; try discriminate; simpl env_arrive in Hh.
  - (* EStart *)
    unfold started in HG. rewrite Ew in HG. destruct (ph st) eqn:Eph; try discriminate.
    unfold handle in Hh. rewrite Eph in Hh. unfold start, mark_unreadable, has_flow in Hh.
    rewrite Hu in Hh. destruct (server_open (cf st)); rewrite ?Hu, Hi in Hh; simpl in Hh;
      inversion Hh; subst; clear Hh; fin4 Hd.
  - (* EClosed: UDP closes the other side and ends the flow, both peers are unreadable from now on *)
    apply andb_true_iff in HG as [HG _]. apply andb_true_iff in HG as [Hs Hr].
    unfold started in Hs. rewrite Ew in Hs.
    assert (Eph : ph st = PRelay).
    { destruct (ph st) eqn:Eph; try discriminate; [reflexivity|].
      destruct (Hd eq_refl) as (_ & D1 & D2). destruct f; simpl in Hr; congruence. }
    rewrite Hu in Hh. unfold handle, relay_closed, end_flow, yield, has_flow in Hh.
    destruct f; simpl in Hh; rewrite Eph, Hu, Hi in Hh; simpl in Hh; inversion Hh; subst; clear Hh; fin4 Hd.
Qed.

Lemma I4_step pol X k st out e st' o :
  G4 st e -> Inv (I4 X k) st out -> arrive pol st e = (st', o) -> Inv (I4 X k) st' (out ++ o).
Proof.
  apply (I_step pol G4 (I4 X k) (I4_handle X k) (fun _ => payload_only)).
  - apply I4_direct.
  - apply I4_enqueue.
  - apply I4_resume.
  - intros s q ou q' H; exact H.
Qed.

Lemma I4_rebound X k st q out : I4 X k st q out -> I4 X (mu X st q) st q out.
Proof. intros H. inv4 H. apply I4_intro; auto; intros A; apply (Hd A). Qed.

Lemma I4_reads X k st q out :
  I4 X k st q out ->
  k <= mu X st q /\ crashed st = false /\ ignore (cf st) = false /\ (ph st = PDone -> can_read (conn_of st X) = false).
Proof. intros H. inv4 H. repeat split; auto. intros A. destruct X; apply (Hd A). Qed.

Lemma I4_init X c : pr c = UDP -> ignore c = false -> Inv (I4 X 0) (init c) [].
Proof.
  intros Hu Hi. split; [|reflexivity]. unfold I4. simpl.
  repeat split; auto; try discriminate; try (intros A; discriminate); lia.
Qed.

(* T4 for UDP, under the calm contract: every chunk that arrived from X is recorded in the flow or still
   waits in the event queue *)
Lemma no_loss_udp pol c evs X :
  pr c = UDP -> ignore c = false -> respects true pol (init c) evs = true ->
  let '(st, out) := run pol (init c) evs in
  count_data X evs <= length (recorded (is_client X) (fl st)) + count_data X (queue st).
Proof.
  intros Hu Hi. apply (no_loss pol true X (I4 X) (I4_step pol X) (I4_rebound X) (I4_reads X)). apply I4_init; assumption.
Qed.

(* T5: nothing is sent to a connection after the layer closed (its write side) *)
Definition is_shut (Y : side) (c : cmd) : bool :=
  match c with HalfClose s | CloseConnection s => side_eqb s Y | _ => false end.
Definition shut_in (Y : side) (out : list cmd) : bool := existsb (is_shut Y) out.
(* true iff some SendData goes to a side that is already shut (sc/ss: shut before [out] starts) *)
Fixpoint late_from (sc ss : bool) (out : list cmd) : bool :=
  match out with
  | [] => false
  | c :: r => (match c with SendData Client _ => sc | SendData Server _ => ss | _ => false end)
              || late_from (sc || is_shut Client c) (ss || is_shut Server c) r
  end.
Definition late_send (out : list cmd) : bool := late_from false false out.

Lemma late_app : forall a b sc ss,
  late_from sc ss (a ++ b) = late_from sc ss a || late_from (sc || shut_in Client a) (ss || shut_in Server a) b.
Proof.
  induction a as [|c a IH]; intros b sc ss; simpl.
  - rewrite !orb_false_r. reflexivity.
  - rewrite IH, !orb_assoc. reflexivity.
Qed.

Definition from_side (X : side) (e : event) : bool :=
  match e with EData f _ => side_eqb f X | EInject fc _ => side_eqb (side_of fc) X | _ => false end.
Definition count_from (X : side) (q : list event) : nat := length (filter (from_side X) q).
(* injections are made only on behalf of a peer that has not closed yet *)
Definition inject_live st (e : event) : bool :=
  match e with EInject fc _ => can_read (conn_of st (side_of fc)) | _ => true end.
Fixpoint injects_live (pol : policy) st (evs : list event) : bool :=
  match evs with
  | [] => true
  | e :: r => inject_live st e && injects_live pol (fst (arrive pol st e)) r
  end.

(* nothing more will be sent to Y *)
Definition quiet (Y : side) st (q : list event) : Prop :=
  ph st <> PStart /\ can_read (conn_of st (other Y)) = false /\ count_from (other Y) q = 0 /\ wait st <> WMsgHook Y.
Definition E5 st : Prop :=
  (forall Y, eof_of st Y = true -> can_read (conn_of st Y) = false) /\
  (ph st = PStart -> server_open (cf st) = false -> eof_s st = false) /\
  (wait st = WOpen -> server_open (cf st) = false).
(* Once a side Y has been shut in the trace, quiet Y must hold from then on; E5 ties the eof flags to the read bits
   so that quiet survives the steps; the rest is the bookkeeping shared with the no-loss invariants. *)
Definition I5 st (q : list event) (out : list cmd) : Prop :=
  E5 st /\ wait_ph_ok st /\ crashed st = false /\ wait st <> WErrorHook /\ forallb payload_only q = true /\
  (ph st = PStart -> waiting st = true \/ q = []) /\
  late_send out = false /\
  (shut_in Client out = true -> quiet Client st q) /\ (shut_in Server out = true -> quiet Server st q).
Definition G5 st e : Prop := allowed true st e = true /\ inject_live st e = true.

Lemma count_from_app X a b : count_from X (a ++ b) = count_from X a + count_from X b.
Proof. unfold count_from. rewrite filter_app, app_length. reflexivity. Qed.

Definition is_send (Y : side) (c : cmd) : bool :=
  match c with SendData s _ => side_eqb s Y | _ => false end.
Definition has_send (Y : side) (o : list cmd) : bool := existsb (is_send Y) o.

Lemma late_from_flags : forall o sc ss,
  late_from sc ss o = late_from false false o || sc && has_send Client o || ss && has_send Server o.
Proof.
  induction o as [|c o IH]; intros sc ss; simpl.
  - rewrite !andb_false_r. reflexivity.
  - rewrite (IH (sc || is_shut Client c) (ss || is_shut Server c)).
    rewrite (IH (is_shut Client c) (is_shut Server c)).
    destruct (late_from false false o), (has_send Client o), (has_send Server o), sc, ss;
      destruct c as [| | | | |[] d|[]|[]]; reflexivity.
Qed.

Lemma I5_extend st q out st' q' o :
  I5 st q out ->
  E5 st' -> wait_ph_ok st' -> crashed st' = false -> wait st' <> WErrorHook -> forallb payload_only q' = true ->
  (ph st' = PStart -> waiting st' = true \/ q' = []) ->
  late_send o = false ->
  (forall Y, quiet Y st q -> has_send Y o = false /\ quiet Y st' q') ->
  (forall Y, shut_in Y o = true -> quiet Y st' q') ->
  I5 st' q' (out ++ o).
Proof.
  intros (_ & _ & _ & _ & _ & _ & Hl & HC & HS) A0 A1 A2 A3 A4 A5 Ho Hpres Hnew.
  unfold I5. repeat (split; [assumption|]).
  split.
  - unfold late_send in *. rewrite late_app, Hl, late_from_flags, Ho. simpl.
    destruct (shut_in Client out) eqn:EC; destruct (shut_in Server out) eqn:ES; simpl;
      try (destruct (Hpres Client (HC eq_refl)) as [-> _]); try (destruct (Hpres Server (HS eq_refl)) as [-> _]);
      reflexivity.
  - split; intros H; unfold shut_in in *; rewrite existsb_app in H; apply orb_true_iff in H as [H|H].
    + apply (Hpres Client (HC H)).
    + apply (Hnew Client H).
    + apply (Hpres Server (HS H)).
    + apply (Hnew Server H).
Qed.

(* solve_quiet / solveE close the side conditions of I5_extend about quiet and E5 once the step is concrete (state and
   output written out): every side and boolean in sight is split and the residue is propositional *)
Ltac solve_quiet :=
  unfold quiet, count_from, has_send, shut_in, late_send, wait_ph_ok in *; simpl in *;
  repeat match goal with
  | |- forall _, _ => intro
  end;
  repeat match goal with
  | Y : side |- _ => destruct Y
  | b : bool |- _ => destruct b
  end; simpl in *;
  repeat match goal with
  | H : negb _ = true |- _ => apply negb_true_iff in H
  | H : negb _ = false |- _ => apply negb_false_iff in H
  | H : _ || _ = false |- _ => apply orb_false_iff in H; destruct H
  end; simpl in *; intuition (try congruence; try discriminate; try lia).

Ltac solveE HE :=
  let E1 := fresh "E1" in let E2 := fresh "E2" in
  let E3 := fresh "E3" in
  destruct HE as (E1 & E2 & E3); unfold E5; simpl; split; [|split];
  [ let Y := fresh "Y" in intros Y; pose proof (E1 Client); pose proof (E1 Server); destruct Y; simpl in *;
    repeat match goal with
    | H : negb _ = true |- _ => apply negb_true_iff in H
    | H : negb _ = false |- _ => apply negb_false_iff in H
    end; intuition congruence
  | simpl in *; intuition congruence
  | simpl in *; repeat match goal with
    | H : negb _ = true |- _ => apply negb_true_iff in H
    | H : negb _ = false |- _ => apply negb_false_iff in H
    end; intuition congruence ].

Ltac inv5 H := destruct H as (HE & Hp & Hc & Hne & Hq & Hn & Hl & HQC & HQS).

Lemma I5_handle st e q out st' o :
  I5 st (e :: q) out -> waiting st = false -> crashed st = false -> handle st e = (st', o) -> I5 st' q (out ++ o).
Proof.
  intros H Hw _ Hh. pose proof H as H0. inv5 H.
  unfold waiting in Hw. destruct (wait st) eqn:Ew; try discriminate. clear Hw.
  simpl in Hq. apply andb_true_iff in Hq as [He Hq].
  unfold handle in Hh. destruct (ph st) eqn:Eph;
    [destruct (Hn eq_refl) as [A|A]; [unfold waiting in A; rewrite Ew in A|]; discriminate | |].
  all: destruct e as [|f d|f|fc d|a err]; try discriminate; simpl in Hh;
    unfold relay_data in Hh; split_run Hh; inversion Hh; subst; clear Hh.
  all: apply (I5_extend _ _ _ _ _ _ H0); clear H0 HQC HQS Hl; [try (solveE HE)|..|solve_quiet|solve_quiet].
  all: unfold wait_ph_ok; simpl; rewrite ?Ew; auto; try discriminate; try (intros A; congruence);
    try (destruct f; reflexivity); try (destruct fc; reflexivity).
Qed.

Lemma I5_resume st q out a a0 err st' o :
  G5 st (EReply a0 err) -> I5 st q out -> waiting st = true -> crashed st = false ->
  resume st a err = (st', o) -> I5 st' q (out ++ o).
Proof.
  intros [HG _] H _ _ Hr. pose proof H as H0. inv5 H. unfold allowed in HG.
  unfold wait_ph_ok in Hp. unfold resume in Hr.
  destruct (wait st) eqn:Ew;
    [inversion Hr; subst; rewrite app_nil_r; exact H0 | | destruct err; [discriminate|] | congruence | | ].
  all: unfold_layer; simpl in Hr; split_run Hr; inversion Hr; subst; clear Hr.
  all: apply (I5_extend _ _ _ _ _ _ H0); clear H0 HQC HQS Hl; [try (solveE HE)|..|solve_quiet|solve_quiet].
  all: unfold wait_ph_ok; simpl; auto; try discriminate; try (intros A; congruence);
    try (left; reflexivity); try (destruct to; reflexivity).
Qed.

(* a payload event from a peer that can still send may join the queue behind a shut side *)
Lemma quiet_enqueue Y st q e :
  (forall X, from_side X e = true -> can_read (conn_of st X) = true) -> quiet Y st q -> quiet Y st (q ++ [e]).
Proof.
  intros Hr (Q1 & Q2 & Q3 & Q4). unfold quiet. rewrite count_from_app, Q3. repeat split; auto.
  unfold count_from. simpl. destruct (from_side (other Y) e) eqn:E; [|reflexivity].
  rewrite (Hr _ E) in Q2. discriminate.
Qed.

Lemma I5_enqueue st q out e :
  G5 st e -> not_reply e -> waiting st = true \/ payload_only e = true -> crashed st = false ->
  I5 st q out -> I5 (env_arrive st e) (q ++ [e]) out.
Proof.
  intros [HG HL] He Hw _ H. pose proof H as H0. inv5 H. unfold allowed in HG. unfold inject_live in HL.
  rewrite <- (app_nil_r out).
  assert (Hr : payload_only e = true -> started st = true /\
               forall X, from_side X e = true -> can_read (conn_of st X) = true).
  { destruct e as [|f d|f|fc d|a err]; try discriminate; intros _.
    - apply andb_true_iff in HG as [Hs Hr]. split; [exact Hs|]. intros X E. simpl in E.
      destruct f, X; try discriminate; exact Hr.
    - split; [exact HG|]. intros X E. simpl in E. destruct fc, X; try discriminate; exact HL. }
  destruct e as [|f d|f|fc d|a err]; try contradiction; simpl env_arrive.
  2, 4: (* EData, EInject *)
    (destruct (Hr eq_refl) as [Hs Hc']; pose proof (started_PStart st Hs) as Hw';
     apply (I5_extend _ _ _ _ _ _ H0); auto; [rewrite forallb_app, Hq; reflexivity | | discriminate];
     intros Y HQ; split; [reflexivity | apply quiet_enqueue; assumption]).
  all: destruct Hw as [Hw|Hw]; [|discriminate].
  - (* EStart while waiting: not allowed *)
    rewrite (waiting_started st Hw) in HG. discriminate.
  - (* EClosed while waiting: not allowed under calm *)
    apply andb_true_iff in HG as [_ Hcalm]. simpl in Hcalm. rewrite Hw in Hcalm. discriminate.
Qed.

Lemma E5_marked st : E5 st -> E5 (marked st).
Proof.
  intros (E1 & E2 & E3). split; [|split; [|exact E3]].
  - intros Y A. destruct (eof_marked st Y A) as [B|B]; [exact (E1 Y B) | destruct Y; exact B].
  - intros A B. simpl in *. rewrite B. simpl. rewrite orb_false_r. exact (E2 A B).
Qed.

Lemma I5_direct st e out st' o :
  G5 st e -> not_reply e -> payload_only e = false -> I5 st [] out -> waiting st = false -> crashed st = false ->
  handle (env_arrive st e) e = (st', o) -> I5 st' [] (out ++ o).
Proof.
  intros [HG HL] He Hpay H Hw Hcr Hh. pose proof H as H0. inv5 H. unfold allowed in HG.
  unfold waiting in Hw. destruct (wait st) eqn:Ew; try discriminate. clear Hw.
  pose proof (proj1 HE Client) as HEc. pose proof (proj1 HE Server) as HEs. simpl in HEc, HEs.
  unfold handle in Hh.
  destruct e as [|f d|f|fc d|a err]; try contradiction; try discriminate; simpl env_arrive in Hh.
  - (* EStart *)
    unfold started in HG. rewrite Ew in HG. destruct (ph st) eqn:Eph; try discriminate.
    simpl in Hh. rewrite start_eq in Hh. unfold start_open, has_flow in Hh. apply E5_marked in HE.
    split_run Hh; inversion Hh; subst; clear Hh.
    all: apply (I5_extend _ _ _ _ _ _ H0); clear H0 HQC HQS Hl; [try (solveE HE)|..|solve_quiet|solve_quiet].
    all: unfold wait_ph_ok; simpl; auto; try discriminate; try (intros A; congruence).
  - (* EClosed *)
    apply andb_true_iff in HG as [HG _]. apply andb_true_iff in HG as [Hs Hr].
    unfold started in Hs. rewrite Ew in Hs.
    unfold relay_closed, close_if_open, end_flow, yield, has_flow, env_cmd, set_conn in Hh.
    destruct (ph st) eqn:Eph; try discriminate;
      destruct (pr (cf st)) eqn:Epr, f; simpl in Hh; rewrite ?Eph, ?Epr in Hh; simpl in Hh;
      split_run Hh; inversion Hh; subst; clear Hh.
    all: apply (I5_extend _ _ _ _ _ _ H0); clear H0 HQC HQS Hl; [try (solveE HE)|..|solve_quiet|solve_quiet].
    all: unfold wait_ph_ok; simpl; rewrite ?Ew; auto; try discriminate; try (intros A; congruence).
Qed.

Lemma guarded5 pol : forall evs st,
  respects true pol st evs = true -> injects_live pol st evs = true -> guarded pol G5 st evs.
Proof.
  induction evs as [|e evs IH]; intros st HR HL; simpl; [exact Logic.I|].
  simpl in HR, HL. apply andb_true_iff in HR as [A HR]. apply andb_true_iff in HL as [B HL].
  split; [split; assumption|]. apply IH; assumption.
Qed.

Lemma I5_init c : Inv I5 (init c) [].
Proof.
  split; [|reflexivity]. unfold I5, E5. simpl.
  repeat split; auto; try discriminate; try (intros A; discriminate).
  intros Y A. destruct Y; discriminate.
Qed.

Lemma no_late_send pol c evs :
  respects true pol (init c) evs = true -> injects_live pol (init c) evs = true ->
  late_send (snd (run pol (init c) evs)) = false.
Proof.
  intros HR HL. destruct (run pol (init c) evs) as [st out] eqn:H.
  pose proof (I_run pol G5 I5 I5_handle (fun _ => payload_only) I5_direct I5_enqueue I5_resume (fun _ _ _ _ h => h) evs _ _ _ _
                    (guarded5 pol evs _ HR HL) (I5_init c) H) as [HI _].
  inv5 HI. exact Hl.
Qed.

(* T3: a close handled while the peer is still readable is propagated as a half-close (and nothing else),
   the layer keeps relaying, and the next chunk from the peer goes through the hook and is sent, with
   the addon edit, to the side that closed *)
Lemma half_close_step pol st from :
  crashed st = false -> pr (cf st) = TCP -> ph st = PRelay -> wait st = NoWait -> queue st = [] ->
  eof_of st (other from) = false ->
  let '(st1, o1) := arrive pol st (EClosed from) in
  o1 = [HalfClose (other from)] /\ ph st1 = PRelay /\ wait st1 = NoWait /\ crashed st1 = false /\
  can_read (conn_of st1 from) = false /\ eof_of st1 from = true /\ eof_of st1 (other from) = false /\
  can_write (conn_of st1 (other from)) = false /\
  forall d, let '(st2, o2) := arrive pol st1 (EData (other from) d) in
    if ignore (cf st) then o2 = [SendData from d]
    else o2 = [MessageHook] /\
         forall a err, snd (arrive pol st2 (EReply a err)) =
           [SendData from (match edit (pol (messages (fl st2)) a) with Some c => c | None => d end)].
Proof.
  destruct st as [[p ig so un] ph0 w q [clr clw] [svr svw] f cr ec es]. simpl. intros -> -> -> -> -> Hr.
  destruct from; simpl in Hr; subst; unfold arrive; simpl; [destruct svw | destruct clw].
  all: simpl; (repeat split; auto); intros d; destruct ig; simpl; auto.
  all: (split; [reflexivity|]); intros a err; unfold apply_edit; simpl.
  all: destruct (edit (pol _ a)); unfold last_content; rewrite messages_apply_kill; reflexivity.
Qed.

(* the schedule that refutes T5 without the injects_live guard, and the demonstration run of C29_nonvacuous *)
Definition keep : action := mkAction None false.
Definition late_witness : list event :=
  [EStart; EReply keep false; EClosed Client; EInject true [x61]; EReply keep false].
Lemma no_late_send_refuted :
  exists pol c evs,
    respects true pol (init c) evs = true /\ late_send (snd (run pol (init c) evs)) = true.
Proof. exists pol_id, (mkCfg TCP false true false), late_witness. vm_compute. split; reflexivity. Qed.

Definition demo : list event :=
  [EStart; EReply keep false; EReply keep false;
   EData Client [x61]; EData Server [x62]; EReply (mkAction (Some [x41; x42]) false) false; EReply keep false;
   EClosed Client; EData Server [x63]; EInject false [x64]; EReply (mkAction None true) false; EReply keep false;
   EClosed Server; EReply keep false].
Lemma demo_run :
  let c := mkCfg TCP false false false in
  respects true pol_id (init c) demo = true /\ injects_live pol_id (init c) demo = true /\
  let '(st, out) := run pol_id (init c) demo in
  out = [StartHook; OpenConnection; MessageHook; SendData Server [x41; x42]; MessageHook; SendData Client [x62];
         HalfClose Server; MessageHook; SendData Client [x63]; MessageHook; SendData Client [x64];
         CloseConnection Client; EndHook] /\
  ph st = PDone /\ wait st = NoWait /\ f_live (fl st) = false /\ f_error (fl st) = true /\
  recorded true (fl st) = [[x41; x42]] /\ recorded false (fl st) = [[x62]; [x63]; [x64]].
Proof. vm_compute. repeat split; reflexivity. Qed.
