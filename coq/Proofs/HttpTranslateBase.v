(* Proofs/HttpTranslateBase.v -- C06: per-byte facts, trimming, multidict operations, decimal numbers, and what the
   hyper-h2 validation contract (h2_validate) gives for every field of an accepted header block. *)
From Coq Require Import List Bool NArith ZArith Lia.
From MV Require Import Base.Bytes Model.Http1Msg Model.Rfc9112 Model.HttpTranslate Proofs.DecOfN Proofs.Http1Lines Proofs.Http1Roundtrip
  Proofs.Http1Framing.
Import ListNotations.

(* how the byte classes of the h2 side sit in those of RFC 9112; one pass over the bytes for all four *)
Lemma byte_classes c :
  method_char c = is_tchar c
  /\ (h2_name_char_ok c = true -> to_lower c = c)
  /\ is_bad_value_char c = (is_cr_or_nul c || byte_eqb rLF c)
  /\ negb (bad_path_char c) = is_vchar_obs c.
Proof.
  assert (H : forall c, Bool.eqb (method_char c) (is_tchar c) && implb (h2_name_char_ok c) (byte_eqb (to_lower c) c)
                        && Bool.eqb (is_bad_value_char c) (is_cr_or_nul c || byte_eqb rLF c)
                        && Bool.eqb (negb (bad_path_char c)) (is_vchar_obs c) = true)
    by (apply forall_bytes; vm_compute; reflexivity).
  specialize (H c). apply andb_true_iff in H as [H P]. apply andb_true_iff in H as [H B]. apply andb_true_iff in H as [M N].
  repeat split; try (apply eqb_prop; assumption). intros E. rewrite E in N. apply byte_eqb_eq. exact N.
Qed.
Lemma method_char_is_tchar c : method_char c = is_tchar c.
Proof. apply byte_classes. Qed.
Lemma name_char_lower c : h2_name_char_ok c = true -> to_lower c = c.
Proof. apply byte_classes. Qed.
Lemma bad_value_char_spec c : is_bad_value_char c = is_cr_or_nul c || byte_eqb rLF c.
Proof. apply byte_classes. Qed.
Lemma path_char_vchar c : negb (bad_path_char c) = is_vchar_obs c.
Proof. apply byte_classes. Qed.

(* names accepted by h2 are already lower case *)
Lemma h2_name_lower n : forallb h2_name_char_ok n = true -> lower n = n.
Proof.
  induction n as [|c n IH]; intros H; [reflexivity|].
  cbn [forallb] in H. apply andb_true_iff in H as [Hc Hn].
  unfold lower in *. cbn [map]. rewrite (IH Hn), (name_char_lower c Hc). reflexivity.
Qed.

(* values accepted by h2: clean and without OWS at the ends *)
Lemma no_bad_clean v : existsb is_bad_value_char v = false -> clean v = true.
Proof.
  induction v as [|c v IH]; intros H; [reflexivity|].
  cbn [existsb] in H. apply orb_false_iff in H as [Hc Hv].
  rewrite bad_value_char_spec in Hc. apply orb_false_iff in Hc as [K1 K2].
  change (c :: v) with ([c] ++ v). rewrite clean_app, (IH Hv), andb_true_r.
  unfold clean, no_lf. cbn [existsb]. rewrite K1, K2. reflexivity.
Qed.

Lemma ltrim_id v : match v with [] => True | c :: _ => is_ows c = false end -> ltrim_ows v = v.
Proof. destruct v as [|c v]; intros H; [reflexivity|]. simpl. rewrite H. reflexivity. Qed.

Lemma rtrim_id v : forall d, v <> [] -> is_ows (last v d) = false -> rtrim_ows v = v.
Proof.
  induction v as [|c v IH]; intros d Hne Hl; [congruence|].
  destruct v as [|c2 v].
  - simpl in *. rewrite Hl. reflexivity.
  - assert (E : rtrim_ows (c2 :: v) = c2 :: v) by (apply (IH d); [discriminate | exact Hl]).
    change (rtrim_ows (c :: c2 :: v)) with
      (match rtrim_ows (c2 :: v) with [] => if is_ows c then [] else [c] | t => c :: t end).
    rewrite E. reflexivity.
Qed.

(* what field_inv (Http1Roundtrip) asks of a value *)
Definition vok (v : bytes) : Prop := clean v = true /\ trim_ows v = v.

Lemma h2_value_parts v : h2_value_ok v = true ->
  clean v = true /\ match v with [] => True | c :: _ => is_ows c = false end /\ rtrim_ows v = v.
Proof.
  unfold h2_value_ok. destruct v as [|c0 v]; intros H; [auto|].
  apply andb_true_iff in H as [H L]. apply andb_true_iff in H as [B F]. apply negb_true_iff in B, F, L.
  split; [apply no_bad_clean; exact B|]. split; [exact F|]. apply (rtrim_id _ c0); [discriminate | exact L].
Qed.

Lemma h2_value_vok v : h2_value_ok v = true -> vok v.
Proof.
  intros H. destruct (h2_value_parts v H) as (C & Hd & R). split; [exact C|].
  unfold trim_ows. rewrite ltrim_id by exact Hd. exact R.
Qed.

Lemma get_all_filter key h : get_all key h = map snd (filter (name_ci (lower key)) h).
Proof. reflexivity. Qed.

Lemma field_values_filter k (h : headers) : field_values k h = map snd (filter (name_ci k) h).
Proof. reflexivity. Qed.

Lemma hcontains_false key h : hcontains key h = false -> filter (name_ci (lower key)) h = [].
Proof.
  unfold hcontains. rewrite get_all_filter. destruct (filter (name_ci (lower key)) h); [reflexivity|discriminate].
Qed.

Lemma name_ci_other lk k f : k <> lk -> name_ci lk f = true -> name_ci k f = false.
Proof.
  unfold name_ci. intros N E. apply bytes_eqb_eq in E. destruct (bytes_eqb (lower (fst f)) k) eqn:E2; [|reflexivity].
  apply bytes_eqb_eq in E2. congruence.
Qed.

Lemma filter_filter_other (lk k : bytes) (h : headers) : k <> lk ->
  filter (name_ci k) (filter (fun g => negb (name_ci lk g)) h) = filter (name_ci k) h.
Proof.
  intros N. induction h as [|f h IH]; [reflexivity|]. cbn [filter].
  destruct (name_ci lk f) eqn:E; cbn [negb filter]; rewrite IH; [|reflexivity].
  rewrite (name_ci_other lk k f N E). reflexivity.
Qed.

Lemma filter_neg_self lk (h : headers) : filter (name_ci lk) (filter (fun g => negb (name_ci lk g)) h) = [].
Proof.
  induction h as [|f h IH]; [reflexivity|]. cbn [filter]. destruct (name_ci lk f) eqn:E; cbn [negb]; [exact IH|].
  cbn [filter]. rewrite E. exact IH.
Qed.

Lemma hset_go_other lk v k : k <> lk -> forall h r,
  hset_go lk v h = Some r -> filter (name_ci k) r = filter (name_ci k) h.
Proof.
  intros N. induction h as [|f h IH]; intros r H; [discriminate|]. cbn [hset_go] in H.
  destruct (name_ci lk f) eqn:E.
  - injection H as <-. cbn [filter]. rewrite (filter_filter_other lk k h N), (name_ci_other lk k f N E).
    apply (name_ci_other lk k (fst f, v) N) in E. rewrite E. reflexivity.
  - destruct (hset_go lk v h) as [r'|]; [|discriminate]. injection H as <-.
    cbn [filter]. rewrite (IH r' eq_refl). reflexivity.
Qed.

Lemma hset_go_none lk v h : filter (name_ci lk) h = [] -> hset_go lk v h = None.
Proof.
  induction h as [|f h IH]; intros H; [reflexivity|]. cbn [filter hset_go] in *.
  destruct (name_ci lk f); [discriminate|]. rewrite (IH H). reflexivity.
Qed.

Lemma hset_go_self lk v : forall h,
  match hset_go lk v h with
  | Some r => map snd (filter (name_ci lk) r) = [v]
  | None => filter (name_ci lk) h = []
  end.
Proof.
  induction h as [|f h IH]; [reflexivity|]. cbn [hset_go filter]. destruct (name_ci lk f) eqn:E.
  - cbn [filter]. change (name_ci lk (fst f, v)) with (name_ci lk f). rewrite E, filter_neg_self. reflexivity.
  - destruct (hset_go lk v h); [|exact IH]. cbn [filter]. rewrite E. exact IH.
Qed.

(* headers[key] = v: one field of that name, with value v; the fields of other names untouched; every field of the
   result is an old field, or an old field with the new value, or the new field *)
Lemma hset_self key v h : get_all key (hset key v h) = [v].
Proof.
  rewrite get_all_filter. unfold hset. pose proof (hset_go_self (lower key) v h) as S.
  destruct (hset_go (lower key) v h); [exact S|].
  rewrite filter_app, S. cbn [filter]. unfold name_ci. cbn [fst]. rewrite bytes_eqb_refl. reflexivity.
Qed.

Lemma hset_other key v k h : k <> lower key -> filter (name_ci k) (hset key v h) = filter (name_ci k) h.
Proof.
  intros N. unfold hset. destruct (hset_go (lower key) v h) as [r|] eqn:E; [exact (hset_go_other _ _ k N _ _ E)|].
  rewrite filter_app. cbn [filter]. rewrite (name_ci_other (lower key) k (key, v) N) by apply bytes_eqb_refl.
  apply app_nil_r.
Qed.

Lemma hset_go_forall (Q : header -> Prop) lk v : (forall f, Q f -> Q (fst f, v)) -> forall h r,
  Forall Q h -> hset_go lk v h = Some r -> Forall Q r.
Proof.
  intros N. induction h as [|f h IH]; intros r F H; [discriminate|]. cbn [hset_go] in H.
  inversion F as [|? ? Qf Fh]; subst.
  destruct (name_ci lk f).
  - injection H as <-. constructor; [apply N; exact Qf | exact (incl_Forall (incl_filter _ h) Fh)].
  - destruct (hset_go lk v h) as [r'|]; [|discriminate]. injection H as <-.
    constructor; [exact Qf | apply (IH r' Fh); reflexivity].
Qed.

Lemma hset_forall (Q : header -> Prop) key v h : (forall f, Q f -> Q (fst f, v)) -> Q (key, v) ->
  Forall Q h -> Forall Q (hset key v h).
Proof.
  intros N K F. unfold hset. destruct (hset_go (lower key) v h) as [r|] eqn:E.
  - exact (hset_go_forall Q _ v N h r F E).
  - apply Forall_app. split; [exact F | constructor; [exact K | constructor]].
Qed.

(* what the h2 contract gives for each field of an accepted block, pseudo-headers included *)
Definition h2_ok (f : header) : Prop :=
  h2_name_ok (fst f) = true /\ h2_value_ok (snd f) = true /\ h2_field_ok f = true.

Lemma h2_validate_all r t h : h2_validate r t h = true -> Forall h2_ok h.
Proof.
  unfold h2_validate, h2_chars_ok. intros H. apply andb_true_iff in H as [H _]. apply andb_true_iff in H as [H _].
  apply andb_true_iff in H as [C G]. rewrite forallb_forall in C, G.
  apply Forall_forall. intros f Hf. specialize (C f Hf). apply andb_true_iff in C as [Cn Cv].
  split; [exact Cn | split; [exact Cv | exact (G f Hf)]].
Qed.

(* every name is lower case, so looking a name up exactly or without regard to case is the same *)
Lemma h2_ok_exact k h : Forall h2_ok h -> values_exact k h = field_values k h.
Proof.
  intros F. unfold values_exact. rewrite field_values_filter. f_equal. apply filter_ext_in. intros f Hf.
  rewrite Forall_forall in F. destruct (F f Hf) as (N & _). unfold h2_name_ok in N. apply andb_true_iff in N as [N _].
  unfold name_ci. rewrite (h2_name_lower _ N). reflexivity.
Qed.

Lemma split_pseudo_spec : forall h acc p f,
  split_pseudo_headers h acc = Some (p, f) ->
  exists q, p = acc ++ q /\ h = q ++ f /\ Forall (fun x => is_pseudo (fst x) = true) q
            /\ match f with [] => True | x :: _ => is_pseudo (fst x) = false end.
Proof.
  induction h as [|[n v] h IH]; intros acc p f H; cbn [split_pseudo_headers] in H.
  - injection H as <- <-. exists []. rewrite app_nil_r. repeat split; constructor.
  - destruct (is_pseudo n) eqn:P.
    + destruct (mem n (map fst acc)); [discriminate|].
      destruct (IH _ _ _ H) as (q & E1 & E2 & F & T).
      exists ((n, v) :: q). rewrite E1, <- app_assoc. split; [reflexivity|]. split; [rewrite E2; reflexivity|].
      split; [constructor; [exact P | exact F] | exact T].
    + injection H as <- <-. exists []. rewrite app_nil_r. repeat split; try constructor. exact P.
Qed.

Lemma assoc_exact_in k d v : assoc_exact k d = Some v -> In (k, v) d.
Proof.
  induction d as [|[n x] d IH]; intros H; [discriminate|]. cbn [assoc_exact] in H.
  destruct (bytes_eqb n k) eqn:E.
  - apply bytes_eqb_eq in E. subst. injection H as ->. left; reflexivity.
  - right. apply IH. exact H.
Qed.

Lemma dict_pop_in k d v d' : dict_pop k d = (Some v, d') -> In (k, v) d /\ incl d' d.
Proof.
  unfold dict_pop. intros H. injection H as H1 H2. split; [apply assoc_exact_in; exact H1|].
  subst d'. apply incl_filter.
Qed.

(* a pseudo-header is never found under a name that does not start with a colon *)
Lemma filter_pseudo_prefix k q (f : headers) : Forall (fun x => is_pseudo (fst x) = true) q ->
  match k with c :: _ => byte_eqb c COLON = false | [] => True end ->
  filter (name_ci k) (q ++ f) = filter (name_ci k) f.
Proof.
  intros F K. induction F as [|[n v] q P _ IH]; [reflexivity|]. cbn [app filter]. rewrite IH.
  unfold is_pseudo in P. destruct n as [|c n]; [discriminate|]. apply byte_eqb_eq in P. subst c.
  unfold name_ci. cbn [fst lower map]. destruct k as [|c k]; [reflexivity|]. cbn [bytes_eqb].
  change (to_lower COLON) with COLON. rewrite byte_eqb_neq in K. destruct (byte_eqb COLON c) eqn:X; [|reflexivity].
  apply byte_eqb_eq in X. congruence.
Qed.

Lemma digits_value_val v : digits_value v = dec_val v 0.
Proof. apply dec_val_fold. Qed.

(* a single content-length field that h2 accepts frames the HTTP/1 message with the same number *)
Lemma digits_body_length is_request version fs cl :
  field_values r_te fs = [] -> field_values r_cl fs = [cl] -> all_digits cl = true ->
  fields_body_length is_request version fs = Some (BLLen (digits_value cl)).
Proof.
  unfold all_digits, fields_body_length. intros -> -> D. destruct cl as [|c0 cl]; [discriminate|].
  rewrite digits_value_val. exact (ref_cl_single (c0 :: cl) _ ltac:(discriminate) D (dec_value_digits _ 0%N D)).
Qed.

(* decimal rendering (dec_of_N, dec_of_Z) read back *)
Lemma dec_of_Z_nonneg z : (0 <= z)%Z -> dec_of_Z z = dec_of_N (Z.to_N z).
Proof. intros H. destruct z; [reflexivity | reflexivity | lia]. Qed.

Lemma strip_digits v : forallb is_digit v = true -> strip v = v.
Proof. intros D. exact (strip_nospace v (digits_none _ _ (fun b B => proj1 (digit_props b B)) D)). Qed.

(* int() reads what the decimal rendering writes; a digit is not a sign *)
Lemma py_int_dec z : (0 <= z)%Z -> py_int_ws (dec_of_Z z) = Some z.
Proof.
  intros H. rewrite (dec_of_Z_nonneg z H). unfold py_int_ws.
  pose proof (dec_of_N_digits (Z.to_N z)) as F. pose proof (dec_of_N_val (Z.to_N z)) as V. rewrite (strip_digits _ F).
  destruct (dec_of_N (Z.to_N z)) as [|c v] eqn:E; [destruct (dec_of_N_nonempty _ E)|].
  assert (P : py_int (c :: v) = option_map Z.of_N (int_digits (c :: v) 0 false)).
  { cbn [forallb] in F. apply andb_true_iff in F as [Hc _]. destruct c; try reflexivity; discriminate Hc. }
  rewrite P, (int_digits_dec _ _ _ F), (dec_value_digits _ _ F), V. cbn [option_map]. rewrite Z2N.id by exact H. reflexivity.
Qed.

Lemma dec_of_N_three n : (100 <= n < 1000)%N ->
  exists d1 d2 d3, dec_of_N n = [d1; d2; d3].
Proof.
  intros [L U]. unfold dec_of_N.
  assert (6 <= N.log2 n)%N by (change 6%N with (N.log2 64); apply N.log2_le_mono; lia).
  destruct (N.to_nat (N.log2 n)) as [|[|f]] eqn:E; [lia | lia |].
  cbn [dec_digits].
  assert (A : (n <? 10)%N = false) by (apply N.ltb_ge; lia).
  assert (B : (n / 10 <? 10)%N = false) by (apply N.ltb_ge, N.div_le_lower_bound; lia).
  assert (C : (n / 10 / 10 <? 10)%N = true).
  { apply N.ltb_lt, N.div_lt_upper_bound; [discriminate|]. apply N.div_lt_upper_bound; [discriminate|]. lia. }
  rewrite A, B, C. eexists _, _, _. reflexivity.
Qed.
