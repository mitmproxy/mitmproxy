(* Proofs/NextLayer.v — events that arrive before a protocol is chosen reach the chosen
   layer exactly once, in arrival order; NextLayer is transparent for the child. *)
From Coq Require Import List Bool Arith Lia.
From MV Require Import Model.LayerCore Proofs.LayerCore.
Import ListNotations.

Section NL.
  Variable CS : Type.
  Variable ch : CS -> event -> prog CS.
  Variable child_id me : nat.
  Variable ask_on_start : bool.
  Variable c0 : CS.

  Notation feed := (feed_child ch child_id).
  Notation handler := (nl_handler me ask_on_start).
  Notation ndrain := (nl_drain me ask_on_start).
  Notation step := (nl_step ch child_id me ask_on_start).
  Notation nrun := (nl_run ch child_id me ask_on_start).

  Lemma feed_app c a b :
    fst (feed c (a ++ b)) = fst (feed (fst (feed c a)) b).
  Proof.
    revert c; induction a as [|ev a IH]; intros c; simpl; [reflexivity|].
    destruct (handle_event ch child_id c ev) as [[[c1 o1] t1] f1].
    specialize (IH c1).
    destruct (feed c1 (a ++ b)) as [c2 o2]. destruct (feed c1 a) as [c3 o3].
    simpl in *. exact IH.
  Qed.

  (* every event that was not consumed as the hook's completion, in arrival order: already given to the child,
     held in self.events, or queued while the hook is awaited *)
  Definition arrivals (s : nls CS) : list event := nl_delivered s ++ nl_events s ++ nl_pq s.

  (* once a layer is chosen nothing is held back; the queue is used only while the hook is awaited; the child
     is what it would be had it been fed the delivered events directly *)
  Definition ninv (s : nls CS) : Prop :=
    (nl_chosen s = true -> nl_events s = [] /\ nl_pq s = [] /\ nl_waiting s = None) /\
    (nl_waiting s = None -> nl_pq s = []) /\
    nl_child s = fst (feed (init c0) (nl_delivered s)).

  (* the handler only appends the event to self.events, and may ask the hook or close *)
  Lemma handler_shape (s : nls CS) ev : exists w n out,
    handler s ev = (mkNls (nl_events s ++ [ev]) false (nl_child s) w (nl_pq s) n (nl_delivered s), out).
  Proof.
    unfold nl_handler.
    destruct ev as [kind eid|c r];
      [destruct (ask_on_start && Nat.eqb kind K_START), (Nat.eqb kind K_CLOSE_CLIENT), (Nat.eqb kind K_DATA)|];
      eexists _, _, _; reflexivity.
  Qed.

  Lemma ndrain_spec q : forall s : nls CS,
    nl_chosen s = false ->
    let '(s', out) := ndrain s q in
    nl_chosen s' = false /\ nl_events s' ++ nl_pq s' = nl_events s ++ q /\
    nl_delivered s' = nl_delivered s /\ nl_child s' = nl_child s /\
    (nl_waiting s' = None -> nl_pq s' = []).
  Proof.
    induction q as [|ev q IH]; intros s Hc; simpl.
    - repeat split; try assumption; rewrite ?app_nil_r; try reflexivity.
    - destruct (handler_shape (mkNls (nl_events s) (nl_chosen s) (nl_child s) (nl_waiting s) q (nl_ctr s) (nl_delivered s)) ev)
        as (w & n & out1 & ->). destruct w; simpl.
      + repeat split; [rewrite <- app_assoc; reflexivity | discriminate].
      + specialize (IH (mkNls (nl_events s ++ [ev]) false (nl_child s) None q n (nl_delivered s)) eq_refl).
        destruct (ndrain _ q) as [s2 out2]. simpl in IH. destruct IH as (I1 & I2 & I3 & I4 & I5).
        repeat split; try assumption. rewrite I2, <- app_assoc. reflexivity.
  Qed.

  Lemma step_spec (s : nls CS) ev :
    ninv s ->
    let '(s', out, consumed) := step s ev in
    ninv s' /\ arrivals s' = arrivals s ++ (if consumed then [] else [ev]).
  Proof.
    intros (Hch & Hw & Hchild). unfold nl_step, arrivals.
    destruct (nl_chosen s) eqn:Ec.
    - destruct (Hch eq_refl) as (He & Hp & Hwt).
      destruct (handle_event ch child_id (nl_child s) ev) as [[[c' out] t] f] eqn:Eh.
      simpl. split.
      + repeat split; simpl; try assumption; try (intros _; assumption).
        rewrite feed_app, <- Hchild. simpl. rewrite Eh. reflexivity.
      + rewrite He, Hp. simpl. rewrite !app_nil_r. reflexivity.
    - destruct (nl_waiting s) as [c|] eqn:Ew.
      + (* anything but the awaited completion is queued *)
        assert (Hq : let s' := mkNls (nl_events s) false (nl_child s) (Some c) (nl_pq s ++ [ev]) (nl_ctr s) (nl_delivered s) in
                     ninv s' /\ nl_delivered s' ++ nl_events s' ++ nl_pq s' = (nl_delivered s ++ nl_events s ++ nl_pq s) ++ [ev]).
        { split; [split; [discriminate | split; [discriminate | exact Hchild]]|].
          simpl. rewrite <- !app_assoc. reflexivity. }
        destruct ev as [kind eid|c' r]; [exact Hq|].
        destruct (Nat.eqb c' c) eqn:Ecc; [|exact Hq].
        destruct (Nat.odd r).
        * destruct (feed (nl_child s) (nl_events s)) as [c1 out1] eqn:E1.
          destruct (feed c1 (nl_pq s)) as [c2 out2] eqn:E2.
          simpl. split.
          -- repeat split; simpl.
             rewrite app_assoc, feed_app, feed_app, <- Hchild, E1. simpl. rewrite E2. reflexivity.
          -- rewrite !app_nil_r. reflexivity.
        * set (s0 := mkNls (nl_events s) false (nl_child s) None (nl_pq s) (nl_ctr s) (nl_delivered s)).
          pose proof (ndrain_spec (nl_pq s) s0 eq_refl) as Hd.
          destruct (ndrain s0 (nl_pq s)) as [s' out].
          destruct Hd as (D1 & D2 & D3 & D4 & D5). simpl in *.
          split.
          -- split; [intros Hx; rewrite D1 in Hx; discriminate|]. split; [exact D5|].
             rewrite D4, D3. exact Hchild.
          -- rewrite D3, D2, app_nil_r. reflexivity.
      + destruct (handler_shape s ev) as (w & n & out & ->). specialize (Hw eq_refl). simpl. split.
        * split; [discriminate | split; [intros _; exact Hw | exact Hchild]].
        * rewrite Hw, !app_nil_r, app_assoc. reflexivity.
  Qed.

  Lemma nrun_spec evs : forall s : nls CS,
    ninv s ->
    let '(s', out, fs) := nrun s evs in
    ninv s' /\ arrivals s' = arrivals s ++ select negb evs fs /\ length fs = length evs.
  Proof.
    induction evs as [|ev evs IH]; intros s Hi; simpl.
    - split; [exact Hi|]. split; [rewrite app_nil_r; reflexivity | reflexivity].
    - pose proof (step_spec s ev Hi) as H.
      destruct (step s ev) as [[s1 out1] f1]. destruct H as (I1 & P1).
      specialize (IH s1 I1). destruct (nrun s1 evs) as [[s2 out2] fs].
      destruct IH as (I2 & P2 & L2).
      split; [exact I2|]. split.
      + rewrite P2, P1. destruct f1; simpl; rewrite <- ?app_assoc; simpl; rewrite ?app_nil_r; reflexivity.
      + simpl. rewrite L2. reflexivity.
  Qed.

  Lemma ninv_init ctr0 : ninv (nl_init c0 ctr0).
  Proof. repeat split. Qed.

  Theorem nextlayer_delivers_in_order ctr0 evs :
    let '(s, out, fs) := nrun (nl_init c0 ctr0) evs in
    nl_delivered s ++ nl_events s ++ nl_pq s = select negb evs fs /\
    (nl_chosen s = true -> nl_delivered s = select negb evs fs) /\
    nl_child s = fst (feed (init c0) (nl_delivered s)) /\
    length fs = length evs.
  Proof.
    pose proof (nrun_spec evs (nl_init c0 ctr0) (ninv_init ctr0)) as H.
    destruct (nrun (nl_init c0 ctr0) evs) as [[s out] fs].
    destruct H as ((Hc & Hw & Hchild) & P & L).
    unfold arrivals in P. simpl in P.
    repeat split; try assumption.
    intros Hch. destruct (Hc Hch) as (He & Hp & _).
    rewrite He, Hp, !app_nil_r in P. exact P.
  Qed.
End NL.
