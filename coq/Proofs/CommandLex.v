(* Proofs/CommandLex.v -- facts about the scanner model of command_lexer.expr:
   greedy spans, the three alternatives, fuel sufficiency, totality and losslessness. *)
From Coq Require Import List Bool Arith NArith Lia.
From MV Require Import Base.Bytes Model.Command Proofs.ListFacts.
Import ListNotations.
Open Scope N_scope.

Definition no_special (w : str) : bool := forallb (fun c => negb (in_chars c SPECIAL)) w.
Definition all_ws (w : str) : bool := forallb (fun c => in_chars c WS) w.
Definition nonempty (w : str) : bool := match w with [] => false | _ => true end.
Definition is_quote (q : char) : bool := in_chars q QUOTES.
(* the next character (if any) does not satisfy p: a greedy class stops here *)
Definition stops (p : char -> bool) (rest : str) : bool :=
  match rest with [] => true | c :: _ => negb (p c) end.
Definition p_ws (c : char) : bool := in_chars c WS.
Definition p_plain (c : char) : bool := negb (in_chars c SPECIAL).
Definition p_not (q : char) (x : char) : bool := negb (x =? q).

Lemma in_chars_In c l : in_chars c l = true <-> In c l.
Proof. apply (existsb_eqb_In _ N.eqb_eq). Qed.

Lemma in_chars_false c l : in_chars c l = false <-> ~ In c l.
Proof.
  rewrite <- in_chars_In. symmetry. apply not_true_iff_false.
Qed.

Lemma in_chars_app c a b : in_chars c (a ++ b) = in_chars c a || in_chars c b.
Proof. unfold in_chars. apply existsb_app. Qed.

Lemma special_quotes_ws c : in_chars c SPECIAL = in_chars c QUOTES || in_chars c WS.
Proof. exact (in_chars_app c QUOTES WS). Qed.

Lemma ws_special c : in_chars c WS = true -> in_chars c SPECIAL = true.
Proof. intros H. rewrite special_quotes_ws, H. apply orb_true_r. Qed.

Lemma not_special c : in_chars c SPECIAL = false -> in_chars c QUOTES = false /\ in_chars c WS = false.
Proof. rewrite special_quotes_ws. apply orb_false_iff. Qed.

Lemma quote_not_ws c : in_chars c QUOTES = true -> in_chars c WS = false.
Proof.
  rewrite in_chars_In. unfold QUOTES. simpl. intros [H | [H | []]]; subst; reflexivity.
Qed.

Lemma is_quote_cases q : is_quote q = true -> q = 39 \/ q = 34.
Proof. unfold is_quote. rewrite in_chars_In. simpl. intuition. Qed.

Lemma span_app p a rest :
  forallb p a = true -> stops p rest = true -> span p (a ++ rest) = (a, rest).
Proof.
  induction a as [|c a IH]; simpl; intros Ha Hr.
  - destruct rest as [|c r]; simpl in *; [reflexivity|].
    destruct (p c); [discriminate | reflexivity].
  - apply andb_true_iff in Ha as [Hc Ha]. rewrite Hc, (IH Ha Hr). reflexivity.
Qed.

Lemma span_spec p s :
  s = fst (span p s) ++ snd (span p s)
  /\ forallb p (fst (span p s)) = true /\ stops p (snd (span p s)) = true.
Proof.
  induction s as [|c r IH]; simpl; [auto|].
  destruct (p c) eqn:E.
  - destruct (span p r) as [a b]. simpl in *. destruct IH as [H1 [H2 H3]].
    rewrite E. repeat split; [congruence | exact H2 | exact H3].
  - simpl. rewrite E. auto.
Qed.

Lemma mqw_other q s c r : s = c :: r -> (c =? q) = false -> match_quoted_with q s = None.
Proof. intros -> E. simpl. rewrite E. reflexivity. Qed.

Lemma char_class c : is_quote c = true \/ in_chars c WS = true \/ in_chars c SPECIAL = false.
Proof. unfold is_quote. rewrite special_quotes_ws. destruct (in_chars c QUOTES), (in_chars c WS); auto. Qed.

Lemma pqs_none c r : is_quote c = false -> PartialQuotedString (c :: r) = None.
Proof.
  intros H. unfold PartialQuotedString.
  assert (c <> 34 /\ c <> 39) as [H1 H2].
  { unfold is_quote in H. apply in_chars_false in H. simpl in H. split; intros ->; apply H; auto. }
  apply N.eqb_neq in H1, H2. unfold match_quoted_with. fold c_dq in H1. fold c_sq in H2.
  rewrite H1, H2. reflexivity.
Qed.

Lemma mf_quote q r : is_quote q = true ->
  match_first (q :: r) = let (body, r') := span (p_not q) r in
                         match r' with _ :: r'' => Some (q :: body ++ [q], r'') | [] => Some (q :: body, []) end.
Proof.
  intros Hq. unfold match_first, PartialQuotedString, p_not.
  destruct (is_quote_cases q Hq); subst q; cbn; destruct (span _ r) as [b [|x r']]; reflexivity.
Qed.

Lemma mf_ws_class c r : in_chars c WS = true -> match_first (c :: r) = let (a, b) := span p_ws r in Some (c :: a, b).
Proof.
  intros H. unfold match_first. rewrite pqs_none.
  - unfold Word. cbn [span]. fold p_ws. rewrite H. destruct (span p_ws r). reflexivity.
  - unfold is_quote. destruct (in_chars c QUOTES) eqn:E; [|reflexivity]. apply quote_not_ws in E. congruence.
Qed.

Lemma mf_plain_class c r :
  in_chars c SPECIAL = false -> match_first (c :: r) = let (a, b) := span p_plain r in Some (c :: a, b).
Proof.
  intros H. destruct (not_special c H) as [Hq Hw]. unfold match_first. rewrite pqs_none by exact Hq.
  unfold Word, CharsNotIn. cbn [span]. rewrite Hw, H. cbn [negb]. fold p_plain. destruct (span p_plain r). reflexivity.
Qed.

Lemma not_in_span q body : in_chars q body = false -> forallb (p_not q) body = true.
Proof.
  intros Hb. apply forallb_forall. intros x Hx. unfold p_not. apply negb_true_iff, N.eqb_neq.
  intros ->. apply in_chars_false in Hb. contradiction.
Qed.

Lemma mf_quoted_closed q body rest :
  is_quote q = true -> in_chars q body = false ->
  match_first (q :: body ++ q :: rest) = Some (q :: body ++ [q], rest).
Proof.
  intros Hq Hb. rewrite mf_quote by exact Hq. rewrite (span_app (p_not q) body (q :: rest)); [reflexivity | |].
  - apply not_in_span, Hb.
  - simpl. unfold p_not. rewrite N.eqb_refl. reflexivity.
Qed.

Lemma mf_quoted_open q body :
  is_quote q = true -> in_chars q body = false ->
  match_first (q :: body) = Some (q :: body, []).
Proof.
  intros Hq Hb. rewrite mf_quote by exact Hq.
  pose proof (span_app (p_not q) body [] (not_in_span q body Hb) eq_refl) as Hs. rewrite app_nil_r in Hs.
  rewrite Hs. reflexivity.
Qed.

Lemma mf_ws w rest :
  nonempty w = true -> all_ws w = true -> stops p_ws rest = true ->
  match_first (w ++ rest) = Some (w, rest).
Proof.
  intros Hn Hw Hr. destruct w as [|c w]; [discriminate|]. simpl in Hw. apply andb_true_iff in Hw as [Hc Hw].
  simpl app. rewrite mf_ws_class by exact Hc. rewrite (span_app p_ws w rest Hw Hr). reflexivity.
Qed.

Lemma mf_plain w rest :
  nonempty w = true -> no_special w = true -> stops p_plain rest = true ->
  match_first (w ++ rest) = Some (w, rest).
Proof.
  intros Hn Hw Hr. destruct w as [|c w]; [discriminate|]. simpl in Hw. apply andb_true_iff in Hw as [Hc Hw].
  apply negb_true_iff in Hc.
  simpl app. rewrite mf_plain_class by exact Hc. rewrite (span_app p_plain w rest Hw Hr). reflexivity.
Qed.

Lemma match_first_split s t r : match_first s = Some (t, r) -> s = t ++ r /\ t <> [].
Proof.
  destruct s as [|c s]; [discriminate|].
  destruct (char_class c) as [H | [H | H]].
  - rewrite mf_quote by exact H. pose proof (span_spec (p_not c) s) as [E [_ St]].
    destruct (span (p_not c) s) as [a [|x b]]; simpl in E, St; intros X; inversion X; subst t r.
    + split; [simpl; rewrite <- E; reflexivity | discriminate].
    + apply negb_true_iff, negb_false_iff, N.eqb_eq in St. subst x.
      split; [simpl; rewrite <- app_assoc; simpl; rewrite <- E; reflexivity | discriminate].
  - rewrite mf_ws_class by exact H. pose proof (span_spec p_ws s) as [E _].
    destruct (span p_ws s) as [a b]. intros X; inversion X; subst t r. split; [simpl in *; rewrite <- E; reflexivity | discriminate].
  - rewrite mf_plain_class by exact H. pose proof (span_spec p_plain s) as [E _].
    destruct (span p_plain s) as [a b]. intros X; inversion X; subst t r. split; [simpl in *; rewrite <- E; reflexivity | discriminate].
Qed.

Lemma match_first_total s : s <> [] -> exists t r, match_first s = Some (t, r).
Proof.
  destruct s as [|c s]; [contradiction|]. intros _.
  destruct (char_class c) as [H | [H | H]];
    [rewrite mf_quote by exact H | rewrite mf_ws_class by exact H | rewrite mf_plain_class by exact H];
    destruct (span _ s) as [a [|x b]]; eauto.
Qed.

Lemma match_first_shorter s t r : match_first s = Some (t, r) -> (length r < length s)%nat.
Proof.
  intros E. apply match_first_split in E as [-> Ht]. rewrite app_length.
  destruct t; [contradiction | simpl; lia].
Qed.

Lemma lex_fuel_irrel n : forall m s,
  (length s <= n)%nat -> (length s <= m)%nat -> lex_fuel n s = lex_fuel m s.
Proof.
  induction n as [|n IH]; intros m s Hn Hm.
  - destruct s; [destruct m; reflexivity | simpl in Hn; lia].
  - destruct s as [|c s]; [destruct m; reflexivity|].
    destruct m as [|m]; [simpl in Hm; lia|].
    cbn [lex_fuel]. destruct (match_first (c :: s)) as [[t r]|] eqn:E; [|reflexivity].
    apply match_first_shorter in E. rewrite (IH m r) by (simpl in *; lia). reflexivity.
Qed.

Lemma lex_nil : lex [] = LexOk [].
Proof. reflexivity. Qed.

Lemma lex_cons s t r :
  match_first s = Some (t, r) ->
  lex s = match lex r with LexOk ts => LexOk (t :: ts) | e => e end.
Proof.
  intros E. pose proof (match_first_shorter _ _ _ E) as Hs.
  unfold lex. destruct s as [|c s]; [simpl in Hs; lia|].
  cbn [length lex_fuel]. rewrite E.
  rewrite (lex_fuel_irrel (length s) (length r) r) by (simpl in Hs; lia). reflexivity.
Qed.

Lemma lex_total_len n : forall s, (length s <= n)%nat ->
  exists ts, lex s = LexOk ts /\ concat ts = s /\ Forall (fun t => t <> []) ts.
Proof.
  induction n as [|n IH]; intros s Hn.
  - destruct s; [|simpl in Hn; lia]. exists []. auto.
  - destruct s as [|c s]; [exists []; auto|].
    destruct (match_first_total (c :: s)) as [t [r E]]; [discriminate|].
    pose proof (match_first_split _ _ _ E) as [Hs Ht]. pose proof (match_first_shorter _ _ _ E) as Hr.
    destruct (IH r) as [ts [H1 [H2 H3]]]; [simpl in *; lia|].
    exists (t :: ts). rewrite (lex_cons _ _ _ E), H1. simpl. rewrite H2.
    repeat split; [congruence | constructor; assumption].
Qed.

Lemma lex_total s :
  exists ts, lex s = LexOk ts /\ concat ts = s /\ Forall (fun t => t <> []) ts.
Proof. apply (lex_total_len (length s)). lia. Qed.
