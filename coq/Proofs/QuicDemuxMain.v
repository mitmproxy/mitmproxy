(* Proofs/QuicDemuxMain.v -- what the invariant of a state says in terms of the model alone (maps, layers,
   emitted commands), and the concrete run used as witness. *)
From Coq Require Import NArith Arith List Bool.
From MV Require Import Base.Bytes Model.QuicIdsPrelude Gen.QuicIds Model.QuicDemux
  Proofs.QuicIds Proofs.QuicDemuxCore Proofs.QuicDemuxInv Proofs.QuicDemuxRun Proofs.QuicDemuxWrite
  Proofs.QuicDemuxLocal Proofs.QuicAlloc.
Import ListNotations.
Open Scope N_scope.

(* o is a stream command for stream `id` of the QUIC connection on side `to` *)
Definition targets (o : out) (to : side) (id : N) : Prop :=
  match o with
  | OSend _ s i _ _ | OReset _ s i _ | OStop _ s i _ => s = to /\ i = id
  | _ => False
  end.
Definition ids_of {C} (s : side) (st : state C) := match s with Cl => client_ids st | Sv => server_ids st end.

Section Main.
Variable C : Type.
Variable child_step : C -> connst * connst -> cevent -> C * list ccmd.
Variable new_child : nat -> C.
Notation run := (run C child_step new_child).
Notation step := (step C child_step new_child).

Theorem pairing evs : let st := run evs in
  (forall k L, dict_get k (client_ids st) = Some L <-> exists l, nth_error (layers st) L = Some l /\ cid l = k) /\
  (forall k L, dict_get k (server_ids st) = Some L <-> exists l, nth_error (layers st) L = Some l /\ sid l = Some k) /\
  (forall L l s, nth_error (layers st) L = Some l -> sid l = Some s ->
     stream_is_unidirectional s = stream_is_unidirectional (cid l) /\
     stream_is_client_initiated s = stream_is_client_initiated (cid l)) /\
  (forall L1 L2 l1 l2, nth_error (layers st) L1 = Some l1 -> nth_error (layers st) L2 = Some l2 ->
     cid l1 = cid l2 \/ (exists s, sid l1 = Some s /\ sid l2 = Some s) -> L1 = L2).
Proof.
  cbn. destruct (Inv_run C child_step new_child evs) as [HA _]. set (st := run evs) in *.
  assert (Hc : forall k L, dict_get k (client_ids st) = Some L <-> exists l, nth_error (layers st) L = Some l /\ cid l = k).
  { intros k L. rewrite (inv_map _ _ HA Cl). split; intros (l & A & B); exists l; split; auto; cbn in *; congruence. }
  pose proof (inv_map _ _ HA Sv) as Hs.
  split; [exact Hc|]. split; [exact Hs|]. split.
  - intros L l s Hl Hsid.
    assert (Hm : s mod 4 = cid l mod 4) by (apply (inv_class _ _ HA L); exists l; auto).
    destruct (same_class_same_bits _ _ Hm); auto.
  - intros L1 L2 l1 l2 H1 H2 [E|(s & E1 & E2)].
    + assert (A : dict_get (cid l1) (client_ids st) = Some L1) by (apply Hc; eauto).
      assert (B : dict_get (cid l1) (client_ids st) = Some L2) by (apply Hc; eauto).
      congruence.
    + assert (A : dict_get s (server_ids st) = Some L1) by (apply Hs; exists l1; auto).
      assert (B : dict_get s (server_ids st) = Some L2) by (apply Hs; exists l2; auto).
      congruence.
Qed.

Theorem target_registered st : Inv C st ->
  forall o to id, In o (outs st) -> targets o to id ->
  exists L l, nth_error (layers st) L = Some l /\ stream_id l to = Some id /\ dict_get id (ids_of to st) = Some L.
Proof.
  intros [HA _] o to id Hin Ht.
  pose proof (inv_outs _ _ HA) as Hf. rewrite Forall_forall in Hf. specialize (Hf o Hin).
  assert (Hh : exists L, has_id C st L to id).
  { destruct o; cbn in Ht; try contradiction; destruct Ht as [-> ->]; eexists; exact Hf. }
  destruct Hh as (L & Hh). pose proof (proj2 (inv_map _ _ HA to id L) Hh) as Hd.
  destruct Hh as (l & Hl & Hk). exists L, l. auto.
Qed.

Theorem signals_local st from id k : Inv C st ->
  let st' := step st (SStream from id k) in
  exists new, outs st' = new ++ outs st /\
    forall o to id', In o new -> targets o to id' ->
      exists L l, nth_error (layers st') L = Some l /\ stream_id l from = Some id /\ stream_id l to = Some id'.
Proof.
  intros HI. cbn.
  assert (Hnil : exists new, outs st = new ++ outs st /\ forall o to id', In o new -> targets o to id' ->
            exists L l, nth_error (layers st) L = Some l /\ stream_id l from = Some id /\ stream_id l to = Some id').
  { exists []. split; auto. intros o to id' []. }
  pose proof (Inv_step C child_step new_child st (SStream from id k) HI) as [HA' _].
  unfold QuicDemux.step in *. destruct (err st); [exact Hnil|]. destruct (done st); [exact Hnil|].
  destruct (stream_event_local C child_step new_child st from id k HI) as (new & E & Hloc).
  set (st' := handle_stream C child_step new_child from id k st) in *.
  exists new. split; auto. intros o to id' Hin Ht.
  destruct (Hloc o Hin) as (L & Hg & l & Hl & Hk).
  pose proof (inv_outs _ _ HA') as Hf. rewrite Forall_forall in Hf.
  assert (Hin' : In o (outs st')) by (rewrite E; apply in_or_app; auto). specialize (Hf o Hin').
  assert (Hh2 : has_id C st' L to id').
  { destruct o; cbn in Ht, Hg; try contradiction; destruct Ht as [-> ->]; subst; exact Hf. }
  destruct Hh2 as (l2 & Hl2 & Hk2). rewrite Hl in Hl2. inversion Hl2; subst l2. eauto.
Qed.

End Main.

(* the model with the TCP relay child (TCPLayer(ignore=True)) behind every stream *)
Definition tcp_run := run tcpst tcp_step (fun _ => TStart).

(* client stream 0 with FIN, server-initiated unidirectional stream 3, client stream 4 that is then reset,
   a reply on stream 0, and client data on stream 0 after its FIN *)
Definition demo_evs : list sevent :=
  [SStream Cl 0 (KData [x61] true); SStream Sv 3 (KData [x62] false); SStream Cl 4 (KData [x63] false);
   SStream Cl 4 (KReset 7); SStream Sv 0 (KData [x64] false); SStream Cl 0 (KData [x65] false)].
