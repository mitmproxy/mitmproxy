(* Proofs/Http2StreamsH2.v -- the concrete connection model satisfies the contract that the mapping theorems of
   Http2StreamsMap.v assume of the wrapped connection: get_next_available_stream_id exceeds every stream id in use,
   the highest id only grows, and sending RequestHeaders on a fresh id raises it to that id. *)
From Coq Require Import List Bool NArith ZArith Lia.
From MV Require Import Base.Bytes Model.Http2Streams Proofs.Http2StreamsMap.
Import ListNotations.
Open Scope N_scope.

Definition ext (h h' : h2) : Prop :=
  client_side h' = client_side h /\ highest_out h <= highest_out h' /\
  (forall k, In k (dkeys (hstreams h')) -> In k (dkeys (hstreams h)) \/ k <= highest_out h').

Lemma ext_refl h : ext h h.
Proof. repeat split; [lia|tauto]. Qed.

Lemma ext_trans a b c : ext a b -> ext b c -> ext a c.
Proof. intros (A1 & A2 & A3) (B1 & B2 & B3). repeat split; [congruence|lia|].
  intros k Hk. destruct (B3 k Hk) as [H|H]; [|tauto]. destruct (A3 k H); [tauto|right; lia]. Qed.

Lemma ext_same_keys h h' : client_side h' = client_side h -> highest_out h' = highest_out h ->
  dkeys (hstreams h') = dkeys (hstreams h) -> ext h h'.
Proof. intros A B D. repeat split; [exact A|lia|]. rewrite D. tauto. Qed.

Lemma ext_emit h f : ext h (emit h f).
Proof. now apply ext_same_keys. Qed.

Lemma ext_dset h h' sid s0 s : dget sid (hstreams h) = Some s0 ->
  client_side h' = client_side h -> highest_out h' = highest_out h -> hstreams h' = dset sid s (hstreams h) -> ext h h'.
Proof. intros E A B D. apply ext_same_keys; [exact A|exact B|]. rewrite D. exact (dkeys_dset_old _ _ _ _ E). Qed.

Lemma send_headers_ext h sid k tok es h' : h2_send_headers h sid k tok es = Ok h' -> ext h h'.
Proof. unfold h2_send_headers. destruct (conn_closed h); [discriminate|].
  destruct (dget sid (hstreams h)) eqn:E.
  - destruct (negb (can_send_st (st h0))); [discriminate|]. destruct (hsent h0 && negb es); [discriminate|].
    intros [= <-]. eapply ext_dset; [exact E|reflexivity..].
  - destruct (r_maxconc h <? open_outbound h + 1); [discriminate|]. destruct (negb (is_outbound h sid)); [discriminate|].
    destruct (sid <=? highest_out h) eqn:El; [discriminate|]. apply N.leb_gt in El.
    intros [= <-]. split; [reflexivity|]. split; [cbn; lia|]. cbn. intros k0 Hk0. unfold dkeys in Hk0.
    rewrite map_app, in_app_iff in Hk0. cbn in Hk0. destruct Hk0 as [H|[<-|[]]]; [tauto|right; lia]. Qed.

Lemma send_headers_new h sid k tok es h' :
  h2_send_headers h sid k tok es = Ok h' -> ~ In sid (dkeys (hstreams h)) -> highest_out h' = sid.
Proof. unfold h2_send_headers. destruct (conn_closed h); [discriminate|]. intros H Hn.
  apply dget_none_keys in Hn. destruct (dget sid (hstreams h)); [discriminate Hn|].
  destruct (r_maxconc h <? open_outbound h + 1); [discriminate|]. destruct (negb (is_outbound h sid)); [discriminate|].
  destruct (sid <=? highest_out h); [discriminate|]. now injection H as <-. Qed.

Lemma send_data_ext h sid d es h' : h2_send_data h sid d es = Ok h' -> ext h h'.
Proof. unfold h2_send_data. destruct (conn_closed h); [discriminate|]. destruct (dget sid (hstreams h)) eqn:E; [|discriminate].
  destruct ((0 <? blen d)%Z && (Z.min (conn_win h) (win h0) <? blen d)%Z); [discriminate|].
  destruct (max_frame h <? N.of_nat (length d)); [discriminate|]. destruct (negb (can_send_st (st h0))); [discriminate|].
  intros [= <-]. eapply ext_dset; [exact E|reflexivity..]. Qed.

Lemma reset_ext h sid c h' : h2_reset_stream h sid c = Ok h' -> ext h h'.
Proof. unfold h2_reset_stream. destruct (conn_closed h); [discriminate|]. destruct (dget sid (hstreams h)) eqn:E; [|discriminate].
  destruct (is_closed_st (st h0)); [discriminate|]. intros [= <-]. eapply ext_dset; [exact E|reflexivity..]. Qed.

Lemma apply_settings_ext l : forall h, ext h (apply_settings h l).
Proof. induction l as [|[c v] t IH]; intros h; [apply ext_refl|]. cbn [apply_settings].
  eapply ext_trans; [|apply IH].
  destruct (c =? 4).
  - apply ext_same_keys; cbn; auto. unfold dkeys. rewrite map_map. reflexivity.
  - destruct (c =? 3); [apply ext_same_keys; reflexivity|]. destruct (c =? 5); [apply ext_same_keys; reflexivity|apply ext_refl]. Qed.

Lemma recv_end_ext h sid es : ext h (recv_end h sid es).
Proof. destruct es; [|apply ext_refl]. unfold recv_end, upd_stream.
  destruct (dget sid (hstreams h)) eqn:E; [|apply ext_refl]. eapply ext_dset; [exact E|reflexivity..]. Qed.

(* a client never creates a stream for a frame it receives *)
Lemma recv_frame_ext h f : client_side h = true -> ext h (fst (recv_frame h f)).
Proof. intros Hc. destruct f; cbn [recv_frame].
  - destruct k; rewrite ?Hc; try apply recv_end_ext; apply ext_refl.
  - apply recv_end_ext.
  - destruct (dget sid (hstreams h)) eqn:E; [|apply ext_refl]. destruct (is_closed_st (st h0)); [apply ext_refl|].
    eapply ext_dset; [exact E|reflexivity..].
  - destruct (sid =? 0); [apply ext_same_keys; reflexivity|].
    destruct (dget sid (hstreams h)) eqn:E; [|apply ext_refl]. destruct (is_closed_st (st h0)); [apply ext_refl|].
    eapply ext_dset; [exact E|reflexivity..].
  - apply apply_settings_ext.
  - apply ext_refl.
  - apply ext_refl.
  - apply ext_same_keys; reflexivity.
Qed.

Lemma recv_frames_ext l : forall h, client_side h = true -> ext h (fst (recv_frames h l)).
Proof. induction l as [|f t IH]; intros h Hc; [apply ext_refl|]. cbn [recv_frames].
  pose proof (recv_frame_ext h f Hc) as H1. destruct (recv_frame h f) as [h1 e1]. cbn [fst] in H1.
  assert (Hc1 : client_side h1 = true) by (destruct H1; congruence).
  pose proof (IH h1 Hc1) as H2. destruct (recv_frames h1 t) as [h2' e2]. cbn [fst] in *. eapply ext_trans; eauto. Qed.

Lemma b_send_data1_ext b sid d es b' : b_send_data1 b sid d es = Ok b' -> ext (bh b) (bh b').
Proof. unfold b_send_data1. destruct (buf_nonempty b sid); [intros [= <-]; apply ext_refl|].
  intros H. dres H. destruct (blen d <=? a)%Z.
  - dres H. injection H as <-. exact (send_data_ext _ _ _ _ _ E0).
  - dres H. injection H as <-. destruct (if fx b then (0 <? a)%Z else negb (a =? 0)%Z).
    + dres E0. injection E0 as <-. exact (send_data_ext _ _ _ _ _ E1).
    + injection E0 as <-. apply ext_refl. Qed.

Lemma b_send_chunks_ext l : forall b sid b', b_send_chunks b sid l = Ok b' -> ext (bh b) (bh b').
Proof. induction l as [|c t IH]; intros b sid b' H; cbn in H; [injection H as <-; apply ext_refl|].
  dres H. exact (ext_trans _ _ _ (b_send_data1_ext _ _ _ _ _ E) (IH _ _ _ H)). Qed.

Lemma b_send_data_ext b sid d es b' : b_send_data b sid d es = Ok b' -> ext (bh b) (bh b').
Proof. unfold b_send_data. destruct (max_frame (bh b) <? N.of_nat (length d)).
  - destruct (max_frame (bh b) =? 0); [discriminate|]. apply b_send_chunks_ext.
  - apply b_send_data1_ext. Qed.

Lemma b_send_trailers_ext b sid tok b' : b_send_trailers b sid tok = Ok b' -> ext (bh b) (bh b').
Proof. unfold b_send_trailers. destruct (buf_nonempty b sid); [intros [= <-]; apply ext_refl|].
  intros H. dres H. injection H as <-. exact (send_headers_ext _ _ _ _ _ _ E). Qed.

Lemma b_end_stream_ext b sid b' : b_end_stream b sid = Ok b' -> ext (bh b) (bh b').
Proof. unfold b_end_stream. destruct (dmem sid (trls b)); [intros [= <-]; apply ext_refl|apply b_send_data_ext]. Qed.

Lemma b_reset_ext b sid c b' : b_reset_stream b sid c = Ok b' -> ext (bh b) (bh b').
Proof. unfold b_reset_stream. intros H. dres H. injection H as <-. exact (reset_ext _ _ _ _ E). Qed.

Lemma flush_loop_ext f : forall b sid aw sent b' s', flush_loop f b sid aw sent = Ok (b', s') -> ext (bh b) (bh b').
Proof. induction f as [|f IH]; intros b sid aw sent b' s' H; [discriminate|]. cbn [flush_loop] in H.
  destruct (negb (0 <? aw)%Z); [injection H as <- _; apply ext_refl|].
  destruct (dget sid (bufs b)) as [[|[d es] rest]|]; [discriminate| |injection H as <- _; apply ext_refl].
  destruct (if (aw <? blen d)%Z then (slice_to aw d, false, (slice_from aw d, es) :: rest) else (d, es, rest)) as [[d1 es1] rest1].
  dres H. apply (ext_trans _ _ _ (send_data_ext _ _ _ _ _ E)).
  destruct rest1; [|exact (IH _ _ _ _ _ _ H)].
  destruct (dget sid (trls _)); [|exact (IH _ _ _ _ _ _ H)].
  dres H. exact (ext_trans _ _ _ (send_headers_ext _ _ _ _ _ _ E0) (IH _ _ _ _ _ _ H)). Qed.

Lemma swu_ext b sid b' s' : stream_window_updated b sid = Ok (b', s') -> ext (bh b) (bh b').
Proof. unfold stream_window_updated.
  destruct (match dget sid (hstreams (bh b)) with Some s => negb (can_send_st (st s)) | None => true end);
    [intros [= <- _]; apply ext_refl|].
  intros H. dres H. exact (flush_loop_ext _ _ _ _ _ _ _ H). Qed.

Lemma cwu_pass_ext keys : forall b sent b' s' e', cwu_pass b keys sent = Ok (b', s', e') -> ext (bh b) (bh b').
Proof. induction keys as [|k t IH]; intros b sent b' s' e' H; cbn [cwu_pass] in H; [injection H as <- _ _; apply ext_refl|].
  destruct (dget k (bufs b)); [|discriminate]. dres H. destruct a as [b2 s]. apply swu_ext in E. cbn in E.
  destruct s; [destruct (conn_win (bh b2) =? 0)%Z; [injection H as <- _ _; exact E|]|];
    exact (ext_trans _ _ _ E (IH _ _ _ _ _ H)). Qed.

Lemma cwu_ext b b' : connection_window_updated b = Ok b' -> ext (bh b) (bh b').
Proof. unfold connection_window_updated. generalize (S (S (total_chunks b + length (bufs b)))). intros f. revert b.
  induction f as [|f IH]; intros b H; [discriminate|]. cbn [cwu_loop] in H. dres H. destruct a as [[b1 sent] early].
  apply cwu_pass_ext in E. destruct early; [injection H as <-; exact E|]. destruct sent; [|injection H as <-; exact E].
  exact (ext_trans _ _ _ E (IH _ H)). Qed.

Lemma b_filter_ext evs : forall b b' e', b_filter_events b evs = Ok (b', e') -> ext (bh b) (bh b').
Proof. induction evs as [|e t IH]; intros b b' e' H; cbn [b_filter_events] in H; [injection H as <- _; apply ext_refl|].
  destruct e; try (dres H; destruct a as [bb ee]; injection H as <- _; exact (IH _ _ _ E)).
  - dres H. apply (ext_trans _ (bh a)); [|exact (IH _ _ _ H)].
    destruct (sid =? 0); [exact (cwu_ext _ _ E)|]. dres E. injection E as <-. destruct a0. exact (swu_ext _ _ _ _ E0).
  - destruct has_initwin.
    + dres H. dres H. destruct a0. injection H as <- _. exact (ext_trans _ _ _ (cwu_ext _ _ E) (IH _ _ _ E0)).
    + dres H. destruct a. injection H as <- _. exact (IH _ _ _ E).
Qed.

Lemma b_receive_ext b l b' e' : client_side (bh b) = true -> b_receive b l = Ok (b', e') -> ext (bh b) (bh b').
Proof. unfold b_receive. intros Hc. pose proof (recv_frames_ext l (bh b) Hc) as X.
  destruct (recv_frames (bh b) l) as [h1 evs]. intros H. exact (ext_trans _ _ _ X (b_filter_ext _ _ _ _ H)). Qed.

Lemma take_pending_ext c : ext (ch c) (ch (fst (take_pending c))).
Proof. now apply ext_same_keys. Qed.

(* the shape of the Data / Trailers / EndOfMessage / ProtocolError branches of _handle_event *)
Lemma guarded_ext c (g : bool) (op : res bconn) c' o :
  (forall b, op = Ok b -> ext (ch c) (bh b)) ->
  (do b <- (if g then op else Ok (cb c)); Ok (take_pending (set_cb c b))) = Ok (c', o) -> ext (ch c) (ch c').
Proof. intros Hop H. dres H. injection H as <- _. apply (ext_trans _ (bh a)); [|now apply ext_same_keys].
  destruct g; [exact (Hop _ E)|injection E as <-; apply ext_refl]. Qed.

Lemma conn_http_ext c e c' o : conn_http c e = Ok (c', o) -> ext (ch c) (ch c').
Proof. unfold conn_http. destruct e.
  - destruct (is_client c); [|destruct (is_open_for_us c sid); [|intros [= <- _]; apply ext_refl]];
      intros H; dres H; injection H as <- _;
      exact (ext_trans _ _ _ (send_headers_ext _ _ _ _ _ _ E) (ext_same_keys _ _ eq_refl eq_refl eq_refl)).
  - apply guarded_ext. apply b_send_data_ext.
  - apply guarded_ext. apply b_send_trailers_ext.
  - apply guarded_ext. apply b_end_stream_ext.
  - apply guarded_ext. intros b E.
    destruct (dget sid (hstreams (ch c))); [|discriminate].
    destruct (http_status code); [|exact (b_reset_ext _ _ _ _ E)].
    destruct (is_resp && is_open_for_us c sid && negb (hsent h)); [|exact (b_reset_ext _ _ _ _ E)].
    dres E. exact (ext_trans _ _ _ (send_headers_ext _ _ _ _ _ _ E0) (b_send_data_ext _ _ _ _ _ E)). Qed.

Lemma perr_ext c c' o s : (let '(c1, o1) := protocol_error c in Ok (c1, o1, true)) = Ok (c', o, s) -> ext (ch c) (ch c').
Proof. assert (ext (ch c) (ch (fst (protocol_error c)))) by now apply ext_same_keys.
  destruct (protocol_error c). now intros [= <- _ _]. Qed.

(* apart from protocol_error, handle_h2_event leaves the h2 state alone *)
Lemma handle_h2_event_ext c e c' o s : handle_h2_event c e = Ok (c', o, s) -> ext (ch c) (ch c').
Proof. unfold handle_h2_event.
  assert (Same : forall c1 o1 s1, ch c1 = ch c -> Ok (c1, o1, s1) = Ok (c', o, s) -> ext (ch c) (ch c')).
  { intros c1 o1 s1 Hc [= <- _ _]. rewrite Hc. apply ext_refl. }
  destruct e.
  - destruct (is_client c); [apply perr_ext|now apply Same].
  - destruct (is_client c); [|discriminate]. destruct (dget sid (streams c)) as [[|]|]; [now apply Same|apply perr_ext..].
  - destruct (is_client c); [now apply Same|discriminate].
  - now apply Same.
  - destruct (dget sid (streams c)) as [[|]|]; [apply perr_ext|now apply Same..].
  - destruct (dget sid (streams c)) as [[|]|]; [discriminate| |]; destruct (is_closed c sid); now apply Same.
  - destruct (dmem sid (streams c)); now apply Same.
  - now apply Same.
  - destruct (is_client c); now apply Same.
  - now apply Same.
  - now apply Same.
Qed.

Lemma handle_h2_events_ext evs : forall c c' o s, handle_h2_events c evs = Ok (c', o, s) -> ext (ch c) (ch c').
Proof. induction evs as [|e t IH]; intros c c' o s H; cbn [handle_h2_events] in H; [injection H as <- _ _; apply ext_refl|].
  dres H. destruct a as [[c1 o1] stop]. apply handle_h2_event_ext in E. destruct stop; [injection H as <- _ _; exact E|].
  dres H. destruct a as [[c2 o2] stop2]. injection H as <- _ _. exact (ext_trans _ _ _ E (IH _ _ _ _ E0)). Qed.

Lemma conn_event_ext c i c' o : is_client c = true -> conn_event c i = Ok (c', o) -> ext (ch c) (ch c').
Proof. intros Hc. destruct i; cbn [conn_event].
  - intros [= <- _]. apply take_pending_ext.
  - apply conn_http_ext.
  - intros H. dres H. destruct a as [b1 evs]. apply b_receive_ext in E; [|exact Hc]. dres H. destruct a as [[c2 o2] stop].
    apply (ext_trans _ _ _ E). apply handle_h2_events_ext in E0.
    destruct stop; [injection H as <- _; exact E0|].
    pose proof (take_pending_ext c2) as T. destruct (take_pending c2). injection H as <- _.
    exact (ext_trans _ _ _ E0 T).
  - intros [= <- _]. apply ext_refl.
Qed.

Definition hi (c : conn) : N := highest_out (ch c).
Definition Cinv (c : conn) : Prop :=
  is_client c = true /\ forall k, In k (dkeys (hstreams (ch c))) -> k <= highest_out (ch c).

Lemma contract_fresh c : hi c < next_stream_id (ch c).
Proof. unfold hi, next_stream_id. destruct (highest_out (ch c) =? 0) eqn:E; [apply N.eqb_eq in E; rewrite E; destruct (client_side (ch c)); lia|lia]. Qed.

Lemma contract_mono c i c' o : Cinv c -> conn_event c i = Ok (c', o) -> Cinv c' /\ hi c <= hi c'.
Proof. intros [Hc Hk] H. destruct (conn_event_ext _ _ _ _ Hc H) as (A & B & D). unfold hi.
  split; [|exact B]. split; [unfold is_client in *; congruence|]. intros k Hin. destruct (D k Hin) as [X|X]; [specialize (Hk k X); lia|exact X]. Qed.

Lemma contract_headers c j t es c' o :
  Cinv c -> hi c < j -> conn_event c (IHttp (EHeaders j t es)) = Ok (c', o) -> j <= hi c'.
Proof. intros [Hc Hk] Hj H. cbn in H. rewrite Hc in H. dres H. injection H as <- _.
  assert (Hn : ~ In j (dkeys (hstreams (ch c)))) by (intros X; specialize (Hk j X); unfold hi in Hj; lia).
  pose proof (send_headers_new _ _ _ _ _ _ E Hn) as X. unfold hi, ch. cbn. fold (ch c). rewrite X. lia. Qed.

Lemma contract_init fixd : Cinv (conn_init true fixd).
Proof. split; [reflexivity|]. cbn. tauto. Qed.
