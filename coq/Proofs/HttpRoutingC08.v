(* Proofs/HttpRoutingC08.v -- the C08 theorems over whole histories, from the step invariant of
   Proofs/HttpRouting.v. *)
From Coq Require Import NArith List Bool Lia.
From MV Require Import Base.Bytes Model.HttpRoutingBase Gen.ConnSpec Model.HttpRouting
                       Proofs.EqbIff Proofs.HttpRoutingBase Proofs.HttpRouting.
Import ListNotations.
Open Scope N_scope.

(* provenance: the command (rid, g) was issued by an SGet step of l *)
Definition Pof (l : list step) : waiter -> Prop := fun w => In (SGet (fst w) (snd w)) l.
Definition Eok (k : conn) : Prop := c_error k = false /\ connected k = true.

Lemma run_cons cf s e r :
  snd (run cf s (e :: r)) = snd (step_fn cf s e) :: snd (run cf (fst (step_fn cf s e)) r).
Proof.
  cbn [run]. destruct (step_fn cf s e) as [s1 o]. cbn [fst snd].
  destruct (run cf s1 r) as [s2 os]. reflexivity.
Qed.

Lemma run_cons_fst cf s e r :
  fst (run cf s (e :: r)) = fst (run cf (fst (step_fn cf s e)) r).
Proof.
  cbn [run]. destruct (step_fn cf s e) as [s1 o]. cbn [fst snd].
  destruct (run cf s1 r) as [s2 os]. reflexivity.
Qed.

Lemma inv_mono (P P' : waiter -> Prop) R cf s :
  (forall w, P w -> P' w) -> inv P R cf s -> inv P' R cf s.
Proof.
  intros HPP (I1 & I2 & I3 & I4). split; [exact I1|]. split; [exact I2|]. split; [|exact I4].
  intros c ws x H1 H2. destruct (I3 c ws x H1 H2). split; auto.
Qed.

Lemma inv_init P R cf ctx : ctx_server cf = 1 -> inv P R cf (init_state ctx).
Proof.
  intros H. unfold inv, init_state; cbn. rewrite H. split; [lia|]. split; [discriminate|].
  split; [intros c ws x []|discriminate].
Qed.

(* assignments of state / error / alpn do not touch the spec *)
Lemma setattr_nonspec k f k' g :
  spec_field f = false -> server_setattr k f = Some k' -> spec_eq g k -> spec_eq g k'.
Proof.
  destruct f; cbn; try discriminate; intros _ H; inversion H; subst; unfold spec_eq; cbn; auto.
Qed.

Lemma run_routing : forall hist cf s pre,
  inv (Pof pre) spec_eq cf s -> env_ok cf s hist = true ->
  forall i outs, nth_error (snd (run cf s hist)) i = Some outs ->
    Forall (out_ok (Pof (pre ++ firstn (S i) hist)) spec_eq Eok) outs.
Proof.
  induction hist as [|e r IH]; intros cf s pre HI HE i outs Hn.
  - cbn in Hn. destruct i; discriminate.
  - cbn [env_ok] in HE. apply andb_true_iff in HE. destruct HE as [HS HE].
    rewrite run_cons in Hn.
    destruct (step_fn cf s e) as [s1 o] eqn:ES. cbn [fst snd] in *.
    assert (HI' : inv (Pof (pre ++ [e])) spec_eq cf s).
    { eapply inv_mono; [|exact HI]. intros w Hw. unfold Pof in *. apply in_or_app. left; exact Hw. }
    destruct (step_inv (Pof (pre ++ [e])) spec_eq Eok
                (fun g k H => proj1 (matches_iff g k) H) new_server_spec
                (fun k H1 H2 => conj H1 H2) cf s e s1 o HI') as (J1 & J2 & _); auto.
    + intros rid g ->. unfold Pof. cbn. apply in_or_app. right. left. reflexivity.
    + intros l ->. cbn in HS. apply andb_true_iff in HS. destruct HS as [H1 H2].
      split; [apply negb_true_iff in H2; exact H2 | exact H1].
    + intros c f k' g -> HK HA HR. cbn in HS. rewrite HK, andb_true_r in HS. apply negb_true_iff in HS.
      eapply setattr_nonspec; eauto.
    + destruct i as [|j].
      * cbn in Hn. inversion Hn; subst. cbn [firstn]. exact J2.
      * cbn [nth_error] in Hn. specialize (IH cf s1 (pre ++ [e]) J1 HE j outs Hn).
        rewrite <- app_assoc in IH. exact IH.
Qed.

(* only replies are constrained: that a history produces no OKeyError or OFuel is not claimed *)
Theorem routing : forall cf ctx hist,
  ctx_server cf = 1 -> env_ok cf (init_state ctx) hist = true ->
  forall i outs rid g c k h,
    nth_error (snd (run cf (init_state ctx) hist)) i = Some outs ->
    In (OReply rid g (Some (c, k, h))) outs ->
    spec_eq g k /\ c_error k = false /\ connected k = true /\ In (SGet rid g) (firstn (S i) hist).
Proof.
  intros cf ctx hist Hc HE i outs rid g c k h Hn Hin.
  pose proof (run_routing hist cf (init_state ctx) [] (inv_init _ _ cf ctx Hc) HE i outs Hn) as HF.
  rewrite Forall_forall in HF. specialize (HF _ Hin). cbn in HF.
  destruct HF as (H1 & [H2 H3] & H4). auto.
Qed.

Definition Ptrue : waiter -> Prop := fun _ => True.
Definition Rtrue : get_cmd -> conn -> Prop := fun _ _ => True.
Definition Etrue : conn -> Prop := fun _ => True.

(* the invariant with nothing asked of requests, replies and connections: pure structure *)
Definition struct_ok := get_register_ok Ptrue Rtrue Etrue (fun _ _ _ => I) (fun _ => I) (fun _ _ _ => I).

Lemma step_struct cf s e s' outs :
  inv Ptrue Rtrue cf s -> step_fn cf s e = (s', outs) ->
  inv Ptrue Rtrue cf s' /\ (no_foreign_match s e = true -> Forall out_own outs).
Proof.
  intros HI H.
  destruct (step_inv Ptrue Rtrue Etrue (fun _ _ _ => I) (fun _ => I) (fun _ _ _ => I) cf s e s' outs HI)
    as (J1 & _ & J3); unfold Ptrue, Rtrue, Etrue; auto.
Qed.

Lemma run_struct cf : forall hist s, inv Ptrue Rtrue cf s -> inv Ptrue Rtrue cf (fst (run cf s hist)).
Proof.
  induction hist as [|e r IH]; intros s HI; [exact HI|].
  rewrite run_cons_fst. destruct (step_fn cf s e) as [s1 o] eqn:ES. cbn [fst].
  apply IH. exact (proj1 (step_struct cf s e s1 o HI ES)).
Qed.

Lemma run_dispatch : forall hist cf s,
  inv Ptrue Rtrue cf s -> guard_ok cf s hist = true ->
  forall i outs, nth_error (snd (run cf s hist)) i = Some outs -> Forall out_own outs.
Proof.
  induction hist as [|e r IH]; intros cf s HI HG i outs Hn.
  - cbn in Hn. destruct i; discriminate.
  - cbn [guard_ok] in HG. apply andb_true_iff in HG. destruct HG as [HS HG].
    rewrite run_cons in Hn. destruct (step_fn cf s e) as [s1 o] eqn:ES. cbn [fst snd] in *.
    destruct (step_struct cf s e s1 o HI ES) as [J1 J2].
    destruct i as [|j].
    + cbn in Hn. inversion Hn; subst. auto.
    + cbn [nth_error] in Hn. eapply IH; eauto.
Qed.

(* the finding: a request for the address of an upstream proxy, without via, is answered with the carrier
   connection of an established CONNECT tunnel and dispatched to the layer stack of the tunnelled connection *)
Definition a_test : bytes := [x61;x2e;x74;x65;x73;x74].
Definition proxy_host : bytes := [x70;x72;x6f;x78;x79].
Definition http_scheme : bytes := [x68;x74;x74;x70].
Definition g_tunnelled : get_cmd := mkGet (a_test, 80) false (Some (http_scheme, (proxy_host, 8080))) TCP.
Definition g_origin : get_cmd := mkGet (proxy_host, 8080) false None TCP.
Definition cfg0 : cfg := mkCfg 1 false false.
Definition ctx0 : conn := mkConn true None false None TCP Closed false false.
Definition hist_refuted : list step :=
  [SGet 0 g_tunnelled; SSet 2 (FState Open); SSet 3 (FState Open); SRegister 2 false; SGet 1 g_origin].

Lemma setattr_guard_address k a :
  c_server k = true -> connected k = true -> c_address k <> a -> server_setattr k (FAddress a) = None.
Proof.
  intros H1 H2 H3. cbn. rewrite H1, H2. cbn.
  destruct (option_eqb addr_eqb (c_address k) a) eqn:E; [|reflexivity].
  apply (option_eqb_eq addr_eqb addr_eqb_eq) in E. contradiction.
Qed.

Lemma setattr_guard_via k v :
  c_server k = true -> connected k = true -> c_via k <> v -> server_setattr k (FVia v) = None.
Proof.
  intros H1 H2 H3. cbn. rewrite H1, H2. cbn.
  destruct (via_eqb (c_via k) v) eqn:E; [|reflexivity].
  apply via_eqb_eq in E. contradiction.
Qed.

Lemma setattr_open_keeps k f k' :
  c_server k = true -> connected k = true -> server_setattr k f = Some k' ->
  c_address k' = c_address k /\ c_via k' = c_via k /\ c_server k' = true.
Proof.
  intros H1 H2. destruct f as [a | v | | | | |]; cbn; rewrite ?H1, ?H2; cbn;
    (* the fields other than address and via are assigned unconditionally and leave both alone *)
    try (intros H; inversion H; subst; cbn; now auto).
  - destruct (option_eqb addr_eqb (c_address k) a) eqn:E; cbn; [|discriminate].
    apply (option_eqb_eq addr_eqb addr_eqb_eq) in E. intros H; inversion H; subst; cbn. auto.
  - destruct (via_eqb (c_via k) v) eqn:E; cbn; [|discriminate].
    apply via_eqb_eq in E. intros H; inversion H; subst; cbn. auto.
Qed.

Lemma step_open_stable cf s e s' outs c :
  inv Ptrue Rtrue cf s -> step_fn cf s e = (s', outs) ->
  c < l_next s -> c_server (hget (l_heap s) c) = true -> connected (hget (l_heap s) c) = true ->
  c < l_next s'
  /\ c_address (hget (l_heap s') c) = c_address (hget (l_heap s) c)
  /\ c_via (hget (l_heap s') c) = c_via (hget (l_heap s) c)
  /\ c_server (hget (l_heap s') c) = true.
Proof.
  intros HI H Hc HS HO. destruct e as [rid g | l err | c0 f]; cbn [step_fn] in H.
  - destruct (proj1 (struct_ok nest_fuel cf) s (rid, g) true s' outs HI I H) as [(_ & _ & J3 & J4) _].
    rewrite J4 by exact Hc. repeat split; auto. lia.
  - destruct (proj2 (struct_ok nest_fuel cf) s l err s' outs HI (fun _ => I) H) as [(_ & _ & J3 & J4) _].
    rewrite J4 by exact Hc. repeat split; auto. lia.
  - destruct (server_setattr (hget (l_heap s) c0) f) as [k'|] eqn:ES; inversion H; subst; clear H; cbn.
    + destruct (N.eq_dec c c0) as [-> | D].
      * rewrite hget_hset_same. destruct (setattr_open_keeps _ _ _ HS HO ES) as (A1 & A2 & A3). auto.
      * rewrite hget_hset_other by exact D. auto.
    + auto.
Qed.

(* the object stays open in every state of the history *)
Fixpoint open_throughout (cf : cfg) (s : lstate) (c : N) (hist : list step) : Prop :=
  connected (hget (l_heap s) c) = true
  /\ match hist with
     | [] => True
     | e :: r => open_throughout cf (fst (step_fn cf s e)) c r
     end.

Lemma run_open_stable : forall hist cf s c,
  inv Ptrue Rtrue cf s -> c < l_next s -> c_server (hget (l_heap s) c) = true ->
  open_throughout cf s c hist ->
  c_address (hget (l_heap (fst (run cf s hist))) c) = c_address (hget (l_heap s) c)
  /\ c_via (hget (l_heap (fst (run cf s hist))) c) = c_via (hget (l_heap s) c).
Proof.
  induction hist as [|e r IH]; intros cf s c HI Hc HS HO.
  - cbn. auto.
  - cbn [open_throughout] in HO. destruct HO as [HO1 HO2].
    rewrite run_cons_fst. destruct (step_fn cf s e) as [s1 o] eqn:ES. cbn [fst] in *.
    destruct (step_open_stable cf s e s1 o c HI ES Hc HS HO1) as (A1 & A2 & A3 & A4).
    destruct (step_struct cf s e s1 o HI ES) as [J1 _].
    destruct (IH cf s1 c J1 A1 A4 HO2) as [B1 B2]. rewrite B1, B2. auto.
Qed.

