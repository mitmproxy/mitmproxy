(* Proofs/ConnHandlerBase.v -- list/update lemmas and the frame relation: what server_event, cancel,
   cancel_all, drain_error and the external completions may change (wake-up and state flags of a
   connection, a pending semaphore or drain-lock waiter becoming a cancelled one, new connections
   appended, non-hook events) and what they never change (program counters otherwise, transports
   entries, writers, semaphores, handle_client's fields); hook tasks, the layer script and the
   drain lock are not constrained.  reach_ind is the induction principle over reachable states
   that the invariants are proved with. *)
From Coq Require Import List Bool Arith Lia.
From MV Require Import Model.ConnHandler.
Import ListNotations.

Lemma upd_length : forall A (l : list A) n x, length (upd l n x) = length l.
Proof. induction l; destruct n; simpl; intros; auto. Qed.

Lemma nth_upd_same : forall A (l : list A) n x d, n < length l -> nth n (upd l n x) d = x.
Proof. induction l; destruct n; simpl; intros; try lia; auto. apply IHl; lia. Qed.

Lemma nth_upd_other : forall A (l : list A) n m x d, n <> m -> nth m (upd l n x) d = nth m l d.
Proof. induction l; destruct n, m; simpl; intros; try congruence; auto. Qed.

Lemma upd_oob : forall A (l : list A) n x, length l <= n -> upd l n x = l.
Proof. induction l; destruct n; simpl; intros; auto; try lia. f_equal. apply IHl. lia. Qed.

Lemma getc_setc_same : forall s c x, c < length (conns s) -> getc (setc s c x) c = x.
Proof. intros. unfold getc, setc. simpl. apply nth_upd_same; auto. Qed.

Lemma getc_setc_other : forall s c c' x, c <> c' -> getc (setc s c x) c' = getc s c'.
Proof. intros. unfold getc, setc. simpl. apply nth_upd_other; auto. Qed.

Lemma len_setc : forall s c x, length (conns (setc s c x)) = length (conns s).
Proof. intros. unfold setc. simpl. apply upd_length. Qed.

Lemma getc_oob : forall s c, length (conns s) <= c -> getc s c = dconn.
Proof. intros. unfold getc. apply nth_overflow. auto. Qed.

Definition psoft (x y : conn) : Prop :=
  c_addr y = c_addr x /\
  (c_pc y = c_pc x \/ (c_pc x = PSem WPending /\ c_pc y = PSem WCancelled) \/
   (c_pc x = PDrainLock WPending /\ c_pc y = PDrainLock WCancelled)) /\
  c_task y = c_task x /\ c_entry y = c_entry x /\ c_writer y = c_writer x.

Lemma psoft_refl : forall x, psoft x x.
Proof. unfold psoft; intuition. Qed.

Lemma psoft_trans : forall x y z, psoft x y -> psoft y z -> psoft x z.
Proof.
  unfold psoft; intros x y z (A1 & P1 & T1 & E1 & W1) (A2 & P2 & T2 & E2 & W2).
  repeat split; try congruence.
  destruct P1 as [P1 | [[P1 P1'] | [P1 P1']]], P2 as [P2 | [[P2 P2'] | [P2 P2']]];
    try (left; congruence); try (right; left; split; congruence); try (right; right; split; congruence).
Qed.

Definition isnew (y : conn) : Prop := exists a, psoft (new_conn a) y.

Inductive lrel : list conn -> list conn -> Prop :=
| lrel_nil : forall news, Forall isnew news -> lrel [] news
| lrel_cons : forall x y l l', psoft x y -> lrel l l' -> lrel (x :: l) (y :: l').

Lemma lrel_refl : forall l, lrel l l.
Proof. induction l; constructor; auto using psoft_refl. Qed.

Lemma isnew_soft : forall y z, isnew y -> psoft y z -> isnew z.
Proof. intros y z [a H] H2. exists a. eapply psoft_trans; eauto. Qed.

Lemma lrel_trans : forall a b, lrel a b -> forall c, lrel b c -> lrel a c.
Proof.
  induction 1; intros c Hc.
  - constructor. revert c Hc. induction H; intros c Hc; inversion Hc; subst.
    + auto.
    + constructor. eapply isnew_soft; eauto. apply IHForall; auto.
  - inversion Hc; subst. constructor. eapply psoft_trans; eauto. apply IHlrel; auto.
Qed.

Lemma lrel_length : forall a b, lrel a b -> length a <= length b.
Proof. induction 1; simpl; lia. Qed.

Lemma lrel_nth : forall a b, lrel a b -> forall c, c < length a -> psoft (nth c a dconn) (nth c b dconn).
Proof. induction 1; simpl; intros; try lia. destruct c; auto. apply IHlrel. lia. Qed.

Lemma lrel_nth_new : forall a b, lrel a b -> forall c, length a <= c -> c < length b -> isnew (nth c b dconn).
Proof.
  induction 1; simpl; intros.
  - clear H0. revert c H1. induction H; simpl; intros; try lia. destruct c; auto. apply IHForall. lia.
  - destruct c; try lia. apply IHlrel; lia.
Qed.

Lemma lrel_upd : forall l c x, psoft (nth c l dconn) x -> lrel l (upd l c x).
Proof.
  induction l; simpl; intros.
  - constructor. constructor.
  - destruct c; constructor; auto using psoft_refl, lrel_refl.
Qed.

Lemma lrel_app_new : forall l a, lrel l (l ++ [new_conn a]).
Proof.
  induction l; simpl; intros.
  - constructor. constructor; auto. exists a. apply psoft_refl.
  - constructor; auto using psoft_refl.
Qed.

Definition nohook (e : ev) : bool := match e with EHook _ _ => false | _ => true end.

Record frame (s s' : st) : Prop := mkFrame {
  f_conns : lrel (conns s) (conns s');
  f_main : mainpc s' = mainpc s;
  f_mwk : mwk s' = mwk s;
  f_cerr : client_err s' = client_err s;
  f_semval : semval s' = semval s;
  f_semq : semq s' = semq s;
  f_td : teardown_n s' = teardown_n s;
  f_trace : exists evs, trace s' = evs ++ trace s /\ forallb nohook evs = true }.

Lemma frame_refl : forall s, frame s s.
Proof. intros. constructor; auto using lrel_refl. exists []. auto. Qed.

Lemma frame_trans : forall a b c, frame a b -> frame b c -> frame a c.
Proof.
  intros a b c [] []. constructor; try congruence.
  - eapply lrel_trans; eauto.
  - destruct f_trace0 as (e1 & T1 & N1), f_trace1 as (e2 & T2 & N2).
    exists (e2 ++ e1). rewrite T2, T1, app_assoc. split; auto. rewrite forallb_app, N1, N2. auto.
Qed.

Lemma frame_emit : forall s e, nohook e = true -> frame s (emit s e).
Proof. intros. constructor; simpl; auto using lrel_refl. exists [e]. simpl. rewrite H. auto. Qed.

Lemma frame_setc : forall s c x, psoft (getc s c) x -> frame s (setc s c x).
Proof. intros. constructor; simpl; auto. apply lrel_upd; auto. exists []. auto. Qed.

Lemma psoft_cancel : forall x, psoft x (cancel_conn x).
Proof.
  intros. unfold cancel_conn. destruct (is_done (c_pc x)); [apply psoft_refl|].
  unfold psoft; simpl. repeat split; auto. destruct (c_pc x); auto; destruct w; auto.
Qed.

Lemma frame_cancel : forall s c, frame s (cancel s c).
Proof. intros. apply frame_setc. apply psoft_cancel. Qed.

(* only address, program counter, task, transports entry and writer matter *)
Lemma psoft_flags : forall x k f b r w e g,
  psoft x (mkConn (c_addr x) (c_pc x) k f (c_task x) (c_entry x) (c_writer x) b r w e g).
Proof. intros. unfold psoft; simpl; intuition. Qed.

Lemma frame_close_connection : forall s c h, frame s (fst (close_connection s c h)).
Proof.
  intros. unfold close_connection.
  assert (A : forall s1, frame s s1 ->
     frame s (fst (let y := getc s1 c in if negb (c_rd y) && negb (c_wr y)
                   then if c_task y then (cancel s1 c, true) else (s1, false) else (s1, true)))).
  { intros s1 F. simpl. destruct (negb _ && negb _); simpl; auto. destruct (c_task _); simpl; auto.
    eapply frame_trans; eauto using frame_cancel. }
  destruct h.
  - destruct (negb (c_wr (getc s c))); simpl; [apply frame_refl|].
    destruct (c_writer (getc s c)); simpl; [apply frame_refl| |].
    + destruct (c_broken (getc s c)); apply A.
      * apply frame_setc, psoft_flags.
      * eapply frame_trans. apply frame_emit with (e := EEof c); auto. apply frame_setc, psoft_flags.
    + apply A. apply frame_setc, psoft_flags.
  - apply A. apply frame_setc, psoft_flags.
Qed.

Lemma frame_do_cmd : forall s k, frame s (fst (do_cmd s k)).
Proof.
  (* the commands that name a connection do nothing unless it exists and has a transports entry *)
  intros. destruct k; unfold do_cmd;
    try (destruct (negb (c <? length (conns s))); cbn [fst]; [apply frame_refl|];
         destruct (negb (c_entry (getc s c))); cbn [fst]; [apply frame_refl|]).
  - cbn [fst]. constructor; simpl; auto. apply lrel_app_new. exists []; auto.
  - apply frame_close_connection.
  - apply frame_close_connection.
  - destruct (c_writer (getc s c)); cbn [fst]; try apply frame_refl. apply frame_emit; auto.
  - cbn [fst]. constructor; simpl; auto using lrel_refl. exists []; auto.
  - cbn [fst]. apply frame_refl.
Qed.

Lemma frame_do_cmds : forall ks s, frame s (do_cmds s ks).
Proof.
  induction ks; simpl; intros; [apply frame_refl|].
  pose proof (frame_do_cmd s a) as F. destruct (do_cmd s a) as [s' b]; simpl in F. destruct b.
  - eapply frame_trans; eauto.
  - eapply frame_trans; eauto. apply frame_emit; auto.
Qed.

Lemma frame_server_event : forall s e, frame s (server_event s e).
Proof.
  intros. unfold server_event.
  assert (F1 : frame s (emit s (ELayer e))) by (apply frame_emit; auto).
  destruct (script (emit s (ELayer e))) eqn:E; auto.
  eapply frame_trans; [|apply frame_do_cmds].
  eapply frame_trans; [exact F1|]. constructor; simpl; auto using lrel_refl. exists []; auto.
Qed.

Lemma frame_set_lock : forall s b q, frame s (set_lock s b q).
Proof. intros. constructor; simpl; auto using lrel_refl. exists []; auto. Qed.

Lemma frame_drain_error : forall s d, frame s (drain_error s d).
Proof. intros. unfold drain_error. destruct (c_task (getc s d)); auto using frame_refl, frame_cancel. Qed.

Lemma frame_cancel_all : forall n s i, frame s (cancel_all s n i).
Proof.
  induction n; simpl; intros; [apply frame_refl|].
  eapply frame_trans; [|apply IHn].
  destruct (_ && _); auto using frame_refl, frame_cancel.
Qed.

Lemma frame_len : forall s s', frame s s' -> length (conns s) <= length (conns s').
Proof. intros s s' []. apply lrel_length; auto. Qed.

Lemma frame_getc : forall s s' c, frame s s' -> c < length (conns s) -> psoft (getc s c) (getc s' c).
Proof. intros s s' c [] L. unfold getc. apply lrel_nth; auto. Qed.

Lemma frame_getc_new : forall s s' c, frame s s' -> length (conns s) <= c -> c < length (conns s') -> isnew (getc s' c).
Proof. intros s s' c [] L1 L2. unfold getc. eapply lrel_nth_new; eauto. Qed.

Lemma conn_ready_lt : forall s c, conn_ready s c = true -> c < length (conns s).
Proof. unfold conn_ready. intros s c R. repeat (apply andb_true_iff in R as [R _]). apply Nat.ltb_lt, R. Qed.

(* An enabled schedule item either lets one task run, or is an external completion: that only sets
   wake-up / broken / congested flags of one connection or completes a hook task's hook (frame
   steps), or hands handle_client the result of its hook.  The run_main case also gets
   main_ready: the teardown invariant needs to know that handle_client's wait is over. *)
Theorem reach_ind : forall P : st -> Prop,
  (forall sc, P (init sc)) ->
  (forall s s', frame s s' -> P s -> P s') ->
  (forall s w, P s -> P (set_main s (mainpc s) w)) ->
  (forall s, main_ready s = true -> P s -> P (run_main s)) ->
  (forall s c, c < length (conns s) -> P s -> P (run_conn s c)) ->
  (forall s k, P s -> P (run_hook s k)) ->
  forall sc l, P (run (init sc) l).
Proof.
  intros P Hinit Hframe Hwake Hmain Hconn Hhook sc l. generalize (init sc), (Hinit sc).
  induction l as [|i l IH]; simpl; intros s Ps; auto. apply IH. unfold step'.
  destruct (step s i) as [s'|] eqn:E; auto.
  assert (Hsetc : forall c k f b g, P (setc s c (let x := getc s c in
            mkConn (c_addr x) (c_pc x) k f (c_task x) (c_entry x) (c_writer x) b (c_rd x) (c_wr x) (c_err x) g)))
    by (intros; eapply Hframe; eauto using frame_setc, psoft_flags).
  destruct i as [[|c|k] kill|c r|c ok| |c|c|c ok|[|c|k] b]; simpl in E.
  - destruct (mainpc s) eqn:M; try discriminate; destruct (mwk s); inversion E; rewrite <- M; auto.
  - destruct (_ && _ && _); inversion E. apply Hsetc.
  - destruct (geth s k) as [|[|]|]; try discriminate. destruct (k <? length (hooks s)); inversion E.
    eapply Hframe; eauto. constructor; simpl; auto using lrel_refl. exists []; auto.
  - destruct (c_pc (getc s c)); try discriminate. destruct (_ && _); inversion E. apply Hsetc.
  - destruct (c_pc (getc s c)); try discriminate. destruct (_ && _); inversion E. apply Hsetc.
  - inversion E. destruct (_ && _); auto. eapply Hframe; eauto using frame_cancel.
  - destruct (_ && _); inversion E. apply Hsetc.
  - destruct (_ && _); inversion E. apply Hsetc.
  - destruct (c_pc (getc s c)); try discriminate. destruct (_ && _); inversion E. apply Hsetc.
  - destruct (main_ready s) eqn:R, b; inversion E. auto.
  - destruct (conn_ready s c) eqn:R, (Bool.eqb _ _); inversion E. auto using conn_ready_lt.
  - destruct (_ && _); inversion E. auto.
Qed.
