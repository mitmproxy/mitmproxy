(* Proofs/DumperMain.v -- C49 for the executable model of every Dumper hook: for all flows
   (all texts, all header lists, all option values) every token written is a harmless
   character or, when styling is on, one of the dumper's own SGR sequences. *)
From Coq Require Import List Bool NArith Lia String.
From MV Require Import Base.Bytes Model.Strutils Model.Dumper Proofs.DumperBase.
Import ListNotations.
Local Open Scope N_scope.

Ltac ok_lit := apply OK_lit; vm_compute; reflexivity.

(* one syntax-directed step: the OK lemma of the outermost combinator of the text; a conditional or a match in
   the text is split.  [ok] leaves the goals that need a hypothesis or a lemma proved below. *)
Ltac ok_step :=
  match goal with
  | |- OK _ [] => apply OK_nil
  | |- OK _ (_ ++ _) => apply OK_app_intro
  | |- OK _ (style_ _ _ _) => apply OK_style
  | |- OK _ (echo _ _ _ _) => apply OK_echo
  | |- OK _ (esc _) => apply OK_esc
  | |- OK _ (b2e _) => apply OK_b2e
  | |- OK _ (P _) => ok_lit
  | |- OK _ (plain (dec _)) => apply OK_dec
  | |- OK _ (repeat (Ch 32) _) => apply OK_spaces
  | |- OK _ (if ?c then _ else _) => destruct c
  | |- OK _ (match ?x with _ => _ end) => destruct x
  end.
Ltac ok := repeat ok_step.

Lemma OK_fmt_client o c : OK (vt o) (fmt_client o c).
Proof. unfold fmt_client. ok. Qed.

Lemma OK_echo_headers o hs : OK (vt o) (echo_headers o hs).
Proof. unfold echo_headers. apply OK_flat_map. intros h _. ok. Qed.

Lemma OK_echo_trailers o tr : OK (vt o) (echo_trailers o tr).
Proof. unfold echo_trailers. destruct tr as [[|h hs]|]; ok; apply OK_echo_headers. Qed.

Lemma OK_echo_message o m : pm_ok m = true -> OK (vt o) (echo_message o m).
Proof.
  intro Hm. unfold echo_message. cbv zeta.
  ok_step; [|ok].
  destruct (if detail o =? 3 then cut_after_n_lines (prettify_message m) (cutoff o) else prettify_message m);
    [apply OK_nil|].
  ok_step; [ok|]. apply OK_echo. apply OK_flat_map. intros c Hc.
  apply OK_style. apply OK_plain. apply (chunks_ok m Hm c Hc).
Qed.

Lemma OK_request_line o r rs : OK (vt o) (echo_request_line o r rs).
Proof. unfold echo_request_line. cbv zeta. apply OK_echo. ok; apply OK_fmt_client. Qed.

Lemma OK_response_line o r x : resp_ok x = true -> OK (vt o) (echo_response_line o r x).
Proof.
  intro Hx. apply andb_true_iff in Hx as [_ Hsize].
  unfold echo_response_line. cbv zeta. apply OK_echo.
  ok.
  apply OK_plain. destruct (rs_size x); [exact Hsize | vm_compute; reflexivity].
Qed.

Lemma OK_matched o t : OK (vt o) t -> OK (vt o) (matched o t).
Proof. intro H. unfold matched. destruct (detail o =? 0); [apply OK_nil | exact H]. Qed.

Theorem http_ok o r rs err :
  pm_ok (rq_msg r) = true -> (forall x, rs = Some x -> resp_ok x = true) ->
  OK (vt o) (hook_http o r rs err).
Proof.
  intros Hq Hr. apply OK_matched. unfold echo_flow.
  ok_step; [|ok_step].
  - ok; try apply OK_request_line; try apply OK_echo_headers;
      try apply OK_echo_trailers. apply OK_echo_message, Hq.
  - destruct rs as [x|]; [|apply OK_nil]. specialize (Hr x eq_refl).
    ok; try apply OK_echo_headers; try apply OK_echo_trailers.
    + apply OK_response_line, Hr.
    + apply OK_echo_message. apply andb_true_iff in Hr as [Hr _]. exact Hr.
  - ok.
Qed.

Theorem websocket_message_ok o cl sv p fc it m :
  pm_ok m = true -> OK (vt o) (hook_websocket_message o cl sv p fc it m).
Proof. intro Hm. apply OK_matched. ok. apply OK_echo_message, Hm. Qed.

Theorem websocket_end_ok o code name bc reason sv :
  OK (vt o) (hook_websocket_end o code name bc reason sv).
Proof. apply OK_matched. ok. Qed.

Theorem proto_error_ok o tcp sv msg : OK (vt o) (hook_proto_error o tcp sv msg).
Proof. apply OK_matched. ok. Qed.

Theorem proto_message_ok o tcp fc cl sv q m :
  pm_ok m = true -> OK (vt o) (hook_proto_message o tcp fc cl sv q m).
Proof.
  intro Hm. unfold hook_proto_message. cbv zeta. apply OK_matched.
  ok. apply OK_echo_message, Hm.
Qed.

Lemma OK_dns_query o c op ty qn :
  ok_text op = true -> ok_text ty = true -> OK (vt o) (echo_dns_query o c op ty qn).
Proof.
  intros Hop Hty. unfold echo_dns_query. cbv zeta. apply OK_echo.
  ok; try apply OK_fmt_client.
  all: apply OK_plain; rewrite !ok_text_app, Hop, Hty; vm_compute; reflexivity.
Qed.

Theorem dns_response_ok o c op ty qn ans rc :
  ok_text op = true -> ok_text ty = true -> ok_text rc = true ->
  OK (vt o) (hook_dns_response o c op ty qn ans rc).
Proof.
  intros Hop Hty Hrc. apply OK_matched. ok_step; [apply OK_dns_query; assumption|].
  apply OK_echo. ok.
  - apply OK_plain, Hrc.
  - apply OK_join_tt; [ok_lit|]. intros x Hx. apply in_map_iff in Hx as [a [<- _]]. ok.
Qed.

Theorem dns_error_ok o c op ty qn msg :
  ok_text op = true -> ok_text ty = true -> OK (vt o) (hook_dns_error o c op ty qn msg).
Proof.
  intros Hop Hty. apply OK_matched. ok_step; [apply OK_dns_query; assumption | ok].
Qed.

(* reading of OK on the stream that is really written *)
Lemma okc_reading c : okc c = true -> is_cc c = false \/ is_spacing c = true.
Proof. unfold okc. intro H. apply orb_true_iff in H as [H|H]; [left; apply negb_true_iff, H | right; exact H]. Qed.

(* styling off: the stream itself contains no control character other than TAB, LF, CR *)
Lemma unstyled_stream t : OK false t -> forall c, In c (flatten t) -> is_cc c = false \/ is_spacing c = true.
Proof.
  intros H c Hc. unfold flatten in Hc. apply in_flat_map in Hc as [k [Hk Hin]].
  apply (proj1 (OK_In false t) H) in Hk. destruct k as [d|s]; [|discriminate].
  destruct Hin as [<-|[]]. apply okc_reading, Hk.
Qed.

(* styling on: every token is a harmless character or ESC [ digits m *)
Lemma styled_stream t : OK true t -> forall k, In k t ->
  match k with
  | Ch c => is_cc c = false \/ is_spacing c = true
  | Sgr s => exists d, s = [27; 91] ++ d ++ [109] /\ d <> [] /\ forallb is_digit_n d = true
  end.
Proof.
  intros H k Hk. apply (proj1 (OK_In true t) H) in Hk. destruct k as [c|s]; cbn [ok_tok andb] in Hk.
  - apply okc_reading, Hk.
  - unfold own_sgr in Hk. destruct s as [|a [|b r]]; try discriminate.
    apply andb_true_iff in Hk as [Hab Hk]. apply andb_true_iff in Hab as [Ha Hb].
    apply N.eqb_eq in Ha. apply N.eqb_eq in Hb. subst a b.
    destruct (rev r) as [|l d] eqn:Er; [discriminate|].
    apply andb_true_iff in Hk as [Hk Hd]. apply andb_true_iff in Hk as [Hl Hne].
    apply N.eqb_eq in Hl. subst l.
    exists (rev d). split; [|split].
    + cbn [app]. f_equal. f_equal. rewrite <- (rev_involutive r), Er. reflexivity.
    + destruct d; [discriminate|]. cbn [rev]. intro E. apply app_eq_nil in E as [_ E]. discriminate.
    + rewrite forallb_forall in *. intros x Hx. apply Hd. apply in_rev. exact Hx.
Qed.

(* non-vacuity: an HTTP flow whose every text field carries ESC, CSI (C1) and BEL *)
Definition evil : text := [27; 91; 50; 74; 155; 7; 10; 120].
Definition evil_b : bytes := [x1b; x5b; x32; x4a; x9b; x07].
Definition sample_msg : pmsg :=
  {| pm_raw := Some evil; pm_chunks := [(2, [46; 91; 50; 74]); (0, [46; 46; 10; 120])] |}.
Definition sample_req : req :=
  {| rq_client := CPeer evil; rq_pushed := true; rq_method := evil; rq_url := evil; rq_ver := evil;
     rq_headers := [(evil_b, evil_b)]; rq_msg := sample_msg; rq_trailers := Some [(evil_b, evil_b)] |}.
Definition sample_resp : resp :=
  {| rs_replay := true; rs_code := 418; rs_reason := evil; rs_reason_tbl := []; rs_size := Some [49; 98];
     rs_ver := evil; rs_headers := [(evil_b, evil_b)]; rs_msg := sample_msg; rs_trailers := None;
     rs_addr_len := 30 |}.
Definition sample_opts : opts := {| detail := 4; vt := true; cutoff := 2; term_limit := 50 |}.

Lemma sample_nonvacuous :
  pm_ok sample_msg = true /\ resp_ok sample_resp = true
  /\ existsb (N.eqb 27) evil = true
  /\ (200 <? N.of_nat (List.length (hook_http sample_opts sample_req (Some sample_resp) (Some evil))))%N = true
  /\ existsb (fun k => match k with Sgr _ => true | _ => false end)
       (hook_http sample_opts sample_req (Some sample_resp) (Some evil)) = true.
Proof. vm_compute. repeat split; reflexivity. Qed.

(* the unrepaired table, without the C1 range (Model.Strutils.escape_control_characters keeps that model):
   C1 controls pass it, and the two tables differ on nothing else *)
Definition is_c1 (c : N) : bool := (128 <=? c) && (c <=? 159).

Lemma prerepair_c1_passes : In 155 (Strutils.escape_control_characters [155] true) /\ is_cc 155 = true.
Proof. vm_compute. split; [left|]; reflexivity. Qed.

Lemma repair_only_c1 t ks : forallb (fun c => negb (is_c1 c)) t = true ->
  escape_control_characters t ks = Strutils.escape_control_characters t ks.
Proof.
  intro H. unfold escape_control_characters, Strutils.escape_control_characters. apply map_ext_in.
  intros c Hc. rewrite forallb_forall in H. specialize (H c Hc). apply negb_true_iff in H.
  unfold is_cc, is_c0_or_del. unfold is_c1 in H. rewrite H, orb_false_r. reflexivity.
Qed.
