(* Proofs/HttpStreamInv.v -- the lifecycle invariant.  ALL is the set of abstract stream states reachable in the
   abstract interpreter from a new stream (computed by breadth-first search inside Coq); it is closed under every
   abstract transition (checked by computation over all abstract inputs), and by soundness of the abstract
   interpreter every stream reachable in the model, for all inputs of unbounded size, has its abstraction in ALL. *)
From Coq Require Import List Bool NArith MSets.MSetPositive FSets.FMapPositive.
From MV Require Import Base.Bytes Model.HttpStream Proofs.HttpStreamAbs Proofs.HttpStreamSound.
Import ListNotations.
Local Open Scope N_scope.

(* codes, only used to deduplicate during the search and to index buckets *)
Definition b2n (b : bool) : N := if b then 1 else 0.
Definition sst_n (x : sst) : N :=
  match x with SUninit => 0 | SWaitReqH => 1 | SConsumeReq => 2 | SStreamReq => 3 | SWaitRespH => 4
             | SConsumeResp => 5 | SStreamResp => 6 | SDone => 7 | SErrored => 8 end.
Definition after_n (a : after) : N := match a with AfNone => 0 | AfStreamHdr => 1 | AfStreamLate => 2 | AfConsume => 3 end.
Definition pctag_n (p : pctag) : N :=
  match p with
  | PNone => 0 | PInvReq1 => 1 | PInvReq2 => 2 | PInvResp => 3 | PBsReq1 => 4 | PBsReq2 => 5 | PBsResp1 => 6 | PBsResp2 => 7
  | PReqHeaders es => 8 + b2n es | PConnStreamHdr => 10 | PConnStreamLate => 11 | PConnConsume => 12
  | PReqStream => 13 | PReq => 14 | PRespHSet => 15 | PRespH es => 16 + b2n es | PResponse a => 18 + b2n a
  | PKilled => 20 | PPErr i af => 21 + 4 * b2n i + after_n af | PConnect => 29
  end.
Fixpoint mix (l : list (N * N)) : N := match l with [] => 0 | (radix, d) :: r => d + radix * mix r end.
Definition m_n (m : mstate) : N :=
  mix [(2, b2n (m_qh m)); (2, b2n (m_q m)); (2, b2n (m_rh m)); (2, b2n (m_r m)); (2, b2n (m_er m)); (2, b2n (m_cn m));
       (2, b2n (m_ok m)); (2, b2n (m_er2 m)); (2, b2n (m_early m))].
Definition idx (a : ast) : N := mix [(32, pctag_n (x_pc a)); (16, sst_n (x_cs a)); (16, sst_n (x_ss a))].
Definition acode (a : ast) : N :=
  mix [(8192, idx a); (512, m_n (x_m a)); (2, b2n (x_up a)); (2, b2n (x_ab a)); (2, b2n (x_rqe a)); (2, b2n (x_rqf a));
       (2, b2n (x_rsf a)); (2, b2n (x_live a)); (2, b2n (x_rs a)); (2, b2n (x_rq a)); (2, b2n (x_qb a)); (2, b2n (x_pb a)); (2, b2n (x_tun a)); (2, b2n (x_cr a));
       (2, b2n (x_ve a)); (2, b2n (x_ws a))].

Definition m_eqb (a b : mstate) : bool :=
  Bool.eqb (m_qh a) (m_qh b) && Bool.eqb (m_q a) (m_q b) && Bool.eqb (m_rh a) (m_rh b) && Bool.eqb (m_r a) (m_r b)
  && Bool.eqb (m_er a) (m_er b) && Bool.eqb (m_cn a) (m_cn b) && Bool.eqb (m_ok a) (m_ok b)
  && Bool.eqb (m_er2 a) (m_er2 b) && Bool.eqb (m_early a) (m_early b).
Definition ast_eqb (a b : ast) : bool :=
  N.eqb (pctag_n (x_pc a)) (pctag_n (x_pc b)) && sst_eqb (x_cs a) (x_cs b) && sst_eqb (x_ss a) (x_ss b) && m_eqb (x_m a) (x_m b)
  && Bool.eqb (x_up a) (x_up b) && Bool.eqb (x_ab a) (x_ab b) && Bool.eqb (x_rqe a) (x_rqe b)
  && Bool.eqb (x_rqf a) (x_rqf b) && Bool.eqb (x_rsf a) (x_rsf b) && Bool.eqb (x_live a) (x_live b)
  && Bool.eqb (x_rs a) (x_rs b) && Bool.eqb (x_rq a) (x_rq b) && Bool.eqb (x_qb a) (x_qb b)
  && Bool.eqb (x_pb a) (x_pb b) && Bool.eqb (x_tun a) (x_tun b)
  && Bool.eqb (x_cr a) (x_cr b) && Bool.eqb (x_ve a) (x_ve b) && Bool.eqb (x_ws a) (x_ws b).

Lemma sst_eqb_eq a b : sst_eqb a b = true -> a = b.
Proof. destruct a, b; simpl; intros H; try discriminate; reflexivity. Qed.
Lemma pctag_n_inj a b : N.eqb (pctag_n a) (pctag_n b) = true -> a = b.
Proof.
  destruct a as [| | | | | | | |[]| | | | | | |[]|[]| |[] []|], b as [| | | | | | | |[]| | | | | | |[]|[]| |[] []|];
    vm_compute; intros H; try discriminate; reflexivity.
Qed.
(* the record is taken apart last, when the hypotheses are equations between its fields *)
Lemma m_eqb_eq a b : m_eqb a b = true -> a = b.
Proof.
  unfold m_eqb. intros H. repeat (apply andb_prop in H; destruct H as [H ?]).
  repeat match goal with E : Bool.eqb _ _ = true |- _ => apply eqb_prop in E end.
  destruct a, b; simpl in *; subst; reflexivity.
Qed.
Lemma ast_eqb_eq a b : ast_eqb a b = true -> a = b.
Proof.
  unfold ast_eqb. intros H. repeat (apply andb_prop in H; destruct H as [H ?]).
  repeat match goal with E : Bool.eqb _ _ = true |- _ => apply eqb_prop in E end.
  repeat match goal with E : sst_eqb _ _ = true |- _ => apply sst_eqb_eq in E end.
  match goal with E : m_eqb _ _ = true |- _ => apply m_eqb_eq in E end.
  apply pctag_n_inj in H. destruct a, b; simpl in *; subst; reflexivity.
Qed.

Definition all_aev : list aev :=
  flat_map (fun i => flat_map (fun c => flat_map (fun h => [AReqHeaders i c h true; AReqHeaders i c h false])
                                                [true; false]) [true; false]) [true; false]
  ++ [AReqData true; AReqData false; AReqEOM; AReqErr; ARespHeaders true true; ARespHeaders true false; ARespHeaders false true;
      ARespHeaders false false; ARespData true; ARespData false; ARespEOM; ARespErr].
Lemma all_aev_complete e : In e all_aev.
Proof. destruct e as [[] [] [] []|[]| | |[] []|[]| |]; vm_compute; tauto. Qed.

Definition a_stopped (a : ast) : bool := x_tun a || x_cr a.
Definition is_pnone (p : pctag) : bool := match p with PNone => true | _ => false end.
Definition succs (a : ast) : list ast :=
  a_apply_act a ++
  (if a_stopped a then []
   else if is_pnone (x_pc a) then a_crash a ++ flat_map (fun e => a_run_event e a) all_aev
   else flat_map (fun ok => a_resume (x_pc a) ok (sx_pc PNone a)) [true; false]).

(* Breadth-first search.  The fuel is arbitrary: that the result is complete is what `closed` establishes. *)
Definition pcode (a : ast) : positive := N.succ_pos (acode a).
Fixpoint insert_all (cands : list ast) (seen : PositiveSet.t) (front : list ast) : PositiveSet.t * list ast :=
  match cands with
  | [] => (seen, front)
  | a :: r => if PositiveSet.mem (pcode a) seen then insert_all r seen front
              else insert_all r (PositiveSet.add (pcode a) seen) (a :: front)
  end.
Fixpoint level (front : list ast) (seen : PositiveSet.t) (next : list ast) : PositiveSet.t * list ast :=
  match front with
  | [] => (seen, next)
  | a :: rest => let '(seen1, next1) := insert_all (succs a) seen next in level rest seen1 next1
  end.
Fixpoint bfs (fuel : nat) (front : list ast) (seen : PositiveSet.t) (acc : list ast) : list ast * nat :=
  match fuel with
  | O => (acc, length front)
  | S f => match front with
           | [] => (acc, 0%nat)
           | _ => let '(seen1, next) := level front seen [] in bfs f next seen1 (front ++ acc)
           end
  end.
Definition a_init : ast := abs (new_stream 1).
Definition ALL : list ast := Eval vm_compute in fst (bfs 200 [a_init] (PositiveSet.singleton (pcode a_init)) []).

(* keyed by the full code: a bucket holds the states with that code (one, unless codes collide) *)
Definition key (a : ast) : positive := pcode a.
Definition add_b (m : PositiveMap.t (list ast)) (a : ast) : PositiveMap.t (list ast) :=
  PositiveMap.add (key a) (a :: match PositiveMap.find (key a) m with Some l => l | None => [] end) m.
Time Definition BM : PositiveMap.t (list ast) := Eval vm_compute in fold_left add_b ALL (PositiveMap.empty _).
Definition okb (a : ast) : bool :=
  match PositiveMap.find (key a) BM with Some l => existsb (ast_eqb a) l | None => false end.
Time Definition ELEMS : list ast := Eval vm_compute in flat_map snd (PositiveMap.elements BM).

(* [elems] stands for ELEMS, so that the table is flattened once, when the equation is checked *)
Lemma find_In_elements (m : PositiveMap.t (list ast)) elems a :
  flat_map snd (PositiveMap.elements m) = elems ->
  match PositiveMap.find (key a) m with Some l => existsb (ast_eqb a) l | None => false end = true -> In a elems.
Proof.
  intros <-. destruct (PositiveMap.find (key a) m) as [l|] eqn:E; [|discriminate].
  intros H. apply existsb_exists in H. destruct H as [x [Hx Heq]]. apply ast_eqb_eq in Heq. subst x.
  apply in_flat_map. exists (key a, l). split; [apply PositiveMap.elements_correct, E | exact Hx].
Qed.
Lemma okb_In a : okb a = true -> In a ELEMS.
Proof (find_In_elements BM ELEMS a (eq_refl ELEMS <: flat_map snd (PositiveMap.elements BM) = ELEMS)).

Definition closed_b : bool := forallb (fun a => forallb okb (succs a)) ELEMS.
Lemma closed : closed_b = true.
Proof. vm_compute. reflexivity. Qed.

(* [b] stands for [closed_b]: the constant meets its body only in the type of [eq_refl] below, body on the left, where
   the kernel unfolds the constant on the right and compares two syntactically equal terms.  Converting
   [closed_b = true] with its unfolded form directly makes the kernel evaluate the sweep, on both sides. *)
Lemma forallb_succs (ok : ast -> bool) (next : ast -> list ast) l b :
  forallb (fun a => forallb ok (next a)) l = b -> b = true ->
  forall a a', In a l -> In a' (next a) -> ok a' = true.
Proof.
  intros <- C a a' Ha Hin. rewrite forallb_forall in C. specialize (C a Ha). rewrite forallb_forall in C. exact (C a' Hin).
Qed.

Lemma okb_succ a a' : okb a = true -> In a' (succs a) -> okb a' = true.
Proof.
  intros Ha.
  exact (forallb_succs okb succs ELEMS closed_b (@eq_refl bool (forallb (fun a => forallb okb (succs a)) ELEMS)) closed
                       a a' (okb_In a Ha)).
Qed.
Lemma okb_init : okb a_init = true.
Proof. vm_compute. reflexivity. Qed.

(* lifting to the model: Inv is preserved by every transition of a stream, for all inputs *)
Definition Inv (s : stream) : Prop := okb (abs s) = true.

Lemma Inv_new id : Inv (new_stream id).
Proof. exact okb_init. Qed.

Lemma abs_upd_queue q s : abs (upd_queue q s) = abs s.
Proof. destruct s; reflexivity. Qed.
Lemma pnone_iff s : is_pnone (x_pc (abs s)) = negb (is_some (pc s)).
Proof. destruct s as [? ? ? p]; destruct p as [k|]; [destruct k|]; reflexivity. Qed.
Lemma stopped_abs s : a_stopped (abs s) = stopped s.
Proof. destruct s; reflexivity. Qed.

Lemma succs_event a e a' : is_pnone (x_pc a) = true -> a_stopped a = false -> In a' (a_run_event e a) -> In a' (succs a).
Proof.
  intros H1 H2 H. unfold succs. rewrite H1, H2. apply in_or_app. right. apply in_or_app. right.
  apply in_flat_map. exists e. split; [apply all_aev_complete | exact H].
Qed.
Lemma succs_crash a a' : is_pnone (x_pc a) = true -> a_stopped a = false -> In a' (a_crash a) -> In a' (succs a).
Proof. intros H1 H2 H. unfold succs. rewrite H1, H2. apply in_or_app. right. apply in_or_app. left. exact H. Qed.
Lemma succs_resume a ok a' : is_pnone (x_pc a) = false -> a_stopped a = false ->
  In a' (a_resume (x_pc a) ok (sx_pc PNone a)) -> In a' (succs a).
Proof.
  intros H1 H2 H. unfold succs. rewrite H1, H2. apply in_or_app. right.
  apply in_flat_map. exists ok. split; [destruct ok; simpl; auto | exact H].
Qed.
Lemma succs_act a a' : In a' (a_apply_act a) -> In a' (succs a).
Proof. intros H. unfold succs. apply in_or_app. left. exact H. Qed.

(* every transition of a stream lands, in the abstraction, on a successor *)
Lemma Inv_succ s s' : Inv s -> In (abs s') (succs (abs s)) -> Inv s'.
Proof. apply okb_succ. Qed.

Lemma Inv_event o s e : Inv s -> pc s = None -> stopped s = false -> Inv (fst (run_event o s e)).
Proof.
  intros H Hpc Hst. apply (Inv_succ s _ H), (succs_event _ (aev_of o e)); [rewrite pnone_iff, Hpc; reflexivity | rewrite stopped_abs; exact Hst | apply run_event_s].
Qed.

Lemma Inv_crash s : Inv s -> pc s = None -> stopped s = false -> Inv (fst (crash s)).
Proof.
  intros H Hpc Hst. apply (Inv_succ s _ H), succs_crash; [rewrite pnone_iff, Hpc; reflexivity | rewrite stopped_abs; exact Hst | apply crash_s].
Qed.

Lemma Inv_resume o k inp s : Inv s -> pc s = Some k -> stopped s = false -> Inv (fst (resume o k inp (upd_pc None s))).
Proof.
  intros H Hpc Hst. apply (Inv_succ s _ H), (succs_resume _ (ok_of inp)); [rewrite pnone_iff, Hpc; reflexivity | rewrite stopped_abs; exact Hst |].
  replace (x_pc (abs s)) with (tag_of (Some k)) by (simpl; rewrite Hpc; reflexivity).
  exact (resume_s o k inp (upd_pc None s)).
Qed.

Lemma Inv_act h a s : Inv s -> Inv (apply_act h a s).
Proof. intros H. apply (Inv_succ s _ H), succs_act, apply_act_s. Qed.

Lemma Inv_queue q s : Inv s -> Inv (upd_queue q s).
Proof. unfold Inv. rewrite abs_upd_queue. auto. Qed.

Theorem Inv_handle o s inp : Inv s -> Inv (fst (stream_handle o s inp)).
Proof. exact (handle_preserves Inv o Inv_queue (Inv_event o) Inv_crash (Inv_resume o) s inp). Qed.

(* facts read off the table *)
Definition P_ok (a : ast) : bool := x_ve a || m_ok (x_m a).
Definition P_both (a : ast) : bool := x_ve a || (negb (m_r (x_m a) && m_er (x_m a)) && negb (m_er2 (x_m a))).
Definition P_early (a : ast) : bool := x_ve a || negb (m_early (x_m a)) || x_rs a.
Definition closed_ok (a : ast) : bool :=
  (x_rqf a || sst_eqb (x_cs a) SErrored || sst_eqb (x_ss a) SErrored)
  && (negb (x_up a) || x_rsf a || x_ab a || sst_eqb (x_ss a) SErrored).
Definition P_out (a : ast) : bool :=
  negb (is_pnone (x_pc a)) || x_tun a || x_cr a || x_ve a || x_ws a || negb (m_qh (x_m a)) || negb (closed_ok a)
  || (xorb (m_r (x_m a)) (m_er (x_m a)) && negb (x_live a)).
Lemma table_facts : forallb (fun a => P_ok a && P_both a && P_early a && P_out a) ELEMS = true.
Proof. vm_compute. reflexivity. Qed.
Lemma Inv_facts s : Inv s -> P_ok (abs s) = true /\ P_both (abs s) = true /\ P_early (abs s) = true /\ P_out (abs s) = true.
Proof.
  intros H. apply okb_In in H. pose proof table_facts as T. rewrite forallb_forall in T. specialize (T _ H).
  repeat (apply andb_prop in T; destruct T as [T ?]). auto.
Qed.
