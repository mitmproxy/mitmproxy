(* Proofs/ClientPlaybackWitness.v -- a replay that is not corrupted can finish (can_finish); concrete
   histories: the witnesses of the refuted statements (computed by vm_compute on the model the
   correspondence check runs) and a non-vacuity example. *)
From Coq Require Import List Bool Arith NArith.
From MV Require Import Base.Bytes Model.FlowBackup Proofs.FlowBackup Model.ClientPlayback
  Proofs.ClientPlaybackLog Proofs.ClientPlaybackStop Proofs.ClientPlaybackSent.
Import ListNotations.
Local Open Scope nat_scope.

Definition f_resp : cflow := http_flow 0%N (Some 100).
Definition f_noresp : cflow := http_flow 1%N None.

(* progress of a replay that has not been corrupted, phase by phase; loop_net is the part of a loop run
   before the next entry is taken, so the statements about it do not depend on the queue *)
Theorem can_finish : forall s a, act s = Some a -> a_pend a = None ->
  match a_phase a with
  | Connecting =>
      (exists r, log (loop_net (net s NFailed)) = log s ++ [LFin (a_seq a) (a_flow a) r true]
                 /\ act (loop_net (net s NFailed)) = None)
      /\ loop (net s NConnected) =
           mkSt (flows s) (queue s) (Some (mkAct (a_seq a) (a_flow a) Sent None)) (next_seq s)
                (log s ++ [LReq (a_seq a) (a_flow a)])
  | Sent =>
      (forall t, exists e, log (loop_net (net s (NResponse t))) = log s ++ [LFin (a_seq a) (a_flow a) (Some t) e]
                           /\ act (loop_net (net s (NResponse t))) = None)
      /\ (exists r, log (loop_net (net s NBroken)) = log s ++ [LFin (a_seq a) (a_flow a) r true]
                    /\ act (loop_net (net s NBroken)) = None)
  | Corrupt => True
  end.
Proof.
  intros s a A Q. unfold loop, net. rewrite A, Q. destruct (a_phase a); simpl.
  - split; [eexists; split; reflexivity|reflexivity].
  - split; [intros t|]; eexists; split; reflexivity.
  - exact I.
Qed.

(* stop_replay while the flow in flight (request sent) is queued a second time *)
Definition wedge_ops : list op := [Submit [0; 0; 1]; Loop; Net NConnected; Loop; Stop].

Lemma replay_can_finish_refuted :
  exists fs ops, let s := run (init fs) ops in
  (exists a, act s = Some a /\ a_flow a = 0) /\
  forall more, act (run s more) <> None /\ popped (log (run s more)) = popped (log s)
               /\ forall n i r e, In (LFin n i r e) (log (run s more)) -> In (LFin n i r e) (log s).
Proof.
  exists [f_noresp; f_resp], wedge_ops. intros s.
  assert (C : corrupt s) by (vm_compute; eexists; split; reflexivity).
  split; [vm_compute; eexists; split; reflexivity|].
  intros more. destruct (corrupt_forever more s C) as ((a & A & _) & P & F).
  split; [congruence|]. split; assumption.
Qed.

(* the request is dropped while the flow is queued: the except branch, neither response nor error *)
Lemma taken_entry_has_outcome_refuted :
  exists fs ops, let s := run (init fs) ops in
  In (LCrash 0 0) (log s) /\ act s = None /\ queue s = []
  /\ option_map (fun f => (o_resp (fo (cf f)), o_err (fo (cf f)))) (nth_error (flows s) 0) = Some (None, false).
Proof.
  exists [f_noresp], [Submit [0]; Edit 0 EDropRequest; Loop]. vm_compute. repeat split; auto 10.
Qed.

(* the same flow queued twice: the second entry is answered from the response of the first replay *)
Lemma every_entry_sends_refuted :
  exists fs ops, let s := run (init fs) ops in
  In (LStale 1 0) (log s) /\ In (LFin 1 0 (Some 101) false) (log s) /\ ~ In (LReq 1 0) (log s)
  /\ queue s = [] /\ act s = None.
Proof.
  exists [f_noresp], [Submit [0; 0]; Loop; Net NConnected; Loop; Net (NResponse 101); Loop].
  vm_compute. repeat split; auto 10. intuition discriminate.
Qed.

(* the user edits a flow (backup, new body 7), replays it, stops: the edit is gone *)
Lemma stop_restores_refuted :
  exists fs before_ops i,
  let before := run (init fs) before_ops in
  let after := run before [Submit [i]; Stop] in
  option_map (fun f => o_content (fo (cf f))) (nth_error (flows before) i) = Some (Some 7)
  /\ option_map (fun f => o_content (fo (cf f))) (nth_error (flows after) i) = Some (Some 0)
  /\ option_map (fun f => fbackup (cf f)) (nth_error (flows before) i) <> Some None
  /\ option_map (fun f => fbackup (cf f)) (nth_error (flows after) i) = Some None
  /\ queue after = [].
Proof.
  exists [f_resp], [Edit 0 EBackup; Edit 0 (ESetContent 7)], 0.
  vm_compute. repeat split; try reflexivity. discriminate.
Qed.

(* non-vacuity: two flows replayed in order, the second one edited while queued and then stopped *)
Definition demo_ops : list op :=
  [Submit [0; 1]; Loop; Net NConnected; Loop; Edit 1 (ESetContent 5); Net (NResponse 104)].

Lemma demo :
  let s := run (init [f_resp; f_noresp]) demo_ops in
  log s = [LSubmit 0 [0; 1]; LStart 0 0; LReq 0 0]
  /\ log (step s Loop) = [LSubmit 0 [0; 1]; LStart 0 0; LReq 0 0; LFin 0 0 (Some 104) false; LStart 1 1]
  /\ map snd (queue s) = [1] /\ act s = Some (mkAct 0 0 Sent (Some (NResponse 104)))
  /\ Forall (safe 1) demo_ops
  /\ option_map (fun f => f_state (cf f)) (nth_error (flows (step s Stop)) 1) = Some (f_state (cf f_noresp))
  /\ option_map (fun f => f_state (cf f)) (nth_error (flows s) 1) <> Some (f_state (cf f_noresp)).
Proof.
  split; [vm_compute; reflexivity|]. split; [vm_compute; reflexivity|]. split; [vm_compute; reflexivity|].
  split; [vm_compute; reflexivity|].
  split. { unfold demo_ops, safe. repeat constructor; discriminate. }
  split; [vm_compute; reflexivity|]. vm_compute. discriminate.
Qed.
